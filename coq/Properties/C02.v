(* C02 - sliver <-> graph / dictionary / JSON conversion preserves every settable field.
   Statements only; Theorems are closed by `exact` of a lemma of Proofs/Sliver2*.v, Examples also by computation.

   The model (Model/Sliver2Map.v, Sliver2Deep.v, Sliver2Graph.v) INTERPRETS the tables that
   translator/gen_propmap.py regenerates from fim/graph/abc_property_graph.py and the setters/getters of
   fim/slivers/*.py (Gen/PropMap.v) on every run:
     to_props / from_props   <kind>_sliver_to_graph_properties_dict / <kind>_sliver_from_graph_properties_dict
     to_dict / from_dict     sliver_to_dict / build_deep_*_sliver_from_dict
     sliver_to_json / sliver_from_json   JSONSliver (JSON values; the text level is not modelled)
     graph_roundtrip         add_*_sliver into an empty in-memory graph, then build_deep_*_sliver
     set_property / get_property         <Element>.set_property / get_property / unset_property
   k ranges over the five sliver classes; attrs is the sliver's __dict__ (data attributes); field values
   are tokens (Model/Sliver2Kinds.v fval).

   What is NOT true of the code and therefore not claimed (witness replayed on every run): at the
   SLIVER level image_ref and image_type are one graph property, written only when both are set, so a
   NodeSliver carrying only one of them loses it in every converter (C02_lone_image_half_lost_refuted);
   attrs_wf excludes exactly that combination.  At the ELEMENT level this is repaired (c7cf34d): a lone
   half is completed from the stored pair or refused loudly (C02_lone_image_half), C02_set_get is full strength.
   Documented, not a deviation: a value object with nothing set is encoded as empty text and read back as
   absent (C03's statement; C02_empty_value_reads_absent) - attrs_wf asks for non-empty objects. *)
From Coq Require Import List String NArith Bool.
From FIM Require Import Base.Str Model.Sliver2Kinds Gen.PropMap Model.Sliver2Map Model.Sliver2WF
  Model.Sliver2Deep Model.Sliver2DeepWF Model.Sliver2Graph Model.Sliver2GraphWF Proofs.Sliver2Multi
  Proofs.Sliver2DeepRT Proofs.Sliver2Tables Model.Sliver2Store Proofs.Sliver2History.
Import ListNotations.

(* the translator recognised every statement of the conversion functions (fail-closed flag) *)
Theorem C02_translated : gen_ok = true.
Proof. exact gen_ok_true. Qed.
Print Assumptions C02_translated.

(* TABLE SYMMETRY.  For every sliver class and every data attribute of the class: the attribute is
   written by exactly one statement, read back by exactly one keyword whose setter assigns that
   attribute, through the same graph property, with an encoder/decoder/setter triple that is inverse
   (inv_ok); no graph property collides with a child key or NodeID; an absent property reads as None
   (no from_json wraps it).  A finite check over the regenerated tables - the domain is the table. *)
Theorem C02_tables_symmetric :
  forallb (fun k => tables_symmetric k && dict_tables_ok k && absent_ok k && absent_none k)
          [KNode; KComponent; KService; KInterface; KLink] = true.
Proof. exact tables_ok_listed. Qed.
Print Assumptions C02_tables_symmetric.

(* add_interface_sliver descends into the interface's child interfaces (regenerated flag) *)
Theorem C02_interface_writer_descends : add_interface_descends = true.
Proof. exact add_interface_descends_true. Qed.
Print Assumptions C02_interface_writer_descends.

(* FLAT ROUND TRIP, all well-formed slivers of all five classes (lifted from the table check by a
   generic lemma): the sliver rebuilt from its graph properties has the same value for every attribute. *)
Theorem C02_props_roundtrip : forall k a,
  attrs_wf k a = true -> bind (to_props k a) (from_props k) = Ok a.
Proof. exact props_roundtrip. Qed.
Print Assumptions C02_props_roundtrip.

(* The round trip is false at the sliver level for ONE combination of settable properties: a NodeSliver that
   carries image_ref without image_type (or the reverse) comes back without it on every route - the two
   are one graph property, written only when both are set.  attrs_wf excludes exactly this (the
   pair set together or not at all).  Witness replayed on the implementation on every run. *)
Theorem C02_lone_image_half_lost_refuted :
  bind (to_props KNode w_lone_image) (from_props KNode) = Ok (aset "image_ref" None w_lone_image) /\
  aset "image_ref" None w_lone_image <> w_lone_image /\ attrs_wf KNode w_lone_image = false.
Proof. exact lone_image_half_lost. Qed.
Print Assumptions C02_lone_image_half_lost_refuted.

(* documented (C03): a value object with nothing set is encoded as '' and reads back as absent *)
Theorem C02_empty_value_reads_absent :
  bind (to_props KNode w_empty_caps) (from_props KNode) = Ok (aset "capacities" None w_empty_caps).
Proof. exact empty_value_reads_absent. Qed.
Print Assumptions C02_empty_value_reads_absent.

(* DEEP DICTIONARY ROUND TRIP, any nesting (induction on the sliver tree): same structure, same value
   of every attribute; node ids are not part of the dictionary form (forget_ids). *)
Theorem C02_dict_roundtrip : forall t,
  tree_wf t = true -> bind (to_dict t) (from_dict (t_kind t)) = Ok (forget_ids t).
Proof. exact dict_roundtrip. Qed.
Print Assumptions C02_dict_roundtrip.

(* JSON ROUND TRIP (JSONSliver), any nesting, over JSON values *)
Theorem C02_json_roundtrip : forall t,
  tree_wf t = true -> bind (sliver_to_json t) (sliver_from_json (t_kind t)) = Ok (forget_ids t).
Proof. exact json_roundtrip. Qed.
Print Assumptions C02_json_roundtrip.

Theorem C02_json_values_roundtrip : forall d, jv_to_dd (dd_to_jv d) = Some d.
Proof. exact json_value_roundtrip. Qed.
Print Assumptions C02_json_values_roundtrip.

(* GRAPH ROUND TRIP, any nesting: node > components > services > interfaces > sub-interfaces,
   node > services, stand-alone service / interface / link, any number of children at every level.
   Written into an empty graph of the in-memory backend model with add_*_sliver and rebuilt with
   build_deep_*_sliver, the tree comes back IDENTICAL: structure, every attribute, node ids.
   graph_wf: tree_wf, every sliver has its own node id, only DedicatedPort interfaces have child
   interfaces and those are leaves that are not DedicatedPorts (what the readers descend into),
   the root is not a component (components are only written under a node). *)
Theorem C02_graph_roundtrip : forall t, graph_wf t = true -> graph_roundtrip t = Ok t.
Proof. exact graph_roundtrip_thm. Qed.
Print Assumptions C02_graph_roundtrip.

(* THE SAME INTO ANY GRAPH (what add_*_sliver is used for in practice): the graph is well-formed
   (distinct node ids, edges between its nodes), the tree's node ids are fresh in it, and the tree is
   written stand-alone or under an existing node of a class that owns such slivers (parent_ok: a
   component under a node; a service under a node or component; an interface under a service, or - a leaf
   that is not a DedicatedPort - under an interface).  Then the writer succeeds, the tree is rebuilt
   identical, and the rest of the graph is untouched (frame): the graph stays well-formed, its node ids are
   the old ones followed by the tree's, every old node keeps its record, and every old node except the
   parent keeps its neighbours for every relation and class. *)
Theorem C02_graph_under : forall g parent t,
  good_graph g = true -> graph_wf_sub t = true -> fresh_in g t = true -> parent_ok g parent t = true ->
  exists g', add_under g parent t = Ok g' /\
    build_deep g' (t_kind t) (id_of t) = Ok t /\
    good_graph g' = true /\
    gids g' = gids g ++ map id_of (subtrees t) /\
    (forall x, In x (gids g) -> find_node g' x = find_node g x) /\
    (forall x rel L, In x (gids g) -> parent <> Some x ->
                     get_first_neighbor g' x rel L = get_first_neighbor g x rel L).
Proof. exact graph_under. Qed.
Print Assumptions C02_graph_under.

(* FRAME AFTER ANY HISTORY.  run_history: any sequence of slivers written (stand-alone or under a
   parent) and nodes removed (delete_node: the node and its incident edges), starting from the empty
   graph; refused operations leave the graph as it was.  Every graph so reached is well-formed
   (C02_history_good), hence a sliver with fresh ids written next comes back identical and every node that
   was in the graph keeps its properties and - except the parent, which gains the new root - its links. *)
Theorem C02_history_good : forall h g, good_graph g = true -> good_graph (run_history g h) = true.
Proof. exact history_good. Qed.
Print Assumptions C02_history_good.

Theorem C02_graph_history_frame : forall h parent t,
  let g := run_history empty_graph h in
  graph_wf_sub t = true -> fresh_in g t = true -> parent_ok g parent t = true ->
  exists g', add_under g parent t = Ok g' /\
    build_deep g' (t_kind t) (id_of t) = Ok t /\
    (forall x, In x (gids g) -> find_node g' x = find_node g x) /\
    (forall x rel L, In x (gids g) -> parent <> Some x ->
                     get_first_neighbor g' x rel L = get_first_neighbor g x rel L).
Proof. exact history_frame. Qed.
Print Assumptions C02_graph_history_frame.

(* EITHER STORE.  Under the graph view both in-memory stores keep NetworkX nodes under internal integer
   ids handed out by a counter (one global start_id, or one per graph) that removal never moves back
   (sgraph, s_add_node alloc_counter, s_delete_node).  With the store invariant (internal ids distinct
   and below the counter, NodeIDs distinct, edges between nodes) the id handed to a new node is never in
   use - also after removals - and add_node on the store is add_node on the graph view. *)
Theorem C02_store_counter_fresh : forall s, store_ok s = true -> ~ In (alloc_counter s) (s_ids s).
Proof. exact counter_fresh. Qed.
Print Assumptions C02_store_counter_fresh.

Theorem C02_store_removal_keeps_fresh : forall s id s',
  store_ok s = true -> s_delete_node s id = Ok s' ->
  (forall k, In k (s_ids s') -> (k < s_ctr s')%N) /\ ~ In (alloc_counter s') (s_ids s').
Proof. exact store_delete_keeps_fresh. Qed.
Print Assumptions C02_store_removal_keeps_fresh.

Theorem C02_store_add_node_refines : forall s id label p s',
  store_ok s = true -> s_add_node alloc_counter s id label p = Ok s' ->
  add_node (view s) id label p = Ok (view s').
Proof. exact store_add_node_refines. Qed.
Print Assumptions C02_store_add_node_refines.

(* an allocator that derives the id from the number of nodes (seeded change C02-9) is refuted: after
   A, B, C are added and A removed, it hands out C's internal id; the node written next takes C over *)
Theorem C02_size_allocator_refuted :
  store_ok s_after_removal = true /\
  In (alloc_size s_after_removal) (s_ids s_after_removal) /\
  exists s', s_add_node alloc_size s_after_removal (sn "D") "NetworkNode" [] = Ok s' /\
             find_node (view s') (sn "C") = None /\
             find_node (view s_after_removal) (sn "C") <> None /\
             add_node (view s_after_removal) (sn "D") "NetworkNode" [] <> Ok (view s').
Proof. exact size_allocator_refuted. Qed.
Print Assumptions C02_size_allocator_refuted.

(* GET AFTER SET, every element class, EVERY settable property (l' = the keyword after
   Node._complete_image_pair: the keyword itself, or - for a lone image_ref / image_type - the pair
   completed with the stored other half; a node without the other half refuses loudly,
   C02_lone_image_half): reading back returns what the setter stores. *)
Theorem C02_set_get : forall k p v d x l',
  settable k p = Some x ->
  completed_kvs node_completes_image_pair k [(p, Some v)] d = Ok l' ->
  kws_ok k l' = true -> values_ok k l' = true -> readable k d = true ->
  exists d', set_property k p (Some v) d = Ok d' /\ get_property k p d' = Ok (stored k p v).
Proof. exact set_get. Qed.
Print Assumptions C02_set_get.

(* the simple form for every keyword but the two halves of the pair *)
Theorem C02_set_get_plain : forall k p v d x,
  settable k p = Some x -> mem p ["image_ref"; "image_type"]%string = false ->
  value_ok k p v = true -> readable k d = true ->
  exists d', set_property k p (Some v) d = Ok d' /\ get_property k p d' = Ok (stored k p v).
Proof. exact set_get_plain. Qed.
Print Assumptions C02_set_get_plain.

Theorem C02_set_get_same : forall k p v d x,
  settable k p = Some x -> mem p ["image_ref"; "image_type"]%string = false -> stores_argument k p = true ->
  value_ok k p v = true -> readable k d = true ->
  exists d', set_property k p (Some v) d = Ok d' /\ get_property k p d' = Ok (Some v).
Proof. exact set_get_same. Qed.
Print Assumptions C02_set_get_same.

(* FRAME: setting p leaves every other settable property as it was (except the stitch_node flag,
   which every write resets: always_written) *)
Theorem C02_set_frame : forall k p v d x q y,
  settable k p = Some x -> mem p ["image_ref"; "image_type"]%string = false ->
  value_ok k p v = true -> readable k d = true ->
  settable k q = Some y -> y <> x -> aget y (blank k) = None -> always_written k y = false ->
  exists d', set_property k p (Some v) d = Ok d' /\ get_property k q d' = get_property k q d.
Proof. exact set_frame. Qed.
Print Assumptions C02_set_frame.

(* SET_PROPERTIES with any number of keywords (l' = the keyword list after Node._complete_image_pair,
   which completes a lone image half from the stored pair: C02_pair_completion): every keyword reads back as stored,
   every other property as before, and the node stays readable *)
Theorem C02_set_properties_get : forall k l l' d,
  completed_kvs node_completes_image_pair k l d = Ok l' ->
  kws_ok k l' = true -> values_ok k l' = true -> readable k d = true ->
  exists d', set_properties k l d = Ok d' /\ readable k d' = true /\
    (forall p v x, In (p, Some v) l' -> settable k p = Some x -> get_property k p d' = Ok (stored k p v)) /\
    (forall q y, settable k q = Some y -> ~ In y (kw_targets k l') -> aget y (blank k) = None ->
                 always_written k y = false -> get_property k q d' = get_property k q d).
Proof. exact set_properties_get. Qed.
Print Assumptions C02_set_properties_get.

Theorem C02_pair_completion : node_completes_image_pair = true.
Proof. exact node_completes_true. Qed.
Print Assumptions C02_pair_completion.

(* the order of the keywords is irrelevant: the same node properties result (for keyword lists that
   need no completion, i.e. that do not carry a lone image half: C02_pair_completion) *)
Theorem C02_set_properties_order : forall k l l2 d d1,
  completed_kvs node_completes_image_pair k l d = Ok l ->
  completed_kvs node_completes_image_pair k l2 d = Ok l2 ->
  kws_ok k l = true -> Permutation.Permutation l l2 ->
  set_properties k l d = Ok d1 -> set_properties k l2 d = Ok d1.
Proof. exact set_properties_order. Qed.
Print Assumptions C02_set_properties_order.

(* one set_properties call is, for every settable property q read afterwards, the same as setting the
   keywords one after the other with set_property (plain keywords: kw_plain excludes the stitch_node flag,
   for which the two differ - C02_stitch_node_fold_refuted) *)
Theorem C02_set_properties_is_fold : forall k (l : list (string * fval)) d,
  forallb (kw_plain k) l = true -> kws_ok k (opt_kvs l) = true -> values_ok k (opt_kvs l) = true ->
  readable k d = true ->
  exists df dm, set_each_actual k l d = Ok df /\ set_properties k (opt_kvs l) d = Ok dm /\
    forall q y, settable k q = Some y -> aget y (blank k) = None -> always_written k y = false ->
                get_property k q df = get_property k q dm.
Proof. exact set_properties_is_fold. Qed.
Print Assumptions C02_set_properties_is_fold.

Theorem C02_stitch_node_fold_refuted :
  exists df dm,
    set_each_actual KNode [("stitch_node", FBool true); ("site", FStr (S"UKY"))]%string w_node_props = Ok df /\
    set_properties KNode [("stitch_node", Some (FBool true)); ("site", Some (FStr (S"UKY")))]%string w_node_props = Ok dm /\
    get_property KNode "stitch_node" df = Ok (Some (FBool false)) /\
    get_property KNode "stitch_node" dm = Ok (Some (FBool true)).
Proof. exact stitch_fold_refuted. Qed.
Print Assumptions C02_stitch_node_fold_refuted.

(* a lone half on a node without an image is refused loudly (documented precondition); with an image
   it replaces its half and keeps the other *)
Theorem C02_lone_image_half :
  set_property KNode "image_ref" (Some (FStr (S"img"))) w_node_props = Err ExOther /\
  exists l' d', completed_kvs node_completes_image_pair KNode [("image_ref", Some (FStr (S"img2")))]%string w_node_img_props = Ok l' /\
    kws_ok KNode l' = true /\ values_ok KNode l' = true /\ readable KNode w_node_img_props = true /\
    set_property KNode "image_ref" (Some (FStr (S"img2"))) w_node_img_props = Ok d' /\
    get_property KNode "image_type" d' = Ok (Some (FStr (S"qcow2"))).
Proof. exact image_ref_alone. Qed.
Print Assumptions C02_lone_image_half.

(* GET AFTER UNSET, every element class, every property SLIVER_PROPERTY_TO_GRAPH maps to a graph
   property that may be removed: reads the absent value unset_reads, which is None (for a boolean flag
   with an unset mapping - stitch_node - its default False). *)
Theorem C02_unset_get_value : forall k p d x g,
  settable k p = Some x -> alookup p sliver_property_to_graph = Some g ->
  mem g no_unset_properties = false -> readable k d = true ->
  exists d', set_property k p None d = Ok d' /\ get_property k p d' = Ok (unset_reads k x).
Proof. exact unset_get. Qed.
Print Assumptions C02_unset_get_value.

Theorem C02_unset_get : forall k p d x g,
  settable k p = Some x -> alookup p sliver_property_to_graph = Some g ->
  mem g no_unset_properties = false -> readable k d = true -> String.eqb p "stitch_node" = false ->
  exists d', set_property k p None d = Ok d' /\ get_property k p d' = Ok None.
Proof. exact unset_get_absent. Qed.
Print Assumptions C02_unset_get.

(* which settable properties have no unset mapping (their unset is a silent no-op): none any more -
   a forgotten mapping (as `location` was before fix 85687de) changes this list *)
Theorem C02_unmapped_setters :
  map unmapped_setters [KNode; KComponent; KService; KInterface; KLink] =
  [[]; []; []; []; []].
Proof. exact unmapped_exact. Qed.
Print Assumptions C02_unmapped_setters.

Theorem C02_unset_unmapped_is_noop : forall k p d,
  alookup p sliver_property_to_graph = None -> set_property k p None d = Ok d.
Proof. exact unset_unmapped_noop. Qed.
Print Assumptions C02_unset_unmapped_is_noop.

(* documented precondition: Name and Type (NO_UNSET_PROPERTIES) cannot be unset, the backend refuses *)
Theorem C02_unset_refused : forall k p d g,
  alookup p sliver_property_to_graph = Some g -> mem g no_unset_properties = true ->
  set_property k p None d = Err ExQuery.
Proof. exact unset_refused. Qed.
Print Assumptions C02_unset_refused.

(* ---------- non-vacuity ---------- *)
(* a 5-level tree (node > component > service > DedicatedPort > sub-interface) satisfies graph_wf and
   tree_wf and round-trips through the graph and through the dictionary *)
Example C02_graph_nonvacuous :
  graph_wf w_tree = true /\ graph_roundtrip w_tree = Ok w_tree /\ List.length (subtrees w_tree) = 5%nat.
Proof. exact graph_example. Qed.

(* a component with a service and a port is added under the node of the graph that holds w_tree: the
   hypotheses of C02_graph_under hold, the new component is rebuilt, the node now has two components,
   the old one is rebuilt as before *)
Example C02_graph_under_nonvacuous :
  good_graph w_graph1 = true /\ graph_wf_sub w_comp2 = true /\ fresh_in w_graph1 w_comp2 = true /\
  parent_ok w_graph1 (Some (S"n1")) w_comp2 = true /\ List.length (g_nodes w_graph1) = 5%nat /\
  exists g2, add_under w_graph1 (Some (S"n1")) w_comp2 = Ok g2 /\
    build_deep g2 KComponent (S"c9") = Ok w_comp2 /\
    get_first_neighbor g2 (S"n1") rel_has (class_label KComponent) = Ok [S"c1"; S"c9"] /\
    build_deep g2 KComponent (S"c1") = Ok w_comp.
Proof. exact graph_under_example. Qed.

(* a history with a removal of a node that is not the newest, then a write under the node: the
   hypotheses of C02_graph_history_frame hold; and the counter allocator keeps node C in the scenario
   that refutes the size allocator *)
Example C02_history_nonvacuous :
  let g := run_history empty_graph w_history in
  List.length (g_nodes g) = 4%nat /\ graph_wf_sub w_comp2 = true /\ fresh_in g w_comp2 = true /\
  parent_ok g (Some (S"n1")) w_comp2 = true.
Proof. exact history_example. Qed.

Example C02_counter_allocator_keeps_nodes :
  store_ok s_after_removal_ctr = true /\
  exists s', s_add_node alloc_counter s_after_removal_ctr (sn "D") "NetworkNode" [] = Ok s' /\
             find_node (view s') (sn "C") = find_node (view s_after_removal_ctr) (sn "C") /\
             find_node (view s') (sn "C") <> None.
Proof. exact counter_allocator_example. Qed.

Example C02_deep_nonvacuous :
  tree_wf w_tree = true /\ bind (to_dict w_tree) (from_dict KNode) = Ok (forget_ids w_tree)
  /\ forget_ids w_tree <> T KNode None [] None None None.
Proof. exact deep_example. Qed.

(* a freshly built named service (gateway None) comes back equal *)
Example C02_fresh_service :
  attrs_wf KService w_service = true /\ bind (to_props KService w_service) (from_props KService) = Ok w_service.
Proof. exact fresh_service_roundtrip. Qed.

(* real values satisfy the hypotheses of the element theorems *)
Example C02_element_nonvacuous :
  settable KNode "site" = Some "site"%string /\
  value_ok KNode "site" (FStr (S"UKY")) = true /\ readable KNode w_node_props = true /\
  stores_argument KNode "site" = true /\
  value_ok KNode "management_ip" (FStr (S"10.0.0.1")) = true /\
  stored KNode "management_ip" (FStr (S"10.0.0.1")) = Some (FIp (S"10.0.0.1")) /\
  alookup "site"%string sliver_property_to_graph = Some "Site"%string /\
  mem "Site" no_unset_properties = false.
Proof. vm_compute. repeat split; reflexivity. Qed.

(* the pair set together is read back, also with a comma in the reference (fix 8fdfa94); unsetting the
   gateway of a service reads None (fix 450b7bb) - instances, by computation *)
Example C02_image_pair_set_together :
  exists d', set_properties KNode [("image_ref", Some (FStr (S"a,b"))); ("image_type", Some (FStr (S"qcow2")))]%string
                            w_node_props = Ok d' /\
             get_property KNode "image_ref" d' = Ok (Some (FStr (S"a,b"))) /\
             get_property KNode "image_type" d' = Ok (Some (FStr (S"qcow2"))).
Proof. exact image_comma_example. Qed.

(* the model of Node._complete_image_pair (fix c7cf34d; completion flag true): a lone half is completed
   with the stored other half, and refused loudly when there is none *)
Example C02_pair_completion_model :
  (exists d', set_property_with true KNode "image_ref" (Some (FStr (S"img2"))) w_node_img_props = Ok d' /\
              get_property KNode "image_ref" d' = Ok (Some (FStr (S"img2"))) /\
              get_property KNode "image_type" d' = Ok (Some (FStr (S"qcow2")))) /\
  set_property_with true KNode "image_ref" (Some (FStr (S"img2"))) w_node_props = Err ExOther.
Proof. exact completion_example. Qed.

(* real keyword lists satisfy the hypotheses of the set_properties theorems *)
Example C02_set_properties_nonvacuous :
  let l := [("site", Some (FStr (S"UKY"))); ("image_ref", Some (FStr (S"a,b"))); ("image_type", Some (FStr (S"qcow2")))]%string in
  completed_kvs node_completes_image_pair KNode l w_node_props = Ok l /\ kws_ok KNode l = true /\
  values_ok KNode l = true /\
  forallb (kw_plain KNode) [("site", FStr (S"UKY")); ("details", FStr (S"x"))]%string = true.
Proof. vm_compute. repeat split; reflexivity. Qed.

Example C02_unset_gateway :
  readable KService w_service_props = true /\
  exists d', set_property KService "gateway" None w_service_props = Ok d' /\
             get_property KService "gateway" d' = Ok None.
Proof. exact unset_gateway_example. Qed.
