(* C13 - partitioning an aggregate model yields sound per-delegation models.
   Only statements; each is closed by `exact` of a lemma from Proofs/Adm13*.v.

   generate_adms / st_generate_adms / rewrite_delegations are the transcriptions in Model/Adm13.v of
   ABCARMPropertyGraph.generate_adms (with catalog_delegations, the stitch nodes, the link trace and the two
   owner traces through get_first_and_second_neighbor AS CODED, the removal of the rest) and of
   ABCADMPropertyGraph.rewrite_delegations; the class/relation arguments of the trace calls, the
   (in)effectiveness of the second-hop relation filter and the delegation-type order are REGENERATED from the
   source into Gen/Adm13Gen.v on every run.

   Hypotheses: wfb A = true (NodeIDs unique, every edge joins two distinct existing nodes, one edge per pair,
   delegation ids unique within a delegation property) -- a boolean predicate evaluated on every generated case of
   the correspondence; generate_adms A = Ok L excludes only the explicit error branch (a model without nodes).
   Vocabulary (Model/Adm13.v): delegated d n, restricted d n n', joins e x y, is_stitch n, rekeyed gid n. *)
From Coq Require Import List NArith.
From FIM Require Import Gen.Adm13Gen Model.Adm13 Proofs.Adm13Props Proofs.Adm13Main.
Import ListNotations.
Open Scope N_scope.

(* the translator recognised the skeleton of generate_adms, and the trace calls are the expected ones *)
Theorem C13_translated : gen_ok = true.
Proof. exact gen_ok_true. Qed.
Print Assumptions C13_translated.

Theorem C13_trace_calls :
  cp_label = CLS_ConnectionPoint /\
  trace_link = (REL_connects, CLS_Link, REL_connects, CLS_ConnectionPoint) /\
  trace_owner = [(REL_connects, CLS_NetworkService, REL_has, CLS_NetworkNode);
                 (REL_connects, CLS_NetworkService, REL_has, CLS_Component)] /\
  deleg_label_first = true.
Proof. exact gen_shape. Qed.
Print Assumptions C13_trace_calls.

(* one model per delegation id, for every well-formed non-empty aggregate model (no raise, in particular
   none on label-only / capacity-only nodes) *)
Theorem C13_total_one_model_per_id : forall A, wfb A = true -> gnodes A <> [] ->
  exists L, generate_adms A = Ok L /\ NoDup (map fst L) /\
            forall d, In d (map fst L) <-> exists n, In n (gnodes A) /\ delegated d n.
Proof. exact total_one_model_per_id. Qed.
Print Assumptions C13_total_one_model_per_id.

(* every resource delegated to d is present and carries exactly its own entries for d (each type separately) *)
Theorem C13_present_exact : forall A L d P, wfb A = true -> generate_adms A = Ok L -> In (d, P) L ->
  forall n, In n (gnodes A) -> delegated d n -> exists n', In n' (gnodes P) /\ restricted d n n'.
Proof. exact present_exact. Qed.
Print Assumptions C13_present_exact.

(* no entry of another delegation anywhere in the partition *)
Theorem C13_no_leak : forall A L d P, wfb A = true -> generate_adms A = Ok L -> In (d, P) L ->
  forall n' d' x, In n' (gnodes P) ->
    In (d', x) (entries (ldel n')) \/ In (d', x) (entries (cdel n')) -> d' = d.
Proof. exact no_leak. Qed.
Print Assumptions C13_no_leak.

(* sub-model: every node comes from a node of A with the same id and other properties (and only its d-entries);
   ids stay unique; the edges are exactly the edges of A (same class, same properties) between two kept nodes *)
Theorem C13_submodel : forall A L d P, wfb A = true -> generate_adms A = Ok L -> In (d, P) L ->
  (forall n', In n' (gnodes P) -> exists n, In n (gnodes A) /\ restricted d n n') /\
  NoDup (node_ids P) /\
  (forall e, In e (gedges P) <-> In e (gedges A) /\ In (ea e) (node_ids P) /\ In (eb e) (node_ids P)).
Proof. exact submodel. Qed.
Print Assumptions C13_submodel.

(* closure.  FULL STATEMENT (false of the code, see C13_closure_every_kept_interface_refuted):
     every connection point c of P keeps every Link l it connects to and every peer p of c on l.
   PARTIAL: it holds when c itself is delegated to d or is a stitch node (extra hypothesis = exactly the
   complement of the refuted case: c is in P only as somebody's peer).  The hypothesis that l has a peer p is
   part of the full statement too (a link without a second connection point is not traced). *)
Theorem C13_closure_seed_partial : forall A L d P, wfb A = true -> generate_adms A = Ok L -> In (d, P) L ->
  forall c l p e1 e2,
    In c (gnodes A) -> ncls c = CLS_ConnectionPoint -> (delegated d c \/ is_stitch c = true) ->
    In l (gnodes A) -> ncls l = CLS_Link -> In e1 (gedges A) -> joins e1 (nid c) (nid l) -> ecls e1 = REL_connects ->
    In p (gnodes A) -> ncls p = CLS_ConnectionPoint -> In e2 (gedges A) -> joins e2 (nid l) (nid p) -> ecls e2 = REL_connects ->
    nid p <> nid c ->
    In (nid c) (node_ids P) /\ In (nid l) (node_ids P) /\ In (nid p) (node_ids P) /\ In e1 (gedges P) /\ In e2 (gedges P).
Proof. exact closure_seed. Qed.
Print Assumptions C13_closure_seed_partial.

Theorem C13_closure_every_kept_interface_refuted :
  exists A L d P c l p e1 e2,
    wfb A = true /\ generate_adms A = Ok L /\ In (d, P) L /\
    In c (gnodes A) /\ ncls c = CLS_ConnectionPoint /\ In (nid c) (node_ids P) /\
    In l (gnodes A) /\ ncls l = CLS_Link /\ In e1 (gedges A) /\ joins e1 (nid c) (nid l) /\ ecls e1 = REL_connects /\
    In p (gnodes A) /\ ncls p = CLS_ConnectionPoint /\ In e2 (gedges A) /\ joins e2 (nid l) (nid p) /\ ecls e2 = REL_connects /\
    nid p <> nid c /\
    ~ In (nid l) (node_ids P).
Proof. exact closure_every_kept_interface_refuted. Qed.
Print Assumptions C13_closure_every_kept_interface_refuted.

(* closure, second half, at full strength: EVERY connection point of P (seed or traced) keeps its owning
   network service and that service's owner (network node or component), with the connecting edges *)
Theorem C13_closure_service : forall A L d P, wfb A = true -> generate_adms A = Ok L -> In (d, P) L ->
  forall c s o e1 e2,
    In c (gnodes A) -> ncls c = CLS_ConnectionPoint -> In (nid c) (node_ids P) ->
    In s (gnodes A) -> ncls s = CLS_NetworkService -> In e1 (gedges A) -> joins e1 (nid c) (nid s) -> ecls e1 = REL_connects ->
    In o (gnodes A) -> (ncls o = CLS_NetworkNode \/ ncls o = CLS_Component) ->
    In e2 (gedges A) -> joins e2 (nid s) (nid o) -> ecls e2 = REL_has ->
    In (nid s) (node_ids P) /\ In (nid o) (node_ids P) /\ In e1 (gedges P) /\ In e2 (gedges P).
Proof. exact closure_service. Qed.
Print Assumptions C13_closure_service.

(* all stitching elements are present in every partition *)
Theorem C13_stitch_everywhere : forall A L d P, wfb A = true -> generate_adms A = Ok L -> In (d, P) L ->
  forall n, In n (gnodes A) -> is_stitch n = true -> In (nid n) (node_ids P).
Proof. exact stitch_everywhere. Qed.
Print Assumptions C13_stitch_everywhere.

(* the original model is left untouched: generate_adms executed on a store of graphs (clone under a new graph id,
   writes addressed to the clone, traces read from the source), with ANY caller-supplied delegation_guids: whenever
   the call returns, the source and every bystander graph are as they were and the graph stored under the id of
   d is exactly the partition for d computed by generate_adms.  uuid_fresh concerns only the ids uuid4 hands out
   for delegation ids without a supplied graph id (not the ARM's, distinct, not among the supplied ones); it is
   trivially true when the caller supplies every id. *)
Theorem C13_source_untouched : forall st garm A supplied fresh st' dgs,
  sget st garm = Some A -> wfb A = true ->
  uuid_fresh garm supplied fresh (c_ids (catalog_delegations A)) ->
  st_generate_adms st garm supplied fresh = (st', Ok dgs) ->
  exists L, generate_adms A = Ok L /\
    dgs = map (fun dp => (fst dp, gid_for supplied fresh (fst dp))) L /\
    sget st' garm = Some A /\
    (forall d P, In (d, P) L -> sget st' (gid_for supplied fresh d) = Some P) /\
    (forall k, ~ In k (map snd dgs) -> sget st' k = sget st k).
Proof. exact source_untouched. Qed.
Print Assumptions C13_source_untouched.

(* ... and a dictionary that names the ARM's own graph id, or one graph id for two delegation ids present, is
   rejected (since 59579dc) with the store exactly as it was *)
Theorem C13_bad_guids_rejected : forall st garm supplied fresh,
  guids_ok garm supplied (c_ids (catalog_delegations (sview st garm))) = false ->
  st_generate_adms st garm supplied fresh = (st, Err EQuery).
Proof. exact bad_guids_rejected. Qed.
Print Assumptions C13_bad_guids_rejected.

Theorem C13_guids_ok_reading : forall garm supplied ds,
  guids_ok garm supplied ds = true <->
  ~ In garm (supplied_for supplied ds) /\ NoDup (supplied_for supplied ds).
Proof. exact guids_ok_iff. Qed.
Print Assumptions C13_guids_ok_reading.

(* no memory of earlier calls: the outcome (raise or not, the id -> graph-id list) depends only on the graph stored
   under garm and on the ids, whatever else the store holds; the partitions stored are the same; and a second call
   on the store left by a first one partitions the same graph the same way.  (The implementation's per-object
   cache self.node_ids is refreshed on every call; the `hist` stream of the correspondence partitions, changes the
   aggregate through the topology API and partitions again with the same ARM object against this model.) *)
Theorem C13_outcome_depends_only_on_current_graph : forall st1 st2 garm supplied fresh,
  sview st1 garm = sview st2 garm ->
  snd (st_generate_adms st1 garm supplied fresh) = snd (st_generate_adms st2 garm supplied fresh).
Proof. exact outcome_only_current. Qed.
Print Assumptions C13_outcome_depends_only_on_current_graph.

Theorem C13_partitions_depend_only_on_current_graph : forall st1 st2 garm A supplied fresh st1' st2' dgs1 dgs2,
  sget st1 garm = Some A -> sget st2 garm = Some A -> wfb A = true ->
  uuid_fresh garm supplied fresh (c_ids (catalog_delegations A)) ->
  st_generate_adms st1 garm supplied fresh = (st1', Ok dgs1) ->
  st_generate_adms st2 garm supplied fresh = (st2', Ok dgs2) ->
  dgs1 = dgs2 /\ (forall d gid, In (d, gid) dgs1 -> sget st1' gid = sget st2' gid) /\
  sget st1' garm = Some A /\ sget st2' garm = Some A.
Proof. exact depends_only_on_current_graph. Qed.
Print Assumptions C13_partitions_depend_only_on_current_graph.

Theorem C13_repeatable : forall st garm A sup1 fresh1 sup2 fresh2 st' dgs1 st'' dgs2,
  sget st garm = Some A -> wfb A = true ->
  uuid_fresh garm sup1 fresh1 (c_ids (catalog_delegations A)) ->
  uuid_fresh garm sup2 fresh2 (c_ids (catalog_delegations A)) ->
  st_generate_adms st garm sup1 fresh1 = (st', Ok dgs1) ->
  st_generate_adms st' garm sup2 fresh2 = (st'', Ok dgs2) ->
  exists L, generate_adms A = Ok L /\ sget st'' garm = Some A /\
    (forall d P, In (d, P) L -> sget st' (gid_for sup1 fresh1 d) = Some P /\ sget st'' (gid_for sup2 fresh2 d) = Some P).
Proof. exact repeatable. Qed.
Print Assumptions C13_repeatable.

(* re-keying a partition's delegations to a graph id succeeds and changes only the key *)
Theorem C13_rekey_only_key : forall A L d P, wfb A = true -> generate_adms A = Ok L -> In (d, P) L ->
  forall gid, rewrite_delegations P gid = (mkGraph (map (rekeyed gid) (gnodes P)) (gedges P), None).
Proof. exact rekey_only_key. Qed.
Print Assumptions C13_rekey_only_key.

(* several aggregates in one store: a later partitioning (of the same or of another aggregate) whose graph ids are not
   in use by an earlier result leaves that earlier result exactly the partitions of ITS aggregate.  The hypothesis
   is about the ids the later call uses (uuid4 draws new ones on every call; a caller must not hand the same ids
   to two calls); that generate_adms keeps no ids from one call to the next is checked by the `pair` stream. *)
Theorem C13_earlier_result_unchanged :
  forall st garm1 A1 sup1 fresh1 st1 dgs1 garm2 A2 sup2 fresh2 st2 dgs2,
  sget st garm1 = Some A1 -> wfb A1 = true -> uuid_fresh garm1 sup1 fresh1 (c_ids (catalog_delegations A1)) ->
  st_generate_adms st garm1 sup1 fresh1 = (st1, Ok dgs1) ->
  sget st1 garm2 = Some A2 -> wfb A2 = true -> uuid_fresh garm2 sup2 fresh2 (c_ids (catalog_delegations A2)) ->
  st_generate_adms st1 garm2 sup2 fresh2 = (st2, Ok dgs2) ->
  (forall gid, In gid (map snd dgs1) -> ~ In gid (map snd dgs2)) ->
  exists L1, generate_adms A1 = Ok L1 /\
    forall d P, In (d, P) L1 -> sget st2 (gid_for sup1 fresh1 d) = Some P.
Proof. exact earlier_result_unchanged. Qed.
Print Assumptions C13_earlier_result_unchanged.

(* store-level frame of the re-keying: rewrite_delegations on the graph stored under gid changes nothing outside
   that graph (the source, the other partitions, other models), and what it does to that graph is
   rewrite_delegations; hence partition / re-key a partition / partition again finds the source as it was and
   yields the same models.  (That no state is shared through the parsed Delegations objects either is what the
   `hist` stream of the correspondence checks: re-keying, then parsing the source again through the API.) *)
Theorem C13_rekey_frame : forall st gid key k, k <> gid ->
  sget (fst (st_rewrite_delegations st gid key)) k = sget st k.
Proof. exact rekey_frame. Qed.
Print Assumptions C13_rekey_frame.

Theorem C13_rekey_in_store : forall st gid key g, sget st gid = Some g ->
  sget (fst (st_rewrite_delegations st gid key)) gid = Some (fst (rewrite_delegations g key)) /\
  snd (st_rewrite_delegations st gid key) = snd (rewrite_delegations g key).
Proof. exact rekey_at. Qed.
Print Assumptions C13_rekey_in_store.

Theorem C13_rekey_then_repartition : forall st garm A sup1 fresh1 st1 dgs1 d gid key sup2 fresh2 st3 dgs2,
  sget st garm = Some A -> wfb A = true ->
  uuid_fresh garm sup1 fresh1 (c_ids (catalog_delegations A)) ->
  uuid_fresh garm sup2 fresh2 (c_ids (catalog_delegations A)) ->
  st_generate_adms st garm sup1 fresh1 = (st1, Ok dgs1) -> In (d, gid) dgs1 ->
  let st2 := fst (st_rewrite_delegations st1 gid key) in
  st_generate_adms st2 garm sup2 fresh2 = (st3, Ok dgs2) ->
  gid <> garm /\ sget st2 garm = Some A /\
  exists L, generate_adms A = Ok L /\ sget st3 garm = Some A /\
    (forall d' P, In (d', P) L -> sget st3 (gid_for sup2 fresh2 d') = Some P).
Proof. exact rekey_then_repartition. Qed.
Print Assumptions C13_rekey_then_repartition.

(* re-keying again: only the last key counts; re-keying to the key the entries already carry is the identity --
   a second re-keying to the same id, and re-keying a fresh partition to its own delegation id (e.g. a partition
   whose graph was named after the delegation) *)
Theorem C13_rekey_twice : forall A L d P, wfb A = true -> generate_adms A = Ok L -> In (d, P) L ->
  forall g1 g2, rewrite_delegations (fst (rewrite_delegations P g1)) g2 = rewrite_delegations P g2.
Proof. exact rekey_twice. Qed.
Print Assumptions C13_rekey_twice.

Theorem C13_rekey_idempotent : forall A L d P, wfb A = true -> generate_adms A = Ok L -> In (d, P) L ->
  forall gid,
    rewrite_delegations (fst (rewrite_delegations P gid)) gid = (fst (rewrite_delegations P gid), None) /\
    rewrite_delegations P d = (P, None).
Proof. exact rekey_idempotent. Qed.
Print Assumptions C13_rekey_idempotent.

Theorem C13_rekeyed_changes_only_the_key : forall gid n,
  nid (rekeyed gid n) = nid n /\ ncls (rekeyed gid n) = ncls n /\ nstitch (rekeyed gid n) = nstitch n /\
  nprops (rekeyed gid n) = nprops n /\
  is_some (ldel (rekeyed gid n)) = is_some (ldel n) /\ is_some (cdel (rekeyed gid n)) = is_some (cdel n) /\
  entries (ldel (rekeyed gid n)) = map (fun p => (gid, snd p)) (entries (ldel n)) /\
  entries (cdel (rekeyed gid n)) = map (fun p => (gid, snd p)) (entries (cdel n)).
Proof. exact rekeyed_fields. Qed.
Print Assumptions C13_rekeyed_changes_only_the_key.

(* non-vacuity: a well-formed model with two delegation ids (label-only, capacity-only, both, pooled), two
   different proper partitions, exact entries on the shared node, re-keying succeeds on the partitions and
   raises on the aggregate model, store run with a supplied and a generated id next to a bystander graph, the
   two kinds of bad dictionaries rejected without effect *)
Example C13_nonvacuous :
  wfb ex_A = true /\
  (exists L, generate_adms ex_A = Ok L /\ map fst L = [1; 2] /\
     map (fun dp => node_ids (snd dp)) L = [[1; 2; 3; 4; 6; 7; 8; 9; 10; 11; 12; 13]; [2; 4; 7; 8; 9; 10; 11; 13]] /\
     map (fun dp => option_map (fun n => (ldel n, cdel n)) (find_node (snd dp) 8)) L =
       [Some (Some [(1, DPoolDef 1 3)], Some [(1, DSingle 5)]); Some (Some [(2, DSingle 4)], Some [(2, DSingle 6)])] /\
     map (fun dp => snd (rewrite_delegations (snd dp) 99)) L = [None; None] /\
     snd (rewrite_delegations ex_A 99) = Some EQuery) /\
  (exists st', st_generate_adms [(50, wit_A); (100, ex_A)] 100 [(1, 101); (7, 100)] (fun d => 100 + d) = (st', Ok [(1, 101); (2, 102)]) /\
     map fst st' = [50; 100; 101; 102] /\ sget st' 100 = Some ex_A /\ sget st' 50 = Some wit_A /\
     uuid_fresh 100 [(1, 101); (7, 100)] (fun d => 100 + d) (c_ids (catalog_delegations ex_A))) /\
  st_generate_adms [(50, wit_A); (100, ex_A)] 100 [(2, 100)] (fun d => 100 + d) = ([(50, wit_A); (100, ex_A)], Err EQuery) /\
  st_generate_adms [(50, wit_A); (100, ex_A)] 100 [(1, 77); (2, 77)] (fun d => 100 + d) = ([(50, wit_A); (100, ex_A)], Err EQuery).
Proof. exact ex_nonvacuous. Qed.
