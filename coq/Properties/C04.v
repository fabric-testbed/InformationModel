(* C04 - graphs sharing the in-memory store are isolated; clones are independent.
   Statements only; every theorem is closed by `exact` of a lemma of Proofs/Isolation*.v.
   Model: Model/Store.v (shared store: one nx.Graph + start_id) and Model/StoreDisjoint.v (one nx.Graph
   and one id counter per graph id), tied to fim/graph/networkx_property_graph{,_disjoint}.py and
   networkx_mixin.py on every run by the history streams of harness/c04.py.

   [view G g]   = what graph id g can see of the nx.Graph G: its nodes WITH their internal ids and
                  property dictionaries, and the links whose two ends are among them (the content
                  extract_graph returns and every query filters on).
   [target o]   = the graph id operation o is addressed to (for clone: the NEW id; the source is only read).
   [frame_scope o] excludes exactly: merge_nodes (cross-graph by contract, C05/C14), operations that
                  rewrite the GraphID property (the deliberate re-homing the property text excludes), and
                  requires of an imported graph that it is a networkx graph (links join its own nodes) and,
                  for a direct import, that its nodes carry the id they are stored under (enforced by
                  ABCGraphImporter.get_graph_id before the storage is called). *)
From Coq Require Import List NArith Bool.
From FIM Require Import Gen.PGConst Model.Store Model.StoreDisjoint.
From FIM Require Import Proofs.IsolationShared Proofs.IsolationFrame Proofs.IsolationDisjoint Proofs.IsolationClone.
Import ListNotations.
Open Scope N_scope.

Theorem C04_translated : gen_ok = true.
Proof. exact eq_refl. Qed.
Print Assumptions C04_translated.

(* ---- shared store ---- *)

(* after ANY history (all 24 operations, malformed arguments, failing calls included) no two stored
   nodes share an internal id and every stored id was drawn from the allocator (is below start_id),
   so that add_graph / add_blank_node never land on a stored node *)
Theorem C04_internal_ids_unique : forall ops,
  NoDup (ids (sg (srun ops init_store))) /\
  forall i, In i (ids (sg (srun ops init_store))) -> i < snext (srun ops init_store).
Proof. exact ids_unique_all. Qed.
Print Assumptions C04_internal_ids_unique.

(* one step: an operation addressed to g leaves what every other graph id sees unchanged - nodes,
   internal ids, property dictionaries and links - also when it fails half-way *)
Theorem C04_frame : forall s o g',
  SInv s -> frame_scope o = true -> target o <> g' ->
  view (sg (fst (sstep s o))) g' = view (sg s) g'.
Proof. exact frame_step. Qed.
Print Assumptions C04_frame.

(* all interleaved histories: after an arbitrary prefix (no condition on it), any sequence of
   operations addressed to other graph ids leaves g' unchanged *)
Theorem C04_frame_histories : forall pre ops g',
  (forall o, In o ops -> frame_scope o = true /\ target o <> g') ->
  view (sg (srun (pre ++ ops) init_store)) g' = view (sg (srun pre init_store)) g'.
Proof. exact frame_after_any_prefix. Qed.
Print Assumptions C04_frame_histories.

(* ---- one nx.Graph per graph id ---- *)
Theorem C04_internal_ids_unique_disjoint : forall ops g,
  NoDup (ids (dget (drun ops init_dstore) g)) /\
  forall i, In i (ids (dget (drun ops init_dstore) g)) -> i < dcounter (drun ops init_dstore) g.
Proof. exact ids_unique_all_disjoint. Qed.
Print Assumptions C04_internal_ids_unique_disjoint.

(* here the frame needs no scope condition: whatever the operation, the nx.Graph stored under any
   other id is literally unchanged *)
Theorem C04_frame_disjoint : forall d o g', target o <> g' -> dget (fst (dstep d o)) g' = dget d g'.
Proof. exact frame_step_disjoint. Qed.
Print Assumptions C04_frame_disjoint.

Theorem C04_frame_histories_disjoint : forall ops d g',
  (forall o, In o ops -> target o <> g') -> dget (drun ops d) g' = dget d g'.
Proof. exact frame_histories_disjoint. Qed.
Print Assumptions C04_frame_histories_disjoint.

(* ---- clones ---- *)
(* after ANY history of well-formed operations ([wf_op]: imported graphs are networkx graphs), cloning a
   graph that has nodes (all carrying a NodeID, as add_graph demands) succeeds and the new id sees
   exactly the source's nodes - same order, same properties except GraphID := new id, fresh consecutive
   internal ids - and exactly the source's links between the corresponding nodes *)
Theorem C04_clone_same : forall ops g g2 ns es,
  (forall o, In o ops -> wf_op o = true) -> g <> g2 ->
  let s := srun ops init_store in
  view (sg s) g = (ns, es) -> ns <> [] -> existsb node_id_missing ns = false ->
  snd (s_clone s g g2) = Ok RUnit /\
  view (sg (fst (s_clone s g g2))) g2 = (stamp g2 (relabel_nodes ns (snext s)), map (relabel_edge ns (snext s)) es).
Proof. exact clone_same_all. Qed.
Print Assumptions C04_clone_same.

(* extract_graph - the mechanism behind clone_graph, serialization and find_matching_nodes - in ANY reachable
   store, stores that contain cross-graph links left by merge_nodes included (no condition on the history):
   None for a graph without nodes, else exactly the graph's own nodes and the links with BOTH ends in it.
   (C04_clone_same above likewise quantifies over histories WITH merges: [wf_op] only constrains imports.) *)
Theorem C04_extract_exact : forall ops g,
  let G := sg (srun ops init_store) in
  s_extract G g = match fst (view G g) with
                  | [] => None
                  | _ => Some (mkI (fst (view G g)) (snd (view G g)))
                  end.
Proof. exact extract_exact_all. Qed.
Print Assumptions C04_extract_exact.

Example C04_cross_link_nonvacuous :
  let s := srun ex_cross init_store in
  forallb wf_op ex_cross = true /\
  ge (sg s) = [(1, 3, [(k_class, PV 40)])] /\
  view (sg s) 10 = ([(1, [(k_graphid, PV 10); (k_nodeid, PV 20); (k_class, PV 30)])], []) /\
  s_extract (sg s) 10 = Some (mkI [(1, [(k_graphid, PV 10); (k_nodeid, PV 20); (k_class, PV 30)])] []) /\
  snd (s_clone s 10 12) = Ok RUnit /\
  view (sg (fst (s_clone s 10 12))) 12 = ([(4, [(k_graphid, PV 12); (k_nodeid, PV 20); (k_class, PV 30)])], []) /\
  view (sg (fst (s_clone s 10 12))) 11 = view (sg s) 11.
Proof. exact cross_link_nonvacuous. Qed.

(* later changes to either do not show up in the other (instance of the frame theorem) *)
Theorem C04_clone_independent : forall pre g g2 ops,
  g <> g2 -> (forall o, In o ops -> frame_scope o = true /\ (target o = g \/ target o = g2)) ->
  let s := srun (pre ++ [OClone g g2]) init_store in
  view (sg (srun (filter (fun o => N.eqb (target o) g) ops) s)) g2 = view (sg s) g2 /\
  view (sg (srun (filter (fun o => N.eqb (target o) g2) ops) s)) g = view (sg s) g.
Proof. exact clone_independent. Qed.
Print Assumptions C04_clone_independent.

(* one nx.Graph per id, after ANY history of well-formed operations: the clone under an id that holds no nodes is
   the relabelled, re-stamped copy of the source's whole nx.Graph.  (The two structural facts of nx.Graph - links
   join stored nodes, one link per pair - are invariants of this store too: DWf_run.)  Onto an id that HOLDS
   nodes the clone is skipped (C05_disjoint_clone_live_skips): known finding (deliberate in the code; C05-3 not landed). *)
Theorem C04_clone_same_disjoint : forall ops g g2,
  (forall o, In o ops -> wf_op o = true) ->
  let d := drun ops init_dstore in
  gn (dget d g) <> [] -> gn (dget d g2) = [] -> existsb node_id_missing (gn (dget d g)) = false ->
  snd (d_clone d g g2) = Ok RUnit /\
  dget (fst (d_clone d g g2)) g2 =
    mkG (stamp g2 (relabel_nodes (gn (dget d g)) 1)) (map (relabel_edge (gn (dget d g)) 1) (ge (dget d g))).
Proof. exact clone_same_disjoint_all. Qed.
Print Assumptions C04_clone_same_disjoint.

(* ---- non-vacuity: two graphs, an import whose keys collide with stored internal ids, a re-import,
   a clone; the operations on graphs 10 / 12 leave graph 11 as it was ---- *)
Definition ex_pre : list op :=
  [OAddNode 11 20 30 None; OAddNode 11 21 30 None; OAddLink 11 20 40 21 None].
Definition ex_ops : list op :=
  [OImport 10 (mkI [(1, [(k_nodeid, PV 20); (k_class, PV 30)]); (2, [(k_nodeid, PV 21)])] [(1, 2, [(k_class, PV 40)])]);
   OImport 10 (mkI [(1, [(k_nodeid, PV 22)])] []); OClone 10 12; OAddNode 12 23 31 None; ODelGraph 10;
   OUpdNodes 12 50 (PV 60)].

Example C04_nonvacuous :
  forallb (fun o => frame_scope o && negb (N.eqb (target o) 11) && wf_op o) ex_ops = true /\
  view (sg (srun (ex_pre ++ ex_ops) init_store)) 11 =
    ([(1, [(k_graphid, PV 11); (k_nodeid, PV 20); (k_class, PV 30)]);
      (2, [(k_graphid, PV 11); (k_nodeid, PV 21); (k_class, PV 30)])], [(1, 2, [(k_class, PV 40)])]) /\
  view (sg (srun (ex_pre ++ ex_ops) init_store)) 12 =
    ([(6, [(k_graphid, PV 12); (k_nodeid, PV 22); (50, PV 60)]);
      (7, [(k_graphid, PV 12); (k_nodeid, PV 23); (k_class, PV 31); (50, PV 60)])], []) /\
  snext (srun (ex_pre ++ ex_ops) init_store) = 8.
Proof. vm_compute. repeat split. Qed.
