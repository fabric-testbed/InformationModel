(* C19 - persistent-backend statements are well-formed and data-independent.
   Only statements; the theorems are closed by `exact` of a lemma from Proofs/Cypher19Sound.v / Cypher19Ops.v, the
   examples by evaluation.
   gen_templates (Gen/Cypher.v) is REGENERATED on every run from every `session.run` site under fim/:
   one template (Lit text | Hole var kind, keyword names) per site and variant.

   Full statement:  forall t, In t gen_templates -> conforms t     (conforms: Model/Cypher19.v).
   It is FALSE of the code as long as an operation pastes a stored value unescaped; C19_all_operations_status
   says which of the two holds for the regenerated table: either the full statement, or a concrete refutation of
   the first excused template.  The `_partial` version excludes exactly the templates that belong to an operation
   registered as a known finding (known_ops) AND contain a value-class hole (the defect's signature); with
   known_ops empty it is the full statement. *)
From Coq Require Import List NArith Bool String.
Import ListNotations.
From FIM Require Import Base.Str Model.Cypher19 Gen.Cypher Proofs.Cypher19Sound Proofs.Cypher19Ops.
Open Scope N_scope.

(* the translator recognised every call site (fail-closed flag) *)
Theorem C19_translated : gen_ok = true.
Proof. exact gen_ok_true. Qed.
Print Assumptions C19_translated.

(* checker soundness, unbounded: an accepted template renders - for EVERY filling of its identifier holes with
   identifiers and EVERY two assignments of stored values - to well-formed statements on which the scanner ends
   in the same state (the texts differ inside correctly escaped literals only), and to ONE text when the
   template has no escaped literal *)
Theorem C19_sound : forall t, tmpl_ok t = true -> conforms t.
Proof. exact tmpl_ok_conforms. Qed.
Print Assumptions C19_sound.

Theorem C19_data_independent : forall t, tmpl_ok t = true -> has_esc_hole (t_frags t) = false ->
  forall e e', agree_on (ident_vars (t_frags t)) e e' -> render (t_frags t) e = render (t_frags t) e'.
Proof. exact tmpl_ok_data_independent. Qed.
Print Assumptions C19_data_independent.

Theorem C19_structure_independent : forall t, tmpl_ok t = true ->
  forall e e', idents_ok (t_frags t) e -> idents_ok (t_frags t) e' ->
  scan init (render (t_frags t) e) = scan init (render (t_frags t) e').
Proof. exact tmpl_ok_structure_independent. Qed.
Print Assumptions C19_structure_independent.

Theorem C19_well_formed : forall t, tmpl_ok t = true ->
  forall e, idents_ok (t_frags t) e -> wf_b (render (t_frags t) e) (t_params t) = true.
Proof. exact tmpl_ok_well_formed. Qed.
Print Assumptions C19_well_formed.

(* what "well-formed" delivers: the scanner reaches the end of the text between tokens with every bracket
   closed, every $name among the supplied parameters, every used variable bound *)
Theorem C19_well_formed_means : forall text ps, wf_b text ps = true ->
  exists s, final_state text = Some s /\ s_mode s = MNorm /\ s_stack s = [] /\
            subset (s_params s) ps = true /\ subset (s_uses s) (s_binds s) = true.
Proof. exact wf_b_inv. Qed.
Print Assumptions C19_well_formed_means.

(* every operation of the backend (every regenerated template), except the known findings *)
Theorem C19_all_operations_partial : forall t, In t gen_templates -> excused t = false -> conforms t.
Proof. exact (checked_partial gen_templates all_ops_partial_b). Qed.
Print Assumptions C19_all_operations_partial.

Theorem C19_all_operations_checked_partial :
  forallb (fun t => tmpl_ok t || excused t) gen_templates = true.
Proof. exact all_ops_partial_b. Qed.
Print Assumptions C19_all_operations_checked_partial.

(* the full statement: it holds for the regenerated table, or the first excused template is refuted by a value
   with a quote (different text for the same identifiers, and an ill-formed statement) *)
Theorem C19_all_operations_status :
  match find excused gen_templates with
  | Some t => In t gen_templates /\ excused t = true /\ refuted_by_value t
  | None => forall t, In t gen_templates -> conforms t
  end.
Proof. exact (checked_status gen_templates all_ops_partial_b first_excused_refuted). Qed.
Print Assumptions C19_all_operations_status.

(* the excuse list is tight: every excused operation really has a template with a value-class hole *)
Theorem C19_known_findings_tight :
  forallb (fun op => existsb (fun t => str_eqb (t_op t) op && has_value_hole (t_frags t)) gen_templates) known_ops = true.
Proof. exact known_ops_tight. Qed.
Print Assumptions C19_known_findings_tight.

(* the hypothesis idents_ok is met by the real identifier arguments: every class label, relation type and
   property name constant of the interface is an identifier *)
Theorem C19_interface_constants_are_identifiers : forall c, In c gen_ident_constants -> ident_okb c = true.
Proof. exact interface_constants_In. Qed.
Print Assumptions C19_interface_constants_are_identifiers.

(* the alternative the property allows: a value pasted as a correctly escaped quoted literal never changes
   the structure of the statement - for every value, whatever quotes or backslashes it contains *)
Theorem C19_escaped_literal : forall pre post ps v v' s,
  scan init pre = Some s -> s_mode s = MNorm -> is_keyctx (s_pv s) = false ->
  wf_b (pre ++ quoted_literal v ++ post) ps = wf_b (pre ++ quoted_literal v' ++ post) ps.
Proof. exact escaped_literal_wf. Qed.
Print Assumptions C19_escaped_literal.

(* ... generalised to nesting: what the reader of a literal gets back from text escaped d times is the text *)
Theorem C19_unescape_escape : forall d v, unesc_n d (esc_n d v) = v.
Proof. exact unesc_esc_n. Qed.
Print Assumptions C19_unescape_escape.

(* a statement pasted as an escaped literal into another one (the APOC export's inner statement) is a template
   of the table itself - so it is covered by C19_all_operations_* - and for every environment the parent's text
   contains exactly the escape of the nested statement's text.  The regenerated table has no nested statement today
   (gen_nested = [], the export's statement being a known finding), so the theorem says nothing until one appears;
   C19_nonvacuous_nested_escape below exercises the definitions on the repaired statement *)
Theorem C19_nested_statements :
  forall p, In p gen_nested ->
  exists tn tp, find_by_id gen_templates (fst p) = Some tn /\ find_by_id gen_templates (snd p) = Some tp /\
    forall e, idents_ok (t_frags tn) e ->
    exists a b, render (t_frags tp) e = a ++ esc_q (render (t_frags tn) e) ++ b.
Proof. exact nested_denote. Qed.
Print Assumptions C19_nested_statements.

(* node_exists as it is now: accepted, and for the label NetworkNode the text is the expected one; the same
   statement without the closing parenthesis of the node pattern (before fix 0697c3f) is rejected *)
Example C19_nonvacuous_node_exists :
  let t := mk_tmpl 0 (S"Neo4jPropertyGraph.node_exists")
             [Lit (S"MATCH (n:GraphNode:"); Hole 0 HIdent;
              Lit (S" {GraphID: $graphId, NodeID: $nodeId}) RETURN collect(n.NodeID) as nodeids")]
             [S"graphId"; S"nodeId"] true in
  let e := env_of_list [S"NetworkNode"] in
  tmpl_ok t = true /\ idents_okb (t_frags t) e = true /\
  render (t_frags t) e = S"MATCH (n:GraphNode:NetworkNode {GraphID: $graphId, NodeID: $nodeId}) RETURN collect(n.NodeID) as nodeids" /\
  wf_b (S"MATCH (n:GraphNode:NetworkNode {GraphID: $graphId, NodeID: $nodeId} RETURN collect(n.NodeID) as nodeids")
       [S"graphId"; S"nodeId"] = false.
Proof. vm_compute. repeat split. Qed.

(* each clause of well-formedness rejects something: unexpanded residue, unbound variable, missing
   parameter, open quote; and a value-class hole is never accepted *)
Example C19_nonvacuous_rejections :
  wf_b (S"MATCH (a:GraphNode {{GraphID: $graphId}}) RETURN a") [S"graphId"] = false /\
  wf_b (S"MATCH (a) -[r:{kind}]- (b) RETURN r") [] = false /\
  wf_b (S"MATCH (r:GraphNode {GraphID: $graphId}) SET r+= $props RETURN properties(s)") [S"graphId"; S"props"] = false /\
  wf_b (S"MATCH (r:GraphNode {GraphID: $graphId}) SET r+= $props RETURN properties(r)") [S"graphId"] = false /\
  wf_b (S"MATCH (r:GraphNode {GraphID: $graphId}) SET r+= $props RETURN properties(r)") [S"graphId"; S"props"] = true /\
  wf_b (S"MATCH (n {Name: 'it's'}) RETURN n") [] = false /\
  tmpl_ok (mk_tmpl 0 [] [Lit (S"MATCH (n {GraphID: """); Hole 0 HValue; Lit (S"""}) RETURN n")] [] true) = false.
Proof. vm_compute. repeat split. Qed.

(* the repaired serialize_graph (proposed_fixes/C19-2): the graph id escaped twice inside the inner statement
   inside the outer literal - accepted; for an id made of a, a double quote, a single quote and a backslash both
   levels read back what was written *)
Example C19_nonvacuous_nested_escape :
  let inner := [Lit (S"match(n:GraphNode {GraphID: """); Hole 0 (HEsc 1); Lit (S"""}) return n")] in
  let outer := [Lit (S"with '")] ++ esc_frags inner ++ [Lit (S"' as query CALL apoc.export.graphml.query(query, null, {stream: true}) YIELD data RETURN data")] in
  let e := env_of_list [S"a""'\"] in
  tmpl_ok (mk_tmpl 0 [] inner [] true) = true /\ tmpl_ok (mk_tmpl 1 [] outer [] true) = true /\
  nested_in inner outer = true /\ has_esc_hole outer = true /\
  render inner e = S"match(n:GraphNode {GraphID: ""a\""\'\\""}) return n" /\
  unesc (esc_q (render inner e)) = render inner e /\
  wf_b (render outer e) [] = true /\ wf_b (render inner e) [] = true.
Proof. vm_compute. repeat split. Qed.

Example C19_nonvacuous_escaped_literal :
  let pre := S"MATCH (n:GraphNode {GraphID: $graphId}) WHERE n.Name = " in
  exists s, scan init pre = Some s /\ s_mode s = MNorm /\ is_keyctx (s_pv s) = false /\
  wf_b (pre ++ quoted_literal (S"it's a \ test") ++ S" RETURN n") [S"graphId"] = true.
Proof. vm_compute. eexists. repeat split. Qed.
