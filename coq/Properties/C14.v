(* C14 - combined broker model: merge is order-independent and unmerge is its inverse.
   Only statements; each is closed by `exact` of a lemma from Proofs/Cbm14*.v.
   The statements are about the abstract combined model of Model/Cbm14Spec.v (finite map NodeID -> class,
   properties, contributors, delegations keyed by contributor; finite map of connections; smerge / sunmerge;
   histories hstep / hrun with snapshots).  Both that model and the store-level transcription of
   merge_adm / _update_node_delegations / unmerge_adm / snapshot / rollback (Model/Cbm14Store.v) are compared
   with the real code on every run (harness/c14.py, Model/Cbm14Check.v, Model/Cbm14SpecCheck.v).
   eqv: same elements, class, properties and delegations, contributors as a set, same connections. *)
From Coq Require Import List NArith Permutation.
From FIM Require Import Model.Cbm14Spec Proofs.Cbm14Merge Proofs.Cbm14Unmerge Proofs.Cbm14Inv
     Proofs.Cbm14Hist Proofs.Cbm14Dec.
From FIM Require Gen.Cbm14Gen.
From FIM Require Model.Cbm14Store Model.Cbm14Check Model.Cbm14Abs Proofs.Cbm14Frame Proofs.Cbm14RefBase Proofs.Cbm14RefMerge
     Proofs.Cbm14RefUnmerge Proofs.Cbm14RefSnap Proofs.Cbm14RefHist Proofs.Cbm14RefOrder
     Proofs.Cbm14RefEdge Proofs.Cbm14RefFull
     Proofs.Cbm14Refusal.
Import ListNotations.
Open Scope N_scope.

(* ---- what one merge does, element by element: union; shared elements once; combined model's data kept;
   contributor appended; delegation taken from whichever side has one, keyed by the merged model's id ---- *)
Theorem C14_merge_elementwise : forall C A C' k,
  smerge C A = Some C' ->
  getn k (nodes C') =
  match getn k (nodes C), getn k (adm_nodes A) with
  | Some c, Some a => Some (upd (adm_id A) a c)
  | Some c, None => Some c
  | None, Some a => Some (stamp (adm_id A) a)
  | None, None => None
  end.
Proof. exact smerge_get_node. Qed.
Print Assumptions C14_merge_elementwise.

Theorem C14_merge_connections : forall C A C' e,
  smerge C A = Some C' ->
  gete e (edges C') =
  match gete e (edges C), gete e (adm_edges A) with
  | Some d, _ => Some d
  | None, Some d => Some d
  | None, None => None
  end.
Proof. exact smerge_get_edge. Qed.
Print Assumptions C14_merge_connections.

Theorem C14_shared_elements_once : forall C A C',
  wf_adm A -> nodup_keys C -> smerge C A = Some C' -> nodup_keys C'.
Proof. exact smerge_nodup. Qed.
Print Assumptions C14_shared_elements_once.

(* only one delegation model may speak for a resource: the merge is refused *)
Theorem C14_double_speaker_rejected : forall C A k c a,
  getn k (nodes C) = Some c -> In (k, a) (adm_nodes A) -> clash c a = true -> smerge C A = None.
Proof. exact double_speaker_rejected. Qed.
Print Assumptions C14_double_speaker_rejected.

(* ---- families: merging As left to right from the empty combined model ---- *)
(* element set = union, every element once, contributors EXACTLY the merged models having the element,
   delegations keyed by the contributor that supplied them, no dangling connection *)
Theorem C14_family_invariant : forall As C,
  Forall wf_adm As -> NoDup (map adm_id As) -> merge_all As = Some C ->
  nodup_keys C /\ all_alive C /\ no_dangling C /\ NoDup (map adm_id As) /\ Forall wf_adm As /\
  contributors_exact As C /\ keyed_by As C.
Proof. exact family_inv. Qed.
Print Assumptions C14_family_invariant.

(* connections = union of the families' connections, each with the data of a member; class and plain
   properties of every element are those of a member *)
Theorem C14_family_union : forall As C, merge_all As = Some C -> from_family As C.
Proof. exact family_union. Qed.
Print Assumptions C14_family_union.

Theorem C14_family_never_refused : forall As,
  Forall wf_adm As -> consistent As -> exists C, merge_all As = Some C.
Proof. exact family_total. Qed.
Print Assumptions C14_family_never_refused.

(* ---- order independence: any permutation of a family of pairwise compatible models, merged into any
   combined model C, is accepted as well and gives an equivalent result ---- *)
Theorem C14_order_independent : forall As As',
  Permutation As As' ->
  forall C D, Forall wf_adm As -> pairwise_compatible As -> merge_from C As = Some D ->
  exists D', merge_from C As' = Some D' /\ eqv D D'.
Proof. exact merge_from_perm. Qed.
Print Assumptions C14_order_independent.

(* the hypothesis is needed: FULL statement without `pairwise_compatible` is FALSE of the model and of the code
   (known finding F4; the repository's own four site/network advertisements describe their common nodes
   differently, so their combined model depends on the merge order) *)
Theorem C14_order_independent_refuted :
  exists A B C C', wf_adm A /\ wf_adm B /\ one_speaker A B /\
                   merge_all [A; B] = Some C /\ merge_all [B; A] = Some C' /\ ~ eqv C C'.
Proof. exact order_dependent_refuted. Qed.
Print Assumptions C14_order_independent_refuted.

(* ---- unmerge is the inverse of merge ----
   FULL statement (the property as written):
     wf_cbm C -> wf_adm A -> not_contributor (adm_id A) C -> smerge C A = Some C' -> eqv (sunmerge C' (adm_id A)) C
   It is FALSE of the faithful model and of the code (witness replayed on the implementation by the harness,
   known finding F2): connections carry no contributor record *)
Theorem C14_unmerge_inverse_edge_refuted :
  exists C A C', wf_cbm C /\ wf_adm A /\ not_contributor (adm_id A) C /\
                 smerge C A = Some C' /\ ~ eqv (sunmerge C' (adm_id A)) C.
Proof. exact unmerge_inverse_edge_refuted. Qed.
Print Assumptions C14_unmerge_inverse_edge_refuted.

(* partial: the merged model brings no connection between two elements already present - then unmerge restores
   the previous combined model *)
Theorem C14_unmerge_inverse_partial : forall C A C',
  wf_cbm C -> wf_adm A -> not_contributor (adm_id A) C -> no_new_inner_edges C A ->
  smerge C A = Some C' -> eqv (sunmerge C' (adm_id A)) C.
Proof. exact unmerge_inverse. Qed.
Print Assumptions C14_unmerge_inverse_partial.

(* ---- all histories of merge / unmerge / snapshot / rollback: the current combined model and every saved
   snapshot satisfy the invariant w.r.t. the delegation models currently merged (h_ms) ---- *)
Theorem C14_history_invariant : forall ops, Forall op_wf ops -> HInv (hrun hinit ops).
Proof. exact hinv_all. Qed.
Print Assumptions C14_history_invariant.

(* the invariant supplies the hypotheses of the unmerge theorems in every reachable state *)
Theorem C14_reachable_wf : forall Ms C, Inv Ms C -> wf_cbm C.
Proof. exact Inv_wf_cbm. Qed.
Print Assumptions C14_reachable_wf.

Theorem C14_reachable_not_contributor : forall Ms C g, Inv Ms C -> ~ In g (map adm_id Ms) -> not_contributor g C.
Proof. exact Inv_not_contributor. Qed.
Print Assumptions C14_reachable_not_contributor.

(* ---- rollback: after a snapshot and any operations that do not use that snapshot id - merges, unmerges,
   FURTHER snapshots under other ids and rollbacks to those - rolling back restores the combined model (and the
   record of what is merged) exactly; so with several snapshots outstanding each rollback gives the model of its own
   snapshot, in whatever order they are consumed (C14_ex_two_snapshots) ---- *)
Theorem C14_rollback : forall s id ops,
  hasn id (h_snaps s) = false ->
  forallb (fun o => negb (touches id o)) ops = true ->
  let s' := hstep (hrun (hstep s (HSnap id)) ops) (HRollback id) in
  h_cur s' = h_cur s /\ h_ms s' = h_ms s.
Proof. exact rollback_restores. Qed.
Print Assumptions C14_rollback.

(* ---- STORE LEVEL (Model/Cbm14Store.v, the transcription of the code over the shared in-memory store):
   merging does not alter the source models - nor any other graph of the store, e.g. the snapshots.
   For every history of merge_adm / unmerge_adm / snapshot / rollback on the combined graph cbm and every graph g
   that is none of the graphs the operations work on (cbm itself, the temporary / snapshot id an operation
   creates, the snapshot a rollback consumes), the nodes of g with all their properties, and g's canonical view
   (nodes + connections), are unchanged.  Good g st: internal ids unique and below start_id, no connection
   leaves g (decidable: goodb, checked on the initial store of every correspondence case). ---- *)
Theorem C14_sources_untouched : forall g cbm ops st st',
  Cbm14Frame.Good g st -> Forall (Cbm14Frame.outside cbm g) ops -> Cbm14Frame.run cbm st ops = Some st' ->
  Cbm14Store.view_of g st' = Cbm14Store.view_of g st /\ Cbm14Store.of_gid g st' = Cbm14Store.of_gid g st /\
  Cbm14Frame.Good g st'.
Proof. exact Cbm14Frame.history_frame. Qed.
Print Assumptions C14_sources_untouched.

Theorem C14_store_invariant_decidable : forall g st, Cbm14Store.goodb g st = true -> Cbm14Frame.Good g st.
Proof. exact Cbm14Frame.goodb_sound. Qed.
Print Assumptions C14_store_invariant_decidable.

(* ---- REFINEMENT (node part): the store-level transcription does to the nodes of the combined graph exactly
   what the abstract model does.  Abstraction (Model/Cbm14Abs.v): abs_nodes g st = the nodes of graph g keyed by
   NodeID with class, plain properties, contributors read from adm_graph_ids, delegations read from the two
   delegation properties; abs_adm_nodes for a source model.  Invariant: J (internal ids unique and below
   start_id, (GraphID, NodeID) unique) and cbm_ok (nodes of the combined graph well-formed, contributors
   recorded once, at least one) - decidable for the initial store (rgoodb, evaluated on every correspondence case).
   (The FULL statements with the connections are C14_merge_refines, C14_unmerge_refines, C14_snapshot_refines,
   C14_rollback_refines and C14_store_simulates below; the node-only versions are kept because they need fewer
   hypotheses.)  Full statements:
     merge_adm cbm adm tmp st = OOk st' -> exists C', smerge (abs_cbm cbm st) (abs_adm adm st) = Some C' /\ eqv (abs_cbm cbm st') C'
   and likewise unmerge_adm / sunmerge, snapshot, rollback.  What IS proved is the same with abs_nodes / nodes
   in place of abs_cbm (hence `_nodes_partial`); refusal is explicit: the store model returning normally implies
   the abstract merge is not refused (a double speaker makes both refuse). ---- *)
Theorem C14_merge_refines_nodes_partial : forall cbm adm tmp st st',
  Cbm14RefBase.J (Cbm14Store.s_next st) (Cbm14Store.s_nodes st) -> Cbm14RefBase.cbm_wf cbm (Cbm14Store.s_nodes st) ->
  cbm <> tmp -> adm <> cbm -> Cbm14Store.gexists tmp st = false ->
  Cbm14Store.merge_adm cbm adm tmp st = Cbm14Store.OOk st' ->
  conflict (Cbm14Abs.abs_cbm cbm st) (Cbm14Abs.abs_adm adm st) = false /\
  (forall k, getn k (Cbm14Abs.abs_nodes cbm st') =
             getn k (merge_nodes adm (Cbm14Abs.abs_nodes cbm st) (Cbm14Abs.abs_adm_nodes adm st))) /\
  Cbm14RefBase.J (Cbm14Store.s_next st') (Cbm14Store.s_nodes st') /\ Cbm14RefBase.cbm_wf cbm (Cbm14Store.s_nodes st') /\
  (forall g k, g <> cbm -> g <> tmp ->
               Cbm14RefBase.at_ g k (Cbm14Store.s_nodes st') = Cbm14RefBase.at_ g k (Cbm14Store.s_nodes st)) /\
  (forall k, Cbm14RefBase.at_ tmp k (Cbm14Store.s_nodes st') = None).
Proof. exact (fun cbm adm tmp st st' J W NE _ => Cbm14RefMerge.merge_refines_nodes cbm adm tmp st st' J W NE). Qed.
Print Assumptions C14_merge_refines_nodes_partial.

(* ---- FULL refinement for merge_adm (nodes AND connections): whenever the store model returns normally the abstract
   merge is accepted and the abstraction of the resulting combined graph is the abstract result - same lookup for
   every NodeID and for every connection key, hence eqv.  Extra hypotheses: connection ids below start_id (ebelow,
   part of goodb) and no self-loop in the merged source.  "An existing connection wins" (contracted_nodes keeps the
   combined graph's connection and drops the image's) is the invariant MergedEdges of Proofs/Cbm14RefFold.v. ---- *)
Theorem C14_merge_refines : forall cbm adm tmp st st',
  Cbm14RefBase.J (Cbm14Store.s_next st) (Cbm14Store.s_nodes st) ->
  Cbm14Frame.ebelow (Cbm14Store.s_next st) (Cbm14Store.s_edges st) ->
  Cbm14RefBase.cbm_wf cbm (Cbm14Store.s_nodes st) ->
  cbm <> tmp -> adm <> cbm -> Cbm14Store.gexists tmp st = false ->
  (forall n, In n (Cbm14Store.of_gid adm st) ->
             Cbm14RefEdge.edat (Cbm14Store.s_edges st) (Cbm14Store.n_int n) (Cbm14Store.n_int n) = None) ->
  Cbm14Store.merge_adm cbm adm tmp st = Cbm14Store.OOk st' ->
  exists C', smerge (Cbm14Abs.abs_cbm cbm st) (Cbm14Abs.abs_adm adm st) = Some C' /\
             (forall k, getn k (nodes (Cbm14Abs.abs_cbm cbm st')) = getn k (nodes C')) /\
             (forall e, gete e (edges (Cbm14Abs.abs_cbm cbm st')) = gete e (edges C')) /\
             eqv (Cbm14Abs.abs_cbm cbm st') C'.
Proof. exact (fun cbm adm tmp st st' J EB W NE _ => Cbm14RefMerge.merge_refines cbm adm tmp st st' J EB W NE). Qed.
Print Assumptions C14_merge_refines.

Theorem C14_unmerge_refines_nodes_partial : forall cbm g st,
  Cbm14RefBase.J (Cbm14Store.s_next st) (Cbm14Store.s_nodes st) -> Cbm14RefUnmerge.cbm_ok cbm (Cbm14Store.s_nodes st) ->
  Cbm14Store.gexists cbm st = true ->
  exists st', Cbm14Store.unmerge_adm cbm g st = Cbm14Store.OOk st' /\
    (forall k, getn k (Cbm14Abs.abs_nodes cbm st') = getn k (nodes (sunmerge (Cbm14Abs.abs_cbm cbm st) g))) /\
    Cbm14RefBase.J (Cbm14Store.s_next st') (Cbm14Store.s_nodes st') /\ Cbm14RefUnmerge.cbm_ok cbm (Cbm14Store.s_nodes st') /\
    (forall h k, h <> cbm -> Cbm14RefBase.at_ h k (Cbm14Store.s_nodes st') = Cbm14RefBase.at_ h k (Cbm14Store.s_nodes st)).
Proof. exact Cbm14RefUnmerge.unmerge_refines_nodes. Qed.
Print Assumptions C14_unmerge_refines_nodes_partial.

Theorem C14_snapshot_refines_nodes_partial : forall cbm new st,
  Cbm14RefBase.J (Cbm14Store.s_next st) (Cbm14Store.s_nodes st) ->
  Cbm14Store.gexists cbm st = true -> Cbm14Store.gexists new st = false ->
  exists st', Cbm14Store.snapshot cbm new st = Cbm14Store.OOk st' /\
    (forall k, getn k (Cbm14Abs.abs_nodes new st') = getn k (Cbm14Abs.abs_nodes cbm st)) /\
    (forall h k, h <> new -> Cbm14RefBase.at_ h k (Cbm14Store.s_nodes st') = Cbm14RefBase.at_ h k (Cbm14Store.s_nodes st)) /\
    Cbm14RefBase.J (Cbm14Store.s_next st') (Cbm14Store.s_nodes st') /\
    (Cbm14RefUnmerge.cbm_ok cbm (Cbm14Store.s_nodes st) -> Cbm14RefUnmerge.cbm_ok new (Cbm14Store.s_nodes st')).
Proof. exact Cbm14RefSnap.snapshot_refines_nodes. Qed.
Print Assumptions C14_snapshot_refines_nodes_partial.

Theorem C14_rollback_refines_nodes_partial : forall cbm sid st,
  Cbm14RefBase.J (Cbm14Store.s_next st) (Cbm14Store.s_nodes st) -> sid <> cbm -> Cbm14Store.gexists sid st = true ->
  exists st', Cbm14Store.rollback cbm sid st = Cbm14Store.OOk st' /\
    (forall k, getn k (Cbm14Abs.abs_nodes cbm st') = getn k (Cbm14Abs.abs_nodes sid st)) /\
    (forall h k, h <> cbm -> h <> sid ->
                 Cbm14RefBase.at_ h k (Cbm14Store.s_nodes st') = Cbm14RefBase.at_ h k (Cbm14Store.s_nodes st)) /\
    (forall k, Cbm14RefBase.at_ sid k (Cbm14Store.s_nodes st') = None) /\
    Cbm14RefBase.J (Cbm14Store.s_next st') (Cbm14Store.s_nodes st') /\
    (Cbm14RefUnmerge.cbm_ok sid (Cbm14Store.s_nodes st) -> Cbm14RefUnmerge.cbm_ok cbm (Cbm14Store.s_nodes st')).
Proof. exact Cbm14RefSnap.rollback_refines_nodes. Qed.
Print Assumptions C14_rollback_refines_nodes_partial.

(* ---- simulation for whole histories (node projection of the abstract model: merged models enter without their
   connections): running the store model and the abstract model side by side over any history whose operations are
   in the documented domain when executed (pre_run: fresh temporary / snapshot ids, the merged model is not
   merged already, unmerge / snapshot of a non-empty combined graph, rollback to a live snapshot) keeps them
   related (NSim: same nodes of the combined graph and of every live snapshot, abstract invariant HInv) ---- *)
Theorem C14_store_simulates_nodes_partial : forall cbm ops st hs st' hs',
  Cbm14RefHist.NSim cbm st hs -> Cbm14RefHist.pre_run cbm st hs ops ->
  Cbm14RefHist.sim_run cbm st hs ops = Some (st', hs') ->
  Cbm14RefHist.NSim cbm st' hs' /\ hs' = hrun hs (Cbm14RefHist.hops_run cbm st ops).
Proof. exact Cbm14RefHist.nsim_run. Qed.
Print Assumptions C14_store_simulates_nodes_partial.

Theorem C14_store_simulation_starts : forall cbm st,
  Cbm14RefBase.J (Cbm14Store.s_next st) (Cbm14Store.s_nodes st) -> Cbm14Store.gexists cbm st = false ->
  Cbm14RefHist.NSim cbm st hinit.
Proof. exact Cbm14RefHist.nsim_init. Qed.
Print Assumptions C14_store_simulation_starts.

Theorem C14_refinement_invariant_decidable : forall cbm st,
  Cbm14Abs.rgoodb cbm st = true ->
  Cbm14RefBase.J (Cbm14Store.s_next st) (Cbm14Store.s_nodes st) /\ Cbm14RefBase.cbm_wf cbm (Cbm14Store.s_nodes st).
Proof. exact Cbm14RefBase.rgoodb_sound. Qed.
Print Assumptions C14_refinement_invariant_decidable.

(* ---- the abstract theorems, transferred to the STORE level (nodes of the combined graph), in every state
   reachable by such a history (NSim cbm st hs; h_ms hs = the abstractions of the models currently merged) ---- *)
Theorem C14_store_contributors_exact : forall cbm st hs, Cbm14RefHist.NSim cbm st hs -> forall k n g,
  Cbm14RefBase.at_ cbm k (Cbm14Store.s_nodes st) = Some n ->
  (In g (Cbm14Abs.abs_con (Cbm14Store.n_si n)) <->
   exists A, In A (h_ms hs) /\ adm_id A = g /\ hasn k (adm_nodes A) = true).
Proof. exact Cbm14RefHist.store_contributors_exact. Qed.
Print Assumptions C14_store_contributors_exact.

Theorem C14_store_union : forall cbm st hs, Cbm14RefHist.NSim cbm st hs -> forall k,
  (exists n, Cbm14RefBase.at_ cbm k (Cbm14Store.s_nodes st) = Some n) <->
  exists A, In A (h_ms hs) /\ hasn k (adm_nodes A) = true.
Proof. exact Cbm14RefHist.store_union. Qed.
Print Assumptions C14_store_union.

Theorem C14_store_delegations_keyed : forall cbm st hs, Cbm14RefHist.NSim cbm st hs -> forall k n g x,
  Cbm14RefBase.at_ cbm k (Cbm14Store.s_nodes st) = Some n ->
  (Cbm14Abs.abs_del (Cbm14Store.n_ld n) = Some (g, x) ->
     exists A a, In A (h_ms hs) /\ adm_id A = g /\ getn k (adm_nodes A) = Some a /\ a_ld a = Some x) /\
  (Cbm14Abs.abs_del (Cbm14Store.n_cd n) = Some (g, x) ->
     exists A a, In A (h_ms hs) /\ adm_id A = g /\ getn k (adm_nodes A) = Some a /\ a_cd a = Some x).
Proof. exact Cbm14RefHist.store_delegations_keyed. Qed.
Print Assumptions C14_store_delegations_keyed.

Theorem C14_store_shared_once : forall cbm st hs, Cbm14RefHist.NSim cbm st hs ->
  NoDup (map Cbm14Store.n_nid (Cbm14Store.of_gid cbm st)).
Proof. exact Cbm14RefHist.store_shared_once. Qed.
Print Assumptions C14_store_shared_once.

(* merge_adm followed by unmerge_adm of the same model restores every node of the combined graph *)
Theorem C14_store_unmerge_inverse_nodes_partial : forall cbm adm tmp st hs st1 st2,
  Cbm14RefHist.NSim cbm st hs -> Cbm14RefHist.pre cbm (Cbm14Check.OpMerge adm tmp) st hs ->
  Cbm14Store.merge_adm cbm adm tmp st = Cbm14Store.OOk st1 -> Cbm14Store.unmerge_adm cbm adm st1 = Cbm14Store.OOk st2 ->
  forall k, getn k (Cbm14Abs.abs_nodes cbm st2) = getn k (Cbm14Abs.abs_nodes cbm st).
Proof. exact Cbm14RefHist.store_unmerge_inverse_nodes. Qed.
Print Assumptions C14_store_unmerge_inverse_nodes_partial.

(* snapshot; any operations not using that snapshot id (incl. further snapshots and rollbacks to them); rollback:
   every node of the combined graph is as it was *)
Theorem C14_store_rollback_nodes_partial : forall cbm id mid st hs st' hs',
  Cbm14RefHist.NSim cbm st hs ->
  Cbm14RefHist.pre_run cbm st hs (Cbm14Check.OpSnap id :: mid ++ [Cbm14Check.OpRollback id]) ->
  Cbm14RefHist.sim_run cbm st hs (Cbm14Check.OpSnap id :: mid ++ [Cbm14Check.OpRollback id]) = Some (st', hs') ->
  forallb (fun o => negb (Cbm14RefHist.otouches id o)) mid = true ->
  forall k, getn k (Cbm14Abs.abs_nodes cbm st') = getn k (Cbm14Abs.abs_nodes cbm st).
Proof. exact Cbm14RefHist.store_rollback_nodes. Qed.
Print Assumptions C14_store_rollback_nodes_partial.

(* merging the same delegation models in two orders (each merge under its own fresh temporary id) gives combined
   graphs with equivalent nodes; the sources must satisfy the frame invariant Good (decidable: goodb) and be
   pairwise compatible (the abstract hypothesis of C14_order_independent, on their abstractions) *)
Theorem C14_store_order_independent_nodes_partial : forall cbm st hs l1 l2 st1 hs1 st2 hs2,
  Cbm14RefHist.NSim cbm st hs ->
  Permutation (map fst l1) (map fst l2) -> ~ In cbm (map fst l1) ->
  (forall a, In a (map fst l1) -> Cbm14Store.gexists a st = true /\ Cbm14Frame.Good a st) ->
  pairwise_compatible (Cbm14RefOrder.adms_of st l1) ->
  Cbm14RefHist.pre_run cbm st hs (Cbm14RefOrder.mops l1) ->
  Cbm14RefHist.sim_run cbm st hs (Cbm14RefOrder.mops l1) = Some (st1, hs1) ->
  Cbm14RefHist.pre_run cbm st hs (Cbm14RefOrder.mops l2) ->
  Cbm14RefHist.sim_run cbm st hs (Cbm14RefOrder.mops l2) = Some (st2, hs2) ->
  forall k, opt_rel eqv_node (getn k (Cbm14Abs.abs_nodes cbm st1)) (getn k (Cbm14Abs.abs_nodes cbm st2)).
Proof. exact Cbm14RefOrder.store_order_independent_nodes. Qed.
Print Assumptions C14_store_order_independent_nodes_partial.

(* ---- FULL refinement for the other operations and for whole histories (nodes AND connections) ---- *)
Theorem C14_unmerge_refines : forall cbm g st,
  Cbm14RefBase.J (Cbm14Store.s_next st) (Cbm14Store.s_nodes st) ->
  Cbm14Frame.ebelow (Cbm14Store.s_next st) (Cbm14Store.s_edges st) ->
  Cbm14RefUnmerge.cbm_ok cbm (Cbm14Store.s_nodes st) -> Cbm14Store.gexists cbm st = true ->
  exists st', Cbm14Store.unmerge_adm cbm g st = Cbm14Store.OOk st' /\
              eqv (Cbm14Abs.abs_cbm cbm st') (sunmerge (Cbm14Abs.abs_cbm cbm st) g).
Proof. exact (fun cbm g st J _ => Cbm14RefFull.unmerge_refines cbm g st J). Qed.
Print Assumptions C14_unmerge_refines.

Theorem C14_snapshot_refines : forall cbm new st,
  Cbm14RefBase.J (Cbm14Store.s_next st) (Cbm14Store.s_nodes st) ->
  Cbm14Frame.ebelow (Cbm14Store.s_next st) (Cbm14Store.s_edges st) ->
  Cbm14Store.gexists cbm st = true -> Cbm14Store.gexists new st = false ->
  exists st', Cbm14Store.snapshot cbm new st = Cbm14Store.OOk st' /\
              eqv (Cbm14Abs.abs_cbm new st') (Cbm14Abs.abs_cbm cbm st) /\
              eqv (Cbm14Abs.abs_cbm cbm st') (Cbm14Abs.abs_cbm cbm st).
Proof. exact Cbm14RefFull.snapshot_refines. Qed.
Print Assumptions C14_snapshot_refines.

Theorem C14_rollback_refines : forall cbm sid st,
  Cbm14RefBase.J (Cbm14Store.s_next st) (Cbm14Store.s_nodes st) ->
  Cbm14Frame.ebelow (Cbm14Store.s_next st) (Cbm14Store.s_edges st) ->
  sid <> cbm -> Cbm14Store.gexists sid st = true ->
  exists st', Cbm14Store.rollback cbm sid st = Cbm14Store.OOk st' /\
              eqv (Cbm14Abs.abs_cbm cbm st') (Cbm14Abs.abs_cbm sid st).
Proof. exact (fun cbm sid st J _ => Cbm14RefFull.rollback_refines cbm sid st J). Qed.
Print Assumptions C14_rollback_refines.

(* simulation of whole histories by the abstract model WITH connections (a merged source enters as abs_adm adm st);
   documented domain fpre_run = pre_run + every merged source is mergeable (decidable mergeableb: well-formed
   abstraction, no self-loop; evaluated for every source of every correspondence case) *)
Theorem C14_store_simulates : forall cbm ops st hs st' hs',
  Cbm14RefFull.FSim cbm st hs -> Cbm14RefFull.fpre_run cbm st hs ops ->
  Cbm14RefFull.fsim_run cbm st hs ops = Some (st', hs') ->
  Cbm14RefFull.FSim cbm st' hs' /\ hs' = hrun hs (Cbm14RefFull.fhops_run cbm st ops).
Proof. exact Cbm14RefFull.fsim_run_ok. Qed.
Print Assumptions C14_store_simulates.

Theorem C14_store_simulation_starts_full : forall cbm st,
  Cbm14RefBase.J (Cbm14Store.s_next st) (Cbm14Store.s_nodes st) ->
  Cbm14Frame.ebelow (Cbm14Store.s_next st) (Cbm14Store.s_edges st) ->
  Cbm14Store.gexists cbm st = false -> Cbm14RefFull.FSim cbm st hinit.
Proof. exact Cbm14RefFull.fsim_init. Qed.
Print Assumptions C14_store_simulation_starts_full.

(* in every reachable state the abstraction of the combined graph is (equivalent to) the abstract combined model *)
Theorem C14_store_is_abstract : forall cbm st hs,
  Cbm14RefFull.FSim cbm st hs -> eqv (Cbm14Abs.abs_cbm cbm st) (h_cur hs).
Proof. exact Cbm14RefFull.fsim_eqv. Qed.
Print Assumptions C14_store_is_abstract.

(* unmerge is the inverse of merge ON THE STORE MODEL: merge_adm followed by unmerge_adm of the same model restores
   the combined graph, nodes and connections - provided the merged model brings no connection between two elements
   already there (no_new_inner_edges, on the abstractions).  That hypothesis is exactly known finding F2. *)
Theorem C14_store_unmerge_inverse_partial : forall cbm adm tmp st hs st1 st2,
  Cbm14RefFull.FSim cbm st hs -> Cbm14RefFull.fpre cbm (Cbm14Check.OpMerge adm tmp) st hs ->
  no_new_inner_edges (Cbm14Abs.abs_cbm cbm st) (Cbm14Abs.abs_adm adm st) ->
  Cbm14Store.merge_adm cbm adm tmp st = Cbm14Store.OOk st1 -> Cbm14Store.unmerge_adm cbm adm st1 = Cbm14Store.OOk st2 ->
  eqv (Cbm14Abs.abs_cbm cbm st2) (Cbm14Abs.abs_cbm cbm st).
Proof. exact Cbm14RefFull.store_unmerge_inverse. Qed.
Print Assumptions C14_store_unmerge_inverse_partial.

Theorem C14_store_rollback : forall cbm id mid st hs st' hs',
  Cbm14RefFull.FSim cbm st hs ->
  Cbm14RefFull.fpre_run cbm st hs (Cbm14Check.OpSnap id :: mid ++ [Cbm14Check.OpRollback id]) ->
  Cbm14RefFull.fsim_run cbm st hs (Cbm14Check.OpSnap id :: mid ++ [Cbm14Check.OpRollback id]) = Some (st', hs') ->
  forallb (fun o => negb (Cbm14RefHist.otouches id o)) mid = true ->
  eqv (Cbm14Abs.abs_cbm cbm st') (Cbm14Abs.abs_cbm cbm st).
Proof. exact Cbm14RefFull.store_rollback. Qed.
Print Assumptions C14_store_rollback.

Theorem C14_store_order_independent : forall cbm st hs l1 l2 st1 hs1 st2 hs2,
  Cbm14RefFull.FSim cbm st hs ->
  Permutation (map fst l1) (map fst l2) -> ~ In cbm (map fst l1) ->
  (forall a, In a (map fst l1) -> Cbm14Store.gexists a st = true /\ Cbm14Frame.Good a st) ->
  pairwise_compatible (Cbm14RefFull.fadms_of st l1) ->
  Cbm14RefFull.fpre_run cbm st hs (Cbm14RefOrder.mops l1) ->
  Cbm14RefFull.fsim_run cbm st hs (Cbm14RefOrder.mops l1) = Some (st1, hs1) ->
  Cbm14RefFull.fpre_run cbm st hs (Cbm14RefOrder.mops l2) ->
  Cbm14RefFull.fsim_run cbm st hs (Cbm14RefOrder.mops l2) = Some (st2, hs2) ->
  eqv (Cbm14Abs.abs_cbm cbm st1) (Cbm14Abs.abs_cbm cbm st2).
Proof. exact Cbm14RefFull.store_order_independent. Qed.
Print Assumptions C14_store_order_independent.

(* ---- REFUSALS, on the store-level model (which predicts the partial effects too: Cbm14Check.step_o replays the
   recorded order in which the code met the common nodes).  The property wants a refusal to change nothing; the
   code falls short three times (known findings F5, F6, F7, each replayed on the implementation):
   FULL statement: step_o cbm o ord st = OErr e st' -> st' = st  (for merges and rollbacks) ---- *)
Theorem C14_refused_merge_not_atomic_refuted :
  exists st', Cbm14Check.step_o 0 (Cbm14Check.OpMerge 2 101) [11; 10] Cbm14Refusal.rf_merged = Cbm14Store.OErr Cbm14Store.EPGQ st' /\
              Cbm14Store.view_of 0 st' <> Cbm14Store.view_of 0 Cbm14Refusal.rf_merged /\ Cbm14Store.gexists 101 st' = true /\
              exists st'', Cbm14Check.step_o 0 (Cbm14Check.OpMerge 2 101) [10; 11] Cbm14Refusal.rf_merged = Cbm14Store.OErr Cbm14Store.EPGQ st'' /\
                           Cbm14Store.view_of 0 st'' = Cbm14Store.view_of 0 Cbm14Refusal.rf_merged /\
                           Cbm14Store.gexists 101 st'' = true.
Proof. exact Cbm14Refusal.refused_merge_not_atomic. Qed.
Print Assumptions C14_refused_merge_not_atomic_refuted.

Theorem C14_remerge_not_refused_refuted :
  exists s1 s2 s3, Cbm14Store.merge_adm 0 1 100 Cbm14Refusal.rm_store = Cbm14Store.OOk s1 /\
                   Cbm14Store.merge_adm 0 1 101 s1 = Cbm14Store.OOk s2 /\
                   map Cbm14Store.n_si (Cbm14Store.of_gid 0 s2) = [Cbm14Store.SIds [1; 1]; Cbm14Store.SIds [1; 1]] /\
                   Cbm14Store.unmerge_adm 0 1 s2 = Cbm14Store.OOk s3 /\
                   map Cbm14Store.n_si (Cbm14Store.of_gid 0 s3) = [Cbm14Store.SIds [1]; Cbm14Store.SIds [1]].
Proof. exact Cbm14Refusal.remerge_not_refused. Qed.
Print Assumptions C14_remerge_not_refused_refuted.

Theorem C14_rollback_unknown_destroys_refuted :
  exists s1 s2, Cbm14Store.merge_adm 0 1 100 Cbm14Refusal.rm_store = Cbm14Store.OOk s1 /\ Cbm14Store.gexists 0 s1 = true /\
                Cbm14Store.rollback_gen false 0 55 s1 = Cbm14Store.OErr Cbm14Store.EAssert s2 /\
                Cbm14Store.gexists 0 s2 = false.
Proof. exact Cbm14Refusal.rollback_unknown_destroys. Qed.
Print Assumptions C14_rollback_unknown_destroys_refuted.

(* the full statement for the REPAIRED statement order of ABCCBMPropertyGraph.rollback (snapshot looked up before the
   combined graph deletes itself): rollback to an unknown or already used snapshot id is refused and changes nothing.
   Which order the code has is read from the source on every run (translator/gen_cbm14.py): *)
Theorem C14_rollback_unknown_refused : forall cbm sid st,
  Cbm14Store.gexists sid st = false ->
  Cbm14Store.rollback_gen true cbm sid st = Cbm14Store.OErr Cbm14Store.EAssert st.
Proof. exact Cbm14Refusal.rollback_unknown_refused. Qed.
Print Assumptions C14_rollback_unknown_refused.

Theorem C14_translated : Gen.Cbm14Gen.gen_ok = true.
Proof. exact Cbm14Refusal.gen_ok_true. Qed.
Print Assumptions C14_translated.

Theorem C14_rollback_follows_source :
  Cbm14Store.rollback = Cbm14Store.rollback_gen Gen.Cbm14Gen.rollback_checks_first.
Proof. exact Cbm14Refusal.rollback_follows_source. Qed.
Print Assumptions C14_rollback_follows_source.

(* ---- non-vacuity ---- *)
Example C14_ex_consistent_family : consistent [A1; A2; A3] /\ Forall wf_adm [A1; A2; A3].
Proof. exact fam_A_consistent. Qed.
Example C14_ex_order :
  exists C C', merge_all [A1; A2; A3] = Some C /\ merge_all [A3; A2; A1] = Some C' /\
               getn 10 (nodes C) = Some (mkC 1 [(5, 6)] [1; 2] (Some (2, 7)) None) /\
               getn 10 (nodes C') = Some (mkC 1 [(5, 6)] [2; 1] (Some (2, 7)) None).
Proof. exact ex_order. Qed.
Example C14_ex_unmerge :
  wf_cbm CA1 /\ wf_adm A2 /\ not_contributor (adm_id A2) CA1 /\ no_new_inner_edges CA1 A2 /\
  exists C', smerge CA1 A2 = Some C' /\ hasn 13 (nodes C') = true /\ hasn 13 (nodes (sunmerge C' 2)) = false /\
             gete (10, 11) (edges C') = Some (4, []).
Proof. exact ex_unmerge. Qed.
Example C14_ex_double_speaker : smerge CA1 D2 = None.
Proof. exact ex_double_speaker. Qed.
Example C14_ex_history :
  Forall op_wf ex_ops /\
  map fst (nodes (h_cur (hrun hinit ex_ops))) = [10; 11; 12; 13; 14] /\ map adm_id (h_ms (hrun hinit ex_ops)) = [1; 3].
Proof. exact ex_history. Qed.
Example C14_ex_rollback :
  hasn 100 (h_snaps (hrun hinit [HMerge A1])) = false /\
  forallb (fun o => negb (touches 100 o)) [HMerge A2; HSnap 101; HUnmerge 1; HRollback 101; HMerge A3] = true /\
  nodes (h_cur (hrun (hstep (hrun hinit [HMerge A1]) (HSnap 100)) [HMerge A2; HSnap 101; HUnmerge 1; HRollback 101; HMerge A3]))
    <> nodes (h_cur (hrun hinit [HMerge A1])).
Proof. exact ex_rollback. Qed.
Example C14_ex_sources_untouched :
  Cbm14Store.goodb 1 Cbm14Frame.ex_store = true /\ Cbm14Store.goodb 2 Cbm14Frame.ex_store = true /\
  Forall (Cbm14Frame.outside 0 1) Cbm14Frame.ex_sops /\ Forall (Cbm14Frame.outside 0 2) Cbm14Frame.ex_sops /\
  exists st', Cbm14Frame.run 0 Cbm14Frame.ex_store Cbm14Frame.ex_sops = Some st' /\
              map Cbm14Store.n_nid (Cbm14Store.of_gid 0 st') = [10; 11] /\
              map Cbm14Store.n_si (Cbm14Store.of_gid 0 st') = [Cbm14Store.SIds [1]; Cbm14Store.SIds [1]].
Proof. exact Cbm14Frame.ex_frame. Qed.
Example C14_ex_two_snapshots :
  let s1 := hrun hinit [HMerge A1] in
  let s2 := hrun hinit [HMerge A1; HSnap 100; HMerge A2] in
  let mid := [HMerge A2; HSnap 101; HMerge A3] in
  forallb (fun o => negb (touches 100 o)) mid = true /\
  h_cur (hrun hinit ([HMerge A1; HSnap 100] ++ mid ++ [HRollback 100])) = h_cur s1 /\
  h_cur (hrun hinit ([HMerge A1; HSnap 100] ++ mid ++ [HRollback 101])) = h_cur s2 /\
  h_cur (hrun hinit ([HMerge A1; HSnap 100] ++ mid ++ [HRollback 101; HRollback 100])) = h_cur s1 /\
  nodes (h_cur s1) <> nodes (h_cur s2).
Proof. exact ex_two_snapshots. Qed.
Example C14_ex_refinement :
  Cbm14Abs.rgoodb 0 Cbm14Frame.ex_store = true /\ Cbm14Store.gexists 0 Cbm14Frame.ex_store = false /\
  Cbm14RefHist.pre_run 0 Cbm14Frame.ex_store hinit Cbm14Frame.ex_sops /\
  exists st' hs', Cbm14RefHist.sim_run 0 Cbm14Frame.ex_store hinit Cbm14Frame.ex_sops = Some (st', hs') /\
                  map adm_id (h_ms hs') = [1] /\ map fst (nodes (h_cur hs')) = [10; 11] /\
                  map Cbm14Store.n_nid (Cbm14Store.of_gid 0 st') = [10; 11].
Proof. exact Cbm14RefHist.ex_refine. Qed.
Example C14_ex_store_order :
  let l1 := [(1, 100); (2, 101)] in let l2 := [(2, 100); (1, 101)] in
  Cbm14RefHist.NSim 0 Cbm14Frame.ex_store hinit /\ Permutation (map fst l1) (map fst l2) /\ ~ In 0 (map fst l1) /\
  (forall a, In a (map fst l1) -> Cbm14Store.gexists a Cbm14Frame.ex_store = true /\ Cbm14Frame.Good a Cbm14Frame.ex_store) /\
  pairwise_compatible (Cbm14RefOrder.adms_of Cbm14Frame.ex_store l1) /\
  Cbm14RefHist.pre_run 0 Cbm14Frame.ex_store hinit (Cbm14RefOrder.mops l1) /\
  Cbm14RefHist.pre_run 0 Cbm14Frame.ex_store hinit (Cbm14RefOrder.mops l2) /\
  exists st1 hs1 st2 hs2, Cbm14RefHist.sim_run 0 Cbm14Frame.ex_store hinit (Cbm14RefOrder.mops l1) = Some (st1, hs1) /\
                          Cbm14RefHist.sim_run 0 Cbm14Frame.ex_store hinit (Cbm14RefOrder.mops l2) = Some (st2, hs2) /\
                          map Cbm14Store.n_si (Cbm14Store.of_gid 0 st1) =
                            [Cbm14Store.SIds [1; 2]; Cbm14Store.SIds [1; 2]; Cbm14Store.SIds [2]] /\
                          map Cbm14Store.n_si (Cbm14Store.of_gid 0 st2) =
                            [Cbm14Store.SIds [2; 1]; Cbm14Store.SIds [2; 1]; Cbm14Store.SIds [2]].
Proof. exact Cbm14RefOrder.ex_order_store. Qed.
Example C14_ex_full_refinement :
  Cbm14Abs.rgoodb 0 Cbm14Frame.ex_store = true /\ Cbm14Store.goodb 1 Cbm14Frame.ex_store = true /\
  Cbm14Store.gexists 0 Cbm14Frame.ex_store = false /\
  Cbm14RefFull.fpre_run 0 Cbm14Frame.ex_store hinit Cbm14Frame.ex_sops /\
  exists st' hs', Cbm14RefFull.fsim_run 0 Cbm14Frame.ex_store hinit Cbm14Frame.ex_sops = Some (st', hs') /\
                  map adm_id (h_ms hs') = [1] /\ map fst (edges (h_cur hs')) = [(10, 11)] /\
                  map fst (Cbm14Abs.abs_edges 0 st') = [(10, 11)].
Proof. exact Cbm14RefFull.ex_full. Qed.
