(* C03 - attribute value codecs are lossless, canonical and never mutate their input.
   Only statements; each is closed by `exact` of a lemma from Base/JsonRT.v or Proofs/Codec*.v.

   The model (Model/CodecField.v, Model/CodecMisc.v over Base/Json.v) is parameterised by the REGENERATED
   class table Gen/CodecGen.v and by the validators (V: label regexes/lambdas, VT: tag pattern, VISO:
   datetime.fromisoformat), which stay universally quantified: the theorems hold whatever they accept.
   Encoders and decoders work on the TEXT (jprint/jparse are the models of json.dumps/json.loads).
   `_partial` = extra hypothesis excluding exactly a recorded finding; `_refuted` = the full statement fails,
   with a witness that the harness replays on the implementation.  The model follows /repo after the fix: commits
   eb213ea (Location), a836d08 (from_json skips unknown keys first), 9b14727 (PathInfo/ERO nothing set => ''),
   9153c3e (MaintenanceInfo.from_json ignores unknown entry fields), 450b7bb (Gateway.from_json: no labels => absent), 2623e10 (update copies lists). *)
From Coq Require Import String List NArith ZArith Bool Permutation.
From FIM Require Import Base.Str Base.Json Base.JsonRT Gen.CodecGen Model.CodecField Model.CodecMisc Model.CodecWf
     Model.CodecChk Proofs.CodecAssoc Proofs.CodecTables Proofs.CodecFieldRT Proofs.CodecMiscRT.
Import ListNotations.

(* ---------------------------------------------------------------- tables *)
Theorem C03_translated : codec_gen_ok = true.
Proof. exact codec_gen_ok_true. Qed.
Print Assumptions C03_translated.

Theorem C03_enumerations_match_source :
  path_type_names = ptype_names /\ maint_state_names = mstate_names /\
  maint_entry_fields = ["state"; "deadline"; "expected_end"]%string /\
  gen_class_names = ["Capacities"; "CapacityHints"; "Labels"; "ReservationInfo"; "StructuralInfo"; "Location"; "Flags"]%string /\
  jsondata_names = ["MeasurementData"; "UserData"; "LayoutData"]%string.
Proof. exact codec_enums_match. Qed.
Print Assumptions C03_enumerations_match_source.

Theorem C03_classes_wellformed : forall V c, In c gen_classes -> cls_ok V c = true.
Proof. exact classes_ok. Qed.
Print Assumptions C03_classes_wellformed.

(* ---------------------------------------------------------------- JSON text level *)
(* json.loads (json.dumps (v [, sort_keys])) = v [with sorted keys], for every value without lone surrogates,
   with float tokens the scanner reads back and pairwise distinct dict keys; unbounded nesting *)
Theorem C03_json_text_roundtrip : forall b v, jwfb v = true ->
  jparse (jdumps b v) = Some (if b then jsort v else v).
Proof. exact jparse_jdumps. Qed.
Print Assumptions C03_json_text_roundtrip.

Theorem C03_json_sorted_form_wellformed : forall v, jwfb v = true -> jwfb (jsort v) = true.
Proof. exact jwfb_jsort. Qed.
Print Assumptions C03_json_sorted_form_wellformed.

(* ---------------------------------------------------------------- the JSONField family *)
(* lossless: decode (encode x) = x; a value with nothing to encode becomes '' and is read back as absent
   (Flags, which overrides to_json, is always encoded in full) *)
Theorem C03_field_roundtrip : forall V c o, In c gen_classes -> wf_obj V c o = true ->
  from_json V c (Some (to_json c o)) = Ok (if nothing_kept c o && jc_json_blank c then None else Some o).
Proof. exact (fun V c o H => field_roundtrip V c o (classes_ok V c H)). Qed.
Print Assumptions C03_field_roundtrip.

(* canonical: re-encoding the decoded value gives the identical text *)
Theorem C03_field_canonical : forall V c o y, In c gen_classes -> wf_obj V c o = true ->
  from_json V c (Some (to_json c o)) = Ok (Some y) -> to_json c y = to_json c o.
Proof. exact (fun V c o y H W => field_canonical_all V c o y (classes_ok V c H) (norm_stable_ok c H) (wf_semi V c o W)). Qed.
Print Assumptions C03_field_canonical.

(* wf_obj excludes a value only if the encoder drops it; that exclusion is harmless exactly when every accepted
   value the encoder drops IS the default -- true of every regenerated class but Capacities (next three).
   This is the obligation that a `== 0` drop rule on a float-valued class (Location before eb213ea) breaks. *)
Theorem C03_drop_rule_lossless : forall c, In c gen_classes -> jc_name c <> n_capacities -> lossless_cls c = true.
Proof. exact drop_rule_lossless. Qed.
Print Assumptions C03_drop_rule_lossless.

Theorem C03_capacities_drop_rule_lossless_partial :
  In cls_Capacities gen_classes /\ jc_name cls_Capacities = n_capacities /\
  lossless_cls_but [JNull; JBool false] cls_Capacities = true.
Proof. exact capacities_lossless_partial. Qed.
Print Assumptions C03_capacities_drop_rule_lossless_partial.

(* FULL: lossless_cls cls_Capacities = true.  Refuted: Capacities(core=None, ram=1) reads back with core = 0
   (False, also accepted and dropped, reads back as 0, which Python considers equal). *)
Theorem C03_capacities_none_refuted :
  exists kw o o', construct VA cls_Capacities kw = Ok o
    /\ from_json VA cls_Capacities (Some (to_json cls_Capacities o)) = Ok (Some o')
    /\ json_eqb (JObj o) (JObj o') = false.
Proof. exact capacities_none_refuted. Qed.
Print Assumptions C03_capacities_none_refuted.

(* forward compatibility, full strength: a text decodes exactly as its known part -- unknown keys, whatever their
   values (and whether or not they are attribute names of the class), are ignored and no known key is dropped *)
Theorem C03_field_forward_compat : forall V c t d, jparse t = Some (JObj d) -> absent_text t = false ->
  from_json V c (Some t) = some_res (of_dict V c (filter (known_key c) d)).
Proof. exact field_forward_compat. Qed.
Print Assumptions C03_field_forward_compat.

Theorem C03_field_forward_compat_same_known_part : forall V c t t' d d',
  jparse t = Some (JObj d) -> jparse t' = Some (JObj d') -> absent_text t = false -> absent_text t' = false ->
  filter (known_key c) d' = filter (known_key c) d -> from_json V c (Some t') = from_json V c (Some t).
Proof. exact field_forward_compat_same. Qed.
Print Assumptions C03_field_forward_compat_same_known_part.

Theorem C03_field_forward_compat_value : forall V c o t d, In c gen_classes -> wf_obj V c o = true ->
  jparse t = Some (JObj d) -> absent_text t = false ->
  Permutation (filter (known_key c) d) (kept (jc_json_drop c) o) ->
  from_json V c (Some t) = Ok (Some o).
Proof. exact (fun V c o t d H => field_forward_compat_value V c o t d (classes_ok V c H)). Qed.
Print Assumptions C03_field_forward_compat_value.

(* copy-with-changes: same fields in the same order, the named ones replaced, every other one taken from the
   original; all new values were accepted by the class.  (That the ORIGINAL OBJECT is untouched is an aliasing
   fact a pure model cannot state; it is checked on every run by before/after snapshots in the field stream.) *)
Theorem C03_update_spec : forall V c o kw y, NoDup (map fst kw) -> update V c o kw = Ok y ->
  map fst y = map fst o
  /\ (forall k, aget k y = match aget k kw with Some v => Some v | None => aget k o end)
  /\ (forall k v, In (k, v) kw -> ahas k o = true /\ elem_ok V c k v = true).
Proof. exact update_spec. Qed.
Print Assumptions C03_update_spec.

(* the original is independent of the result (2623e10: list-valued fields are copied).  In a pure model this is by
   construction; the field stream grows every list of the RESULT in place and re-reads the ORIGINAL on every run, and
   checks `result is not original` also for update() without (effective) changes *)
Theorem C03_update_original_independent : forall o kw marker, orig_after_result_lists_grow o kw marker = o.
Proof. exact update_original_independent. Qed.
Print Assumptions C03_update_original_independent.

Theorem C03_update_without_changes_is_copy : forall V c o, update V c o [] = Ok o.
Proof. exact update_nil. Qed.
Print Assumptions C03_update_without_changes_is_copy.

(* ---------------------------------------------------------------- Tags, JSONData, Gateway *)
Theorem C03_tags_roundtrip : forall VT t, tags_wf VT t = true -> tags_from_json VT (Some (tags_to_json t)) = Ok (Some t).
Proof. exact tags_roundtrip. Qed.
Print Assumptions C03_tags_roundtrip.

Theorem C03_tags_canonical : forall VT t u, tags_wf VT t = true ->
  tags_from_json VT (Some (tags_to_json t)) = Ok (Some u) -> tags_to_json u = tags_to_json t.
Proof. exact tags_canonical. Qed.
Print Assumptions C03_tags_canonical.

Theorem C03_tags_constructed_are_valid : forall VT args t, tags_make VT args = Ok t -> forallb VT t = true.
Proof. exact tags_make_valid. Qed.
Print Assumptions C03_tags_constructed_are_valid.

(* the stored text is kept verbatim: re-reading it gives the identical text and the same value *)
Theorem C03_jsondata_roundtrip : forall mx exn i t, (2 <= mx)%N -> jd_input_wf i = true -> jd_make mx exn i = Ok t ->
  jd_make mx exn (JDText (jd_json t)) = Ok t /\ jd_data t = jd_value i /\ jd_data t <> None.
Proof. exact jd_roundtrip. Qed.
Print Assumptions C03_jsondata_roundtrip.

Theorem C03_jsondata_limits : forallb (fun x => (2 <=? snd (fst x))%N) jsondata_classes = true.
Proof. exact jsondata_limits_ok. Qed.
Print Assumptions C03_jsondata_limits.

Theorem C03_gateway_constructor_idempotent : forall V l g, gw_make V (Some l) = Ok (Some g) -> gw_make V (Some g) = Ok (Some g).
Proof. exact gw_make_idempotent. Qed.
Print Assumptions C03_gateway_constructor_idempotent.

Theorem C03_gateway_roundtrip : forall V g, wf_obj V cls_Labels g = true -> nothing_kept cls_Labels g = false ->
  gw_make V (Some g) = Ok (Some g) -> gw_from_json V (gw_to_json (Some g)) = Ok (Some (Some g)).
Proof. exact (fun V g => gw_roundtrip V g (classes_ok_labels V)). Qed.
Print Assumptions C03_gateway_roundtrip.

(* nothing recorded reads back as ABSENT (450b7bb), never as an empty Gateway object *)
Theorem C03_gateway_nothing_set_is_absent : forall V,
  gw_to_json None = None /\ gw_from_json V None = Ok None /\ gw_from_json V (Some []) = Ok None.
Proof. exact gw_none_roundtrip. Qed.
Print Assumptions C03_gateway_nothing_set_is_absent.

Theorem C03_gateway_absent_labels_absent_gateway : forall V t, from_json V cls_Labels t = Ok None -> gw_from_json V t = Ok None.
Proof. exact gw_absent_labels_absent_gateway. Qed.
Print Assumptions C03_gateway_absent_labels_absent_gateway.

Theorem C03_gateway_decoded_has_labels : forall V t g, gw_from_json V t = Ok (Some g) -> g <> None.
Proof. exact gw_decoded_has_labels. Qed.
Print Assumptions C03_gateway_decoded_has_labels.

(* ---------------------------------------------------------------- PathInfo / ERO *)
(* pinfo_wf: everything the constructor and set() build, set() called or not; nothing set => '' => absent *)
Theorem C03_pathinfo_roundtrip : forall ero p, pinfo_wf ero p = true ->
  exists s, pi_to_json p = Ok s /\ pi_from_json ero (Some s) = Ok (if pinfo_nothing p then None else Some p).
Proof. exact pi_roundtrip. Qed.
Print Assumptions C03_pathinfo_roundtrip.

Theorem C03_pathinfo_nothing_set_is_empty_text : forall p, pinfo_nothing p = true -> pi_to_json p = Ok [].
Proof. exact pi_unset_empty. Qed.
Print Assumptions C03_pathinfo_nothing_set_is_empty_text.

Theorem C03_pathinfo_canonical : forall ero p q s, pinfo_wf ero p = true -> pi_to_json p = Ok s ->
  pi_from_json ero (Some s) = Ok (Some q) -> pi_to_json q = Ok s.
Proof. exact pi_canonical. Qed.
Print Assumptions C03_pathinfo_canonical.

Theorem C03_pathinfo_forward_compat : forall ero d d',
  (forall k, In k [k_type; k_payload; k_strict] -> aget k d' = aget k d) ->
  pi_of_jv ero (JObj d') = pi_of_jv ero (JObj d).
Proof. exact pi_forward_compat. Qed.
Print Assumptions C03_pathinfo_forward_compat.

(* ---------------------------------------------------------------- MaintenanceInfo *)
(* "a finalized maintenance record cannot be altered": induction over all operation sequences *)
Theorem C03_maint_finalized_immutable : forall ops m, mi_lock m = true ->
  fst (mrun m ops) = m /\ Forall2 (fun o r => mutating o = true -> r = RErr e_maint) ops (snd (mrun m ops)).
Proof. exact maint_finalized_immutable. Qed.
Print Assumptions C03_maint_finalized_immutable.

(* copy(): unfinalized, same entries; nothing done to the copy reaches the original; a finalized original survives
   every mixed history over itself and its copies (pure model: by construction -- the aliasing teeth are in the tie:
   the maint stream re-observes the ORIGINAL's entries and encoding after every operation on the copy) *)
Theorem C03_maint_copy_spec : forall m, mi_nodes (mi_copy m) = mi_nodes m /\ mi_lock (mi_copy m) = false.
Proof. exact maint_copy_spec. Qed.
Print Assumptions C03_maint_copy_spec.

Theorem C03_maint_copy_independent : forall ops s, forallb (fun o => negb (on_original o)) ops = true ->
  fst (fst (mrun2 s ops)) = fst s.
Proof. exact (fun ops s H => mrun2_original_kept ops s (or_intror H)). Qed.
Print Assumptions C03_maint_copy_independent.

Theorem C03_maint_finalized_immutable_with_copies : forall ops s, mi_lock (fst s) = true ->
  fst (fst (mrun2 s ops)) = fst s.
Proof. exact (fun ops s L => mrun2_original_kept ops s (or_introl L)). Qed.
Print Assumptions C03_maint_finalized_immutable_with_copies.

Theorem C03_maint_roundtrip : forall VISO m, minfo_wf VISO m = true -> mi_lock m = true ->
  exists s, mi_to_json m = Ok s /\ mi_from_json VISO (Some s) = Ok (Some m).
Proof. exact maint_roundtrip. Qed.
Print Assumptions C03_maint_roundtrip.

Theorem C03_maint_decoded_is_finalized : forall VISO t m, mi_from_json VISO t = Ok (Some m) -> mi_lock m = true.
Proof. exact maint_decoded_is_finalized. Qed.
Print Assumptions C03_maint_decoded_is_finalized.

Theorem C03_maint_forward_compat_extra_node : forall VISO d n v l e, mentries_of VISO d = Ok l ->
  mentry_of_jv VISO v = Ok e -> mentries_of VISO (d ++ [(n, v)]) = Ok (l ++ [(n, e)]).
Proof. exact maint_extra_node. Qed.
Print Assumptions C03_maint_forward_compat_extra_node.

Theorem C03_maint_forward_compat_entry_fields : forall VISO d d',
  (forall k, In k [k_state; k_deadline; k_end] -> aget k d' = aget k d) ->
  mentry_of_jv VISO (JObj d') = mentry_of_jv VISO (JObj d).
Proof. exact maint_entry_forward_compat. Qed.
Print Assumptions C03_maint_forward_compat_entry_fields.

(* ---------------------------------------------------------------- legacy typed tuples *)
Theorem C03_tuple_vocabulary_ok : tuple_vocab_ok = true.
Proof. exact tuple_vocab_ok_true. Qed.
Print Assumptions C03_tuple_vocabulary_ok.

Theorem C03_tuple_roundtrip_partial : forall cat t, tuple_vocab_ok = true -> ttuple_wf cat t = true ->
  tval_plain (tt_val t) = true -> tt_fromstring cat (tt_string t) = Ok t.
Proof. exact tt_roundtrip_partial. Qed.
Print Assumptions C03_tuple_roundtrip_partial.

(* FULL: the same for every value.  Refuted for int values (read back as str; text stays canonical) and for
   values with trailing whitespace (strip()). *)
Theorem C03_tuple_int_value_refuted : exists cat t u, ttuple_wf cat t = true /\ tt_fromstring cat (tt_string t) = Ok u
  /\ u <> t /\ tt_string u = tt_string t.
Proof. exact tt_int_value_refuted. Qed.
Print Assumptions C03_tuple_int_value_refuted.

Theorem C03_tuple_trailing_space_refuted : exists cat t u, ttuple_wf cat t = true /\ tt_fromstring cat (tt_string t) = Ok u /\ u <> t.
Proof. exact tt_trailing_space_refuted. Qed.
Print Assumptions C03_tuple_trailing_space_refuted.

(* ---------------------------------------------------------------- decode side: accepted language, closure, idempotence *)
(* EXACTLY the texts a JSONField class decodes to a value: not absent, a JSON object (any whitespace and key order; a
   repeated key counts with its last value; unknown keys ignored) whose known members all carry a value the class accepts;
   the value is the defaults overwritten in text order by the known members.  A decoder that accepted more, or less, or
   built the value differently would make this statement false. *)
Theorem C03_field_accepted_language : forall V c t y,
  from_json V c (Some t) = Ok (Some y) <->
  absent_text t = false /\ exists d, jparse t = Some (JObj d)
    /\ (forall k v, In (k, v) (filter (known_key c) d) -> elem_ok V c k v = true)
    /\ y = aset_all (filter (known_key c) d) (jc_fields c).
Proof. exact field_decode_iff. Qed.
Print Assumptions C03_field_accepted_language.

(* everything decodable (from a text without lone surrogates whose member values hold no dict) is semi_wf: every field is
   the default or a value the class accepts *)
Theorem C03_field_decode_closed : forall V c t j y, In c gen_classes -> jparse t = Some j -> jwfb j = true ->
  flat_obj j = true -> from_json V c (Some t) = Ok (Some y) -> semi_wf V c y = true.
Proof. exact (fun V c t j y H => field_decode_closed V c t j y (classes_ok V c H)). Qed.
Print Assumptions C03_field_decode_closed.

(* encode / decode of ANY accepted value (also Capacities with None/False fields) gives the normalised value ... *)
Theorem C03_field_reencode_any_accepted_value : forall V c o, In c gen_classes -> semi_wf V c o = true ->
  from_json V c (Some (to_json c o)) = Ok (if nothing_kept c o && jc_json_blank c then None else Some (norm_obj c o)).
Proof. exact (fun V c o H => field_reencode V c o (classes_ok V c H)). Qed.
Print Assumptions C03_field_reencode_any_accepted_value.

(* ... so encode . decode . encode = encode for ALL of them (canonical text), *)
Theorem C03_field_canonical_any_accepted_value : forall V c o y, In c gen_classes -> semi_wf V c o = true ->
  from_json V c (Some (to_json c o)) = Ok (Some y) -> to_json c y = to_json c o.
Proof. exact (fun V c o y H => field_canonical_all V c o y (classes_ok V c H) (norm_stable_ok c H)). Qed.
Print Assumptions C03_field_canonical_any_accepted_value.

(* ... and decode t = y implies decode (encode y) = normalised y, which is y itself wherever the drop rule is lossless *)
Theorem C03_field_decode_reencode : forall V c t j y, In c gen_classes -> jparse t = Some j -> jwfb j = true ->
  flat_obj j = true -> from_json V c (Some t) = Ok (Some y) ->
  from_json V c (Some (to_json c y)) = Ok (if nothing_kept c y && jc_json_blank c then None else Some (norm_obj c y)).
Proof.
  exact (fun V c t j y H P J F D =>
           field_reencode V c y (classes_ok V c H) (field_decode_closed V c t j y (classes_ok V c H) P J F D)).
Qed.
Print Assumptions C03_field_decode_reencode.

Theorem C03_field_decode_reencode_lossless : forall V c t j y, In c gen_classes -> jc_name c <> n_capacities ->
  jparse t = Some j -> jwfb j = true -> flat_obj j = true -> from_json V c (Some t) = Ok (Some y) ->
  from_json V c (Some (to_json c y)) = Ok (if nothing_kept c y && jc_json_blank c then None else Some y).
Proof. exact (fun V c t j y H N => field_decode_reencode_lossless V c t j y (classes_ok V c H) (drop_rule_lossless c H N)). Qed.
Print Assumptions C03_field_decode_reencode_lossless.

Theorem C03_tags_decode_closed : forall VT t j l, jparse t = Some j -> jwfb j = true ->
  tags_from_json VT (Some t) = Ok (Some l) ->
  tags_wf VT l = true /\ tags_from_json VT (Some (tags_to_json l)) = Ok (Some l).
Proof. exact tags_decode_closed. Qed.
Print Assumptions C03_tags_decode_closed.

Theorem C03_jsondata_text_kept_verbatim : forall mx exn s t, jd_make mx exn (JDText s) = Ok t -> t = s /\ jparse s <> None.
Proof. exact jd_text_kept_verbatim. Qed.
Print Assumptions C03_jsondata_text_kept_verbatim.

(* PathInfo / ERO: whatever decodes (also an unknown type string, a Graph payload of any JSON kind) re-encodes to a text
   that decodes to the same value -- or to absent when the decoded value has nothing set ("payload": null) *)
Theorem C03_pathinfo_decode_reencode : forall ero j p, jwfb j = true -> pi_of_jv ero j = Ok (Some p) ->
  exists s, pi_to_json p = Ok s /\ pi_from_json ero (Some s) = Ok (if pinfo_nothing p then None else Some p).
Proof. exact pi_decode_reencode. Qed.
Print Assumptions C03_pathinfo_decode_reencode.

Theorem C03_maint_decode_closed : forall VISO j m, jwfb j = true -> mi_of_jv VISO j = Ok (Some m) ->
  minfo_wf VISO m = true /\ mi_lock m = true /\
  exists s, mi_to_json m = Ok s /\ mi_from_json VISO (Some s) = Ok (Some m).
Proof. exact maint_decode_closed. Qed.
Print Assumptions C03_maint_decode_closed.

Theorem C03_tuple_decode_closed : forall cat s t, tt_fromstring cat s = Ok t ->
  ttuple_wf cat t = true /\ tval_plain (tt_val t) = true.
Proof. exact tt_decode_closed. Qed.
Print Assumptions C03_tuple_decode_closed.

Theorem C03_tuple_decode_reencode : forall cat s t, tuple_vocab_ok = true -> tt_fromstring cat s = Ok t ->
  tt_fromstring cat (tt_string t) = Ok t.
Proof. exact (fun cat s t VO H => match tt_decode_closed cat s t H with conj W P => tt_roundtrip_partial cat t VO W P end). Qed.
Print Assumptions C03_tuple_decode_reencode.

(* ---------------------------------------------------------------- non-vacuity *)
Example C03_nonvacuous_decode_side :
  let t := S"{""zz"": [1], ""ram"": 1, ""core"": null,  ""ram"": 2}" in
  let y := aset (S"ram") (JInt 2) (aset (S"core") JNull (jc_fields cls_Capacities)) in
  from_json VA cls_Capacities (Some t) = Ok (Some y) /\ semi_wf VA cls_Capacities y = true /\
  wf_obj VA cls_Capacities y = false /\ norm_obj cls_Capacities y = aset (S"ram") (JInt 2) (jc_fields cls_Capacities) /\
  to_json cls_Capacities y = S"{""ram"": 2}" /\
  from_json VA cls_Capacities (Some (to_json cls_Capacities y)) = Ok (Some (norm_obj cls_Capacities y)).
Proof. vm_compute. repeat split. Qed.


Example C03_nonvacuous_json :
  let v := JObj [(S"b", JArr [JInt (-5); JFloat (S"0.0"); JNull; JObj [(S"z", JBool true); (S"a", JStr [233; 128512; 34; 10])]]);
                 (S"a", JFloat (S"1e+22"))] in
  jwfb v = true /\ jparse (jdumps true v) = Some (jsort v) /\ jsort v <> v.
Proof. vm_compute. repeat split; discriminate. Qed.

Example C03_nonvacuous_location :     (* lat = 0.0 is kept and read back *)
  let o := [(S"postal", JNull); (S"lat", JFloat (S"0.0")); (S"lon", JFloat (S"-78.6382"))] in
  In cls_Location gen_classes /\ wf_obj VA cls_Location o = true /\ nothing_kept cls_Location o = false /\
  to_json cls_Location o = S"{""lat"": 0.0, ""lon"": -78.6382}" /\
  from_json VA cls_Location (Some (to_json cls_Location o)) = Ok (Some o).
Proof. vm_compute. repeat split; auto 10. Qed.

Example C03_nonvacuous_labels_and_flags :
  let l := aset (S"vlan") (JArr [JStr (S"100"); JStr (S"200")]) (aset (S"local_name") (JStr []) (jc_fields cls_Labels)) in
  let f := jc_fields cls_Flags in
  wf_obj VA cls_Labels l = true /\ to_json cls_Labels l = S"{""local_name"": """", ""vlan"": [""100"", ""200""]}" /\
  wf_obj VA cls_Flags f = true /\ nothing_kept cls_Flags f = false /\
  wf_obj VA cls_Capacities (jc_fields cls_Capacities) = true /\ to_json cls_Capacities (jc_fields cls_Capacities) = [] /\
  from_json VA cls_Capacities (Some []) = Ok None.
Proof. vm_compute. repeat split. Qed.

Example C03_former_counterexamples_now_hold :
  from_json VA cls_Capacities (Some (S"{""core"": 2, ""gpu_model"": ""A100"", ""to_json"": [1]}"))
  = from_json VA cls_Capacities (Some (S"{""core"": 2}")) /\
  pinfo_wf false {| pi_type := Some PTPath; pi_payload := PLRaw JNull; pi_strict := None |} = true /\
  pi_to_json {| pi_type := Some PTPath; pi_payload := PLRaw JNull; pi_strict := Some false |} = Ok [] /\
  mentry_of_jv VISOA (JObj [(k_state, JStr (S"Maint")); (k_deadline, JNull); (k_end, JNull); (S"reason", JStr (S"x"))])
  = Ok {| me_state := Some MMaint; me_deadline := None; me_end := None |}.
Proof. vm_compute. repeat split. Qed.

Example C03_nonvacuous_others :
  tags_wf VTA [S"a"; S"tag-1"] = true /\
  pinfo_wf true {| pi_type := Some PTPath; pi_payload := PLPath (JArr [JStr (S"n1"); JStr (S"n2")]) JNull; pi_strict := Some true |} = true /\
  pinfo_wf false {| pi_type := Some PTGraph; pi_payload := PLRaw (JStr (S"g1")); pi_strict := None |} = true /\
  (let m := {| mi_nodes := [(S"n1", {| me_state := Some MMaint; me_deadline := Some (S"2024-01-02T03:04:05+00:00"); me_end := None |})];
               mi_lock := true |} in
   minfo_wf VISOA m = true /\ snd (mrun m [MAdd (S"x") {| me_state := None; me_deadline := None; me_end := None |}; MGet (S"n1")])
                              = [RErr e_maint; REntry {| me_state := Some MMaint; me_deadline := Some (S"2024-01-02T03:04:05+00:00"); me_end := None |}]) /\
  (let t := {| tt_type := S"mac"; tt_val := TVStr (S"00:11:22:33:44:55") |} in
   ttuple_wf (S"label") t = true /\ tval_plain (tt_val t) = true /\ tt_string t = S"mac:00:11:22:33:44:55").
Proof. vm_compute. repeat split. Qed.
