(* C12 - delegations and pools survive encoding and regrouping unchanged.

   Statements only; each is closed by a term over the lemmas of Proofs/Deleg12*.v.  The model is
   Model/Deleg12.v (Delegation, Delegations, the Capacities / Labels details, to_json / from_json at the JSON
   VALUE level) and Model/Pools12.v (Pool, Pools, build_index / generate / incorporate, annotate / read back),
   instantiated with the constants, enum members and field lists REGENERATED from the source
   (Gen/DelegGen.v).  `lc` is the verdict function of the Labels validators: every statement holds for
   every validator (the same one is applied when a Labels object is built and when it is decoded). *)
From Coq Require Import List ZArith NArith Bool String Permutation.
From FIM Require Import Base.Str Base.Corr Base.Json Gen.DelegGen Model.Deleg12 Model.Pools12 Model.Pools12H Model.Deleg12H
     Model.Deleg12T
     Proofs.Deleg12Enc Proofs.Deleg12Pools Proofs.Deleg12Regroup Proofs.Deleg12Main Proofs.Deleg12Hist Proofs.Deleg12DHist Proofs.Deleg12Text.
Import ListNotations.

(* ------------------------------------------------------------------------------------------------ *)
(* the regenerated data                                                                              *)
(* ------------------------------------------------------------------------------------------------ *)
(* the translator recognised everything it reads (fail-closed flag) *)
Theorem C12_translated : deleg_gen_ok = true.
Proof. exact deleg_gen_ok_true. Qed.
Print Assumptions C12_translated.

(* the model's inductives dtype / dformat have exactly the members of the two enums *)
Theorem C12_enum_members :
  delegation_type_members = ["CAPACITY"; "LABEL"]%string /\
  delegation_format_members = ["PoolDefinition"; "PoolReference"; "SinglePool"]%string.
Proof. exact enum_members_ok. Qed.
Print Assumptions C12_enum_members.

(* FIELD_POOL_ID, FIELD_POOL, FIELD_CAPACITIES, FIELD_LABELS are pairwise different: reading an inner
   dictionary as (pool_id?, pool?, capacities?, labels?) is what the code's key tests do *)
Theorem C12_wire_names_distinct : wire_names_distinct = true.
Proof. exact wire_names_ok. Qed.
Print Assumptions C12_wire_names_distinct.

(* no field name twice in Capacities / Labels (every entry of the regenerated lists) *)
Theorem C12_field_names_distinct : str_nodup deleg_cap_fields = true /\ str_nodup deleg_lab_fields = true.
Proof. exact field_names_nodup. Qed.
Print Assumptions C12_field_names_distinct.

(* ------------------------------------------------------------------------------------------------ *)
(* encoding round trip                                                                               *)
(* ------------------------------------------------------------------------------------------------ *)
(* details: to_dict followed by the constructor gives the same object (all label / capacity values) *)
Theorem C12_details_roundtrip : forall lc x dd, det_ok lc x = true -> det_to_dict x = Some dd ->
  obj_of_dict lc (det_kind x) dd = Ok x.
Proof. exact details_roundtrip. Qed.
Print Assumptions C12_details_roundtrip.

(* a well-formed set of delegations encodes, and decodes to the same Delegations: same ids in the same order,
   same formats, pool names and details *)
Theorem C12_delegations_roundtrip_wf : forall lc ds, ds_wf lc ds = true ->
  exists doc, to_json ds = Ok doc /\ map fst doc = map d_id (ds_items ds) /\
              from_json lc (ds_type ds) doc = Ok ds.
Proof. exact delegations_roundtrip. Qed.
Print Assumptions C12_delegations_roundtrip_wf.

(* FULL STRENGTH: whatever the API built -- ds_inv and d_inv are the invariants C12_container_invariant /
   C12_delegation_invariant / C12_from_json_invariant establish for EVERY sequence of calls -- with details objects
   the constructor built (C12_constructor_builds_ok): if to_json encodes it (it refuses, loudly, only
   delegations without non-empty details), from_json gives the same Delegations back *)
Theorem C12_delegations_roundtrip : forall lc ds doc,
  ds_inv ds -> Forall d_inv (ds_items ds) ->
  Forall (fun d => forall x, d_details d = Some x -> det_ok lc x = true) (ds_items ds) ->
  to_json ds = Ok doc ->
  map fst doc = map d_id (ds_items ds) /\ from_json lc (ds_type ds) doc = Ok ds.
Proof. exact api_roundtrip. Qed.
Print Assumptions C12_delegations_roundtrip.

Theorem C12_constructor_builds_ok : forall lc ty dd x, obj_of_dict lc ty dd = Ok x -> det_ok lc x = true.
Proof. exact constructor_builds_ok. Qed.
Print Assumptions C12_constructor_builds_ok.

(* the constructor: a single-pool delegation keeps no pool name, a definition cannot take the reserved name *)
Theorem C12_constructor_shape : forall ty id fmt pool d0, new_deleg ty id fmt pool = Ok d0 ->
  d_inv d0 /\ d_type d0 = ty /\ d_id d0 = id /\ d_fmt d0 = fmt /\ d_details d0 = None.
Proof. exact new_deleg_inv. Qed.
Print Assumptions C12_constructor_shape.

(* ------------------------------------------------------------------------------------------------ *)
(* rejection rules, for all arguments                                                                *)
(* ------------------------------------------------------------------------------------------------ *)
Theorem C12_rejects_mixed : forall d x, det_kind x <> d_type d -> set_details d x = Err EDelegation.
Proof. exact rejects_mixed. Qed.
Print Assumptions C12_rejects_mixed.

Theorem C12_rejects_details_on_ref : forall d x, d_fmt d = FRef -> set_details d x = Err EDelegation.
Proof. exact rejects_details_on_ref. Qed.
Print Assumptions C12_rejects_details_on_ref.

Theorem C12_rejects_duplicate : forall ds d, d_type d = ds_type ds -> In (d_id d) (map d_id (ds_items ds)) ->
  add_delegation ds d = Err EDelegation.
Proof. exact rejects_duplicate. Qed.
Print Assumptions C12_rejects_duplicate.

(* several delegations in ONE add_delegations call: a repeated id (against the container or inside the call) is
   rejected; without repetition all are added, in order *)
Theorem C12_rejects_duplicate_in_batch : forall args ds, Forall (fun d => d_type d = ds_type ds) args ->
  NoDup (map d_id (ds_items ds)) -> ~ NoDup (map d_id (ds_items ds ++ args)) ->
  snd (add_delegations ds args) = Some EDelegation.
Proof. exact (fun args ds T => proj2 (batch_spec args ds T)). Qed.
Print Assumptions C12_rejects_duplicate_in_batch.

Theorem C12_batch_accepts : forall args ds, Forall (fun d => d_type d = ds_type ds) args ->
  NoDup (map d_id (ds_items ds ++ args)) ->
  add_delegations ds args = (mkDs (ds_type ds) (ds_items ds ++ args), None).
Proof. exact (fun args ds T => proj1 (batch_spec args ds T)). Qed.
Print Assumptions C12_batch_accepts.

(* ... and nothing else is rejected by these two operations *)
Theorem C12_set_details_accepts_exactly : forall d x,
  (exists d', set_details d x = Ok d') <-> (d_fmt d <> FRef /\ det_kind x = d_type d).
Proof. exact set_details_ok_iff. Qed.
Print Assumptions C12_set_details_accepts_exactly.

Theorem C12_add_accepts : forall ds d, d_type d = ds_type ds -> ~ In (d_id d) (map d_id (ds_items ds)) ->
  add_delegation ds d = Ok (mkDs (ds_type ds) (ds_items ds ++ [d])).
Proof. exact add_accepts. Qed.
Print Assumptions C12_add_accepts.

(* invariants under ANY sequence of calls (failed calls leave the object as it was): the ids of a container
   are distinct and all its delegations are of its type; a reference never carries details, details are
   always of the delegation's type, the pool name is the one the constructor leaves (ctor_shape) *)
Theorem C12_container_invariant : forall ty ops, ds_inv (fold_left add_try ops (mkDs ty [])).
Proof. exact container_invariant. Qed.
Print Assumptions C12_container_invariant.

Theorem C12_delegation_invariant : forall ty id fmt pool d0 xs, new_deleg ty id fmt pool = Ok d0 ->
  d_inv (fold_left set_try xs d0).
Proof. exact delegation_invariant. Qed.
Print Assumptions C12_delegation_invariant.

(* the decoder: what it accepts satisfies the same invariants, with the ids of the document in order *)
Theorem C12_from_json_invariant : forall lc ty doc ds, from_json lc ty doc = Ok ds ->
  ds_type ds = ty /\ ds_inv ds /\ Forall d_inv (ds_items ds) /\ map d_id (ds_items ds) = map fst doc.
Proof. exact from_json_inv. Qed.
Print Assumptions C12_from_json_invariant.

(* the decoder rejects mixed content and details on a reference, ALWAYS: entry by entry ... *)
Theorem C12_from_json_rejects_details_on_ref : forall lc ty id j, j_pool_id j = None ->
  (j_caps j <> None \/ j_labs j <> None) -> entry_of_json lc ty id j = Err EDelegation.
Proof. exact entry_details_on_ref. Qed.
Print Assumptions C12_from_json_rejects_details_on_ref.

Theorem C12_from_json_rejects_mixed : forall lc ty id j p, j_pool_id j = Some p ->
  (match ty with TCap => j_labs j | TLab => j_caps j end) <> None -> entry_of_json lc ty id j = Err EDelegation.
Proof. exact entry_mixed. Qed.
Print Assumptions C12_from_json_rejects_mixed.

(* ... and for whole documents: one entry that is not of the three shapes of the format (definition /
   single-pool entry with this type's content only, bare reference) and the document is refused *)
Theorem C12_from_json_rejects_unclean : forall lc ty doc,
  (exists k j, In (k, j) doc /\ entry_clean ty j = false) -> exists e, from_json lc ty doc = Err e.
Proof. exact from_json_rejects_unclean. Qed.
Print Assumptions C12_from_json_rejects_unclean.

(* the remaining refusals, by class: no pool key, definition without this type's details, details the
   constructor refuses; and every entry of an accepted document is clean and acceptable on its own *)
Theorem C12_from_json_rejects_ill_formed : forall lc ty,
  (forall doc ds, from_json lc ty doc = Ok ds ->
                  forall k j, In (k, j) doc -> entry_clean ty j = true /\ exists d, entry_of_json lc ty k j = Ok d) /\
  (forall id j, j_pool_id j = None -> j_pool j = None -> entry_of_json lc ty id j = Err EDelegation) /\
  (forall id j p, j_pool_id j = Some p -> (match ty with TCap => j_labs j | TLab => j_caps j end) = None ->
                  (match ty with TCap => j_caps j | TLab => j_labs j end) = None ->
                  entry_of_json lc ty id j = Err EKey) /\
  (forall id j p dd e, j_pool_id j = Some p -> (match ty with TCap => j_labs j | TLab => j_caps j end) = None ->
                       (match ty with TCap => j_caps j | TLab => j_labs j end) = Some dd ->
                       first_error lc ty dd = Some e -> entry_of_json lc ty id j = Err e).
Proof.
  exact (fun lc ty =>
    conj (fun doc ds H k j HI => conj (from_json_clean lc ty doc ds H k j HI) (from_json_entries lc ty doc ds H k j HI))
   (conj (entry_no_pool_key lc ty) (conj (entry_missing_details lc ty) (entry_bad_details lc ty)))).
Qed.
Print Assumptions C12_from_json_rejects_ill_formed.

(* ------------------------------------------------------------------------------------------------ *)
(* pools -> per-node delegations -> pools                                                            *)
(* ------------------------------------------------------------------------------------------------ *)
(* the index lists every pool exactly once, under its own delegation id; an incomplete pool is refused *)
Theorem C12_index_complete : forall ty P, forallb (pool_ok ty) P = true ->
  exists idx, build_index P = Ok idx /\ idx_consistent idx /\ Permutation (flat_map snd idx) P.
Proof. exact index_complete. Qed.
Print Assumptions C12_index_complete.

Theorem C12_index_rejects_incomplete : forall P, (exists p, In p P /\ validate_pool p <> None) ->
  build_index P = Err EPool.
Proof. exact (fun P => build_index_from_err P []). Qed.
Print Assumptions C12_index_rejects_incomplete.

(* shape: the per-node delegations are exactly (as a multiset) one definition per pool on its defining node
   and one reference on each node of for_, with the pool's delegation id, name and details *)
Theorem C12_generate_shape : forall ty P idx, forallb (pool_ok ty) P = true -> no_conflict P = true ->
  build_index P = Ok idx ->
  exists G, generate ty (Some idx) = Ok G /\ NoDup (map fst G) /\
            Forall (fun nd => ds_type (snd nd) = ty) G /\
            Permutation (flatten_g G) (expected_events ty P).
Proof. exact generate_shape. Qed.
Print Assumptions C12_generate_shape.

(* conflict: if some node would take part in two pools under one delegation id (the JSON of a node is keyed
   by delegation id), generate raises DelegationException; so do pool details of the other class *)
Theorem C12_regroup_conflict_rejected : forall ty P, forallb (pool_ok ty) P = true ->
  forall idx, build_index P = Ok idx -> no_conflict P = false -> generate ty (Some idx) = Err EDelegation.
Proof. exact generate_conflict. Qed.
Print Assumptions C12_regroup_conflict_rejected.

Theorem C12_generate_rejects_foreign_details : forall ty did p x, p_details p = Some x -> det_kind x <> ty ->
  pool_events ty did p = Err EDelegation.
Proof. exact pool_events_foreign. Qed.
Print Assumptions C12_generate_rejects_foreign_details.

(* a pool named SINGLE_POOL_NAME cannot be written as a definition: generate refuses it (DelegationException from
   the Delegation constructor); pool_ok therefore asks for another name *)
Theorem C12_generate_rejects_reserved_pool_name : forall ty did p, p_id p = single_pool_name ->
  pool_events ty did p = Err EDelegation.
Proof. exact pool_events_reserved. Qed.
Print Assumptions C12_generate_rejects_reserved_pool_name.

(* the identity: pools -> index -> per-node delegations -> pools gives the same registry (same pools, each
   with the same type, id, delegation id, defining node, reference nodes and details) *)
Theorem C12_pools_regroup : forall ty P, pools_wf ty P = true ->
  exists P', regroup ty P = Ok P' /\ pools_equiv P' P.
Proof. exact pools_regroup. Qed.
Print Assumptions C12_pools_regroup.

(* ... whatever the order in which the nodes are read back (the code iterates a dict filled in set order) *)
Theorem C12_pools_regroup_any_order : forall ty P idx G G', pools_wf ty P = true ->
  build_index P = Ok idx -> generate ty (Some idx) = Ok G -> Permutation G' G ->
  exists P', incorporate_all ty G' [] = Ok P' /\ pools_equiv P' P.
Proof. exact pools_regroup_any_order. Qed.
Print Assumptions C12_pools_regroup_any_order.

(* through the graph: pools and single-pool delegations are written as node properties
   (annotate_delegations_and_pools), every annotated node is read back (get_delegations) and incorporated:
   the same pools come back, every node holds exactly the prescribed delegations plus its single-pool ones *)
Theorem C12_annotate_readback : forall lc ty P dels,
  pools_wf ty P = true -> pools_encodable lc P = true -> singles_ok lc ty P dels = true ->
  exists g P', annotate_readback lc ty dels P = Ok (g, P') /\ pools_equiv P' P /\
               Permutation (flatten_g g) (expected_events ty P ++ flatten_g dels) /\
               forall n ds, In (n, ds) dels -> lookup n g = Some ds.
Proof. exact annotate_readback_ok. Qed.
Print Assumptions C12_annotate_readback.

(* ------------------------------------------------------------------------------------------------ *)
(* ONE Pools object under any history (Model/Pools12H.v: heap of shared Pool objects, registry, index)  *)
(* ------------------------------------------------------------------------------------------------ *)
(* every history keeps the registry pointing at existing objects, each under its own pool id *)
Theorem C12_registry_valid_after_any_history : forall ops st, reg_valid st ->
  reg_valid (hfinal st ops) /\ st_type (hfinal st ops) = st_type st.
Proof. exact hrun_valid. Qed.
Print Assumptions C12_registry_valid_after_any_history.

(* build_index_by_delegation_id from ANY state -- whatever index an earlier call left behind, whatever was edited,
   re-delegated or replaced since --: the new index is the index of the CURRENT registry; it changes nothing else *)
Theorem C12_reindex_is_index_of_registry : forall st i0, reg_valid st -> build_index (reg_pools st) = Ok i0 ->
  exists idx, st_index (fst (hstep st HIndex)) = Some idx /\ resolve (st_heap (fst (hstep st HIndex))) idx = i0 /\
              st_heap (fst (hstep st HIndex)) = st_heap st /\ st_reg (fst (hstep st HIndex)) = st_reg st /\
              st_type (fst (hstep st HIndex)) = st_type st.
Proof. exact reindex_is_index_of_registry. Qed.
Print Assumptions C12_reindex_is_index_of_registry.

Theorem C12_reindex_rejects_like_registry : forall st e, reg_valid st -> build_index (reg_pools st) = Err e ->
  snd (hstep st HIndex) = VErr (exn_name e).
Proof. exact reindex_rejects. Qed.
Print Assumptions C12_reindex_rejects_like_registry.

(* the regrouping identity after ANY history of Pool(...), setters on any object, add_pool (incl. replacing a
   pool), build_index, generate, regroup: re-index, generate, read back = the pools the registry holds now *)
Theorem C12_regroup_after_any_history : forall ty ops,
  let st := hfinal (init_state ty) ops in
  pools_wf ty (reg_pools st) = true ->
  exists P', hregroup (fst (hstep st HIndex)) = Ok P' /\ pools_equiv P' (reg_pools st).
Proof. exact regroup_after_any_history. Qed.
Print Assumptions C12_regroup_after_any_history.

Theorem C12_conflict_after_any_history : forall ty ops,
  let st := hfinal (init_state ty) ops in
  forallb (pool_ok ty) (reg_pools st) = true -> no_conflict (reg_pools st) = false ->
  hgenerate (fst (hstep st HIndex)) = Err EDelegation.
Proof. exact conflict_after_any_history. Qed.
Print Assumptions C12_conflict_after_any_history.

(* a read-only query of Pools / Pool (get_node_ids, get_delegation_ids, get_pools_by_delegation_id, strict
   get_pool_by_id, validate_pools, get_type, the getters of a Pool) leaves the state exactly as it was *)
Theorem C12_pools_queries_change_nothing : forall st q, fst (hstep st (HQuery q)) = st.
Proof. exact (fun st q => eq_refl). Qed.
Print Assumptions C12_pools_queries_change_nothing.

(* ------------------------------------------------------------------------------------------------ *)
(* ONE Delegations container under any history (Model/Deleg12H.v: heap of shared Delegation objects,     *)
(* the dictionary as references, the texts produced so far)                                            *)
(* ------------------------------------------------------------------------------------------------ *)
(* every state reachable by Delegation(...), set_details on any object, add_delegations (1..n arguments),
   remove_by_id, queries, to_json, from_json of earlier texts: objects as the API builds them with constructor-built
   details, references valid and of the container's type, ids distinct *)
Theorem C12_container_state_invariant : forall lc ops st, dst_inv lc st ->
  dst_inv lc (dfinal lc st ops) /\ dst_type (dfinal lc st ops) = dst_type st.
Proof. exact drun_inv. Qed.
Print Assumptions C12_container_state_invariant.

(* to_json is a function of the CURRENT content: after ANY history the call returns the encoding of what the
   container holds now, changes nothing, and whenever it succeeds from_json of its result IS the current content *)
Theorem C12_encode_after_any_history : forall lc ty ops doc,
  let st := dfinal lc (dinit ty) ops in
  snd (dstep lc st DEncode) = v_res v_jdoc (to_json (dcontent st)) /\
  dcontent (fst (dstep lc st DEncode)) = dcontent st /\
  (to_json (dcontent st) = Ok doc ->
   map fst doc = map d_id (ds_items (dcontent st)) /\ from_json lc ty doc = Ok (dcontent st)).
Proof. exact encode_after_any_history. Qed.
Print Assumptions C12_encode_after_any_history.

(* the queries and from_json of an earlier text change neither the container nor any delegation object *)
Theorem C12_container_queries_change_nothing : forall lc st o, dop_readonly o = true ->
  dst_heap (fst (dstep lc st o)) = dst_heap st /\ dst_refs (fst (dstep lc st o)) = dst_refs st /\
  dcontent (fst (dstep lc st o)) = dcontent st.
Proof. exact readonly_changes_nothing. Qed.
Print Assumptions C12_container_queries_change_nothing.

(* refused operations, classified against the property text: a refused add_delegations call leaves a PREFIX of its
   arguments in the container (all valid, ids distinct: C12_container_state_invariant) -- residue, but no violation of
   "duplicate ids are always rejected"; build_index, accepted or refused, changes no pool and not the registry *)
Theorem C12_refused_add_residue : forall h ty ks refs,
  exists pre post, ks = pre ++ post /\ fst (dadd h ty refs ks) = refs ++ pre.
Proof. exact dadd_residue. Qed.
Print Assumptions C12_refused_add_residue.

Theorem C12_index_changes_no_pool : forall st,
  st_heap (fst (hstep st HIndex)) = st_heap st /\ st_reg (fst (hstep st HIndex)) = st_reg st.
Proof. exact index_changes_no_pool. Qed.
Print Assumptions C12_index_changes_no_pool.

(* remove_by_id removes exactly the delegation with that id *)
Theorem C12_remove_by_id : forall lc st id,
  ds_items (dcontent (fst (dstep lc st (DRemove id)))) = filter (fun d => negb (str_eqb (d_id d) id)) (ds_items (dcontent st)).
Proof. exact remove_by_id_spec. Qed.
Print Assumptions C12_remove_by_id.

(* ------------------------------------------------------------------------------------------------ *)
(* text level and decode side (Model/Deleg12T.v over Base/Json.v: json.dumps / json.loads)              *)
(* ------------------------------------------------------------------------------------------------ *)
(* on every document the encoder can write, the decoder on raw JSON values IS the typed decoder of the theorems above *)
Theorem C12_text_value_agree : forall lc ty doc, from_json_value lc ty (json_of_doc doc) = from_json lc ty doc.
Proof. exact text_value_agree. Qed.
Print Assumptions C12_text_value_agree.

Theorem C12_details_value_agree : forall lc ty dd, xobj_of_json lc ty (json_of_ddict dd) = obj_of_dict lc ty dd.
Proof. exact xobj_of_ddict. Qed.
Print Assumptions C12_details_value_agree.

(* encode to TEXT, decode the text: the same Delegations (jwfb: the domain of the JSON text model, i.e. no lone
   surrogate code points in the strings and no repeated key) *)
Theorem C12_text_roundtrip : forall lc ds, ds_wf lc ds = true ->
  exists doc, to_json ds = Ok doc /\ to_json_text ds = Ok (jprint (json_of_doc doc)) /\
              (jwfb (json_of_doc doc) = true ->
               from_json_text lc (ds_type ds) (Some (jprint (json_of_doc doc))) = Ok (Some ds)).
Proof. exact text_roundtrip. Qed.
Print Assumptions C12_text_roundtrip.

(* accepted language, the outer layers: None, '', "None" give no Delegations, "{}" the empty set; a top level or an
   entry that is not an object is refused (AttributeError), details that are not an object too (TypeError) *)
Theorem C12_decode_special_inputs : forall lc ty,
  from_json_text lc ty None = Ok None /\ from_json_text lc ty (Some []) = Ok None /\
  from_json_text lc ty (Some neo4j_none) = Ok None /\ from_json_text lc ty (Some (S"{}")) = Ok (Some (mkDs ty [])).
Proof. exact special_inputs. Qed.
Print Assumptions C12_decode_special_inputs.

Theorem C12_decode_rejects_non_objects : forall lc ty,
  (forall v, (forall m, v <> JObj m) -> from_json_value lc ty v = Err e_attribute) /\
  (forall id v, (forall m, v <> JObj m) -> xentry_of_json lc ty id v = Err e_attribute) /\
  (forall v, (forall m, v <> JObj m) -> xobj_of_json lc ty v = Err EType).
Proof. exact decode_rejects_non_objects. Qed.
Print Assumptions C12_decode_rejects_non_objects.

(* decode closure: whatever TEXT is accepted (foreign key order, duplicate and unknown keys, any kinds), the result
   satisfies the API invariants ... *)
Theorem C12_decode_closure : forall lc ty t d, from_json_text lc ty t = Ok (Some d) ->
  ds_type d = ty /\ ds_inv d /\ Forall d_inv (ds_items d).
Proof. exact decode_closure_text. Qed.
Print Assumptions C12_decode_closure.

(* ... its details are constructor-built objects when the JSON object has no null value ... *)
Theorem C12_decoded_details_ok : forall lc ty v x, xobj_of_json lc ty v = Ok x -> no_null_values v = true ->
  det_ok lc x = true.
Proof. exact decoded_details_ok. Qed.
Print Assumptions C12_decoded_details_ok.

(* ... and then decode (encode d') = d' for the decoded d', and encode . decode . encode = encode.
   FULL STATEMENT (false): without the hypothesis on the details -- C12_decode_null_capacity_refuted *)
Theorem C12_decode_encode_decoded_partial : forall lc ty t d doc, from_json_text lc ty t = Ok (Some d) ->
  Forall (fun x => forall y, d_details x = Some y -> det_ok lc y = true) (ds_items d) ->
  to_json d = Ok doc ->
  from_json lc ty doc = Ok d /\ (forall ds2, from_json lc ty doc = Ok ds2 -> to_json ds2 = Ok doc).
Proof. exact decode_encode_decoded. Qed.
Print Assumptions C12_decode_encode_decoded_partial.

Theorem C12_decode_null_capacity_refuted :
  exists d t2 d2, from_json_text accept_all TCap (Some null_cap_text) = Ok (Some d) /\
                  to_json_text d = Ok t2 /\ from_json_text accept_all TCap (Some t2) = Ok (Some d2) /\ d2 <> d.
Proof. exact decode_null_capacity_refuted. Qed.
Print Assumptions C12_decode_null_capacity_refuted.

(* ------------------------------------------------------------------------------------------------ *)
(* non-vacuity: concrete instances of the hypotheses                                                 *)
(* ------------------------------------------------------------------------------------------------ *)

Example C12_nonvacuous_roundtrip :
  ds_wf accept_all ex_ds = true /\ det_ok accept_all ex_caps = true /\ det_nonempty ex_caps = true /\
  (exists doc, to_json ex_ds = Ok doc /\ List.length doc = 3%nat /\ from_json accept_all TLab doc = Ok ex_ds) /\
  (* the same three delegations as the API builds them (the set_details on the reference is refused) *)
  ex_api_items = ds_items ex_ds /\
  new_deleg TLab (S"del2") FDef (Some (S"pool1")) = Ok (mkD TLab (S"del2") FDef (Some (S"pool1")) None) /\
  new_deleg TLab (S"del2") FDef (Some single_pool_name) = Err EDelegation /\
  new_deleg TLab (S"del1") FSingle (Some (S"p")) = Ok (mkD TLab (S"del1") FSingle None None).
Proof.
  split; [vm_compute; reflexivity|]. split; [vm_compute; reflexivity|]. split; [vm_compute; reflexivity|].
  split; [eexists; split; [vm_compute; reflexivity|]; split; vm_compute; reflexivity|].
  repeat split; vm_compute; reflexivity.
Qed.

Example C12_nonvacuous_regroup :
  pools_wf TLab ex_pools = true /\ pools_encodable accept_all ex_pools = true /\
  singles_ok accept_all TLab ex_pools ex_single = true /\
  (exists P', regroup TLab ex_pools = Ok P' /\ List.length P' = 2%nat) /\
  (exists g P', annotate_readback accept_all TLab ex_single ex_pools = Ok (g, P') /\ List.length g = 6%nat).
Proof.
  split; [vm_compute; reflexivity|]. split; [vm_compute; reflexivity|]. split; [vm_compute; reflexivity|].
  split; [eexists; split; vm_compute; reflexivity|].
  eexists. eexists. split; vm_compute; reflexivity.
Qed.

Example C12_nonvacuous_conflict :
  forallb (pool_ok TLab) ex_conflict = true /\ no_conflict ex_conflict = false /\
  (exists idx, build_index ex_conflict = Ok idx /\ generate TLab (Some idx) = Err EDelegation).
Proof.
  split; [vm_compute; reflexivity|]. split; [vm_compute; reflexivity|].
  eexists. split; vm_compute; reflexivity.
Qed.

(* a history that leaves a STALE index behind: two pools indexed, then pool1 moved to delegation id del9 and pool2
   replaced by a new object; the old index still lists pool1 under del1 and the old pool2 object; after re-indexing
   the regroup identity holds for the registry as it is now *)
Example C12_nonvacuous_history :
  let st := hfinal (init_state TLab) ex_history in
  pools_wf TLab (reg_pools st) = true /\
  option_map (fun i => v_index (resolve (st_heap st) i)) (st_index st)
    = Some (VL [VL [VS (S"del1"); VL [VS (S"pool1")]]; VL [VS (S"del2"); VL [VS (S"pool2")]]]) /\
  map p_deleg (reg_pools st) = [Some (S"del9"); Some (S"del2")] /\
  (exists P', hregroup (fst (hstep st HIndex)) = Ok P' /\ List.length P' = 2%nat).
Proof.
  split; [vm_compute; reflexivity|]. split; [vm_compute; reflexivity|]. split; [vm_compute; reflexivity|].
  eexists. split; vm_compute; reflexivity.
Qed.

(* encode, remove d1, change d2's details through the object, encode again: the second text is the encoding of the
   two remaining delegations with the new details, and it decodes to the current content *)
Example C12_nonvacuous_container_history :
  let st := dfinal accept_all (dinit TCap) ex_dhistory in
  map d_id (ds_items (dcontent st)) = [S"d2"; S"d3"] /\
  List.length (dst_texts st) = 2%nat /\
  nth_error (dst_texts st) 0 <> nth_error (dst_texts st) 1 /\
  (exists doc, nth_error (dst_texts st) 1 = Some (Ok doc) /\ to_json (dcontent st) = Ok doc /\
               from_json accept_all TCap doc = Ok (dcontent st)).
Proof.
  split; [vm_compute; reflexivity|]. split; [vm_compute; reflexivity|].
  split; [vm_compute; intro H; discriminate H|].
  eexists. split; [vm_compute; reflexivity|]. split; vm_compute; reflexivity.
Qed.

(* the three-format container as text: inside the domain of the JSON text model, and the text decodes to it *)
Example C12_nonvacuous_text :
  exists doc, to_json ex_ds = Ok doc /\ jwfb (json_of_doc doc) = true /\
              from_json_text accept_all TLab (Some (jprint (json_of_doc doc))) = Ok (Some ex_ds) /\
              (* a foreign rendering of it: other key order, whitespace, an unknown key, a repeated id *)
              from_json_text accept_all TLab
                (Some (S" { ""del3"" : {""pool"": ""x""}, ""del1"": {""labels"": {""vlan_range"": ""1-100""}, ""note"": [1, null], ""pool_id"": ""_""}, ""del3"": {""pool"": ""pool1""} } "))
              = Ok (Some (mkDs TLab [ mkD TLab (S"del3") FRef (Some (S"pool1")) None;
                                      mkD TLab (S"del1") FSingle None (Some (ex_labs (S"1-100"))) ])).
Proof.
  eexists. split; [vm_compute; reflexivity|]. split; [vm_compute; reflexivity|]. split; vm_compute; reflexivity.
Qed.
