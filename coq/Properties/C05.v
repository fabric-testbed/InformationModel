(* C05 - the in-memory graph backends agree with each other and with the documented semantics.
   Statements only; every theorem is closed by `exact` of a lemma of Proofs/Refine*.v.

   Models (tied to the code on every run by the lock-step streams of harness/c05.py):
     Model/Store.v          shared store + the methods of NetworkXPropertyGraph over one nx.Graph
     Model/StoreDisjoint.v  one nx.Graph per graph id, same methods (as the Python class inherits them)
     Model/PGSpec.v         reference model of the documented interface: per graph id, no store, no
                            internal ids; [abs_shared s g] / [abs_disjoint d g] = the reference graph
                            that graph id g sees in a store.
   [refine_scope0 o] = o is one of the operations of the property's quantifier (add/delete node, add link,
                       update/unset node and link properties singly and in bulk, whole-graph update,
                       listings, existence/uniqueness tests, matching, delete graph) and does not REWRITE
                       GraphID / NodeID (re-homing / renaming: outside the documented interface, C14).
   [refine_scope o]  = the same plus the storage operations import / direct import / clone, the imported graph
                       being a networkx graph (distinct node keys, links join its own nodes, one link per pair;
                       a direct import carries its graph id on every node).
   merge_nodes has its own theorems (and is followed by the extended reference model in the lock-step stream). *)
From Coq Require Import List NArith Bool.
From FIM Require Import Base.Assoc Model.Store Model.StoreDisjoint Model.PGSpec.
From FIM Require Import Proofs.IsolationShared Proofs.RefineGuards Proofs.RefineUnique Proofs.RefineMerge
                        Proofs.RefineWitness Proofs.RefineImport.
Import ListNotations.
Open Scope N_scope.

(* the constants and guard placements REGENERATED from the source are the model's: NO_UNSET_PROPERTIES,
   NETWORKX_LABEL, the Class guard of all seven mutators, the identity guard of unset_node_property,
   add_node's class-independent existence test, the unsupported merge of the second backend *)
Theorem C05_translated : constants_tied = true.
Proof. exact constants_tied_true. Qed.
Print Assumptions C05_translated.

(* ---- agreement with the reference model and with each other ---- *)
(* the shared store refines the reference model on every history, imports, re-imports and clones included *)
Theorem C05_shared_refines_spec : forall ops,
  (forall o, In o ops -> refine_scope o = true) ->
  sresults init_store ops = spec_results [] ops /\
  forall g, abs_shared (srun ops init_store) g = sget (spec_run ops []) g.
Proof. exact shared_refines_spec_storage. Qed.
Print Assumptions C05_shared_refines_spec.

(* the one-graph-per-id store refines it as long as every import goes to an id that holds no nodes and every
   clone of a graph that holds nodes goes to an id that holds none ([disjoint_scope_run], evaluated on the
   reference run) ... *)
Theorem C05_disjoint_refines_spec_partial : forall ops,
  (forall o, In o ops -> refine_scope o = true) -> disjoint_scope_run [] ops = true ->
  dresults init_dstore ops = spec_results [] ops /\
  forall g, abs_disjoint (drun ops init_dstore) g = sget (spec_run ops []) g.
Proof. exact disjoint_refines_spec_storage. Qed.
Print Assumptions C05_disjoint_refines_spec_partial.

(* ... and these are exactly its deviations (FULL statement - the same without [disjoint_scope_run] - is false):
   an import or a clone onto an id that holds nodes does nothing and returns normally (the reference and the
   shared store replace the graph).  Known finding of C05 / C04 (deliberate in the code; proposed fix C05-3 not landed). *)
Theorem C05_disjoint_reimport_live_skips : forall d g ig,
  gn (dget d g) <> [] -> dstep d (OImport g ig) = (d, Ok RUnit).
Proof. exact disjoint_reimport_live_skips. Qed.
Print Assumptions C05_disjoint_reimport_live_skips.

Theorem C05_disjoint_clone_live_skips : forall d g g2,
  gn (dget d g) <> [] -> gn (dget d g2) <> [] -> dstep d (OClone g g2) = (d, Ok RUnit).
Proof. exact disjoint_clone_live_skips. Qed.
Print Assumptions C05_disjoint_clone_live_skips.

(* a clone of a graph without nodes is refused by both stores and the reference alike (PropertyGraphQueryException,
   fix fdc67eb), nothing changes *)
Theorem C05_clone_absent_source_agrees : forall s d g g2,
  fst (view (sg s) g) = [] -> NoDup (ids (sg s)) -> gn (dget d g) = [] ->
  sstep s (OClone g g2) = (s, Err EQuery) /\ dstep d (OClone g g2) = (d, Err EQuery).
Proof. exact clone_absent_source_agrees. Qed.
Print Assumptions C05_clone_absent_source_agrees.

(* same results, same exceptions, same content, step by step: FULL strength on the operations the property
   quantifies over (no import / clone in the history) ... *)
Theorem C05_backends_agree : forall ops,
  (forall o, In o ops -> refine_scope0 o = true) ->
  sresults init_store ops = dresults init_dstore ops /\
  forall g, abs_shared (srun ops init_store) g = abs_disjoint (drun ops init_dstore) g.
Proof. exact backends_agree. Qed.
Print Assumptions C05_backends_agree.

(* ... and with the storage operations in the history, under the domain condition above *)
Theorem C05_backends_agree_storage_partial : forall ops,
  (forall o, In o ops -> refine_scope o = true) -> disjoint_scope_run [] ops = true ->
  sresults init_store ops = dresults init_dstore ops /\
  forall g, abs_shared (srun ops init_store) g = abs_disjoint (drun ops init_dstore) g.
Proof. exact backends_agree_storage. Qed.
Print Assumptions C05_backends_agree_storage_partial.

(* the reference model extended by cross-graph links (used three-way after merge_nodes by the lock-step
   stream) coincides with the reference model on merge-free histories *)
Theorem C05_xspec_conservative : forall ops sp,
  (forall o, In o ops -> (match o with OMerge _ _ _ _ => false | _ => true end) = true) ->
  xspec_results (mkX sp []) ops = spec_results sp ops /\ xspec_run ops (mkX sp []) = mkX (spec_run ops sp) [].
Proof. exact xspec_merge_free. Qed.
Print Assumptions C05_xspec_conservative.

(* concrete witness of the deviation (replayed on the real code on every run) *)
Theorem C05_agree_reimport_live_refuted :
  exists ops, (forall o, In o ops -> in_spec_scope o = true) /\
              results_eqb (sresults init_store ops) (dresults init_dstore ops) = false.
Proof. exact agree_reimport_live_refuted. Qed.
Print Assumptions C05_agree_reimport_live_refuted.

(* ---- identity properties cannot be unset, Class cannot be changed ---- *)
Theorem C05_identity_unset_rejected : forall s g n p,
  In p no_unset -> sstep s (OUnsetNode g n p) = (s, Err EQuery).
Proof. exact unset_identity_shared. Qed.
Print Assumptions C05_identity_unset_rejected.

Theorem C05_identity_unset_rejected_disjoint : forall d g n p,
  In p no_unset ->
  snd (dstep d (OUnsetNode g n p)) = Err EQuery /\
  forall g', dget (fst (dstep d (OUnsetNode g n p))) g' = dget d g'.
Proof. exact unset_identity_disjoint. Qed.
Print Assumptions C05_identity_unset_rejected_disjoint.

Theorem C05_class_write_rejected : forall s o, writes_class o = true -> sstep s o = (s, Err EQuery).
Proof. exact class_write_rejected_shared. Qed.
Print Assumptions C05_class_write_rejected.

Theorem C05_class_write_rejected_disjoint : forall d o,
  writes_class o = true ->
  snd (dstep d o) = Err EQuery /\ forall g', dget (fst (dstep d o)) g' = dget d g'.
Proof. exact class_write_rejected_disjoint. Qed.
Print Assumptions C05_class_write_rejected_disjoint.

(* over ALL histories - imports, clones, failing calls, identity rewriting AND merges - a stored node never
   loses GraphID / NodeID / Type / Class / Name and its Class value never changes.  [class_scope]: a
   merge policy does not name Class (naming it is the caller's explicit request for the other node's class) *)
Theorem C05_identity_kept : forall pre ops,
  (forall o, In o ops -> class_scope o = true) ->
  evolves (sg (srun pre init_store)) (sg (srun (pre ++ ops) init_store)).
Proof. exact identity_kept_all. Qed.
Print Assumptions C05_identity_kept.

(* a failing merge_nodes leaves both graphs - the whole store - unchanged (fix e66ee73) *)
Theorem C05_merge_fails_unchanged : forall s g n g2 pol e,
  snd (sstep s (OMerge g n g2 pol)) = Err e -> fst (sstep s (OMerge g n g2 pol)) = s.
Proof. exact merge_fails_unchanged_step. Qed.
Print Assumptions C05_merge_fails_unchanged.

(* ---- a NodeID is unique within its graph whatever the class ---- *)
(* [nid_scope]: no rewriting of GraphID / NodeID, imported graphs have unique NodeIDs, a merge policy
   does not name GraphID / NodeID; everything else (all classes, failing calls, merges) is allowed *)
Theorem C05_nodeid_unique : forall ops,
  (forall o, In o ops -> nid_scope o = true) ->
  forall g n, (length (search (sg (srun ops init_store)) [(k_nodeid, n); (k_graphid, g)]) <= 1)%nat.
Proof. exact nodeid_unique_all. Qed.
Print Assumptions C05_nodeid_unique.

Theorem C05_nodeid_unique_disjoint : forall ops,
  (forall o, In o ops -> nid_scope o = true) ->
  forall g n, (length (search (dget (drun ops init_dstore) g) [(k_nodeid, n); (k_graphid, g)]) <= 1)%nat.
Proof. exact nodeid_unique_all_disjoint. Qed.
Print Assumptions C05_nodeid_unique_disjoint.

(* ---- merge_nodes keeps every link of both nodes, leaves none of networkx's 'contraction' bookkeeping on
   them (fix 7e2b502) and applies the policy ---- *)
Theorem C05_merge_keeps_edges_and_policy : forall G g n g2 pol G',
  NoDup (ids G) -> s_merge G g n g2 pol = (G', Ok RUnit) ->
  exists u v mine other,
    find_node G g n = Some u /\ find_node G g2 n = Some v /\ u <> v /\
    nx_node G u = Some mine /\ nx_node G v = Some other /\
    nx_node G' v = None /\
    (forall i, i <> u -> i <> v -> nx_node G' i = nx_node G i) /\
    (forall y, y <> u -> y <> v -> pres G' u y = pres G u y || pres G v y) /\
    (forall a b, a <> u -> b <> u -> a <> v -> b <> v -> nx_edge G' a b = nx_edge G a b) /\
    (forall y ps, nx_edge G' u y = Some ps -> aget k_contraction ps = None) /\
    exists np, nx_node G' u = Some np /\
      forall k, aget k np = match aget k mine with
                            | Some m => match pol with Some p => policy_spec p other k m | None => Some m end
                            | None => None
                            end.
Proof. exact merge_ok_spec. Qed.
Print Assumptions C05_merge_keeps_edges_and_policy.

(* ---- non-vacuity ---- *)
Example C05_merge_fails_nonvacuous :
  snd (sstep (srun (firstn 2 w_merge) init_store) (OMerge 10 20 11 (Some [(50, s_overwrite)]))) = Err EKey /\
  fst (sstep (srun (firstn 2 w_merge) init_store) (OMerge 10 20 11 (Some [(50, s_overwrite)]))) = srun (firstn 2 w_merge) init_store.
Proof. exact merge_fails_nonvacuous. Qed.

Example C05_agree_nonvacuous :
  forallb refine_scope0 w_agree = true /\
  sresults init_store w_agree =
    [Ok RUnit; Ok RUnit; Ok RUnit; Ok RUnit; Err EQuery; Ok RUnit; Err EQuery; Ok RUnit; Ok RUnit;
     Ok (RVals [PV 20]); Ok (RVals [PV 20; PV 21]); Ok RUnit; Err EQuery; Ok RUnit; Ok (RBool false); Ok (RVals [])] /\
  dresults init_dstore w_agree = sresults init_store w_agree.
Proof. exact agree_nonvacuous. Qed.

Example C05_merge_nonvacuous :
  let ops := [OAddNode 10 20 30 (Some [(50, PV 60)]); OAddNode 10 21 30 None; OAddLink 10 20 40 21 None;
              OAddNode 11 20 30 (Some [(50, PV 61)]); OAddNode 11 22 30 None; OAddLink 11 20 40 22 None] in
  let s := srun ops init_store in
  exists G', s_merge (sg s) 10 20 11 (Some [(50, s_combine)]) = (G', Ok RUnit) /\
             nx_node G' 1 = Some [(k_graphid, PV 10); (k_nodeid, PV 20); (k_class, PV 30); (50, PL [PV 60; PV 61])] /\
             nx_node G' 3 = None /\ nx_edge G' 1 2 <> None /\ nx_edge G' 1 4 <> None.
Proof. exact merge_nonvacuous. Qed.
