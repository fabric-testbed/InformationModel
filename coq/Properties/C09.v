(* C09 - a topology operation that fails leaves the model unchanged.
   Only statements; each is closed by `exact` of a lemma (or of an instance of one) from Proofs/T9*.v.  The operations
   are the monadic programs of Model/T9Ops.v (transcriptions of fim/user/*.py and of the add_*_sliver / remove_* methods of
   fim/graph/abc_property_graph.py that keep the order of checks and primitive graph mutations; effects before
   a raise stay in the state).  `sg` is the graph component of the state, `sfresh` the uuid supply.

   The statement of the property for a call `op`:
       forall g g' e,  run op g = (g', Err e)  ->  g' = g
   is proved outright for the calls that validate before they mutate or roll back (after the fixes 16ce105, b5829c4,
   2982a89, 1e03994).  Five programs are modelled with a flag that says whether the library has a given repair; for
   the flag-off program the statement is FALSE and a `_refuted` theorem exhibits the witness (add_switch without
   rollback, add_component without the id pre-check, connect_interface without rollback, add_interface and peer
   through a stale handle without the parent look-up); `_partial` theorems carry the hypothesis excluding the
   defect, `_with_…` theorems are the full statement for the flag-on program. *)
From Coq Require Import List NArith String.
From FIM Require Import Base.Str Gen.T9Names Model.T9Graph Model.T9Ops
     Proofs.T9Monad Proofs.T9Simple Proofs.T9Refuted Proofs.T9Atomic
     Proofs.T9Facility Proofs.T9Peer Proofs.T9Component Proofs.T9CompFresh Proofs.T9Final Proofs.T9More.
Import ListNotations.
Open Scope N_scope.

(* the translator recognised every NAME_REGEX (fail-closed flag) *)
Theorem C09_names_translated : t9_gen_ok = true.
Proof. exact names_translated. Qed.
Print Assumptions C09_names_translated.

(* ---- validate-before-mutate: element constructors whose checks all precede the mutation.
   For EVERY state, flavour and argument: if the call raises (any exception), the graph is unchanged. *)
Theorem C09_add_node_atomic : forall fl name node_id ntype pure s s' e,
  op_add_node fl name node_id ntype pure s = (s', Err e) -> sg s' = sg s.
Proof. exact op_add_node_atomic. Qed.
Print Assumptions C09_add_node_atomic.
Example C09_add_node_atomic_ex :
  let r := op_add_node Experiment (S "n1") None (Some tVM) None (mkSt g_two_nodes supply) in
  snd r = Err ETopology /\ sg (fst r) = g_two_nodes.
Proof. exact ex_add_node_dup. Qed.

Theorem C09_add_node_service_atomic : forall fl pn name node_id nstype pure s s' e,
  op_add_node_service fl pn name node_id nstype pure s = (s', Err e) -> sg s' = sg s.
Proof. exact op_add_node_service_atomic. Qed.
Print Assumptions C09_add_node_service_atomic.

Theorem C09_add_interface_atomic : forall fl ns name node_id itype pure s s' e,
  op_add_interface fl ns name node_id itype pure s = (s', Err e) -> sg s' = sg s.
Proof. exact op_add_interface_atomic. Qed.
Print Assumptions C09_add_interface_atomic.

(* Topology.add_link (fix b5829c4: every interface is looked up before the Link node is added) *)
Theorem C09_add_link_atomic : forall fl name node_id ltype ifs pure s s' e,
  op_add_link fl name node_id ltype ifs pure s = (s', Err e) -> sg s' = sg s.
Proof. exact op_add_link_atomic. Qed.
Print Assumptions C09_add_link_atomic.
Example C09_add_link_atomic_ex :
  let r := op_add_link Experiment (S "l1") None (Some tPatch) (Some [mkIface 4 (S "nic1-p1"); mkIface 40 (S "gone")]) None
                       (mkSt g_two_nodes supply) in
  snd r = Err EQuery /\ sg (fst r) = g_two_nodes.
Proof. exact ex_link_stale. Qed.
Example C09_add_link_ok_ex :
  let r := op_add_link Experiment (S "l1") None (Some tPatch) (Some [mkIface 4 (S "nic1-p1"); mkIface 8 (S "nic1-p1")]) None
                       (mkSt g_two_nodes supply) in
  snd r = Ok 50 /\ List.length (gedges (sg (fst r))) = 9%nat.
Proof. exact ex_link_ok. Qed.

(* ---- the service constructor's rollback (network_service.py:100-119, fix 16ce105).
   For every well-formed graph, every list of interface handles (each a ConnectionPoint of the graph or a
   stale handle), whichever element of the list is the rejected one and WHATEVER the exception
   (TopologyException: not owned by a node, already connected - also by an earlier element of the same list -,
   shared port on L2PTP, substrate flavour, missing service type; PropertyGraphQueryException: stale handle,
   id already taken; ValueError: derived port or link name too long - raised after the ServicePort exists -;
   exhausted id supply; invalid property; duplicate service name): the graph is unchanged. *)
Theorem C09_service_rollback : forall fl name node_id nstype ifs pure g fresh s' e,
  wf_graph g = true -> ifaces_typed g ifs = true -> supply_apart node_id fresh ifs = true ->
  op_add_service fl name node_id nstype ifs pure (mkSt g fresh) = (s', Err e) ->
  sg s' = g.
Proof. exact service_rollback. Qed.
Print Assumptions C09_service_rollback.
Example C09_service_rollback_ex_hyps :
  wf_graph g_two_nodes = true /\ ifaces_typed g_two_nodes ex_ifs = true /\ supply_apart None supply ex_ifs = true
  /\ ifaces_typed g_two_nodes ex_ifs_stale = true /\ supply_apart None supply ex_ifs_stale = true.
Proof. exact ex_service_hyps. Qed.
Example C09_service_rollback_ex_topology :
  let r := op_add_service Experiment (S "s1") None (Some tL2Bridge) ex_ifs None (mkSt g_two_nodes supply) in
  snd r = Err ETopology /\ sg (fst r) = g_two_nodes /\ List.length (sfresh (fst r)) = 3%nat.
Proof. exact ex_service_rollback_runs. Qed.
Example C09_service_rollback_ex_stale_handle :
  let r := op_add_service Experiment (S "s1") None (Some tL2Bridge) ex_ifs_stale None (mkSt g_two_nodes supply) in
  snd r = Err EQuery /\ sg (fst r) = g_two_nodes.
Proof. exact ex_service_stale_runs. Qed.
Example C09_service_rollback_ex_long_link_name :
  let r := op_add_service Experiment (S "s1") None (Some tL2Bridge) [mkIface 4 (long_name 50)] None (mkSt g_long supply) in
  snd r = Err EValue /\ sg (fst r) = g_long /\ List.length (sfresh (fst r)) = 5%nat.
Proof. exact ex_service_long_runs. Qed.
Example C09_service_ok_ex :
  let r := op_add_service Experiment (S "s1") None (Some tL2Bridge) (firstn 2 ex_ifs) None (mkSt g_two_nodes supply) in
  snd r = Ok 50 /\ List.length (gnodes (sg (fst r))) = 14%nat.
Proof. exact ex_service_ok. Qed.

(* ---- Topology.add_facility (fix 2982a89: the steps after add_node in a try whose handler removes the node
   with its service and ports): atomic for every exception and every argument *)
Theorem C09_add_facility_atomic :
  forall fl name node_id d_ns d_int d_intk nstype pure_ns ports pure_single g fresh s' e,
  wf_graph g = true ->
  op_add_facility fl name node_id d_ns d_int d_intk nstype pure_ns ports pure_single (mkSt g fresh) = (s', Err e) ->
  sg s' = g.
Proof. exact add_facility_atomic. Qed.
Print Assumptions C09_add_facility_atomic.
Example C09_add_facility_atomic_ex :
  let r := op_add_facility Experiment (S "fac1") None 0 0 [] tVLAN None
             (Some [mkFacPort (S "pa") None; mkFacPort [] None]) None (mkSt g_two_nodes supply) in
  snd r = Err EValue /\ sg (fst r) = g_two_nodes /\ List.length (sfresh (fst r)) = 4%nat.
Proof. exact ex_facility_late. Qed.
Example C09_add_facility_ok_ex :
  let r := op_add_facility Experiment (S "fac1") None 0 0 [] tVLAN None
             (Some [mkFacPort (S "pa") None; mkFacPort (S "pb") None]) None (mkSt g_two_nodes supply) in
  snd r = Ok 50 /\ List.length (gnodes (sg (fst r))) = 13%nat.
Proof. exact ex_facility_ok. Qed.

(* ---- NetworkService.peer (fix 1e03994): atomic for every exception, for two NetworkService nodes *)
Theorem C09_peer_atomic : forall fl a b pure g fresh s' e,
  wf_graph g = true -> node_cls g a = Ok cNS -> node_cls g b = Ok cNS ->
  op_peer fl a b pure (mkSt g fresh) = (s', Err e) -> sg s' = g.
Proof. exact peer_atomic. Qed.
Print Assumptions C09_peer_atomic.
Example C09_peer_atomic_ex_hyps :
  wf_graph g_two_services = true /\ node_cls g_two_services 30 = Ok cNS /\ node_cls g_two_services 31 = Ok cNS.
Proof. exact ex_peer_hyps. Qed.
Example C09_peer_atomic_ex :
  let r := op_peer Experiment 30 31 None (mkSt g_two_services supply) in
  snd r = Err ETopology /\ sg (fst r) = g_two_services /\ List.length (sfresh (fst r)) = 7%nat.
Proof. exact ex_peer_late. Qed.
Example C09_peer_ok_ex :
  let r := op_peer Experiment 30 31 None (mkSt (mkGraph (firstn 2 (gnodes g_two_services)) []) supply) in
  snd r = Ok tt /\ List.length (gnodes (sg (fst r))) = 5%nat /\ List.length (gedges (sg (fst r))) = 4%nat.
Proof. exact ex_peer_ok. Qed.

(* ---- Topology.add_switch.  `rollback` = does the running library wrap the steps after add_node in the
   try/except of proposed_fixes/C09-5.patch (read off its source by the harness).
   With it: atomic as add_facility. *)
Theorem C09_add_switch_atomic_with_rollback :
  forall fl name node_id d_ns d_intk nstype pure_ns nports pure_port g fresh s' e,
  wf_graph g = true ->
  op_add_switch true fl name node_id d_ns d_intk nstype pure_ns nports pure_port (mkSt g fresh) = (s', Err e) ->
  sg s' = g.
Proof. exact add_switch_atomic_rb. Qed.
Print Assumptions C09_add_switch_atomic_with_rollback.
Example C09_add_switch_atomic_with_rollback_ex :
  let r := op_add_switch true Experiment (S "sw1") None 0 [] tVLAN None 2 (Some EAssert) (mkSt g_two_nodes supply) in
  snd r = Err EAssert /\ sg (fst r) = g_two_nodes.
Proof. exact ex_switch_rb_late. Qed.

(* Without it the full statement is FALSE: node, service, ports in three steps *)
Theorem C09_add_switch_atomic_refuted :
  exists fl name nid dns dk ty pns np pp g fresh s' e,
    wf_graph g = true /\ op_add_switch false fl name nid dns dk ty pns np pp (mkSt g fresh) = (s', Err e) /\ sg s' <> g.
Proof. exact add_switch_atomic_refuted. Qed.
Print Assumptions C09_add_switch_atomic_refuted.

(* ... atomic (either way) when it is the switch node itself that is rejected *)
Theorem C09_add_switch_atomic_partial :
  forall rb fl name node_id d_ns d_intk nstype pure_ns nports pure_port s s' e,
  op_add_switch rb fl name node_id d_ns d_intk nstype pure_ns nports pure_port s = (s', Err e) ->
  (forall s1 id, op_add_node fl name node_id (Some tSwitch) None s <> (s1, Ok id)) ->
  sg s' = sg s.
Proof. exact add_switch_first_step. Qed.
Print Assumptions C09_add_switch_atomic_partial.
Example C09_add_switch_ok_ex :
  let r := op_add_switch false Experiment (S "sw1") None 0 [] tVLAN None 2 None (mkSt g_two_nodes supply) in
  snd r = Ok 50 /\ List.length (gnodes (sg (fst r))) = 13%nat.
Proof. exact ex_switch_ok. Qed.

(* ---- Node.add_component.  `precheck` = does the running library's add_component_sliver check, before it adds
   anything, that the parent exists and the ids it is going to add are new and pairwise distinct
   (proposed_fixes/C09-6.patch; read off its source by the harness).
   With it: atomic for EVERY state, argument and exception. *)
Theorem C09_add_component_atomic_with_precheck :
  forall fl pn name node_id spec_given nic sub_ids cat pure s s' e,
  op_add_component true fl pn name node_id spec_given nic sub_ids cat pure s = (s', Err e) -> sg s' = sg s.
Proof. exact add_component_atomic_precheck. Qed.
Print Assumptions C09_add_component_atomic_with_precheck.
Example C09_add_component_atomic_with_precheck_ex :
  let r := op_add_component true Substrate 1 (S "nic2") (Some 20) true true true (Ok (spec_smartnic 21 22 22)) None
                            (mkSt g_two_nodes supply) in
  snd r = Err EQuery /\ sg (fst r) = g_two_nodes.
Proof. exact ex_component_precheck. Qed.

(* Without it: composite sliver adder, duplicate caller-supplied child ids are found late *)
Theorem C09_add_component_atomic_refuted :
  exists fl pn name nid a b c cat pure g fresh s' e,
    wf_graph g = true /\ op_add_component false fl pn name nid a b c cat pure (mkSt g fresh) = (s', Err e) /\ sg s' <> g.
Proof. exact add_component_atomic_refuted. Qed.
Print Assumptions C09_add_component_atomic_refuted.

(* ... atomic for every failure that is not a PropertyGraphQueryException: duplicate component name, unknown
   component model (CatalogException), invalid property among valid ones, missing model or ids, wrong number
   of ids (RuntimeError) - for every state and every argument *)
Theorem C09_add_component_atomic_nonquery_partial :
  forall pc fl pn name node_id spec_given nic sub_ids cat pure s s' e,
  op_add_component pc fl pn name node_id spec_given nic sub_ids cat pure s = (s', Err e) ->
  e <> EQuery -> sg s' = sg s.
Proof. exact add_component_atomic_nonquery. Qed.
Print Assumptions C09_add_component_atomic_nonquery_partial.
Example C09_add_component_unknown_model_ex :
  let r := op_add_component false Experiment 1 (S "x1") None true true false (Err ECatalog) None (mkSt g_two_nodes supply) in
  snd r = Err ECatalog /\ sg (fst r) = g_two_nodes.
Proof. exact ex_component_unknown_model. Qed.
Example C09_add_component_ok_ex :
  let r := op_add_component false Experiment 1 (S "nic2") None true false false
             (Ok (mkCompSpec tNIC (Some (mkChildNs (S "n1-nic2-l2ovs") tOVS None [mkChildIf (S "nic2-p1") tSharedPort None]))))
             None (mkSt g_two_nodes supply) in
  snd r = Ok 50 /\ List.length (gnodes (sg (fst r))) = 12%nat.
Proof. exact ex_component_ok. Qed.

(* ... and atomic for EVERY exception when the ids the call is going to use (caller-supplied or drawn, in the
   order component, interfaces, service) are pairwise distinct and not in the graph - the hypothesis that
   excludes exactly the witness above *)
Theorem C09_add_component_atomic_partial :
  forall fl pn name node_id spec_given nic sub_ids cat pure g fresh s' e,
  ids_fresh g (component_ids node_id cat fresh) = true ->
  op_add_component false fl pn name node_id spec_given nic sub_ids cat pure (mkSt g fresh) = (s', Err e) ->
  sg s' = g.
Proof. exact add_component_atomic_fresh. Qed.
Print Assumptions C09_add_component_atomic_partial.
Example C09_add_component_atomic_partial_ex :
  ids_fresh g_two_nodes (component_ids (Some 20) (Ok (spec_smartnic 21 22 23)) supply) = true /\
  ids_fresh g_two_nodes (component_ids (Some 20) (Ok (spec_smartnic 21 22 22)) supply) = false /\
  ids_fresh g_two_nodes (component_ids None (Ok (mkCompSpec tNIC (Some (mkChildNs (S "x") tOVS None
                                         [mkChildIf (S "p") tSharedPort None])))) supply) = true.
Proof. exact ex_ids_fresh. Qed.

(* ==== calls on existing elements ==== *)

(* ModelElement.rename / set_property('name', v) (fix 6648cd3): scope uniqueness check, NAME_REGEX, then the write *)
Theorem C09_rename_atomic : forall x kind new_name s s' e,
  op_rename x kind new_name s = (s', Err e) -> sg s' = sg s.
Proof. exact op_rename_atomic. Qed.
Print Assumptions C09_rename_atomic.
Example C09_rename_atomic_ex :
  snd (op_rename 5 cNN (S "n1") (mkSt g_two_nodes supply)) = Err ETopology /\
  sg (fst (op_rename 5 cNN (S "n1") (mkSt g_two_nodes supply))) = g_two_nodes /\
  snd (op_rename 6 cComp (S "nic1") (mkSt g_two_nodes supply)) = Ok tt /\
  snd (op_rename 8 cCP (S "nic1-p2") (mkSt g_two_nodes supply)) = Err ETopology /\
  snd (op_rename 8 cCP (S "x") (mkSt g_two_nodes supply)) = Ok tt /\
  snd (op_rename 5 cNN (S "x") (mkSt g_two_nodes supply)) = Err EValue.
Proof. exact ex_rename. Qed.

(* <element>.set_properties(kwargs): an invalid property among valid ones leaves the element as it was *)
Theorem C09_set_properties_atomic : forall x pure new_rest s s' e,
  op_set_props x pure new_rest s = (s', Err e) -> sg s' = sg s.
Proof. exact op_set_props_atomic. Qed.
Print Assumptions C09_set_properties_atomic.

(* Topology.remove_link (fix 65db950): unknown name, or a link made by connect_interface / peer *)
Theorem C09_remove_link_atomic : forall name s s' e,
  op_remove_link name s = (s', Err e) -> sg s' = sg s.
Proof. exact op_remove_link_atomic. Qed.
Print Assumptions C09_remove_link_atomic.

(* Interface.add_child_interface *)
Theorem C09_add_child_interface_atomic : forall fl x name node_id lv pure s s' e,
  op_add_child fl x name node_id lv pure s = (s', Err e) -> sg s' = sg s.
Proof. exact op_add_child_atomic. Qed.
Print Assumptions C09_add_child_interface_atomic.

(* NetworkService.unpeer (fix 24d5e04): "do not peer" is raised before anything is touched - every
   TopologyException of unpeer leaves the graph unchanged, for every graph *)
Theorem C09_unpeer_topology_exception_atomic : forall a b s s',
  op_unpeer a b s = (s', Err ETopology) -> sg s' = sg s.
Proof. exact op_unpeer_topo_atomic. Qed.
Print Assumptions C09_unpeer_topology_exception_atomic.
(* ... and every failure when the two services have no peering *)
Theorem C09_unpeer_not_peering_atomic : forall a b s s' e,
  op_unpeer a b s = (s', Err e) ->
  (forall m t, peerings (sg s) a b = Ok (m, t) -> m = []) ->
  sg s' = sg s.
Proof. exact op_unpeer_not_peering. Qed.
Print Assumptions C09_unpeer_not_peering_atomic.
Example C09_unpeer_ex :
  wf_graph g_peered = true /\
  snd (op_remove_link (S "a-b-link") (mkSt g_peered supply)) = Err ETopology /\
  snd (op_unpeer 30 33 (mkSt g_peered supply)) = Err ETopology /\
  sg (fst (op_unpeer 30 33 (mkSt g_peered supply))) = g_peered /\
  snd (op_unpeer 30 31 (mkSt g_peered supply)) = Ok tt /\
  List.length (gnodes (sg (fst (op_unpeer 30 31 (mkSt g_peered supply))))) = 3%nat.
Proof. exact ex_peered. Qed.

(* Topology.add_port_mirror_service = two assertions + the service constructor with one interface *)
Theorem C09_port_mirror_atomic : forall fl name node_id to_if from_given pure g fresh s' e,
  wf_graph g = true ->
  (forall i, to_if = Some i -> ifaces_typed g [i] = true /\ supply_apart node_id fresh [i] = true) ->
  op_port_mirror fl name node_id to_if from_given pure (mkSt g fresh) = (s', Err e) -> sg s' = g.
Proof. exact port_mirror_atomic. Qed.
Print Assumptions C09_port_mirror_atomic.

(* NetworkService.connect_interface called directly on an existing service.  `rollback` = does the running library
   remove the ServicePort again when the link cannot be made (proposed_fixes/C09-7.patch).
   Either way every TopologyException (guardrails, not owned, already connected, derived port name already on the
   service or derived link name in use - fix 8b1a93d -, substrate) is raised before anything is made. *)
Theorem C09_connect_interface_topology_exception_atomic : forall rb fl ns i s s',
  op_connect rb fl ns i s = (s', Err ETopology) -> sg s' = sg s.
Proof. exact connect_topo_atomic. Qed.
Print Assumptions C09_connect_interface_topology_exception_atomic.
(* With the rollback: atomic for every exception *)
Theorem C09_connect_interface_atomic_with_rollback : forall fl ns i g fresh s' e,
  wf_graph g = true -> node_cls g ns = Ok cNS ->
  op_connect true fl ns i (mkSt g fresh) = (s', Err e) -> sg s' = g.
Proof. exact connect_rb_atomic. Qed.
Print Assumptions C09_connect_interface_atomic_with_rollback.
Example C09_connect_interface_atomic_with_rollback_ex :
  let r := op_connect true Experiment 9 (mkIface 4 (long_name 50)) (mkSt g_long_svc supply) in
  snd r = Err EValue /\ sg (fst r) = g_long_svc /\ List.length (sfresh (fst r)) = 6%nat.
Proof. exact ex_connect_rb_long. Qed.
(* Without it the full statement is FALSE: a derived link name of 256 characters leaves the ServicePort *)
Theorem C09_connect_interface_atomic_refuted :
  exists fl ns i g fresh s',
    wf_graph g = true /\ node_cls g ns = Ok cNS /\
    op_connect false fl ns i (mkSt g fresh) = (s', Err EValue) /\ sg s' <> g.
Proof. exact connect_atomic_refuted. Qed.
Print Assumptions C09_connect_interface_atomic_refuted.

(* ==== handles that may be stale ====
   NetworkService.add_interface (and peer, which calls it on both services) checks the name against the names CACHED
   in the handle and reads nothing from the graph before it writes.  `parent_check` = does the running library's
   add_interface_sliver look the parent up before it adds the ConnectionPoint (proposed_fixes/C09-8.patch). *)
Theorem C09_add_interface_any_handle_atomic_with_parent_check : forall fl ns cached name node_id itype pure s s' e,
  add_interface_h true fl ns cached name node_id itype pure s = (s', Err e) -> sg s' = sg s.
Proof. exact add_interface_h_pc_atomic. Qed.
Print Assumptions C09_add_interface_any_handle_atomic_with_parent_check.
Example C09_add_interface_any_handle_atomic_with_parent_check_ex :
  let r := add_interface_h true Experiment 77 [] (S "p9") None (Some tFacilityPort) None (mkSt g_two_nodes supply) in
  snd r = Err EQuery /\ sg (fst r) = g_two_nodes.
Proof. exact ex_add_interface_stale_pc. Qed.

(* either way atomic when the service the handle names is in the graph *)
Theorem C09_add_interface_any_handle_atomic_partial : forall pc fl ns cached name node_id itype pure s s' e,
  (exists n, find_node (sg s) ns = Ok n) ->
  add_interface_h pc fl ns cached name node_id itype pure s = (s', Err e) -> sg s' = sg s.
Proof. exact (fun pc fl ns cached name node_id itype pure =>
         clean_any _ _ (add_interface_h_found pc fl ns cached name node_id itype pure)). Qed.
Print Assumptions C09_add_interface_any_handle_atomic_partial.

(* without the look-up the full statement is FALSE: the stale handle of a removed service leaves an orphan port *)
Theorem C09_add_interface_stale_handle_refuted :
  exists fl ns cached name nid ty pure g fresh s' e,
    wf_graph g = true /\ add_interface_h false fl ns cached name nid ty pure (mkSt g fresh) = (s', Err e) /\ sg s' <> g.
Proof. exact add_interface_stale_refuted. Qed.
Print Assumptions C09_add_interface_stale_handle_refuted.

(* peer through any two handles of two NetworkService nodes of the graph: atomic, with or without the look-up *)
Theorem C09_peer_any_handles_atomic : forall pc fl a an ca b bn cb pure g fresh s' e,
  wf_graph g = true -> node_cls g a = Ok cNS -> node_cls g b = Ok cNS ->
  op_peer_h pc fl a an ca b bn cb pure (mkSt g fresh) = (s', Err e) -> sg s' = g.
Proof. exact peer_h_atomic. Qed.
Print Assumptions C09_peer_any_handles_atomic.
(* ... and FALSE without the look-up when one handle is stale *)
Theorem C09_peer_stale_handle_refuted :
  exists fl a an ca b bn cb pure g fresh s' e,
    wf_graph g = true /\ op_peer_h false fl a an ca b bn cb pure (mkSt g fresh) = (s', Err e) /\ sg s' <> g.
Proof. exact peer_stale_refuted. Qed.
Print Assumptions C09_peer_stale_handle_refuted.
Example C09_peer_stale_handle_with_parent_check_ex :
  let r := op_peer_h true Experiment 30 (S "a") [] 77 (S "gone") [] None (mkSt g_two_services supply) in
  snd r = Err EQuery /\ sg (fst r) = g_two_services.
Proof. exact ex_peer_stale_pc. Qed.
