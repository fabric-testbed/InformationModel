(* C20 - store lock discipline and identifier allocation under concurrent use.
   Only statements; the theorems are closed by `exact` of a lemma from Proofs/Locks20Sound.v, Proofs/Conc20Inv.v,
   Proofs/Locks20Gen.v, most examples by evaluation.  `shared_methods` / `disjoint_methods` are the IR of every method of the two storage
   classes, REGENERATED from fim/graph/networkx_property_graph.py and networkx_property_graph_disjoint.py
   (Gen/Locks.v); `run fm m p` executes method m along path p (branch choices and, at every fault point,
   raise-or-continue); `run_sched` is the interleaving semantics (one IR event = one source line per step). *)
From Coq Require Import List NArith String Bool.
From FIM Require Import Model.Locks20 Gen.Locks Model.Conc20 Proofs.Locks20Sound Proofs.Conc20Inv Proofs.Locks20Gen.
Import ListNotations.
Open Scope N_scope.

(* the translator recognised every statement of every method (fail-closed flag) *)
Theorem C20_translated : gen_ok = true.
Proof. exact gen_ok_true. Qed.
Print Assumptions C20_translated.

(* the executable semantics never runs out of loop fuel: `run` is total without a made-up result *)
Theorem C20_run_total : forall fm m p, out_of (run fm m p) <> OFuel.
Proof. exact run_no_fuel. Qed.
Print Assumptions C20_run_total.

(* checker soundness, for ANY event automaton: if the compositional checker accepts a method from state a0
   with all exits in a0, then on EVERY path the event trace is accepted and ends in a0 *)
Theorem C20_checker_sound_any_automaton : forall tf fm a0 m,
  meth_ok tf fm a0 m = true ->
  forall p, out_of (run fm m p) <> OFuel /\ accept tf a0 (evs_of (run fm m p)) = Some a0.
Proof. exact meth_ok_sound. Qed.
Print Assumptions C20_checker_sound_any_automaton.

(* lock discipline: lock_ok m = true -> on every path (normal return, early return, exception; every statement
   of a try body may raise) each acquire is followed by exactly one release, the lock is never released while
   free nor acquired while held, and it is free at exit *)
Theorem C20_lock_checker_sound : forall m, lock_ok m = true ->
  forall p, let r := run AllFaults m p in
    out_of r <> OFuel /\ balanced (evs_of r) = true /\ count_acq (evs_of r) = count_rel (evs_of r).
Proof. exact lock_checker_sound. Qed.
Print Assumptions C20_lock_checker_sound.

(* every regenerated method of both stores passes the checker (finite table, decided by computation) *)
Theorem C20_all_methods : forallb (fun m => lock_ok (snd m)) (shared_methods ++ disjoint_methods) = true.
Proof. exact all_lock_ok. Qed.
Print Assumptions C20_all_methods.

Theorem C20_every_method_every_path : forall m p, In m (map snd (shared_methods ++ disjoint_methods)) ->
  let r := run AllFaults m p in
  out_of r <> OFuel /\ balanced (evs_of r) = true /\ count_acq (evs_of r) = count_rel (evs_of r).
Proof. exact (fun m p H => lock_checker_sound m (method_lock_ok m H) p). Qed.
Print Assumptions C20_every_method_every_path.

(* any sequence of store calls, each along any path (failing ones included), leaves the lock free and never
   misuses it: no call can fail with a lock error or block a later caller *)
Theorem C20_sequences : forall cs : list (stmt * path),
  (forall c, In c cs -> In (fst c) (map snd (shared_methods ++ disjoint_methods))) ->
  balanced (run_calls cs) = true.
Proof. exact (fun cs H => sequences_balanced cs (fun c Hc => method_lock_ok _ (H c Hc))). Qed.
Print Assumptions C20_sequences.

(* the lock OBJECT is never replaced: lock_ok rejects any assignment to self.lock and any re-run of __init__
   inside a method, so along every path, at every point of the trace, the lock is the one created with the
   store (lock_gen counts replacements); same for any sequence of calls *)
Theorem C20_lock_identity_constant : forall m, lock_ok m = true ->
  forall p pre suf g, evs_of (run AllFaults m p) = pre ++ suf -> lock_gen pre g = g.
Proof. exact lock_identity_constant. Qed.
Print Assumptions C20_lock_identity_constant.

Theorem C20_every_method_lock_identity : forall m p pre suf g,
  In m (map snd (shared_methods ++ disjoint_methods)) ->
  evs_of (run AllFaults m p) = pre ++ suf -> lock_gen pre g = g.
Proof. exact (fun m p pre suf g H => lock_identity_constant m (method_lock_ok m H) p pre suf g). Qed.
Print Assumptions C20_every_method_lock_identity.

Theorem C20_sequences_lock_identity : forall cs : list (stmt * path),
  (forall c, In c cs -> In (fst c) (map snd (shared_methods ++ disjoint_methods))) ->
  forall pre suf g, run_calls cs = pre ++ suf -> lock_gen pre g = g.
Proof. exact (fun cs H => sequences_lock_identity cs (fun c Hc => method_lock_ok _ (H c Hc))). Qed.
Print Assumptions C20_sequences_lock_identity.

(* the STORE object itself is created once: with an accepted shape of the shell class's singleton guard
   (`X.storage_instance is None`, or `not X.storage_instance` while the inner class defines neither __len__ nor
   __bool__) constructing further shells (importers, topologies, property-graph handles) never replaces an
   existing store, whatever it holds -- so, with C20_lock_identity_constant, its lock and counters are the same
   objects for the whole process; both regenerated shell classes have an accepted shape *)
Theorem C20_singleton_identity : forall sh, singleton_ok sh = true -> forall n, replaces sh (Some n) = false.
Proof. exact singleton_identity. Qed.
Print Assumptions C20_singleton_identity.

Theorem C20_store_identity_constant :
  singleton_ok shared_singleton = true /\ singleton_ok disjoint_singleton = true /\
  forall n, replaces shared_singleton (Some n) = false /\ replaces disjoint_singleton (Some n) = false.
Proof. exact (conj (proj1 singletons_ok) (conj (proj2 singletons_ok) store_identity)). Qed.
Print Assumptions C20_store_identity_constant.

(* counter discipline of every regenerated method: counter reads/writes and node-map mutations only while
   holding the lock and in an order that keeps live ids below the counter (data automaton, declared faults) *)
Theorem C20_all_methods_counter_discipline :
  table_ok CGlobal shared_methods = true /\ table_ok CArg disjoint_methods = true.
Proof. exact all_data_ok. Qed.
Print Assumptions C20_all_methods_counter_discipline.

(* a caller removing a node from a stored graph (delete_node) while nobody is inside the store keeps the invariant
   "every live id is below its counter": ids come from the counter, a gap left by a removal is never reused *)
Theorem C20_removal_keeps_invariant : forall c s l, Inv s -> Inv (fst (do_act (XRemove c) s l)).
Proof. exact remove_keeps_Inv. Qed.
Print Assumptions C20_removal_keeps_invariant.

(* THE interleaving theorem: ANY number of threads, each running ANY programs accepted by the data automaton,
   under ANY schedule: no lock error, live node keys (cell, internal id) pairwise distinct in EVERY reachable
   state (an insertion never lands on a live node: no node lost, no live id handed out twice), and whenever
   the lock is free every live id is below its counter (so the next id handed out is fresh) *)
Theorem C20_interleavings_generic : forall c progs sched,
  Forall (accepted c 0) progs ->
  let S := run_sched (init progs) sched in
  bad S = false /\ NoDup (map nkey (nodes (sh S))) /\ (holder S = None -> Inv (sh S)).
Proof. exact interleaving_safe. Qed.
Print Assumptions C20_interleavings_generic.

(* ... instantiated on the regenerated methods: threads = any lists of calls (any graph id, any node count,
   any path incl. declared faults) of methods of the shared / the disjoint store *)
Theorem C20_interleavings_shared : forall threads sched,
  calls_from shared_methods threads ->
  let S := run_sched (init (map (flatten DeclFaults) threads)) sched in
  bad S = false /\ NoDup (map nkey (nodes (sh S))) /\ (holder S = None -> Inv (sh S)).
Proof. exact (interleaving_table CGlobal shared_methods (proj1 all_data_ok)). Qed.
Print Assumptions C20_interleavings_shared.

Theorem C20_interleavings_disjoint : forall threads sched,
  calls_from disjoint_methods threads ->
  let S := run_sched (init (map (flatten DeclFaults) threads)) sched in
  bad S = false /\ NoDup (map nkey (nodes (sh S))) /\ (holder S = None -> Inv (sh S)).
Proof. exact (interleaving_table CArg disjoint_methods (proj2 all_data_ok)). Qed.
Print Assumptions C20_interleavings_disjoint.

(* nobody blocks for ever: in every reachable state in which some thread still has work, some thread can
   execute its next instruction (the holder of the lock is never itself waiting, and it releases before it
   finishes) -- "no call can block later callers" under any fair scheduler *)
Theorem C20_no_deadlock_generic : forall c progs sched,
  Forall (accepted c 0) progs ->
  let S := run_sched (init progs) sched in
  unfinished S ->
  exists t i rest lo lo', nth_error (thr S) t = Some (i :: rest, lo) /\ nth_error (thr (step S t)) t = Some (rest, lo').
Proof. exact no_deadlock. Qed.
Print Assumptions C20_no_deadlock_generic.

Theorem C20_no_deadlock_shared : forall threads sched,
  calls_from shared_methods threads ->
  let S := run_sched (init (map (flatten DeclFaults) threads)) sched in
  unfinished S ->
  exists t i rest lo lo', nth_error (thr S) t = Some (i :: rest, lo) /\ nth_error (thr (step S t)) t = Some (rest, lo').
Proof. exact (no_deadlock_table CGlobal shared_methods (proj1 all_data_ok)). Qed.
Print Assumptions C20_no_deadlock_shared.

Theorem C20_no_deadlock_disjoint : forall threads sched,
  calls_from disjoint_methods threads ->
  let S := run_sched (init (map (flatten DeclFaults) threads)) sched in
  unfinished S ->
  exists t i rest lo lo', nth_error (thr S) t = Some (i :: rest, lo) /\ nth_error (thr (step S t)) t = Some (rest, lo').
Proof. exact (no_deadlock_table CArg disjoint_methods (proj2 all_data_ok)). Qed.
Print Assumptions C20_no_deadlock_disjoint.

(* the checker rejects the pre-fix disjoint add_graph (explicit release + finally) and a path releasing twice exists *)
Example C20_checker_rejects_double_release :
  lock_ok old_disjoint_add_graph = false /\
  exists p, balanced (evs_of (run AllFaults old_disjoint_add_graph p)) = false.
Proof. exact old_code_rejected. Qed.

(* early return, exception and normal end of the current disjoint add_graph: one acquire, one release each *)
Example C20_three_paths :
  let m := lookup_m disjoint_methods "add_graph" in
  let r1 := run AllFaults m [false; true] in
  let r2 := run AllFaults m [false; false; false; false; true; false; true] in
  let r3 := run AllFaults m [false; false; false; false; true; false; false; false; false] in
  (out_of r1, count_acq (evs_of r1), count_rel (evs_of r1)) = (OReturn, 1%nat, 1%nat) /\
  (out_of r2, count_acq (evs_of r2), count_rel (evs_of r2)) = (ORaise, 1%nat, 1%nat) /\
  (out_of r3, count_acq (evs_of r3), count_rel (evs_of r3)) = (ONormal, 1%nat, 1%nat).
Proof. vm_compute. repeat split. Qed.

(* two threads, interleaved: ids 1 and 2; the same updates without the lock are rejected by the automaton and
   lose a node under the alternating schedule *)
Example C20_two_threads :
  let S := run_sched (init (map (flatten DeclFaults) [[blank_call]; [blank_call]])) [0;1;0;1;1;0;0;0;0;0;0;1;1;1;1;1;1;1]%nat in
  map nkey (nodes (sh S)) = [(0, 2); (0, 1)] /\ map (fun t => rets (snd t)) (thr S) = [[1]; [2]]
  /\ holder S = None /\ forallb (fun t => match fst t with [] => true | _ => false end) (thr S) = true.
Proof. vm_compute. repeat split. Qed.

Example C20_without_lock_a_node_is_lost :
  accepti (dataA CGlobal) 0 unlocked_blank = None /\
  let S := run_sched (init [unlocked_blank; unlocked_blank]) [0;1;0;1;0;1;0;1]%nat in
  map nkey (nodes (sh S)) = [(0, 1); (0, 1)] /\ ~ NoDup (map nkey (nodes (sh S))).
Proof. exact unlocked_loses_a_node. Qed.

(* a waiting thread: thread 1's acquire is disabled while thread 0 holds the lock, thread 0 can proceed *)
Example C20_waiting_thread :
  let S := run_sched (init (map (flatten DeclFaults) [[blank_call]; [blank_call]])) [0;0;1]%nat in
  holder S = Some 0%nat /\ step S 1%nat = S /\ unfinished S /\ step S 0%nat <> S.
Proof. exact waiting_example. Qed.

(* `with self.lock:` is accepted (balanced also on the raising path); re-running __init__ under it is rejected *)
Example C20_with_form :
  lock_ok with_del_all = true /\ data_ok CGlobal with_del_all = true /\
  map ev_code (evs_of (run AllFaults with_del_all [true])) = [(830, 1); (831, 0); (830, 2)] /\
  out_of (run AllFaults with_del_all [true]) = ORaise /\
  lock_ok reinit_del_all = false /\ data_ok CGlobal reinit_del_all = false /\
  lock_gen (evs_of (run AllFaults reinit_del_all [])) 0 = 1.
Proof. vm_compute. repeat split. Qed.

(* an id computed from the size of the graph is rejected by the counter discipline and, after a caller deleted a
   node, is handed out twice; the regenerated method (id from the counter) hands out a fresh one *)
Example C20_id_from_size_is_rejected :
  lock_ok len_blank = true /\ data_ok CArg len_blank = false /\
  find_bad (dataA CArg) DeclFaults 0 len_blank 8 2 = Some [] /\
  (let S := run_sched (init [flatten DeclFaults [imp2; rm1; mkCall len_blank 1 0 []]]) (repeat 0%nat 60) in
   map nkey (nodes (sh S)) = [(1, 2); (1, 2)] /\ map (fun t => rets (snd t)) (thr S) = [[2]]) /\
  (let S := run_sched (init [flatten DeclFaults [imp2; rm1; mkCall (lookup_m disjoint_methods "add_blank_node_to_graph") 1 0 []]]) (repeat 0%nat 60) in
   map nkey (nodes (sh S)) = [(1, 3); (1, 2)] /\ map (fun t => rets (snd t)) (thr S) = [[3]]).
Proof. vm_compute. repeat split. Qed.

(* acquire(timeout=..) with the result ignored is rejected (witness: the timed-out path); checked, it is accepted *)
Example C20_acquire_timeout :
  lock_ok acq_ignored = false /\ find_bad lockA AllFaults 0 acq_ignored 6 2 = Some [true] /\
  data_ok CGlobal acq_ignored = false /\
  lock_ok acq_checked = true /\ data_ok CGlobal acq_checked = true /\
  out_of (run AllFaults acq_checked [true]) = ORaise /\ count_acq (evs_of (run AllFaults acq_checked [true])) = 0%nat.
Proof. vm_compute. repeat split. Qed.

(* `del d[k]` of a possibly absent key between acquire and release, outside try/finally: rejected, the witness path
   raises after the acquire and never releases *)
Example C20_raising_statement_outside_try :
  lock_ok tidy_del_graph = false /\ find_bad lockA AllFaults 0 tidy_del_graph 6 2 = Some [true; true] /\
  out_of (run AllFaults tidy_del_graph [true; true]) = ORaise /\
  map ev_code (evs_of (run AllFaults tidy_del_graph [true; true])) = [(1, 1); (2, 0); (3, 0); (4, 0)] /\
  balanced (evs_of (run AllFaults tidy_del_graph [true; true])) = false.
Proof. vm_compute. repeat split. Qed.

(* truthiness is not identity once the inner class has __len__: the empty store (size 0) is replaced *)
Example C20_singleton_guard_shapes :
  singleton_ok (mkSing GTruthy false false) = true /\ singleton_ok (mkSing GIsNone true true) = true /\
  singleton_ok (mkSing GTruthy true false) = false /\ singleton_witness (mkSing GTruthy true false) = Some 0 /\
  replaces (mkSing GTruthy true false) (Some 0) = true /\ replaces (mkSing GTruthy true false) (Some 3) = false.
Proof. vm_compute. repeat split. Qed.
