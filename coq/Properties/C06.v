(* C06 - neighbour and path queries return exactly what their contract describes.
   Only statements; each is closed by `exact` of a lemma from Proofs/Query6{Nbr,Path,Api}.v.  The functions
   first_neighbor / first_and_second_neighbor / shortest_path / path_with_hops / get_parent /
   find_peer_connection_points / get_all_node_or_component_connection_points are Model/Query6.v, the
   transcription of fim/graph/networkx_property_graph.py:395-545 (+ networkx_mixin.py, abc_property_graph.py),
   tied to the code on every run by harness/c06.py.  A store holds several graphs; nodes carry the
   internal networkx key, GraphID, NodeID, Class; `Err` = the call raised.

   Vocabulary (Model/Query6.v): in_graph s gid m  = m is a node of the store with GraphID gid;
   joined s n m rel = the store has an edge of relation rel between n and m;  find_node = _find_node
   (exactly one node of that graph with that NodeID, else the call raises). *)
From Coq Require Import List NArith ZArith.
From FIM Require Import Gen.Query6Gen Model.Query6 Model.Query6Hist Proofs.Query6Nbr Proofs.Query6Api Proofs.Query6Own.
Import ListNotations.
Open Scope N_scope.

(* ex_store (Model/Query6.v): two graphs in one store; graph 1: a(1) -has- b(2), b -connects- c(3), b -has- d(4),
   c -connects- e(5), d -connects- e; graph 2 reuses the NodeIDs 1 and 2.  classes: 1 NetworkNode, 4 NetworkService,
   5 ConnectionPoint; relations: 1 has, 2 connects *)

(* ------------------------------------------------------------------------------------------------- *)
(* _find_node *)
Theorem C06_find_node_spec : forall s gid id n,
  find_node s gid id = Ok n -> in_graph s gid n /\ n_id n = id.
Proof. exact find_node_Ok. Qed.
Print Assumptions C06_find_node_spec.

Theorem C06_find_node_unique : forall s gid id n n',
  find_node s gid id = Ok n -> in_graph s gid n' -> n_id n' = id -> n' = n.
Proof. exact find_node_unique. Qed.
Print Assumptions C06_find_node_unique.

(* ------------------------------------------------------------------------------------------------- *)
(* first neighbours: exactly the nodes of the requested class joined to the start node by an edge of the
   requested relation - nothing missing, nothing extra, nothing twice *)
Theorem C06_first_neighbor_exact : forall s gid id rel cls r,
  keys_distinct s = true ->
  first_neighbor s gid id rel cls = Ok r ->
  exists n, find_node s gid id = Ok n /\
  forall x, In x r <-> exists m, in_graph s gid m /\ n_id m = x /\ n_cls m = cls /\ joined s n m rel.
Proof. exact first_neighbor_exact. Qed.
Print Assumptions C06_first_neighbor_exact.

Theorem C06_first_neighbor_nodup : forall s gid id rel cls r,
  wf_store s = true -> first_neighbor s gid id rel cls = Ok r -> NoDup r.
Proof. exact first_neighbor_nodup. Qed.
Print Assumptions C06_first_neighbor_nodup.

(* the query answers exactly when the start node exists *)
Theorem C06_first_neighbor_total : forall s gid id rel cls,
  (exists n, find_node s gid id = Ok n) <-> (exists r, first_neighbor s gid id rel cls = Ok r).
Proof. exact first_neighbor_total. Qed.
Print Assumptions C06_first_neighbor_total.

Example C06_first_neighbor_example :
  wf_store ex_store = true /\ first_neighbor ex_store 1 2 1 5 = Ok [4] /\ first_neighbor ex_store 1 2 2 5 = Ok [3]
  /\ first_neighbor ex_store 2 2 2 5 = Ok [1] /\ first_neighbor ex_store 1 7 1 5 = Err.
Proof. vm_compute. repeat split. Qed.

(* ------------------------------------------------------------------------------------------------- *)
(* two-hop query.  The FULL statement (the contract) is

     forall s gid id rel1 c1 rel2 c2 r, keys_distinct s = true ->
       first_and_second_neighbor s gid id rel1 c1 rel2 c2 = Ok r ->
       exists n, find_node s gid id = Ok n /\
       forall b c, In (b, c) r <-> second_spec s gid n rel1 c1 rel2 c2 b c

   and it is FALSE of the code: networkx_property_graph.py:529 appends the first-hop node n instead of the
   offending neighbour k to the drop list, so the second relation is not enforced. *)
Theorem C06_second_neighbor_exact_refuted :
  exists s gid id rel1 c1 rel2 c2 r n b c,
    wf_store s = true /\ first_and_second_neighbor s gid id rel1 c1 rel2 c2 = Ok r /\
    find_node s gid id = Ok n /\ In (b, c) r /\ ~ second_spec s gid n rel1 c1 rel2 c2 b c.
Proof. exact second_neighbor_exact_refuted. Qed.
Print Assumptions C06_second_neighbor_exact_refuted.

(* what the code does return, exactly (second_coded: any relation on the second hop, plus the self-loop
   clause the mis-filled drop list produces) *)
Theorem C06_second_neighbor_returned_partial : forall s gid id rel1 c1 rel2 c2 r,
  keys_distinct s = true ->
  first_and_second_neighbor s gid id rel1 c1 rel2 c2 = Ok r ->
  exists n, find_node s gid id = Ok n /\
  forall b c, In (b, c) r <-> second_coded s gid n rel1 c1 rel2 c2 b c.
Proof. exact second_neighbor_returned. Qed.
Print Assumptions C06_second_neighbor_returned_partial.

(* the contract holds whenever the defect's signature is absent (rel2_uniformb: no qualifying first-hop node
   has a self-loop or an edge of another relation to a class-c2 node other than the start node) *)
Theorem C06_second_neighbor_exact_partial : forall s gid id rel1 c1 rel2 c2 r,
  keys_distinct s = true ->
  rel2_uniformb s gid id rel1 c1 rel2 c2 = true ->
  first_and_second_neighbor s gid id rel1 c1 rel2 c2 = Ok r ->
  exists n, find_node s gid id = Ok n /\
  forall b c, In (b, c) r <-> second_spec s gid n rel1 c1 rel2 c2 b c.
Proof. exact second_neighbor_exact_partial. Qed.
Print Assumptions C06_second_neighbor_exact_partial.

(* never the start node itself *)
Theorem C06_second_neighbor_never_start : forall s gid id rel1 c1 rel2 c2 r b c,
  keys_distinct s = true ->
  first_and_second_neighbor s gid id rel1 c1 rel2 c2 = Ok r -> In (b, c) r -> c <> id.
Proof. exact second_neighbor_never_start. Qed.
Print Assumptions C06_second_neighbor_never_start.

Theorem C06_second_neighbor_total : forall s gid id rel1 c1 rel2 c2,
  (exists n, find_node s gid id = Ok n) <-> (exists r, first_and_second_neighbor s gid id rel1 c1 rel2 c2 = Ok r).
Proof. exact fsn_total. Qed.
Print Assumptions C06_second_neighbor_total.

Example C06_second_neighbor_example :
  (* the defect: (b,d) comes back although b-d is `has`, not `connects` *)
  first_and_second_neighbor ex_store 1 1 1 4 2 5 = Ok [(2, 3); (2, 4)] /\ rel2_uniformb ex_store 1 1 1 4 2 5 = false
  (* a non-trivial instance of the hypothesis of the _partial theorem, with a non-empty answer that
     excludes the start node c although c -connects- e -connects- d ... *)
  /\ rel2_uniformb ex_store 1 3 2 5 2 5 = true /\ first_and_second_neighbor ex_store 1 3 2 5 2 5 = Ok [(5, 4)].
Proof. vm_compute. repeat split. Qed.

(* ------------------------------------------------------------------------------------------------- *)
(* shortest path.  graph_for s gid rel = the extracted graph, restricted to the edges of relation rel when
   one is given (_drop_edges_not_of_type); is_path G p a z = p is non-empty, starts at a, ends at z, its
   nodes are nodes of G and consecutive nodes are adjacent in G. *)

(* what adjacency in graph_for means in terms of the store: both keys belong to nodes of the graph and the
   store has an edge between them whose relation is the requested one (any, when none is requested) *)
Theorem C06_path_graph_meaning : forall s gid rel G,
  graph_for s gid rel = Ok G ->
  g_nodes G = graph_nodes s gid /\
  forall x y, adjb G x y = true <->
              (In x (map n_int (graph_nodes s gid)) /\ In y (map n_int (graph_nodes s gid)) /\
               exists r, edge_rel (s_edges s) x y = Some r /\ rel_ok rel r).
Proof. exact graph_for_Ok. Qed.
Print Assumptions C06_path_graph_meaning.

Theorem C06_path_ids_meaning : forall s gid rel G m,
  keys_distinct s = true -> graph_for s gid rel = Ok G -> in_graph s gid m -> id_of G (n_int m) = n_id m.
Proof. exact id_of_node. Qed.
Print Assumptions C06_path_ids_meaning.

(* a non-empty answer is an actual path between the end nodes over edges of the requested relation only,
   and no path between them is shorter *)
Theorem C06_shortest_path_sound_min : forall s gid a z rel ids,
  shortest_path s gid a z rel = Ok ids -> ids <> [] ->
  exists G na nz p,
    graph_for s gid rel = Ok G /\ find_node s gid a = Ok na /\ find_node s gid z = Ok nz /\
    ids = ids_of G p /\ is_path G p (n_int na) (n_int nz) = true /\
    forall q, is_path G q (n_int na) (n_int nz) = true -> (length ids <= length q)%nat.
Proof. exact shortest_path_sound_min. Qed.
Print Assumptions C06_shortest_path_sound_min.

(* the answer is empty exactly when no path exists *)
Theorem C06_shortest_path_empty_iff_unreachable : forall s gid a z rel ids,
  shortest_path s gid a z rel = Ok ids ->
  exists G na nz,
    graph_for s gid rel = Ok G /\ find_node s gid a = Ok na /\ find_node s gid z = Ok nz /\
    (ids = [] <-> forall q, is_path G q (n_int na) (n_int nz) = false).
Proof. exact shortest_path_empty_iff. Qed.
Print Assumptions C06_shortest_path_empty_iff_unreachable.

(* it never fails because other kinds of edges are present: for EVERY relation argument the call answers
   exactly when both end nodes exist *)
Theorem C06_shortest_path_total : forall s gid a z rel,
  (exists na nz, find_node s gid a = Ok na /\ find_node s gid z = Ok nz) <->
  (exists ids, shortest_path s gid a z rel = Ok ids).
Proof. exact shortest_path_total. Qed.
Print Assumptions C06_shortest_path_total.

Example C06_shortest_path_example :
  shortest_path ex_store 1 1 5 None = Ok [1; 2; 3; 5] /\ shortest_path ex_store 1 1 5 (Some 1) = Ok []
  /\ shortest_path ex_store 1 3 4 (Some 2) = Ok [3; 5; 4] /\ shortest_path ex_store 1 3 4 None = Ok [3; 2; 4]
  /\ shortest_path ex_store 1 1 1 (Some 2) = Ok [1] /\ shortest_path ex_store 2 1 5 None = Err.
Proof. vm_compute. repeat split. Qed.

(* ------------------------------------------------------------------------------------------------- *)
(* path with hops.  hop_path G a z hops cutoff q = q is a path from a to z in G without repeated nodes, whose
   induced sub-graph has no cycle (the code's loop-free test: no self-loop, no chord), which contains every
   requested hop (by NodeID) and has at most cutoff edges.  The answer is empty exactly when there is no
   such path; otherwise it is one of them and none of them is shorter. *)
Theorem C06_path_with_hops_spec : forall s gid a z hops cutoff ids,
  path_with_hops s gid a z hops cutoff = Ok ids ->
  exists G na nz p,
    graph_for s gid None = Ok G /\ find_node s gid a = Ok na /\ find_node s gid z = Ok nz /\
    ids = ids_of G p /\
    (ids = [] <-> forall q, ~ hop_path G (n_int na) (n_int nz) hops cutoff q) /\
    (ids <> [] -> hop_path G (n_int na) (n_int nz) hops cutoff p /\
                  forall q, hop_path G (n_int na) (n_int nz) hops cutoff q -> (length ids <= length q)%nat).
Proof. exact path_with_hops_spec. Qed.
Print Assumptions C06_path_with_hops_spec.

Theorem C06_path_with_hops_total : forall s gid a z hops cutoff,
  (exists na nz, find_node s gid a = Ok na /\ find_node s gid z = Ok nz) <->
  (exists ids, path_with_hops s gid a z hops cutoff = Ok ids).
Proof. exact path_with_hops_total. Qed.
Print Assumptions C06_path_with_hops_total.

Example C06_path_with_hops_example :
  path_with_hops ex_store 1 1 5 [4] 100 = Ok [1; 2; 4; 5] /\ path_with_hops ex_store 1 1 5 [] 100 = Ok [1; 2; 3; 5]
  /\ path_with_hops ex_store 1 1 5 [4] 2 = Ok [] /\ path_with_hops ex_store 1 3 4 [2; 5] 100 = Ok []
  /\ path_with_hops ex_store 1 1 5 [] (-1) = Ok [].
Proof. vm_compute. repeat split. Qed.

(* ------------------------------------------------------------------------------------------------- *)
(* several graphs in one store: whatever edges the store holds - also edges that cross graph boundaries, as
   merge_nodes leaves them until the other graph's nodes are re-homed - every NodeID a query returns is the
   NodeID of a node OF THE QUERIED GRAPH (owned s gid x = exists m, in_graph s gid m /\ n_id m = x).
   For ANY store: no well-formedness hypothesis. *)
Theorem C06_first_neighbor_own_graph : forall s gid id rel cls r x,
  first_neighbor s gid id rel cls = Ok r -> In x r -> owned s gid x.
Proof. exact first_neighbor_owned. Qed.
Print Assumptions C06_first_neighbor_own_graph.

Theorem C06_second_neighbor_own_graph : forall s gid id rel1 c1 rel2 c2 r b c,
  first_and_second_neighbor s gid id rel1 c1 rel2 c2 = Ok r -> In (b, c) r -> owned s gid b /\ owned s gid c.
Proof. exact second_neighbor_owned. Qed.
Print Assumptions C06_second_neighbor_own_graph.

Theorem C06_shortest_path_own_graph : forall s gid a z rel ids x,
  shortest_path s gid a z rel = Ok ids -> In x ids -> owned s gid x.
Proof. exact shortest_path_owned. Qed.
Print Assumptions C06_shortest_path_own_graph.

Theorem C06_path_with_hops_own_graph : forall s gid a z hops cutoff ids x,
  path_with_hops s gid a z hops cutoff = Ok ids -> In x ids -> owned s gid x.
Proof. exact path_with_hops_owned. Qed.
Print Assumptions C06_path_with_hops_own_graph.

Theorem C06_get_parent_own_graph : forall s gid id rel parent p,
  get_parent s gid id rel parent = Ok (Some p) -> owned s gid p.
Proof. exact get_parent_owned. Qed.
Print Assumptions C06_get_parent_own_graph.

Theorem C06_peer_connection_points_own_graph : forall V s gid id l c,
  find_peer_connection_points V s gid id = Ok (Some l) -> In c l -> owned s gid c.
Proof. exact peers_owned. Qed.
Print Assumptions C06_peer_connection_points_own_graph.

Theorem C06_node_connection_points_own_graph : forall V s gid id l c,
  get_all_node_or_component_connection_points V s gid id = Ok l -> In c l -> owned s gid c.
Proof. exact node_cps_owned. Qed.
Print Assumptions C06_node_connection_points_own_graph.

(* cross_store: ConnectionPoint 1 of graph 1 is joined to Link 5 of graph 2.  The Link is not reported as a
   neighbour, parent, peer or path node of graph 1; it is reported inside graph 2 *)
Example C06_cross_graph_example :
  wf_store cross_store = true
  /\ first_neighbor cross_store 1 1 2 6 = Ok [] /\ first_neighbor cross_store 1 1 2 4 = Ok [2]
  /\ get_parent cross_store 1 1 2 6 = Ok None
  /\ first_and_second_neighbor cross_store 1 2 2 5 2 6 = Ok []
  /\ find_peer_connection_points std_vocab cross_store 1 1 = Ok None
  /\ shortest_path cross_store 1 2 5 None = Err /\ shortest_path cross_store 1 2 1 None = Ok [2; 1]
  /\ first_neighbor cross_store 2 5 2 5 = Ok [6] /\ first_neighbor cross_store 2 6 2 6 = Ok [5].
Proof. vm_compute. repeat split. Qed.

(* ------------------------------------------------------------------------------------------------- *)
(* query histories (Model/Query6Hist.v).  Queries and mutations may be issued through any number of graph objects
   for one graph id, in any order.  In the model the only state is the store content: HSet s' = the store content
   becomes s' (any mutation through any object), HAsk a = a question (any of the seven query kinds, answer_of).
   The three statements are what "query results depend only on the current store content, not on earlier
   queries" means; they hold of the model by construction (it has no other state) and the correspondence stream
   `history` checks that the code behaves like the model (two live objects, interleaved mutations, repeated
   identical questions, every answer compared on the store content at that moment). *)
Theorem C06_history_answer_from_current_store : forall V s pre a post,
  run V s (pre ++ HAsk a :: post) = run V s pre ++ answer_of V (current s pre) a :: run V (current s pre) post.
Proof. exact (fun V s pre a post => run_app V pre s (HAsk a :: post)). Qed.
Print Assumptions C06_history_answer_from_current_store.

Theorem C06_history_earlier_questions_irrelevant : forall pre s, current s pre = current s (filter is_set pre).
Proof. exact current_ignores_asks. Qed.
Print Assumptions C06_history_earlier_questions_irrelevant.

Theorem C06_history_repeat_same_answer : forall V s pre a mid,
  forallb (fun h => negb (is_set h)) mid = true ->
  run V s (pre ++ HAsk a :: mid ++ [HAsk a]) =
  run V s pre ++ answer_of V (current s pre) a :: run V (current s pre) mid ++ [answer_of V (current s pre) a].
Proof. exact repeat_same. Qed.
Print Assumptions C06_history_repeat_same_answer.

(* ask, change the store, ask the identical question again: the second answer is that of the NEW content *)
Example C06_history_example :
  run std_vocab ex_store [HAsk (AHops 1 1 5 [] 100); HSet cross_store; HAsk (AHops 1 1 5 [] 100); HAsk (AHops 1 2 1 [] 100);
                          HSet ex_store; HAsk (AHops 1 1 5 [] 100)]
  = [RIds (Ok [1; 2; 3; 5]); RIds Err; RIds (Ok [2; 1]); RIds (Ok [1; 2; 3; 5])].
Proof. vm_compute. reflexivity. Qed.

(* ------------------------------------------------------------------------------------------------- *)
(* derived helpers *)

(* the translator recognised the helper bodies and what it read from the source is what the model transcribes:
   the relation/class constants passed to the two-hop query, the accepted parent classes, `None` on no
   candidate, the `!= 1` guard of get_parent, and the snapshot iteration of _drop_edges_not_of_type
   (for the vocabulary std_vocab the harness interns with) *)
Theorem C06_helpers_translated :
  Query6Gen.gen_ok = true /\
  gen_peer_args = (v_connects std_vocab, v_Link std_vocab, v_connects std_vocab, v_ConnectionPoint std_vocab) /\
  gen_peer_none_when_empty = true /\
  gen_nodecps_args = (v_has std_vocab, v_NetworkService std_vocab, v_connects std_vocab, v_ConnectionPoint std_vocab) /\
  gen_nodecps_classes = [v_NetworkNode std_vocab; v_Component std_vocab; v_CompositeNode std_vocab] /\
  gen_parent_requires_exactly_one = true /\
  gen_drop_iterates_snapshot = true.
Proof. exact helpers_translated. Qed.
Print Assumptions C06_helpers_translated.
Theorem C06_get_parent_exact : forall s gid id rel parent p,
  keys_distinct s = true ->
  get_parent s gid id rel parent = Ok (Some p) ->
  exists n, find_node s gid id = Ok n /\
  forall x, (exists m, in_graph s gid m /\ n_id m = x /\ n_cls m = parent /\ joined s n m rel) <-> x = p.
Proof. exact get_parent_some. Qed.
Print Assumptions C06_get_parent_exact.

Theorem C06_get_parent_none : forall s gid id rel parent,
  get_parent s gid id rel parent = Ok None ->
  exists l, first_neighbor s gid id rel parent = Ok l /\ length l <> 1%nat.
Proof. exact get_parent_none. Qed.
Print Assumptions C06_get_parent_none.

(* the two helpers built on the two-hop query inherit its defect: they return the projection of second_coded *)
Theorem C06_peer_connection_points_partial : forall V s gid id o,
  keys_distinct s = true ->
  find_peer_connection_points V s gid id = Ok o ->
  exists n, find_node s gid id = Ok n /\
  forall c, (exists l, o = Some l /\ In c l) <->
            (exists b, second_coded s gid n (v_connects V) (v_Link V) (v_connects V) (v_ConnectionPoint V) b c).
Proof. exact peers_returned. Qed.
Print Assumptions C06_peer_connection_points_partial.

Theorem C06_node_connection_points_partial : forall V s gid id l,
  keys_distinct s = true ->
  get_all_node_or_component_connection_points V s gid id = Ok l ->
  exists n, find_node s gid id = Ok n /\
  (n_cls n = v_NetworkNode V \/ n_cls n = v_Component V \/ n_cls n = v_CompositeNode V) /\
  forall c, In c l <->
            (exists b, second_coded s gid n (v_has V) (v_NetworkService V) (v_connects V) (v_ConnectionPoint V) b c).
Proof. exact node_cps_returned. Qed.
Print Assumptions C06_node_connection_points_partial.

Example C06_helpers_example :
  let V := std_vocab in
  get_parent ex_store 1 2 1 1 = Ok (Some 1) /\ get_parent ex_store 1 2 1 5 = Ok (Some 4)
  /\ get_parent ex_store 1 5 2 5 = Ok None
  /\ get_all_node_or_component_connection_points V ex_store 1 1 = Ok [3; 4]
  /\ get_all_node_or_component_connection_points V ex_store 1 2 = Err
  /\ find_peer_connection_points V ex_store 1 3 = Ok None.
Proof. vm_compute. repeat split. Qed.
