(* C08 - removal and disconnection delete exactly the owned structure and nothing else.
   Only statements; each is closed by `exact` of a lemma from Proofs/T8*.v.

   `exec experiment op caches` (Model/T8Ops.v) transcribes the removal / disconnect interface of
   fim/user/{topology,node,network_service,interface}.py over the graph-level removal procedures of
   fim/graph/abc_property_graph.py:1086-1202; `run m g = (result, (g', tr))` executes it from graph g;
   `tr` lists the deleted node ids; `result = inl _` is a normal return, `inr e` an exception (the
   partial effects stay in g' and tr).  All statements quantify over ALL graphs g (no well-formedness
   is assumed unless written), all operations and all arguments. *)
From Coq Require Import List NArith Bool.
From FIM Require Import Model.T8Graph Model.T8Ops Proofs.T8Frame Proofs.T8Sound Proofs.T8SoundTop
     Proofs.T8Complete Proofs.T8Closed Proofs.T8Top Proofs.T8Owned Proofs.T8Handles Proofs.T8Fixed Proofs.T8Inv
     Proofs.T8Link Proofs.T8Prune Proofs.T8Art Proofs.T8Eq Proofs.T8Witness.
Import ListNotations.

(* ================= "leaves every other element, property and connection exactly as it was" ============ *)

(* FRAME, every operation, every outcome (also an exception after partial effects): the result is the
   subgraph induced by the survivors *)
Theorem C08_frame_induced_subgraph : forall ex o cs g r g' tr,
  run (exec ex o cs) g = (r, (g', tr)) -> g' = restrict g tr.
Proof. exact frame_exec. Qed.
Print Assumptions C08_frame_induced_subgraph.

(* a node is in the result iff it was there - with the same class, type, name and every other property -
   and was not deleted: nothing appears, nothing that survives is modified *)
Theorem C08_frame_nodes : forall ex o cs g r g' tr,
  run (exec ex o cs) g = (r, (g', tr)) ->
  forall x, In x (gnodes g') <-> In x (gnodes g) /\ ~ In (nid x) tr.
Proof. exact frame_nodes. Qed.
Print Assumptions C08_frame_nodes.

(* every connection between two survivors survives, with its class; no connection appears *)
Theorem C08_frame_edges : forall ex o cs g r g' tr,
  run (exec ex o cs) g = (r, (g', tr)) ->
  forall e, In e (gedges g') <-> In e (gedges g) /\ ~ In (ea e) tr /\ ~ In (eb e) tr.
Proof. exact frame_edges. Qed.
Print Assumptions C08_frame_edges.

(* ================= "and nothing else" ================================================================= *)

(* every deleted id lies in a set described on the INITIAL graph alone (`allowed`, Proofs/T8SoundTop.v):
   the addressed element; what hangs below it by containment (has -> components, services; connects ->
   ports); the connection points next to a removed port (its sub-interfaces); the links attached to
   those; and, for the API-level element removals and disconnect, the connection points peering with an
   interface of the element across a link, with their links.  Every operation, every outcome. *)
Theorem C08_nothing_else_deleted : forall ex o cs g r g' tr,
  run (exec ex o cs) g = (r, (g', tr)) -> forall x, In x tr -> allowed g o x.
Proof. exact sound_exec. Qed.
Print Assumptions C08_nothing_else_deleted.

(* ================= "deletes that element, everything it owns ..." (normal return) ==================== *)

(* the addressed element is deleted (prune: no claim here, `targets g OPrune` is empty) *)
Theorem C08_addressed_element_deleted_partial : forall ex o cs g r g' tr,
  run (exec ex o cs) g = (inl r, (g', tr)) -> forall x, targets g o x -> In x tr.
Proof. exact target_exec. Qed.
Print Assumptions C08_addressed_element_deleted_partial.

(* the set of deleted ids is closed under ownership: a deleted node takes its components and services, a
   deleted component its services, a deleted service its ports, a deleted port the sub-interfaces that
   hang on it alone, a deleted connection point its two-ended links.  Every operation except
   remove_child_interface (which keeps the parent on purpose) and unpeer. *)
Theorem C08_removed_set_closed : forall ex o cs g r g' tr,
  closing o = true -> run (exec ex o cs) g = (inl r, (g', tr)) -> Closed g tr.
Proof. exact closed_exec. Qed.
Print Assumptions C08_removed_set_closed.

(* hence everything the addressed element owns is deleted: O_node / O_comp / O_ns / O_cp are the
   containment closures (Proofs/T8Complete.v).  `_partial`: no claim for prune. *)
Theorem C08_owned_deleted_partial : forall ex o cs g r g' tr,
  run (exec ex o cs) g = (inl r, (g', tr)) -> forall x, owned g o x -> In x tr.
Proof. exact owned_exec. Qed.
Print Assumptions C08_owned_deleted_partial.

(* "... and the link": a link with exactly two ends never survives one of its ends.  Every operation. *)
Theorem C08_two_ended_links_deleted : forall ex o cs g r g' tr,
  run (exec ex o cs) g = (inl r, (g', tr)) ->
  forall l i j, link2 g l i j -> In i tr -> In l tr.
Proof. exact links2_exec. Qed.
Print Assumptions C08_two_ended_links_deleted.

(* "... the service-side port": the ServicePort across a two-ended link from ANY interface the operation
   disconnects - the interfaces of the removed node / facility / switch / component and the sub-interfaces of
   their dedicated ports, the removed sub-interface, the disconnected interface (`disc_ifs`) - is deleted.
   (Refuted before fix edd75a8 for sub-interfaces; holds of the repaired code, all graphs.)  Since fix 18b6247
   `disc_ifs` also covers Node/Topology.remove_network_service: the ports of the removed service and the sub-interfaces of
   its dedicated ports.  NOT claimed for prune: it never disconnects (known finding).
   `self_peer_free g o ii` (needed since fix 5286851 made the disconnect loop skip interfaces that are already gone):
   the interfaces of the element are not connected to each other - ii is not across a link from, nor next to a
   ServicePort across a link from, another interface the operation disconnects. *)
Theorem C08_artefact_ports_deleted : forall ex o cs g r g' tr,
  run (exec ex o cs) g = (inl r, (g', tr)) ->
  forall ii l sp, disc_ifs g o ii -> self_peer_free g o ii ->
                  link2 g l ii sp -> type_of g sp = T_ServicePort -> In sp tr.
Proof. exact artefact_ports_deleted. Qed.
Print Assumptions C08_artefact_ports_deleted.

(* The same WITHOUT the hypothesis on the element's own interfaces, under the well-formedness WP g (distinct ids; a
   connection point has at most one link; a ServicePort has no neighbouring connection point; the edges at links and
   between a service and its ports are `connects` edges): the loop's skip (fix 5286851) is harmless - a skipped
   interface was deleted because it WAS the peering artefact of an earlier iteration, so the port across its link is
   that earlier interface, an interface of the element itself, and goes with the element.  `wpb` decides WP. *)
Theorem C08_artefact_ports_deleted_wf : forall ex o cs g r g' tr,
  WP g -> run (exec ex o cs) g = (inl r, (g', tr)) ->
  forall ii l sp, disc_ifs g o ii -> link2 g l ii sp -> type_of g sp = T_ServicePort -> In sp tr.
Proof. exact artefact_ports_deleted_wf. Qed.
Print Assumptions C08_artefact_ports_deleted_wf.

(* unpeer of two services not joined by service - ServicePort - link - ServicePort - service (four `connects` edges
   whose inner ends are both ServicePorts) raises and deletes nothing, for every graph (refuted before fix 13b815d;
   the ServicePort condition is fix 0d94156) *)
Theorem C08_unpeer_only_peered : forall ex a b cs g r g' tr,
  run (exec ex (OUnpeer a b) cs) g = (r, (g', tr)) ->
  (forall x m y, In x (cn g a) -> In m (cn g x) -> In y (cn g m) -> In b (cn g y) ->
                 ~ (type_of g x = T_ServicePort /\ type_of g y = T_ServicePort)) ->
  (exists e, r = inr e) /\ tr = [] /\ g' = g.
Proof. exact unpeer_only_peered. Qed.
Print Assumptions C08_unpeer_only_peered.

(* everything disconnect_interface deletes is a ServicePort peering with the interface, a connection point
   next to that port, or a link attached to them; every outcome, every graph (refuted before fix 13b815d) *)
Theorem C08_disconnect_only_service_port : forall ex s i cs g r g' tr,
  run (exec ex (ODisconnect s i) cs) g = (r, (g', tr)) ->
  forall x, In x tr ->
  exists p, In p (peer_cps g i) /\ type_of g p = T_ServicePort /\ U_cp g p true x.
Proof. exact disconnect_only_service_port. Qed.
Print Assumptions C08_disconnect_only_service_port.

(* Topology.remove_link on a link that carries a ServicePort (made by connect_interface / peer): raises, nothing
   changes (fix 65db950).  Every graph. *)
Theorem C08_remove_link_refuses_peering_link : forall ex nm cs g r g' tr,
  run (exec ex (ORemoveLink nm) cs) g = (r, (g', tr)) ->
  (forall l, In l (by_name g CLink nm) -> link_has_service_port g l = true) ->
  (exists e, r = inr e) /\ tr = [] /\ g' = g.
Proof. exact remove_link_refuses_peering_link. Qed.
Print Assumptions C08_remove_link_refuses_peering_link.

(* removal operations act on the MODEL regardless of the handle's cached interface list: whatever lists the handles
   carry (current, stale, empty), the resulting graph, the deleted ids and the outcome (normal / which exception)
   are the same.  Every operation, every graph. *)
Theorem C08_cache_independent : forall ex o cs cs' g,
  same_eff (run (exec ex o cs) g) (run (exec ex o cs') g).
Proof. exact cache_independent. Qed.
Print Assumptions C08_cache_independent.

(* ================= links of any number of ends: the exact equation =====================================
   The code deletes a link inside remove_cp_and_links when "exactly two interfaces connect to it" at the moment of
   that call.  WL g: no link has two ends inside one port family (two ends next to each other, or next to a common
   connection point).  Under WL each call takes at most one end of a given link and the order of the calls does not
   matter.  Every operation except remove_link (which deletes the link itself) and the legacy path-based unpeer: *)
Theorem C08_link_deleted_iff : forall ex o cs g r g' tr,
  WL g -> liftable o = true -> run (exec ex o cs) g = (inl r, (g', tr)) ->
  forall l, class_of g l = CLink ->
    (In l tr <-> ((2 <= length (cpn g l))%nat /\ (length (surv tr (cpn g l)) <= 1)%nat /\
                  exists e, In e (cpn g l) /\ In e tr)).
Proof. exact link_deleted_iff. Qed.
Print Assumptions C08_link_deleted_iff.

(* Without WL the equation is false: G11 - a port and its sub-interface are both ends of a three-ended link; removing
   the port takes both in ONE call after ONE test, the link stays with a single end.  (For a node with several
   components the outcome then also depends on Python's set iteration order; the harness does not compare such
   states with the model.) *)
Theorem C08_link_iff_needs_WL :
  wlb G11 = false /\
  ok_of (run (exec false (ORemoveInterface 1 2) [[2%N]]) G11) = true /\
  trace_of (run (exec false (ORemoveInterface 1 2) [[2%N]]) G11) = [2; 3]%N /\
  class_of G11 4 = CLink /\ sortN (cpn G11 4) = [2; 3; 5]%N /\
  surv (snd (snd (run (exec false (ORemoveInterface 1 2) [[2%N]]) G11))) (cpn G11 4) = [5%N].
Proof. exact link_iff_needs_WL. Qed.
Print Assumptions C08_link_iff_needs_WL.

(* ================= THE EQUATION: deleted = owned U artefacts =========================================
   For the element removals (remove_node / remove_facility / remove_switch / remove_component /
   Topology.remove_network_service / Node.remove_network_service) that return normally on a well-formed graph, the
   upper bound (C08_nothing_else_deleted) and the lower bounds (owned, artefact ports, links) meet:
     - a node that is not a link is deleted  <->  the addressed element owns it, or it is the ServicePort across a
       two-ended link from one of the element's interfaces (sub-interfaces of dedicated ports included);
     - a link is deleted  <->  it had >= 2 ends, lost >= 1 and <= 1 survives.
   WQ g = WP g (distinct ids, <= 1 link per connection point, ServicePorts have no neighbouring connection point,
   `connects` edges at links and between services and ports) + WL g (no link with two ends in one port family) +
   sub-interfaces hang on their port alone + a link that carries a ServicePort has exactly two ends.  `wqb` decides it;
   the harness reports how many generated states satisfy it. *)
Theorem C08_deleted_nonlinks_iff : forall ex o cs g r g' tr,
  WQ g -> element_removal o = true -> run (exec ex o cs) g = (inl r, (g', tr)) ->
  forall x, class_of g x <> CLink -> (In x tr <-> owned g o x \/ artefact g o x).
Proof. exact deleted_nonlinks_iff. Qed.
Print Assumptions C08_deleted_nonlinks_iff.

Theorem C08_deleted_links_iff : forall ex o cs g r g' tr,
  WQ g -> element_removal o = true -> run (exec ex o cs) g = (inl r, (g', tr)) ->
  forall l, class_of g l = CLink ->
    (In l tr <-> ((2 <= length (cpn g l))%nat /\ (length (surv tr (cpn g l)) <= 1)%nat /\
                  exists e, In e (cpn g l) /\ In e tr)).
Proof. exact deleted_links_iff. Qed.
Print Assumptions C08_deleted_links_iff.

(* ================= prune as repaired by proposed_fixes/C08-7 (operation OPrune7) ======================
   Selected by the harness when the running library's _prune_ns contains the node_exists guard.  Every removal step
   skips what an earlier step already removed, services and interfaces are disconnected before the graph-level
   removal.  ids_distinct g: node ids are distinct (add_node guarantees it). *)
Theorem C08_prune7_targets_deleted : forall ex cs g r g' tr,
  ids_distinct g -> run (exec ex OPrune7 cs) g = (inl r, (g', tr)) ->
  forall x, prune_target g x -> In x tr.
Proof. exact prune7_targets. Qed.
Print Assumptions C08_prune7_targets_deleted.

Theorem C08_prune7_owned_deleted : forall ex cs g r g' tr,
  ids_distinct g -> run (exec ex OPrune7 cs) g = (inl r, (g', tr)) ->
  forall x, prune_owned g x -> In x tr.
Proof. exact prune7_owned. Qed.
Print Assumptions C08_prune7_owned_deleted.

(* ================= prune as extended by proposed_fixes/C08-8 (operation OPrune8) ======================
   The collection phase also visits the sub-interfaces of the service ports; a sub-interface in the pruned state is
   disconnected and removed WITHOUT the port above it (the port is not owned by its sub-interface).  Selected by the
   harness when the running library's _prune_interface mentions delete_parent. *)
Theorem C08_prune8_targets_deleted : forall ex cs g r g' tr,
  ids_distinct g -> run (exec ex OPrune8 cs) g = (inl r, (g', tr)) ->
  forall x, prune_target8 g x -> In x tr.
Proof. exact prune8_targets. Qed.
Print Assumptions C08_prune8_targets_deleted.

(* ... and nothing but what removing each marked element may delete: for a marked SubInterface i that is U_cp g i false
   (itself and the links attached to it - not the port above it) plus what disconnecting it deletes *)
Theorem C08_prune8_nothing_else : forall ex cs g r g' tr,
  run (exec ex OPrune8 cs) g = (r, (g', tr)) -> forall x, In x tr -> A_prune8 g x.
Proof. exact (fun ex cs g r g' tr E x Hx => sound_exec ex OPrune8 cs g r g' tr E x Hx). Qed.
Print Assumptions C08_prune8_nothing_else.

(* ================= prune as extended by proposed_fixes/C08-9 (operation OPrune9) ======================
   The collection phase also visits the Facility nodes (Topology.nodes leaves them out) and removes a Facility node in
   the pruned state with remove_facility; everything else as OPrune8.  Selected by the harness when the running
   library's prune mentions facilities and _prune_node mentions remove_facility. *)
Theorem C08_prune9_targets_deleted : forall ex cs g r g' tr,
  ids_distinct g -> run (exec ex OPrune9 cs) g = (inl r, (g', tr)) ->
  forall x, prune_target9 g x -> In x tr.
Proof. exact prune9_targets. Qed.
Print Assumptions C08_prune9_targets_deleted.

(* ... and nothing but what removing each marked element may delete (a marked Facility node: what remove_facility of
   that name may delete, A_node) *)
Theorem C08_prune9_nothing_else : forall ex cs g r g' tr,
  run (exec ex OPrune9 cs) g = (r, (g', tr)) -> forall x, In x tr -> A_prune9 g x.
Proof. exact (fun ex cs g r g' tr E x Hx => sound_exec ex OPrune9 cs g r g' tr E x Hx). Qed.
Print Assumptions C08_prune9_nothing_else.

(* ================= handles: "report the same interfaces as a freshly looked-up handle" ================ *)

(* disconnect_interface through a service handle whose list was fresh; the hypothesis on the peer says
   it has no neighbouring connection point (a service port has none) *)
Theorem C08_handles_disconnect : forall ex s i c g cs' g' tr,
  run (exec ex (ODisconnect s i) [c]) g = (inl cs', (g', tr)) ->
  class_of g s = CNS ->
  same c (cpn g s) ->
  (forall x, get_peers_typed g i T_ServicePort = Some [x] -> cpn g x = []) ->
  exists c', cs' = [c'] /\ same c' (cpn g' s).
Proof. exact handles_disconnect. Qed.
Print Assumptions C08_handles_disconnect.

(* unpeer through two service handles (this is what fix e4d7f01 repaired: the second list) *)
Theorem C08_handles_unpeer : forall ex a b ca cb g cs' g' tr,
  run (exec ex (OUnpeer a b) [ca; cb]) g = (inl cs', (g', tr)) ->
  class_of g a = CNS -> class_of g b = CNS ->
  same ca (cpn g a) -> same cb (cpn g b) ->
  (forall xy, unpeer_ends g a b = Some [xy] ->
     cpn g (fst xy) = [] /\ cpn g (snd xy) = [] /\
     class_of g (fst xy) = CCP /\ class_of g (snd xy) = CCP /\
     ~ In (snd xy) (cpn g a) /\ ~ In (fst xy) (cpn g b)) ->
  exists ca' cb', cs' = [ca'; cb'] /\ same ca' (cpn g' a) /\ same cb' (cpn g' b).
Proof. exact handles_unpeer. Qed.
Print Assumptions C08_handles_unpeer.

(* remove_interface (refuted before fix 4c6e5fb).  Hypothesis: no two ports of the service are next to each other *)
Theorem C08_handles_remove_interface : forall ex s nm c g cs' g' tr,
  run (exec ex (ORemoveInterface s nm) [c]) g = (inl cs', (g', tr)) ->
  class_of g s = CNS ->
  same c (cpn g s) ->
  (forall i y, In i (cpn g s) -> In y (cpn g s) -> ~ In y (cpn g i)) ->
  exists c', cs' = [c'] /\ same c' (cpn g' s).
Proof. exact handles_remove_interface. Qed.
Print Assumptions C08_handles_remove_interface.

(* remove_child_interface (refuted before 4c6e5fb).  Hypotheses: the port is not next to itself; a peer of one of
   its sub-interfaces has no neighbouring connection point and is neither the port nor one of its sub-interfaces *)
Theorem C08_handles_remove_child : forall ex p nm c g cs' g' tr,
  run (exec ex (ORemoveChild p nm) [c]) g = (inl cs', (g', tr)) ->
  same c (cpn g p) ->
  ~ In p (cpn g p) ->
  (forall i x, In i (cpn g p) -> In x (peer_cps g i) -> cpn g x = [] /\ x <> p /\ ~ In x (cpn g p)) ->
  exists c', cs' = [c'] /\ same c' (cpn g' p).
Proof. exact handles_remove_child. Qed.
Print Assumptions C08_handles_remove_child.

(* and for every operation (`_partial`: the hypothesis-free part of the handle claim): a fresh
   look-up of a surviving handle reports exactly the old interfaces that survive *)
Theorem C08_handles_fresh_is_filtered_partial : forall ex o cs g r g' tr s,
  run (exec ex o cs) g = (r, (g', tr)) -> ~ In s tr ->
  forall y, In y (cpn g' s) <-> In y (cpn g s) /\ ~ In y tr.
Proof. exact fresh_is_filtered. Qed.
Print Assumptions C08_handles_fresh_is_filtered_partial.

(* ================= unpeer as rewritten by proposed_fixes/C08-6 (operation OUnpeer6) ==================
   The harness reads the RUNNING library (inspect.getsource(NetworkService.unpeer)): while unpeer still calls
   get_nodes_on_shortest_path the correspondence uses OUnpeer (theorems above); once C08-6 has landed it uses OUnpeer6
   and the statements below are the ones about the code.  `unpeer_pairs g a b` = the pairs (x, y): x a ServicePort of a,
   y a ServicePort across one of x's links, b the one service y is connected to.  ALL pairs are removed. *)

(* unpeer succeeds EXACTLY when the two services peer (for every graph; a is a service) *)
Theorem C08_unpeer6_succeeds_iff : forall ex a b cs g,
  class_of g a = CNS ->
  ((exists cs' g' tr, run (exec ex (OUnpeer6 a b) cs) g = (inl cs', (g', tr))) <-> unpeer_pairs g a b <> []).
Proof. exact unpeer6_succeeds_iff. Qed.
Print Assumptions C08_unpeer6_succeeds_iff.

(* no peering pair: "do not peer", nothing changes *)
Theorem C08_unpeer6_not_peered : forall ex a b cs g r g' tr,
  run (exec ex (OUnpeer6 a b) cs) g = (r, (g', tr)) -> unpeer_pairs g a b = [] ->
  (exists e, r = inr e) /\ tr = [] /\ g' = g.
Proof. exact unpeer6_not_peered. Qed.
Print Assumptions C08_unpeer6_not_peered.

(* it removes exactly the peering: both ends of every pair are deleted, and whatever is deleted is such an end, a
   connection point next to one, or a link attached to them (the two-ended links go by C08_two_ended_links_deleted) *)
Theorem C08_unpeer6_removes_exactly : forall ex a b cs g r g' tr,
  run (exec ex (OUnpeer6 a b) cs) g = (inl r, (g', tr)) ->
  (forall xy, In xy (unpeer_pairs g a b) -> In (fst xy) tr /\ In (snd xy) tr) /\
  (forall x, In x tr -> exists xy, In xy (unpeer_pairs g a b) /\ (U_cp g (fst xy) true x \/ U_cp g (snd xy) true x)).
Proof. exact unpeer6_removes_exactly. Qed.
Print Assumptions C08_unpeer6_removes_exactly.

Theorem C08_handles_unpeer6 : forall ex a b ca cb g cs' g' tr,
  run (exec ex (OUnpeer6 a b) [ca; cb]) g = (inl cs', (g', tr)) ->
  class_of g a = CNS -> class_of g b = CNS ->
  same ca (cpn g a) -> same cb (cpn g b) ->
  (forall xy, In xy (unpeer_pairs g a b) ->
     cpn g (fst xy) = [] /\ cpn g (snd xy) = [] /\ ~ In (snd xy) (cpn g a) /\ ~ In (fst xy) (cpn g b)) ->
  exists ca' cb', cs' = [ca'; cb'] /\ same ca' (cpn g' a) /\ same cb' (cpn g' b).
Proof. exact handles_unpeer6. Qed.
Print Assumptions C08_handles_unpeer6.

(* ================= non-vacuity ======================================================================== *)
Example C08_nonvacuous_remove_node :
  ok_of (run (exec true (ORemoveNode 10) []) G1) = true /\
  trace_of (run (exec true (ORemoveNode 10) []) G1) = [10; 11; 12; 13; 14; 15]%N /\
  link2 G1 15 13 14 /\ sole G1 5 6.
Proof. split; [apply ex_remove_node_n2|]. split; [apply ex_remove_node_n2|]. split; [exact link2_G1_15 | exact sole_G1_5_6]. Qed.

Example C08_nonvacuous_disconnect :
  class_of G1 7 = CNS /\ sortN (cpn G1 7) = [8; 14; 16]%N /\ get_peers_typed G1 13 T_ServicePort = Some [14%N] /\ cpn G1 14 = [] /\
  ok_of (run (exec true (ODisconnect 7 13) [[8; 14; 16]%N]) G1) = true /\
  trace_of (run (exec true (ODisconnect 7 13) [[8; 14; 16]%N]) G1) = [14; 15]%N.
Proof. exact ex_disconnect_hyps. Qed.

Example C08_nonvacuous_unpeer :
  unpeer_ends G2 1 2 = Some [(3, 4)%N] /\ cpn G2 3 = [] /\ cpn G2 4 = [] /\ class_of G2 3 = CCP /\ class_of G2 4 = CCP /\
  cpn G2 1 = [3%N] /\ cpn G2 2 = [4%N] /\
  fst (run (exec true (OUnpeer 1 2) [[3%N]; [4%N]]) G2) = inl [[]; []] /\
  trace_of (run (exec true (OUnpeer 1 2) [[3%N]; [4%N]]) G2) = [3; 4; 5]%N.
Proof. exact ex_unpeer_hyps. Qed.

(* the connected sub-interface 6 of n1 is one of the disconnected interfaces; its service port 16 goes *)
Example C08_nonvacuous_artefact :
  ok_of (run (exec true (ORemoveNode 1) []) G1) = true /\
  trace_of (run (exec true (ORemoveNode 1) []) G1) = [1; 2; 3; 4; 5; 6; 8; 9; 16; 17]%N /\
  sortN (disc_list G1 (node_interface_list G1 1)) = [4; 5; 6]%N /\ topo_nodes G1 1 = [1%N] /\
  type_of G1 16 = T_ServicePort /\ link2 G1 17 6 16 /\ self_peer_free G1 (ORemoveNode 1) 6.
Proof. repeat (split; [apply ex_remove_node_n1|]). split; [exact link2_G1_17 | exact G1_self_peer_free]. Qed.

Example C08_nonvacuous_remove_peering_link :
  by_name G2 CLink 5 = [5%N] /\ link_has_service_port G2 5 = true /\
  fst (run (exec true (ORemoveLink 5) []) G2) = inr ETopology.
Proof. repeat (split; [apply ex_remove_peering_link|]). apply ex_remove_peering_link. Qed.

Example C08_nonvacuous_not_peered :
  (forall x m y, In x (cn G3 1) -> In m (cn G3 x) -> In y (cn G3 m) -> In 2%N (cn G3 y) ->
                 ~ (type_of G3 x = T_ServicePort /\ type_of G3 y = T_ServicePort)) /\
  fst (run (exec true (OUnpeer 1 2) [[3%N]; [9%N]]) G3) = inr ETopology /\
  (* a chain exists but one end is a node port *)
  unpeer_ends G7 1 5 = Some [(2, 4)%N] /\ both_sp G7 (2, 4)%N = false /\
  fst (run (exec true (OUnpeer 1 5) [[2%N]; [4%N]]) G7) = inr ETopology.
Proof.
  split; [intros x m y A B C D _; exact (G3_not_peered x m y A B C D)|].
  split; [apply ex_unpeer_not_peered|]. repeat (split; [apply ex_unpeer_node_port|]). apply ex_unpeer_node_port.
Qed.

(* removing a peered service through the API takes the other service's port with it *)
Example C08_nonvacuous_remove_peered_service :
  by_name G2 CNS 1 = [1%N] /\ disc_list G2 (cpn G2 1) = [3%N] /\ type_of G2 4 = T_ServicePort /\
  ok_of (run (exec true (ORemoveNsTopo 1) []) G2) = true /\
  trace_of (run (exec true (ORemoveNsTopo 1) []) G2) = [1; 3; 4; 5]%N /\ link2 G2 5 3 4.
Proof. repeat (split; [apply ex_remove_peered_service|]). exact link2_G2_5. Qed.

Example C08_nonvacuous_handles_remove :
  class_of G5 1 = CNS /\ cpn G5 1 = [2%N] /\ cpn G5 2 = [] /\
  fst (run (exec false (ORemoveInterface 1 7) [[2%N]]) G5) = inl [[]] /\
  cpn G6 1 = [2%N] /\ peer_cps G6 2 = [] /\
  fst (run (exec true (ORemoveChild 1 7) [[2%N]]) G6) = inl [[]].
Proof.
  destruct ex_remove_interface_handle as [A [B [C D]]]. destruct ex_remove_child_handle as [E [F G]].
  repeat split; assumption.
Qed.

(* "peered and connected" (G8): the path-based unpeer is ambiguous, the rewrite removes exactly the peering *)
Example C08_nonvacuous_unpeer6 :
  (exists l, unpeer_ends G8 1 5 = Some l /\ length l = 2%nat) /\
  fst (run (exec true (OUnpeer 1 5) [[2; 6]%N; [4; 8]%N]) G8) = inr EAmbig /\
  unpeer_pairs G8 1 5 = [(6, 8)%N] /\ cpn G8 6 = [] /\ cpn G8 8 = [] /\ class_of G8 1 = CNS /\
  fst (run (exec true (OUnpeer6 1 5) [[2; 6]%N; [4; 8]%N]) G8) = inl [[2%N]; [4%N]] /\
  trace_of (run (exec true (OUnpeer6 1 5) [[2; 6]%N; [4; 8]%N]) G8) = [6; 7; 8]%N.
Proof. exact ex_unpeer6_peered_and_connected. Qed.

(* three-ended link (G10, WL holds): it survives the loss of one end and goes with the second *)
Example C08_nonvacuous_three_end_link :
  WL G10 /\ WL G1 /\
  trace_of (run (exec false (ORemoveNsTopo 5) []) G10) = [2; 5]%N /\
  trace_of (run (exec false (ORemoveNsTopo 6) []) (fst (snd (run (exec false (ORemoveNsTopo 5) []) G10)))) = [1; 3; 6]%N.
Proof. split; [exact WL_G10|]. split; [exact WL_G1|]. exact ex_three_end_link. Qed.

(* a node whose own two services peer with each other (G12): WP holds, the loop skips port 5, everything goes *)
Example C08_nonvacuous_own_services_peer :
  WP G12 /\ WP G1 /\ link2 G12 6 5 4 /\
  ok_of (run (exec true (ORemoveNode 1) []) G12) = true /\
  trace_of (run (exec true (ORemoveNode 1) []) G12) = [1; 2; 3; 4; 5; 6]%N /\
  topo_nodes G12 1 = [1%N] /\ sortN (disc_list G12 (node_interface_list G12 1)) = [4; 5]%N /\
  peer_cps G12 4 = [5%N] /\ type_of G12 4 = T_ServicePort.
Proof. split; [exact WP_G12|]. split; [exact WP_G1|]. split; [exact link2_G12|]. exact ex_own_services_peer. Qed.

Example C08_nonvacuous_equation : WQ G1 /\ WQ G12 /\ WQ G10.
Proof. split; [exact WQ_G1|]. split; [exact WQ_G12 | exact WQ_G10]. Qed.

(* an only-child sub-interface in the pruned state (G13): pruned alone, the port above it stays *)
Example C08_nonvacuous_prune8 :
  trace_of (run (exec true OPrune7 []) G13) = [] /\
  ok_of (run (exec true OPrune8 []) G13) = true /\
  trace_of (run (exec true OPrune8 []) G13) = [3%N] /\
  with_children G13 2 = [2; 3]%N /\ marked G13 3 = true.
Proof. exact ex_prune_only_child. Qed.

(* a Facility node in the pruned state (G14): not visited before C08-9, removed with its service, port and the peering
   artefacts afterwards; the other service stays *)
Example C08_nonvacuous_prune9 :
  trace_of (run (exec true OPrune8 []) G14) = [] /\
  ok_of (run (exec true OPrune9 []) G14) = true /\
  trace_of (run (exec true OPrune9 []) G14) = [1; 2; 3; 4; 5]%N /\
  prune_nodes G14 = [] /\ all_of_class G14 CNode = [1%N] /\ type_of G14 1 = T_Facility /\ marked G14 1 = true.
Proof. exact ex_prune_facility. Qed.

(* a plain link on a SUB-INTERFACE (G15): removing the component / node that owns the port above it deletes the link
   together with the sub-interface; G15 satisfies WQ, so C08_deleted_links_iff / C08_deleted_nonlinks_iff apply to it *)
Example C08_nonvacuous_link_on_subinterface :
  WQ G15 /\
  ok_of (run (exec true (ORemoveComponent 1 2) []) G15) = true /\
  trace_of (run (exec true (ORemoveComponent 1 2) []) G15) = [2; 3; 4; 5; 6]%N /\
  ok_of (run (exec true (ORemoveNode 1) []) G15) = true /\
  trace_of (run (exec true (ORemoveNode 1) []) G15) = [1; 2; 3; 4; 5; 6]%N /\
  type_of G15 5 = T_SubInterface /\ first_neighbor G15 6 RConnects CCP = [5; 7]%N.
Proof. split; [exact WQ_G15 | exact ex_link_on_subinterface]. Qed.
