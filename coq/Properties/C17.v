(* C17 - sliver comparison reports exactly the differences between two slivers.
   Only statements; each Theorem is closed by `exact` of a lemma from Proofs/Diff17Lemmas.v / TopoDiff17.v, the
   Examples by computation.
   [iface_diff], [svc_diff_fixed], [node_diff] are the transcriptions (Model/Diff17.v) of InterfaceSliver.diff,
   NetworkServiceSliver.diff and NodeSliver.diff as /repo has them; [svc_diff] is NetworkServiceSliver.diff without
   /repo commit 0ebb5f3 (= proposed_fixes/C17-1.patch), the method finding C17-1 was about.
   [*_expected] is the declarative specification:
   added/removed = key-set differences of each child dictionary, and for the entries present in both
   exactly the flags LABELS / CAPACITIES / USER_DATA / SUB_INTERFACES of what differs.
   Hypotheses: [wf_*] (boolean): keys of a dictionary are distinct, only a DedicatedPort has child interfaces,
   a SmartNIC component carries exactly one network service; [compat_*] (boolean): an element present in both
   versions keeps its type (no edit of the property's edit vocabulary changes a type). *)
From Coq Require Import List ZArith.
From FIM Require Import Model.Diff17 Model.TopoDiff17 Proofs.Diff17Lemmas Proofs.TopoDiff17.
Import ListNotations.

(* ---- 1. comparing a sliver with an identical copy reports no difference ---------------------- *)

Theorem C17_self_copy_none_node : forall s, wf_node s = true -> node_diff s s = Ok None.
Proof. exact node_diff_self. Qed.
Print Assumptions C17_self_copy_none_node.

Theorem C17_self_copy_none_service : forall s, wf_svc s = true -> svc_diff s s = None.
Proof. exact svc_diff_self. Qed.
Print Assumptions C17_self_copy_none_service.

Theorem C17_self_copy_none_interface : forall i, wf_iface i = true -> iface_diff i i = None.
Proof. exact iface_diff_self. Qed.
Print Assumptions C17_self_copy_none_interface.

(* "identical copy" up to what a copy may legitimately change: dictionary order, an absent container
   versus an empty one, user data / labels / capacities held by distinct but equal-valued objects -
   and conversely: no difference is reported ONLY for such copies *)
Theorem C17_no_difference_iff_same_node : forall a b,
  wf_node a = true -> wf_node b = true -> compat_node a b = true ->
  (node_diff a b = Ok None <-> node_same a b = true).
Proof. exact node_diff_none_iff. Qed.
Print Assumptions C17_no_difference_iff_same_node.

Theorem C17_no_difference_iff_same_service : forall a b,
  wf_svc a = true -> wf_svc b = true -> compat_svc a b = true ->
  (svc_diff a b = None <-> svc_same a b = true).
Proof. exact svc_diff_none_iff. Qed.
Print Assumptions C17_no_difference_iff_same_service.

Theorem C17_no_difference_iff_same_interface : forall a b, iface_diff a b = None <-> iface_same a b = true.
Proof. exact iface_diff_none_iff. Qed.
Print Assumptions C17_no_difference_iff_same_interface.

(* ---- 2. exactly the differences ------------------------------------------------------------- *)

(* interface level (sub-interfaces added / removed / modified, the port's own flags): unconditional *)
Theorem C17_interface_exact : forall a b, iface_diff a b = iface_expected a b.
Proof. exact iface_diff_exact. Qed.
Print Assumptions C17_interface_exact.

(* node level (components and node-level services added / removed / modified, the node's own flags) *)
Theorem C17_node_exact : forall a b,
  wf_node a = true -> wf_node b = true -> compat_node a b = true ->
  node_diff a b = Ok (node_expected a b).
Proof. exact node_diff_exact. Qed.
Print Assumptions C17_node_exact.

(* service level.  The full statement
       forall a b, wf_svc a = true -> wf_svc b = true -> compat_svc a b = true -> svc_diff a b = svc_expected a b
   is FALSE of [svc_diff], the method without commit 0ebb5f3 (finding C17-1): for a dedicated port present in both
   versions SUB_INTERFACES is also raised when only the port's own labels / capacities / user data changed. *)
Theorem C17_service_flags_exact_refuted :
  exists a b, wf_svc a = true /\ wf_svc b = true /\ compat_svc a b = true /\ svc_diff a b <> svc_expected a b.
Proof. exact svc_exact_refuted. Qed.
Print Assumptions C17_service_flags_exact_refuted.

(* what IS true of that method on every pair: the specification with exactly that deviation in the port flag ... *)
Theorem C17_service_exact_up_to_port_flag : forall a b, svc_diff a b = svc_expected_code a b.
Proof. exact svc_diff_exact_code. Qed.
Print Assumptions C17_service_exact_up_to_port_flag.

(* ... hence the full specification whenever no dedicated port changed its own properties while keeping
   its sub-interfaces (the hypothesis excludes exactly the finding's signature) *)
Theorem C17_service_exact_partial : forall a b,
  wf_svc a = true -> wf_svc b = true -> compat_svc a b = true -> no_port_only_change a b = true ->
  svc_diff a b = svc_expected a b.
Proof. exact svc_diff_exact_partial. Qed.
Print Assumptions C17_service_exact_partial.

(* of the method as /repo has it ([svc_diff_fixed]; the harness selects the variant the implementation under test
   actually shows) the FULL statement holds *)
Theorem C17_service_exact_after_fix : forall a b,
  wf_svc a = true -> wf_svc b = true -> compat_svc a b = true -> svc_diff_fixed a b = svc_expected a b.
Proof. exact svc_diff_fixed_exact. Qed.
Print Assumptions C17_service_exact_after_fix.

(* the two methods agree on WHETHER a service comparison reports something (all NodeSliver.diff looks at) *)
Theorem C17_service_none_independent_of_fix : forall a b, isSome (svc_diff_fixed a b) = isSome (svc_diff a b).
Proof. exact svc_diff_fixed_some. Qed.
Print Assumptions C17_service_none_independent_of_fix.

Theorem C17_self_copy_none_service_after_fix : forall s, wf_svc s = true -> svc_diff_fixed s s = None.
Proof. exact svc_diff_fixed_self. Qed.
Print Assumptions C17_self_copy_none_service_after_fix.

Theorem C17_added_is_removed_service_after_fix : forall a b,
  sd_added (svc_diff_fixed a b) = sd_removed (svc_diff_fixed b a) /\
  sd_removed (svc_diff_fixed a b) = sd_added (svc_diff_fixed b a).
Proof. exact svc_fixed_antisym. Qed.
Print Assumptions C17_added_is_removed_service_after_fix.

(* the specification lists read declaratively *)
Theorem C17_expected_added_reading : forall (E : Type) (nm : E -> N) oa ob x,
  In x (exp_added nm oa ob) <-> In x (dflt ob) /\ ~ In (nm x) (map nm (dflt oa)).
Proof. exact @exp_added_spec. Qed.
Print Assumptions C17_expected_added_reading.

Theorem C17_expected_removed_reading : forall (E : Type) (nm : E -> N) oa ob x,
  In x (exp_removed nm oa ob) <-> In x (dflt oa) /\ ~ In (nm x) (map nm (dflt ob)).
Proof. exact @exp_removed_spec. Qed.
Print Assumptions C17_expected_removed_reading.

Theorem C17_expected_modified_reading : forall (E : Type) (nm : E -> N) fl oa ob x f,
  NoDup (map nm (dflt ob)) ->
  (In (x, f) (exp_mod nm fl oa ob) <->
   In x (dflt oa) /\ exists y, In y (dflt ob) /\ nm y = nm x /\ f = fl x y /\ is_none f = false).
Proof. exact @exp_mod_spec. Qed.
Print Assumptions C17_expected_modified_reading.

(* ---- 3. what is 'added' from old to new is what is 'removed' from new to old ------------------ *)

Theorem C17_added_is_removed_node : forall a b oab oba,
  node_diff a b = Ok oab -> node_diff b a = Ok oba ->
  nd_added_c oab = nd_removed_c oba /\ nd_removed_c oab = nd_added_c oba /\
  nd_added_s oab = nd_removed_s oba /\ nd_removed_s oab = nd_added_s oba.
Proof. exact node_antisym. Qed.
Print Assumptions C17_added_is_removed_node.

Theorem C17_added_is_removed_service : forall a b,
  sd_added (svc_diff a b) = sd_removed (svc_diff b a) /\ sd_removed (svc_diff a b) = sd_added (svc_diff b a).
Proof. exact svc_antisym. Qed.
Print Assumptions C17_added_is_removed_service.

Theorem C17_added_is_removed_interface : forall a b,
  id_added (iface_diff a b) = id_removed (iface_diff b a) /\ id_removed (iface_diff a b) = id_added (iface_diff b a).
Proof. exact iface_antisym. Qed.
Print Assumptions C17_added_is_removed_interface.

(* ---- 4. single edits applied to a copy -------------------------------------------------------- *)

Theorem C17_add_component_reported : forall s c,
  wf_node s = true -> wf_node (add_comp c s) = true ->
  node_diff s (add_comp c s) = Ok (Some (mkNdiff [c] [] [] [] [] [] [])).
Proof. exact add_comp_reported. Qed.
Print Assumptions C17_add_component_reported.

Theorem C17_add_component_reverse_removed : forall s c,
  wf_node s = true -> wf_node (add_comp c s) = true ->
  exists o, node_diff (add_comp c s) s = Ok o /\ nd_removed_c o = [c] /\ nd_added_c o = [] /\
            nd_added_s o = [] /\ nd_removed_s o = [].
Proof. exact add_comp_reported_reverse. Qed.
Print Assumptions C17_add_component_reverse_removed.

Theorem C17_change_node_properties_reported : forall s p,
  wf_node s = true ->
  node_diff s (set_node_props p s)
  = Ok (if props_same (n_props s) p then None else Some (mkNdiff [] [] [] [] (exp_self (n_props s) p) [] [])).
Proof. exact set_props_reported. Qed.
Print Assumptions C17_change_node_properties_reported.

(* ---- 5. histories on long-lived slivers ------------------------------------------------------- *)
(* The modelled comparison is a function of its two operands, so these hold by construction; they are what the
   `history` stream checks of the implementation (edit in place, compare, edit more, compare again, undo, compare;
   every call twice, deep snapshots of both operands around each call). *)

Theorem C17_diff_history_memoryless : forall pre a b post,
  nth_error (run_history (pre ++ (a, b) :: post)) (length pre) = Some (node_diff a b).
Proof. exact history_memoryless. Qed.
Print Assumptions C17_diff_history_memoryless.

Theorem C17_diff_history_repeatable : forall h i j p,
  nth_error h i = Some p -> nth_error h j = Some p -> nth_error (run_history h) i = nth_error (run_history h) j.
Proof. exact history_repeatable. Qed.
Print Assumptions C17_diff_history_repeatable.

Theorem C17_diff_history_undo_none : forall h s,
  wf_node s = true -> nth_error (run_history (h ++ [(s, s)])) (length h) = Some (Ok None).
Proof. exact history_undo_none. Qed.
Print Assumptions C17_diff_history_undo_none.

(* ---- 6. Topology.diff (Model/TopoDiff17.v: the Python of fim/user/topology.py over flat graph views; the two
        Cypher queries as read there, modelled not verified) ----------------------------------------------- *)

Theorem C17_topology_self_copy_empty : forall t, wf_topo t = true -> tdiff_empty (topo_diff t t) = true.
Proof. exact topo_diff_self. Qed.
Print Assumptions C17_topology_self_copy_empty.

(* The full statement  forall a b, wf_topo a = true -> wf_topo b = true -> topo_diff a b = topo_expected a b  is FALSE
   of the modelled method, in two ways (findings C17-T2 and C17-T1; witnesses replayed through the stand-in): *)
Theorem C17_topology_exact_refuted_silent_change :
  wf_topo wt1_old = true /\ wf_topo wt1_new = true /\ topo_diff wt1_old wt1_new <> topo_expected wt1_old wt1_new /\
  tdiff_empty (topo_diff wt1_old wt1_new) = true /\ tdiff_empty (topo_expected wt1_old wt1_new) = false.
Proof. exact topo_exact_refuted_silent_change. Qed.
Print Assumptions C17_topology_exact_refuted_silent_change.

Theorem C17_topology_exact_refuted_last_of_class :
  wf_topo wt2_old = true /\ wf_topo wt2_new = true /\ topo_diff wt2_old wt2_new <> topo_expected wt2_old wt2_new /\
  tdiff_empty (topo_diff wt2_old wt2_new) = true /\ tdiff_empty (topo_expected wt2_old wt2_new) = false.
Proof. exact topo_exact_refuted_last_of_class. Qed.
Print Assumptions C17_topology_exact_refuted_last_of_class.

(* [visible_pair] excludes exactly the two signatures: no class is empty on one side only, and every element whose
   capacities or user data changed also changed its labels *)
Theorem C17_topology_exact_partial : forall a b,
  wf_topo b = true -> visible_pair a b = true -> topo_diff a b = topo_expected a b.
Proof. exact topo_diff_exact_partial. Qed.
Print Assumptions C17_topology_exact_partial.

Theorem C17_topology_added_is_removed : forall a b,
  td_added (topo_diff a b) = td_removed (topo_diff b a) /\ td_removed (topo_diff a b) = td_added (topo_diff b a).
Proof. exact topo_antisym. Qed.
Print Assumptions C17_topology_added_is_removed.

Theorem C17_topology_expected_added_reading : forall a b x,
  In x (only_in a b) <-> In x a /\ ~ In (g_id x) (map g_id b).
Proof. exact only_in_spec. Qed.
Print Assumptions C17_topology_expected_added_reading.

Theorem C17_topology_expected_modified_reading : forall a b x f,
  NoDup (map g_id b) ->
  (In (x, f) (exp_gmod a b) <->
   In x a /\ exists y, In y b /\ g_id y = g_id x /\ f = gflags x y /\ is_none f = false).
Proof. exact exp_gmod_spec. Qed.
Print Assumptions C17_topology_expected_modified_reading.

(* ---- non-vacuity ------------------------------------------------------------------------------ *)

Local Open Scope N_scope.
Definition ex_sub (n : N) (vlan : N) : subif := mkSub n n (mkProps (Some [(9, vlan)]%N) None None).
Definition ex_port (n : N) (vlan : N) (subs : list subif) : iface :=
  mkIf n n (mkProps (Some [(9%N, vlan)]) (Some [(4%N, 100%Z)]) None) true (Some subs).
Definition ex_svc (n : N) (ifs : list iface) : svc := mkSvc n n (mkProps None None (Some 7%N)) (Some ifs).
Definition ex_nic (n : N) (s : svc) : comp := mkComp n n (mkProps None None None) true (Some [s]).
Definition ex_gpu (n : N) : comp := mkComp n n (mkProps None (Some [(6%N, 1%Z)]) None) false None.
Definition ex_old : node :=
  mkNode 1 1 (mkProps None (Some [(1%N, 4%Z); (2%N, 16%Z)]) (Some 5%N))
         (Some [ex_nic 10 (ex_svc 11 [ex_port 12 100 [ex_sub 13 5]; ex_port 14 200 []]); ex_gpu 20])
         (Some [ex_svc 30 []]).
Definition ex_new : node :=
  mkNode 1 1 (mkProps (Some [(2%N, 1%N)]) (Some [(2%N, 16%Z); (1%N, 4%Z)]) (Some 5%N))
         (Some [ex_gpu 21; ex_nic 10 (ex_svc 11 [ex_port 12 100 [ex_sub 13 5; ex_sub 15 6]; ex_port 14 200 []])])
         None.

(* a well-formed, compatible pair with a non-trivial difference: node labels changed (capacities only
   reordered), GPU 20 removed, GPU 21 added, SmartNIC 10 gained a sub-interface, node-level service 30 removed *)
Example C17_nonvacuous :
  wf_node ex_old = true /\ wf_node ex_new = true /\ compat_node ex_old ex_new = true /\
  node_same ex_old ex_new = false /\
  obs_of_ndiff ex_old (node_diff ex_old ex_new)
  = ODiff [[]; [(21, 21)]; []; []] [[]; [(20, 20)]; [(30, 30)]; []] [[((1, 1), 1)]; [((10, 10), 8)]; []; []]%N /\
  node_diff ex_old ex_old = Ok None.
Proof. vm_compute. repeat split; reflexivity. Qed.

(* the service-level partial theorem is not vacuous either: a pair satisfying its hypotheses with a
   difference that includes a genuinely changed sub-interface set *)
Example C17_nonvacuous_service :
  let a := ex_svc 11 [ex_port 12 100 [ex_sub 13 5]; ex_port 14 200 []] in
  let b := ex_svc 11 [ex_port 12 101 [ex_sub 13 5; ex_sub 15 6]; ex_port 14 200 []] in
  wf_svc a = true /\ wf_svc b = true /\ compat_svc a b = true /\ no_port_only_change a b = true /\
  obs_of_sdiff a (svc_diff a b) = ODiff [[]; []; []; []] [[]; []; []; []] [[]; []; []; [((12, 12), 9)]]%N.
Proof. vm_compute. repeat split; reflexivity. Qed.

(* a topology pair inside the partial theorem's domain with a non-trivial difference: node 1 relabelled (and its
   capacities changed), node 2 removed with its component 20 (left to the parent), component 11 added to node 1 *)
Example C17_nonvacuous_topology :
  let a := mkTopo [mkG 1 1 (Some 5) (Some 6) None None; mkG 2 2 None None None None]
                  [mkG 10 10 None None None (Some 1); mkG 20 20 None None None (Some 2)] [] [] in
  let b := mkTopo [mkG 1 1 (Some 7) (Some 8) None None]
                  [mkG 10 10 None None None (Some 1); mkG 11 11 None None None (Some 1)] [] [] in
  wf_topo a = true /\ wf_topo b = true /\ visible_pair a b = true /\
  obs_of_tdiff (topo_diff a b)
  = ODiff [[]; [(11, 11)]; []; []] [[(2, 2)]; []; []; []] [[((1, 1), 3)]; []; []; []].
Proof. vm_compute. repeat split; reflexivity. Qed.
