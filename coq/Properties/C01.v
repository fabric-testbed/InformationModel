(* C01 - model serialization round trip is lossless and re-importable.
   Only statements; each is closed by `exact` of a lemma from Proofs/Serial1*.v.  The functions are the
   model of Model/Serial1Text.v (text items: escaping, character references, line ends) and
   Model/Serial1Graph.v (GraphML document, node-link JSON, store, importer), tied to /repo on every run by
   harness/c01.py.

   Reading aid:  content g        = attribute dicts of the nodes + edges named by the NodeIDs of their ends + edge dicts
                 restamp gid g    = g with GraphID := gid on every node
                 copy_of / copy_direct = the graph as it sits in the store after the import (fresh internal ids)
                 graph_wf         = node keys distinct, edge ends are nodes, dict keys distinct, strings XML-legal,
                                    every node and edge has a non-empty string Class
                 fmt_ok f g       = graph_wf g for GraphML;  graph_shape g && no structural JSON names for JSON *)
From Coq Require Import String.
From Coq Require Import List ZArith NArith Bool.
From FIM Require Import Base.Str Base.Json Model.Serial1Text Model.Serial1Graph Model.Serial1Json Model.Serial1Corr Model.Serial1Disjoint.
From FIM Require Import Proofs.Serial1Text Proofs.Serial1Doc Proofs.Serial1Store Proofs.Serial1Main Proofs.Serial1Inv.
From FIM Require Import Proofs.Serial1JsonText Proofs.Serial1DisjRT Proofs.Serial1Extract.
Import ListNotations.

(* ================= text layer ================= *)
(* every XML-legal string - carriage returns included - reaches the reader unchanged *)
Theorem C01_text_escape_exact : forall s, xml_legal s = true -> text_trip s = Some s.
Proof. exact text_trip_legal. Qed.
Print Assumptions C01_text_escape_exact.

(* the label / labels attribute values survive the attribute escaping and normalisation *)
Theorem C01_label_attribute_text : forall s, xml_legal s = true -> attr_out s = Some s.
Proof. exact attr_out_legal. Qed.
Print Assumptions C01_label_attribute_text.

(* ================= values ================= *)
(* a str / int / bool value, written with the type chosen from its Python type, is read back as the same value *)
Theorem C01_value_roundtrip : forall v, val_legal v = true ->
  match text_trip (text_of v) with Some t => read_value (ty_of v) t | None => None end = Some v.
Proof. exact value_roundtrip. Qed.
Print Assumptions C01_value_roundtrip.

(* ================= documents ================= *)
Theorem C01_graphml_document_roundtrip : forall g, graph_wf g = true ->
  exists d, serialize_graphml g = Some d /\ read_graphml d = Some g.
Proof. exact graphml_roundtrip. Qed.
Print Assumptions C01_graphml_document_roundtrip.

Theorem C01_json_document_roundtrip : forall g, graph_json_ok g = true -> jread (jwrite g) = Some g.
Proof. exact json_roundtrip. Qed.
Print Assumptions C01_json_document_roundtrip.

(* every node carries labels=":GraphNode:"++Class and every edge label=Class in the GraphML text *)
Theorem C01_label_markup : forall g d, graph_wf g = true -> serialize_graphml g = Some d -> labels_ok d = true.
Proof. exact graphml_label_markup. Qed.
Print Assumptions C01_label_markup.

(* ================= what the text holds, in any store ================= *)
(* also in a store with links between nodes of different graph ids (merge_nodes leaves such links until the other
   graph's nodes are re-homed): the graph serialize_graph works on consists of exactly the stored nodes that carry
   the graph id and exactly the stored links with BOTH ends among them ... *)
Theorem C01_extract_exactly_own_nodes_and_links : forall s gid g, extract s gid = Some g ->
  (forall n, In n (g_nodes g) <-> In n (s_nodes s) /\ has_gid gid n = true)
  /\ (forall e, In e (g_edges g) <->
                In e (s_edges s) /\ In (fst (fst e)) (map fst (g_nodes g)) /\ In (snd (fst e)) (map fst (g_nodes g)))
  /\ closed g.
Proof. exact extract_exact. Qed.
Print Assumptions C01_extract_exactly_own_nodes_and_links.

(* ... and the text denotes exactly that graph (so the round-trip theorems below apply to either side of a cross link) *)
Theorem C01_serialized_text_denotes_the_graph : forall f s gid g, extract s gid = Some g -> fmt_ok f g = true ->
  exists t, serialize_graph s gid f = Some (Some t) /\ text_graph t = Some g.
Proof. exact serialize_graph_denotes. Qed.
Print Assumptions C01_serialized_text_denotes_the_graph.

(* ================= store + importer: the four entry points, both formats ================= *)
(* import_graph_from_string / import_graph_from_file (new graph id gid') *)
Theorem C01_roundtrip_restamp : forall f ep s gid gid' g,
  is_direct ep = false -> store_wf s = true -> extract s gid = Some g ->
  fmt_ok f g = true -> graph_ids_ok g = true ->
  exists t s' g',
    serialize_graph s gid f = Some (Some t)
    /\ import_via ep s t gid' = (s', ROk gid')
    /\ extract s' gid' = Some g'
    /\ g' = copy_of s gid' g
    /\ content g' = content (restamp gid' g).
Proof. exact roundtrip_restamp. Qed.
Print Assumptions C01_roundtrip_restamp.

(* import_graph_from_string_direct / import_graph_from_file_direct (graph id kept) *)
Theorem C01_roundtrip_direct : forall f ep s gid g,
  is_direct ep = true -> store_wf s = true -> extract s gid = Some g -> fmt_ok f g = true ->
  forall gid', exists t s' g',
    serialize_graph s gid f = Some (Some t)
    /\ import_via ep s t gid' = (s', ROk gid)
    /\ extract s' gid = Some g'
    /\ g' = copy_direct s g
    /\ content g' = content g.
Proof. exact roundtrip_direct. Qed.
Print Assumptions C01_roundtrip_direct.

(* a refused import (a node without NodeID) under a graph id not in use leaves the store exactly as it was: no node
   under the refused id, the id counter not moved - so the import that follows is not affected *)
Theorem C01_refused_import_leaves_store : forall ep s t gid g,
  is_direct ep = false -> text_graph t = Some g -> graph_shape g = true -> graph_ids_ok g = false ->
  existsb (has_gid gid) (s_nodes s) = false ->
  import_via ep s t gid = (s, RErrImport).
Proof. exact import_refused. Qed.
Print Assumptions C01_refused_import_leaves_store.

(* ================= loading onto a graph id that is in use ================= *)
(* whatever the store holds under the target id (an older or modified version, another graph, nothing): after a
   re-stamping import of a text denoting g the id holds exactly a copy of g ... *)
Theorem C01_load_onto_id_in_use_restamp : forall ep s t gid g,
  is_direct ep = false -> store_wf s = true -> text_graph t = Some g ->
  graph_shape g = true -> graph_ids_ok g = true -> g_nodes g <> [] ->
  exists s', import_via ep s t gid = (s', ROk gid)
             /\ extract s' gid = Some (copy_of s gid g)
             /\ content (copy_of s gid g) = content (restamp gid g).
Proof. exact load_restamp_any_store. Qed.
Print Assumptions C01_load_onto_id_in_use_restamp.

(* ... and so for the direct entry points and the id the text names *)
Theorem C01_load_onto_id_in_use_direct : forall ep s t gid g,
  is_direct ep = true -> store_wf s = true -> text_graph t = Some g ->
  graph_shape g = true -> g_nodes g <> [] -> (forall n, In n (g_nodes g) -> has_gid gid n = true) ->
  forall gid', exists s', import_via ep s t gid' = (s', ROk gid)
             /\ extract s' gid = Some (copy_direct s g)
             /\ content (copy_direct s g) = content g.
Proof. exact load_direct_any_store. Qed.
Print Assumptions C01_load_onto_id_in_use_direct.

(* RELOAD UNDER THE SAME ID (t.load(graph_string=snapshot), t.load(file_name=saved), load(.., new_graph_id=current id)):
   a stored graph is serialized; whatever happens to the store in between (s2 is ANY well-formed store), loading the
   snapshot back under the graph's own id through any entry point leaves exactly the snapshot's content under that id *)
Theorem C01_reload_same_id : forall f ep s s2 gid g,
  store_wf s = true -> extract s gid = Some g -> fmt_ok f g = true -> graph_ids_ok g = true -> store_wf s2 = true ->
  exists t, serialize_graph s gid f = Some (Some t)
            /\ forall gid', exists s' g', import_via ep s2 t (if is_direct ep then gid' else gid) = (s', ROk gid)
                                         /\ extract s' gid = Some g' /\ content g' = content g.
Proof. exact reload_same_id. Qed.
Print Assumptions C01_reload_same_id.

(* ================= serializing the copy again ================= *)
(* the second text denotes exactly the imported copy, whose content is that of the first text (up to the stamp) *)
Theorem C01_reserialize_stable_restamp : forall f s gid' g,
  fmt_ok f g = true -> gid_ok f gid' = true ->
  let copy := copy_of s gid' g in
  exists t2, serialize f copy = Some t2 /\ text_graph t2 = Some copy.
Proof. exact reserialize_restamp. Qed.
Print Assumptions C01_reserialize_stable_restamp.

Theorem C01_reserialize_stable_direct : forall f s g,
  fmt_ok f g = true ->
  let copy := copy_direct s g in
  exists t2, serialize f copy = Some t2 /\ text_graph t2 = Some copy.
Proof. exact reserialize_direct. Qed.
Print Assumptions C01_reserialize_stable_direct.

(* ================= validation after import ================= *)
(* validate_graph: [jsonok] is the JSON check of the JSON-carrying properties, any predicate that does not
   concern GraphID *)
Theorem C01_validates_after_import_restamp : forall jsonok f ep s gid gid' g,
  (forall v, jsonok P_GraphID v = true) ->
  is_direct ep = false -> store_wf s = true -> extract s gid = Some g ->
  fmt_ok f g = true -> graph_ids_ok g = true -> validate jsonok g = true ->
  exists t s' g', serialize_graph s gid f = Some (Some t) /\ import_via ep s t gid' = (s', ROk gid')
                  /\ extract s' gid' = Some g' /\ validate jsonok g' = true.
Proof. exact validates_after_import_restamp. Qed.
Print Assumptions C01_validates_after_import_restamp.

Theorem C01_validates_after_import_direct : forall jsonok f ep s gid g,
  is_direct ep = true -> store_wf s = true -> extract s gid = Some g ->
  fmt_ok f g = true -> validate jsonok g = true ->
  forall gid', exists t s' g', serialize_graph s gid f = Some (Some t) /\ import_via ep s t gid' = (s', ROk gid)
                  /\ extract s' gid = Some g' /\ validate jsonok g' = true.
Proof. exact validates_after_import_direct. Qed.
Print Assumptions C01_validates_after_import_direct.

(* ================= node-link JSON at the text level ================= *)
(* json.dumps(node_link_data(g)) parsed by json.loads and read by node_link_graph gives g back: the value-level
   round trip composed with jparse (jprint v) = Some v of Base/JsonRT.v.  [tbl] is the table of property-name
   texts; strings must be free of lone surrogates (str_ok), dict keys distinct *)
Theorem C01_json_text_roundtrip : forall tbl g,
  names_ok tbl = true -> graph_json_ok g = true -> graph_json_text_ok tbl g = true ->
  exists s, json_text tbl g = Some s /\ json_read_text tbl s = Some g.
Proof. exact json_text_roundtrip. Qed.
Print Assumptions C01_json_text_roundtrip.

(* ================= the second store flavour (one nx.Graph per graph id) ================= *)
(* dget s gid = the graph filed under gid (empty graph if none); d_copy_of / d_copy_direct = the copy with ids from 1 *)
(* re-stamping entry points onto a graph id that holds no nodes: the copy is filed, no other graph changes *)
Theorem C01_disjoint_restamp_free : forall f ep s gid gid' g,
  is_direct ep = false -> dget s gid = g -> g_nodes g <> [] ->
  fmt_ok f g = true -> graph_ids_ok g = true -> nonempty (dget s gid') = false ->
  exists t s',
    d_serialize_graph s gid f = Some (Some t)
    /\ d_import_via ep s t gid' = (s', ROk gid')
    /\ dget s' gid' = d_copy_of gid' g
    /\ content (dget s' gid') = content (restamp gid' g)
    /\ (forall other, other <> gid' -> dget s' other = dget s other).
Proof. exact d_roundtrip_restamp_free. Qed.
Print Assumptions C01_disjoint_restamp_free.

(* ... onto a graph id that already holds nodes (the source id itself included): the call returns normally and the
   store is exactly as before - nothing is imported (add_graph "skipping", after fix 74c0984 without an exception) *)
Theorem C01_disjoint_restamp_in_use_is_skipped : forall f ep s gid gid' g,
  is_direct ep = false -> dget s gid = g -> g_nodes g <> [] -> fmt_ok f g = true ->
  nonempty (dget s gid') = true ->
  exists t, d_serialize_graph s gid f = Some (Some t) /\ d_import_via ep s t gid' = (s, ROk gid').
Proof. exact d_roundtrip_restamp_busy. Qed.
Print Assumptions C01_disjoint_restamp_in_use_is_skipped.

(* direct entry points: the id is read from the text; whatever that id held - here the source itself - is REPLACED *)
Theorem C01_disjoint_direct_replaces : forall f ep s gid g,
  is_direct ep = true -> dget s gid = g -> g_nodes g <> [] -> fmt_ok f g = true ->
  (forall n, In n (g_nodes g) -> has_gid gid n = true) ->
  forall gid', exists t s',
    d_serialize_graph s gid f = Some (Some t)
    /\ d_import_via ep s t gid' = (s', ROk gid)
    /\ dget s' gid = d_copy_direct g
    /\ content (dget s' gid) = content g
    /\ (forall other, other <> gid -> dget s' other = dget s other).
Proof. exact d_roundtrip_direct. Qed.
Print Assumptions C01_disjoint_direct_replaces.

(* ... also when the text names another graph id than the one it was filed under: that other graph is replaced *)
Theorem C01_disjoint_direct_replaces_named_graph : forall f ep s src gid g,
  is_direct ep = true -> dget s src = g -> g_nodes g <> [] -> fmt_ok f g = true ->
  (forall n, In n (g_nodes g) -> has_gid gid n = true) ->
  forall gid', exists t s',
    d_serialize_graph s src f = Some (Some t)
    /\ d_import_via ep s t gid' = (s', ROk gid)
    /\ dget s' gid = d_copy_direct g
    /\ (forall other, other <> gid -> dget s' other = dget s other).
Proof. exact d_direct_replaces. Qed.
Print Assumptions C01_disjoint_direct_replaces_named_graph.

Theorem C01_disjoint_reserialize_restamp : forall f gid' g, fmt_ok f g = true -> gid_ok f gid' = true ->
  exists t2, serialize f (d_copy_of gid' g) = Some t2 /\ text_graph t2 = Some (d_copy_of gid' g).
Proof. exact d_reserialize_restamp. Qed.
Print Assumptions C01_disjoint_reserialize_restamp.

Theorem C01_disjoint_reserialize_direct : forall f g, fmt_ok f g = true ->
  exists t2, serialize f (d_copy_direct g) = Some t2 /\ text_graph t2 = Some (d_copy_direct g).
Proof. exact d_reserialize_direct. Qed.
Print Assumptions C01_disjoint_reserialize_direct.

(* an id that holds nothing serializes as the empty graph, and no entry point accepts that text *)
Theorem C01_disjoint_empty_text_refused : forall f ep s gid gid', dget s gid = empty_graph ->
  exists t, d_serialize_graph s gid f = Some (Some t) /\ d_import_via ep s t gid' = (s, RErrImport).
Proof. exact d_empty_text_refused. Qed.
Print Assumptions C01_disjoint_empty_text_refused.

(* ================= API-built models ================= *)
(* harness/c01.py evaluates api_graph_ok inside Coq on every snapshot built through the topology API (slices,
   substrate sites, ARM and ADM graphs); it implies every hypothesis the theorems above put on the graph *)
Theorem C01_api_check_implies_domain : forall tbl g, api_graph_ok tbl g = true ->
  fmt_ok GraphMLFmt g = true /\ fmt_ok JsonFmt g = true /\ graph_ids_ok g = true
  /\ names_ok tbl = true /\ graph_json_ok g = true /\ graph_json_text_ok tbl g = true.
Proof. exact api_check_domain. Qed.
Print Assumptions C01_api_check_implies_domain.

(* ================= the store hypothesis holds in every reachable store ================= *)
(* store_wf (internal ids distinct and below the counter, edges between stored nodes) is kept by every load ... *)
Theorem C01_store_invariant_loads : forall ops,
  Forall (fun x : bool * str * nxg => graph_shape (snd x) = true) ops ->
  store_wf (fold_left load_op ops empty_store) = true.
Proof. exact loads_wf. Qed.
Print Assumptions C01_store_invariant_loads.

(* ... and by every import through any entry point, whatever its outcome *)
Theorem C01_store_invariant_import : forall ep s t gid, store_wf s = true ->
  (forall g, text_graph t = Some g -> graph_shape g = true) ->
  store_wf (fst (import_via ep s t gid)) = true.
Proof. exact import_via_wf. Qed.
Print Assumptions C01_store_invariant_import.

(* ================= non-vacuity ================= *)
(* ex_graph (Model/Serial1Graph.v): quotes, markup, references, non-ASCII (BMP and astral), leading/trailing
   blanks, an empty string, TAB, CR LF and a lone CR, a negative and a huge int and a bool; ex_store holds it next to another graph *)
Example C01_nonvacuous_hypotheses :
  store_wf ex_store = true /\ graph_wf ex_graph = true /\ graph_ids_ok ex_graph = true
  /\ fmt_ok JsonFmt ex_graph = true /\ gid_ok GraphMLFmt (S"new id") = true
  /\ option_map content (extract ex_store (S"g")) = Some (content ex_graph)
  /\ validate (fun _ _ => true) ex_graph = true.
Proof. vm_compute. repeat split. Qed.

(* the theorems' conclusion computed on the example: every entry point, both formats, and the other graph
   in the store is untouched *)
Example C01_nonvacuous_run :
  forall f ep,
    match extract ex_store (S"g") with
    | Some g =>
        match serialize_graph ex_store (S"g") f with
        | Some (Some t) =>
            let '(s', r) := import_via ep ex_store t (S"new id") in
            let rid := if is_direct ep then S"g" else S"new id" in
            r = ROk rid
            /\ option_map content (extract s' rid)
               = Some (content (if is_direct ep then g else restamp (S"new id") g))
            /\ option_map content (extract s' (S"other")) = Some (content ex_other)
        | _ => False
        end
    | None => False
    end.
Proof. intros [|] [| | |]; vm_compute; repeat split. Qed.

(* a carriage return inside a value (what /repo commit 10c1448 is about), computed: the value comes back with its CR *)
Example C01_cr_value_kept :
  match serialize_graphml cr_witness with
  | Some d => option_map (fun g => map (fun n => pget 10%N (snd n)) (g_nodes g)) (read_graphml d)
  | None => None
  end = Some [Some (PStr [97; 13; 98]%N)].
Proof. vm_compute. reflexivity. Qed.

(* text that is not XML (here a vertical tab) makes serialization raise: the hypothesis xml_legal is needed *)
Example C01_illegal_text_refused :
  serialize_graphml {| g_nodes := [(1%N, [(P_NodeID, PStr (S"n")); (P_Class, PStr (S"C")); (10%N, PStr [97; 11; 98]%N)])];
                       g_edges := [] |} = None.
Proof. vm_compute. reflexivity. Qed.

(* JSON text: the example graph's text, computed, starts with {"directed": false and reads back as the graph *)
Example C01_json_text_example :
  names_ok ex_names = true /\ graph_json_text_ok ex_names ex_graph = true
  /\ match json_text ex_names ex_graph with
     | Some s => firstn 19 s = S"{""directed"": false," /\ json_read_text ex_names s = Some ex_graph
     | None => False
     end.
Proof. vm_compute. repeat split. Qed.

(* disjoint store: both graphs of the example filed; a re-stamping import onto the id in use changes nothing,
   onto a free id files the copy, a direct import replaces the source by its copy *)
Example C01_disjoint_example :
  let s := [(S"other", ex_other); (S"g", ex_graph)] in
  match d_serialize_graph s (S"g") GraphMLFmt with
  | Some (Some t) =>
      d_import_via EString s t (S"other") = (s, ROk (S"other"))
      /\ content (dget (fst (d_import_via EFile s t (S"new"))) (S"new")) = content (restamp (S"new") ex_graph)
      /\ dget (fst (d_import_via EStringDirect s t (S"x"))) (S"g") = d_copy_direct ex_graph
      /\ dget (fst (d_import_via EStringDirect s t (S"x"))) (S"other") = ex_other
  | _ => False
  end.
Proof. vm_compute. repeat split. Qed.

(* a store with a cross-graph link: ex_graph (graph "g") and ex_other (graph "other") loaded by ONE direct load together
   with a link between a node of each; either side serializes without the foreign node and the cross link, and
   round-trips through every entry point in both formats *)
Example C01_cross_link_example :
  store_wf ex_cross_store = true
  /\ List.length (s_edges ex_cross_store) = 2%nat
  /\ option_map content (extract ex_cross_store (S"g")) = Some (content ex_graph)
  /\ option_map content (extract ex_cross_store (S"other")) = Some (content ex_other)
  /\ forall f ep,
       match serialize_graph ex_cross_store (S"other") f with
       | Some (Some t) =>
           let '(s', r) := import_via ep ex_cross_store t (S"new id") in
           let rid := if is_direct ep then S"other" else S"new id" in
           r = ROk rid
           /\ option_map content (extract s' rid)
              = Some (content (if is_direct ep then ex_other else restamp (S"new id") ex_other))
           /\ option_map content (extract s' (S"g")) = Some (content ex_graph)
       | _ => False
       end.
Proof.
  repeat apply conj; [vm_compute; reflexivity ..|].
  intros [|] [| | |]; vm_compute; repeat split.
Qed.

(* format-confusing values: the opening of the other format inside property values, node id and graph id changes
   nothing - the JSON text reads back as the graph (text level), the GraphML document too, and every entry point
   imports either text *)
Example C01_format_confusing_values :
  graph_wf ex_confusing = true /\ graph_json_text_ok ex_names ex_confusing = true
  /\ match json_text ex_names ex_confusing with
     | Some s => json_read_text ex_names s = Some ex_confusing | None => False end
  /\ match serialize_graphml ex_confusing with
     | Some d => read_graphml d = Some ex_confusing | None => False end
  /\ forall f ep,
       let s := fst (add_graph_direct empty_store (S"{") ex_confusing) in
       match serialize_graph s (S"{") f with
       | Some (Some t) =>
           let '(s', r) := import_via ep s t (S"<graphml") in
           let rid := if is_direct ep then S"{" else S"<graphml" in
           r = ROk rid /\ option_map content (extract s' rid)
                          = Some (content (if is_direct ep then ex_confusing else restamp (S"<graphml") ex_confusing))
       | _ => False
       end.
Proof.
  repeat apply conj; [vm_compute; reflexivity ..|].
  intros [|] [| | |]; vm_compute; repeat split.
Qed.
