(* C11 - authorization and accounting attributes cover every resource, in any order.
   Only statements; each is closed by `exact` of a lemma from Proofs/Collect11*.v.

   Model/Collect11.v      what ResourceAuthZAttributes / LogCollector DO on an abstract slice (storage order),
                          parameterised by the tables REGENERATED from the source (Gen/CollectGen.v)
   Model/Collect11Spec.v  what the request MUST name (`required`), the direct tally, slice equivalences
   collected s            the attribute mapping after collect_resource_attributes(source=topology) on a fresh
                          collector:  run [OTopo s] = Ok (collected s)                 (C11_collected_is_run)
   logged s               the LogCollector dictionary after the same call *)
From Coq Require Import List ZArith NArith Bool String Permutation.
From FIM Require Import Base.Str Gen.CollectGen Model.Collect11 Model.Collect11Spec
  Proofs.Collect11Tables Proofs.Collect11Attrs Proofs.Collect11Main Proofs.Collect11Log Proofs.Collect11Pdp Proofs.Collect11Hist.
Import ListNotations.

(* ---------- the translator recognised the source; the dispatch tables have an arm for every entry ---------- *)
Theorem C11_translated : gen_ok = true.
Proof. exact gen_ok_true. Qed.
Print Assumptions C11_translated.

Theorem C11_dispatch_total : dispatch_missing = [].
Proof. exact dispatch_total. Qed.
Print Assumptions C11_dispatch_total.

(* the attribute ids the collectors write are pairwise distinct (for every entry of the regenerated constants) *)
Theorem C11_attribute_ids_distinct : nodupN all_model_keys = true.
Proof. exact model_keys_distinct. Qed.
Print Assumptions C11_attribute_ids_distinct.

(* ---------- collection never fails: every service type of the guarded set has its NSTYPE_LUT entry ---------- *)
Theorem C11_collect_total : forall m s, collect_topo m s = Ok (topo_pure m s).
Proof. exact collect_topo_ok. Qed.
Print Assumptions C11_collect_total.

Theorem C11_collected_is_run : forall s, run [OTopo s] = Ok (collected s).
Proof. exact run_topo. Qed.
Print Assumptions C11_collected_is_run.

(* ---------- completeness: everything that needs authorization is named ---------- *)
Theorem C11_complete : forall s k v, In (k, v) (required s) -> In v (getk k (collected s)).
Proof. exact complete. Qed.
Print Assumptions C11_complete.

(* one entry per resource (CPU/RAM/disk of every node, bandwidth of every service, every component, every facility):
   the value lists ARE the required lists, in storage order, multiplicities included *)
Theorem C11_complete_per_resource : forall s k, In k multi_keys -> getk k (collected s) = required_of k s.
Proof. exact multi_exact. Qed.
Print Assumptions C11_complete_per_resource.

(* ---------- nothing spurious ---------- *)
Theorem C11_nothing_spurious : forall s k v,
  In v (getk k (collected s)) -> k = A_RESOURCE_TYPE \/ In (k, v) (required s).
Proof. exact nothing_spurious. Qed.
Print Assumptions C11_nothing_spurious.

Theorem C11_resource_type : forall s, getk A_RESOURCE_TYPE (collected s) = resource_type s.
Proof. exact type_exact. Qed.
Print Assumptions C11_resource_type.

Theorem C11_sites_listed_once : forall s k, In k set_keys -> NoDup (getk k (collected s)).
Proof. exact listed_once. Qed.
Print Assumptions C11_sites_listed_once.

Theorem C11_no_empty_attribute : forall s k, In k (keys (collected s)) <-> getk k (collected s) <> [].
Proof. exact no_empty_entry. Qed.
Print Assumptions C11_no_empty_attribute.

(* ---------- the result does not depend on the order in which nodes, services, facilities are stored ---------- *)
Theorem C11_order_independent : forall s s' k, slice_perm s s' ->
  Permutation (getk k (collected s)) (getk k (collected s')).
Proof. exact order_independent. Qed.
Print Assumptions C11_order_independent.

Theorem C11_order_independent_keys : forall s s' k, slice_perm s s' ->
  (In k (keys (collected s)) <-> In k (keys (collected s'))).
Proof. exact order_same_keys. Qed.
Print Assumptions C11_order_independent_keys.

(* ... nor on the order in which a reloaded model lists the components of a node: what relates the slice of
   a topology object to the slice of its serialized-and-reloaded ASM (that the reload yields a slice_eqv slice
   is observed by the correspondence, not proved: see notes/C11.md) *)
Theorem C11_reload_invariant : forall s s' k, slice_eqv s s' ->
  Permutation (getk k (collected s)) (getk k (collected s')).
Proof. exact reload_invariant. Qed.
Print Assumptions C11_reload_invariant.

Theorem C11_reload_invariant_keys : forall s s' k, slice_eqv s s' ->
  (In k (keys (collected s)) <-> In k (keys (collected s'))).
Proof. exact reload_same_keys. Qed.
Print Assumptions C11_reload_invariant_keys.

(* ---------- values accumulate across collected sources (state: ResourceAuthZAttributes._attributes) ---------- *)
Theorem C11_accumulates_per_resource : forall m s k, In k multi_keys ->
  getk k (topo_pure m s) = getk k m ++ required_of k s.
Proof. exact multi_closed. Qed.
Print Assumptions C11_accumulates_per_resource.

Theorem C11_accumulates_sites : forall s1 s2 k v, In k set_keys ->
  (In v (getk k (topo_pure (collected s1) s2)) <-> In v (required_of k s1) \/ In v (required_of k s2)).
Proof. exact accumulates_set. Qed.
Print Assumptions C11_accumulates_sites.

(* ---------- accounting summary = direct tally ---------- *)
Theorem C11_log_vms : forall s, l_vm (logged s) = tally_vms s.
Proof. exact log_vms. Qed.
Print Assumptions C11_log_vms.

Theorem C11_log_cores : forall s, l_core (logged s) = tally_cores s.
Proof. exact log_cores. Qed.
Print Assumptions C11_log_cores.

Theorem C11_log_switches : forall s, l_p4 (logged s) = tally_switches s.
Proof. exact log_switches. Qed.
Print Assumptions C11_log_switches.

Theorem C11_log_components : forall s c, dget c (l_comps (logged s)) = tally_component c s.
Proof. exact log_components. Qed.
Print Assumptions C11_log_components.

Theorem C11_log_component_types : forall s c,
  In c (map fst (l_comps (logged s))) <-> In c (flat_map n_comps (sl_nodes s)).
Proof. exact log_component_keys. Qed.
Print Assumptions C11_log_component_types.

Theorem C11_log_component_types_once : forall s, NoDup (map fst (l_comps (logged s))).
Proof. exact log_component_keys_once. Qed.
Print Assumptions C11_log_component_types_once.

Theorem C11_log_services : forall s, l_svcs (logged s) = tally_services s.
Proof. exact log_services. Qed.
Print Assumptions C11_log_services.

Theorem C11_log_sites : forall s x, In x (l_sites (logged s)) <-> site_used s x.
Proof. exact log_sites. Qed.
Print Assumptions C11_log_sites.

Theorem C11_log_sites_once : forall s, NoDup (l_sites (logged s)).
Proof. exact log_sites_once. Qed.
Print Assumptions C11_log_sites_once.

Theorem C11_log_facilities : forall s f, In f (l_facs (logged s)) <-> facility_used s f.
Proof. exact log_facilities. Qed.
Print Assumptions C11_log_facilities.

Theorem C11_log_facilities_once : forall s, NoDup (l_facs (logged s)).
Proof. exact log_facilities_once. Qed.
Print Assumptions C11_log_facilities_once.

Theorem C11_log_order_independent : forall s s', slice_perm s s' ->
  tally_vms s = tally_vms s' /\ tally_cores s = tally_cores s' /\ tally_switches s = tally_switches s' /\
  (forall c, tally_component c s = tally_component c s') /\
  Permutation (tally_services s) (tally_services s') /\
  (forall x, site_used s x <-> site_used s' x) /\ (forall f, facility_used s f <-> facility_used s' f).
Proof. exact tallies_order_independent. Qed.
Print Assumptions C11_log_order_independent.

(* ---------- PDP request: every attribute lands in exactly its category, with its type and all its values ---------- *)
Theorem C11_pdp_total : forall ops m, run ops = Ok m -> exists p, to_pdp m = Ok p.
Proof. exact pdp_total. Qed.
Print Assumptions C11_pdp_total.

Theorem C11_pdp_routing : forall ops m p k,
  run ops = Ok m -> to_pdp m = Ok p -> In k (keys m) ->
  exists dt cat, lookupN k attr_table = Some (dt, cat) /\ In cat pdp_cats /\
                 In (mkPA k dt (getk k m)) (attrs_of_cat cat p).
Proof. exact pdp_routing_run. Qed.
Print Assumptions C11_pdp_routing.

Theorem C11_pdp_nothing_else : forall m p c a,
  keys_in_table m -> to_pdp m = Ok p -> In a (attrs_of_cat c p) ->
  exists l dt, In (pa_id a, l) m /\ lookupN (pa_id a) attr_table = Some (dt, c) /\ a = mkPA (pa_id a) dt l /\ In c pdp_cats.
Proof. exact (fun m p c a _ => pdp_only m p c a). Qed.
Print Assumptions C11_pdp_nothing_else.

Theorem C11_pdp_each_id_once : forall m p, keys_in_table m -> NoDup (keys m) -> to_pdp m = Ok p ->
  NoDup (map pa_id (flat_map snd p)).
Proof. exact (fun m p _ => pdp_ids_once m p). Qed.
Print Assumptions C11_pdp_each_id_once.

Theorem C11_pdp_categories : forall m p, keys_in_table m -> to_pdp m = Ok p -> map fst p = pdp_cats.
Proof. exact (fun m p _ => pdp_categories m p). Qed.
Print Assumptions C11_pdp_categories.

(* the attributes derived from a slice carry the pinned XACML id text and data type and sit in the resource category
   (for every row of the pinned interface table, checked against the regenerated ATTRIBUTE_TYPES_AND_CATEGORIES) *)
Theorem C11_resource_attribute_interface : forall k u d, In (k, (u, d)) pinned_resource_rows ->
  urn_of k = u /\ exists dt c, lookupN k attr_table = Some (dt, c) /\ dtype_of dt = d /\ cat_of c = resource_category.
Proof. exact resource_rows. Qed.
Print Assumptions C11_resource_attribute_interface.

Theorem C11_resource_attribute_interface_covers :
  forallb (fun k => existsb (fun r => N.eqb (fst r) k) pinned_resource_rows) (base_keys ++ map snd nstype_lut) = true.
Proof. exact resource_rows_cover_b. Qed.
Print Assumptions C11_resource_attribute_interface_covers.

(* the hypotheses keys_in_table / NoDup (keys m) of the theorems above hold for every mapping a run produces *)
Theorem C11_run_keys_wellformed : forall ops m, run ops = Ok m -> NoDup (keys m) /\ keys_in_table m.
Proof. exact (fun ops m H => conj (proj1 (Inv_run ops m H)) (Inv_in_table m (Inv_run ops m H))). Qed.
Print Assumptions C11_run_keys_wellformed.

(* ---------- dispatch: every member class the topology API hands out (regenerated from Topology._get_node_by_id /
   _get_ns_by_id: Node, NetworkService, PortMirrorService) is routed by both collectors' METHOD_LUT (exact-class lookup).
   It fails when a produced class is absent from either table (PortMirrorService in /repo before 08ccccb). ---------- *)
Theorem C11_dispatch_classes : forallb routed produced_classes = true.
Proof. exact dispatch_classes_b. Qed.
Print Assumptions C11_dispatch_classes.

(* ---------- topology object vs serialized model: the ASM path walks the reloaded graph by class; for ANY enumeration
   order of the same elements (and of each node's components) it yields the same attributes as the topology path.
   What remains observed: serialize/load preserves the elements (C01/C02), validate() is the identity on a validated model. *)
Theorem C11_asm_is_walk : forall g, run [OAsm g] = Ok (collected (slice_of_graph g)).
Proof. exact run_asm. Qed.
Print Assumptions C11_asm_is_walk.

Theorem C11_asm_enumeration_independent : forall g g' k, graph_eqv g g' ->
  Permutation (getk k (collected (slice_of_graph g))) (getk k (collected (slice_of_graph g'))).
Proof. exact asm_enumeration_independent. Qed.
Print Assumptions C11_asm_enumeration_independent.

Theorem C11_topo_vs_asm : forall s g ma k, graph_eqv (graph_of_slice s) g -> run [OAsm g] = Ok ma ->
  Permutation (getk k (collected s)) (getk k ma) /\ (In k (keys (collected s)) <-> In k (keys ma)).
Proof. exact topo_vs_asm. Qed.
Print Assumptions C11_topo_vs_asm.

Theorem C11_log_topo_vs_asm : forall s g, graph_eqv (graph_of_slice s) g ->
  log_run [OAsm g] = logged (slice_of_graph g) /\ slice_eqv s (slice_of_graph g).
Proof. exact log_topo_vs_asm. Qed.
Print Assumptions C11_log_topo_vs_asm.

(* ---------- histories on a long-lived collector and a long-lived (edited) topology ---------- *)
Theorem C11_history_total : forall es, hist_run es = Ok (hist_pure init_attrs es).
Proof. exact hist_run_ok. Qed.
Print Assumptions C11_history_total.

(* a collector created for the occasion answers with a function of the CURRENT slice only *)
Theorem C11_collect_history_memoryless : forall es mf outs i s,
  hist_run es = Ok (mf, outs) -> nth_error es i = Some (HFresh s) -> nth_error outs i = Some (collected s).
Proof. exact history_memoryless_run. Qed.
Print Assumptions C11_collect_history_memoryless.

(* the SAME collector fed several slices accumulates (ResourceAuthZAttributes._attributes: "list of values accumulated
   across collected sources"): exactly the per-resource values of every slice it was fed, in order; the union of the
   site sets; switch-p4 as soon as one of them had a switch - and nothing from collections made by other collectors *)
Theorem C11_same_collector_per_resource : forall es mf outs k, hist_run es = Ok (mf, outs) -> In k multi_keys ->
  getk k mf = flat_map (required_of k) (same_slices es).
Proof. exact same_collector_multi. Qed.
Print Assumptions C11_same_collector_per_resource.

Theorem C11_same_collector_sites : forall es mf outs k v, hist_run es = Ok (mf, outs) -> In k set_keys ->
  (In v (getk k mf) <-> exists s, In s (same_slices es) /\ In v (required_of k s)) /\ NoDup (getk k mf).
Proof. exact same_collector_set. Qed.
Print Assumptions C11_same_collector_sites.

Theorem C11_same_collector_type : forall es mf outs, hist_run es = Ok (mf, outs) ->
  getk A_RESOURCE_TYPE mf = [AS (if existsb has_switch (same_slices es) then S"switch-p4" else S"sliver")].
Proof. exact same_collector_type. Qed.
Print Assumptions C11_same_collector_type.

Theorem C11_collect_twice_in_a_row : forall s k,
  (In k multi_keys -> getk k (topo_pure (collected s) s) = getk k (collected s) ++ getk k (collected s)) /\
  (In k set_keys -> getk k (topo_pure (collected s) s) = getk k (collected s)) /\
  getk A_RESOURCE_TYPE (topo_pure (collected s) s) = getk A_RESOURCE_TYPE (collected s).
Proof. exact twice_in_a_row. Qed.
Print Assumptions C11_collect_twice_in_a_row.

(* ---------- the log line (LogCollector.__str__): counts printed = counts tallied ---------- *)
Theorem C11_log_summary_counts : forall s,
  sm_vms (summary_of (logged s)) = tally_vms s /\ sm_cores (summary_of (logged s)) = tally_cores s /\
  sm_p4s (summary_of (logged s)) = tally_switches s /\
  (forall x, In x (sm_sites (summary_of (logged s))) <-> site_used s x) /\
  (forall f, In f (sm_facs (summary_of (logged s))) <-> facility_used s f) /\
  sm_comps (summary_of (logged s)) = map (fun kv => colon (fst kv) (str_of_Z (snd kv))) (l_comps (logged s)) /\
  sm_svcs (summary_of (logged s))
    = map (fun kv => colon (fst kv) (str_of_Z (snd kv))) (filter (fun kv => negb (str_eqb (fst kv) (S"OVS"))) (tally_services s)) /\
  (forall key, dget key (sm_vmdetails (summary_of (logged s)))
               = countb (str_eqb key) (map vmdetail_key (flat_map vm_caps (sl_nodes s)))).
Proof. exact summary_counts. Qed.
Print Assumptions C11_log_summary_counts.

(* ---------- non-vacuity ---------- *)
(* one site; an out-of-slice mirror, an in-slice mirror (mirrored port "p1" is a labelled service port of the
   slice) and an external service: the shape on which the pre-c22c27e code lost the mirror site *)
Definition ex_node : node := mkNode NT_VM (S"n0") (Some (S"RENC")) (Some (2, 8, 10)%Z) None [S"SmartNIC"; S"SmartNIC"].
Definition ex_out : svc := mkSvc ST_PortMirror (Some (S"RENC")) None (Some (S"HundredGigE0/0/0/5")).
Definition ex_in : svc := mkSvc ST_PortMirror (Some (S"RENC")) None (Some (S"p1")).
Definition ex_ext : svc := mkSvc ST_FABNetv4Ext None (Some 10%Z) None.
Definition ex_slice : slice := mkSlice [ex_node] [Some (S"p1")] [ex_out; ex_in; ex_ext] [S"FAC1"].
Definition ex_slice' : slice := mkSlice [ex_node] [Some (S"p1")] [ex_ext; ex_in; ex_out] [S"FAC1"].

Example C11_nonvacuous_required :
  In (A_RESOURCE_MIRROR_SITE, AS (S"RENC")) (required ex_slice) /\
  In (A_RESOURCE_FABNETV4_EXT, AS (S"UNKNOWN-SITE")) (required ex_slice) /\
  In (A_RESOURCE_CPU, AI 2%Z) (required ex_slice) /\
  List.length (required ex_slice) = 12%nat /\
  getk A_RESOURCE_MIRROR_SITE (collected ex_slice) = [AS (S"RENC")] /\
  getk A_RESOURCE_MIRROR_SITE (collected ex_slice') = [AS (S"RENC")] /\
  getk A_RESOURCE_COMPONENT (collected ex_slice) = [AS (S"SmartNIC"); AS (S"SmartNIC")].
Proof. vm_compute. repeat split; tauto. Qed.

Example C11_nonvacuous_perm : slice_perm ex_slice ex_slice' /\ ex_slice <> ex_slice'.
Proof.
  split; [|discriminate].
  unfold slice_perm, ex_slice, ex_slice', same_ports; simpl. repeat split; try apply Permutation_refl; try tauto.
  apply (Permutation_cons_app [ex_ext; ex_in] []). apply perm_swap.
Qed.

Example C11_nonvacuous_pdp :
  match bind (run [OTopo ex_slice; OAction (SOne (S"create"))]) to_pdp with
  | Ok p => List.length (attrs_of_cat 0%N p) = 10%nat /\ List.length (attrs_of_cat 1%N p) = 1%nat /\
            map fst p = pdp_cats
  | Err _ => False
  end.
Proof. vm_compute. repeat split. Qed.

Example C11_nonvacuous_log :
  l_vm (logged ex_slice) = 1%Z /\ l_core (logged ex_slice) = 2%Z /\ dget (S"SmartNIC") (l_comps (logged ex_slice)) = 2%Z /\
  List.length (l_svcs (logged ex_slice)) = 3%nat /\ l_sites (logged ex_slice) = [S"RENC"] /\ l_facs (logged ex_slice) = [S"FAC1"].
Proof. vm_compute. repeat split. Qed.

Example C11_nonvacuous_history :
  let es := [HSame ex_slice; HFresh ex_slice'; HSame ex_slice'] in
  match hist_run es with
  | Ok (mf, outs) => nth_error outs 1 = Some (collected ex_slice') /\
                     getk A_RESOURCE_CPU mf = [AI 2%Z; AI 2%Z] /\ getk A_RESOURCE_MIRROR_SITE mf = [AS (S"RENC")] /\
                     List.length outs = 3%nat
  | Err _ => False
  end.
Proof. vm_compute. repeat split. Qed.

Example C11_nonvacuous_asm :
  let g := [GSvc ex_ext; GFac (S"FAC1"); GSvc ex_in; GPort (Some (S"p1")); GNode ex_node; GSvc ex_out] in
  graph_eqv (graph_of_slice ex_slice) g /\ graph_of_slice ex_slice <> g /\
  getk A_RESOURCE_MIRROR_SITE (collected (slice_of_graph g)) = [AS (S"RENC")].
Proof.
  split; [|split; [discriminate | vm_compute; reflexivity]].
  exists [GSvc ex_ext; GFac (S"FAC1"); GSvc ex_in; GPort (Some (S"p1")); GNode ex_node; GSvc ex_out]. split.
  - unfold graph_of_slice, ex_slice. cbn [sl_nodes sl_ports sl_svcs sl_facs map app].
    apply (Permutation_cons_app [GSvc ex_ext; GFac (S"FAC1"); GSvc ex_in; GPort (Some (S"p1"))] [GSvc ex_out]).
    apply (Permutation_cons_app [GSvc ex_ext; GFac (S"FAC1"); GSvc ex_in] [GSvc ex_out]).
    apply (Permutation_cons_app [GSvc ex_ext; GFac (S"FAC1"); GSvc ex_in] []).
    apply (Permutation_cons_app [GSvc ex_ext; GFac (S"FAC1")] []). apply Permutation_refl.
  - repeat constructor; simpl; try reflexivity; unfold node_eqv; repeat split; apply Permutation_refl.
Qed.
