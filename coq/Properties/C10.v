(* C10 - slice validation accepts a topology exactly when the constraint tables allow it.
   Theorems are closed by `exact` of a lemma of Proofs/Validate10*.v; Examples likewise or by computation.

   validate_cur           = Model/Validate10.v: Topology.validate -> Node.validate_constraints ->
                            NetworkService.validate_constraints / __validate_nstype_constraints in the code's
                            order, on an abstract slice, interpreting the tables REGENERATED from the source
                            (Gen/Constraints.v); returns the site of every service afterwards and the outcome.
   allowed T fac agree    = Model/C10Spec.v: the declarative specification written from the tables only.
   allowed_full           = allowed pinned_tables true true = the property of properties.jsonl.

   Both directions hold since proposed_fixes/C10-1..3 landed (flags cur_* = true). *)
From Coq Require Import List ZArith String Bool NArith Permutation.
From FIM Require Import Base.C10Types Gen.Constraints Model.Validate10 Model.C10Pinned Model.C10Spec
  Proofs.Validate10Lemmas Proofs.Validate10Main Proofs.Validate10Stable.
Import ListNotations.

(* ---- the tables ---- *)
Theorem C10_translated : gen_ok = true.
Proof. exact gen_tables_ok_true. Qed.
Print Assumptions C10_translated.

(* the constraint tables, the three enums and the guardrail read from the source ARE the pinned specification *)
Theorem C10_table_pinned : gen_tables = pinned_tables.
Proof. exact table_pinned. Qed.
Print Assumptions C10_table_pinned.

(* finite checks on the pinned tables: no per-site instance limit (so the unmodelled instance count is
   unreachable), every constrained property is readable; every enum member has an entry; every pair the
   guardrail refuses is excluded by the service type's interface-type list *)
Theorem C10_tables_ok : table_ok pinned_tables = true.
Proof. exact pinned_table_ok. Qed.
Print Assumptions C10_tables_ok.

Theorem C10_tables_total : tables_total pinned_tables = true.
Proof. exact pinned_tables_total. Qed.
Print Assumptions C10_tables_total.

(* ---- accept / reject ---- *)
(* THE FULL-STRENGTH STATEMENT *)
Theorem C10_validate_iff : forall sl, snd (validate_cur sl) = Ok <-> allowed_full sl.
Proof. exact validate_cur_exact. Qed.
Print Assumptions C10_validate_iff.

(* no valid slice is rejected (full strength) *)
Theorem C10_validate_complete : forall sl, allowed_full sl -> snd (validate_cur sl) = Ok.
Proof. exact validate_cur_complete. Qed.
Print Assumptions C10_validate_complete.

(* no invalid slice is accepted, under the two hypotheses that exclude what a weakened code (a cur_ flag false) lets
   through; with both flags true, as they are, C10_validate_iff gives the conclusion without them *)
Theorem C10_validate_sound_partial : forall sl, snd (validate_cur sl) = Ok ->
  facilities_meet_constraints pinned_tables sl -> declared_sites_agree pinned_tables sl -> allowed_full sl.
Proof. exact validate_cur_sound_partial. Qed.
Print Assumptions C10_validate_sound_partial.

(* exactly what the current code accepts: the specification minus the clauses whose flag is false
   (both flags are true today, so this is C10_validate_iff read through the flags) *)
Theorem C10_validate_cur_exact : forall sl,
  snd (validate_cur sl) = Ok <-> allowed pinned_tables cur_checks_facilities cur_enforces_declared_site sl.
Proof. exact validate_cur_exact. Qed.
Print Assumptions C10_validate_cur_exact.

(* the full equivalence, for the validation with both flags true whatever the cur_ flags say *)
Theorem C10_validate_iff_repaired : forall sl, snd (validate pinned_tables true true sl) = Ok <-> allowed_full sl.
Proof. exact (validate_iff pinned_tables pinned_table_ok true true). Qed.
Print Assumptions C10_validate_iff_repaired.

(* ---- the recorded site ---- *)
(* after a successful validation every service carries the site the specification determines ... *)
Theorem C10_site_recorded : forall sl sts, validate_cur sl = (sts, Ok) ->
  Forall2 (svc_ok pinned_tables cur_enforces_declared_site) (sl_services sl) sts.
Proof. exact site_recorded_cur. Qed.
Print Assumptions C10_site_recorded.

(* ... which is unique, ... *)
Theorem C10_recorded_site_unique : forall agree s a b,
  svc_ok pinned_tables agree s a -> svc_ok pinned_tables agree s b -> a = b.
Proof. exact (svc_ok_unique pinned_tables pinned_table_ok). Qed.
Print Assumptions C10_recorded_site_unique.

(* ... is the inferred site on a single-site service without a declared site, ... *)
Theorem C10_site_recorded_inferred : forall agree s after r eps a, svc_ok pinned_tables agree s after ->
  assoc (s_type s) (t_services pinned_tables) = Some r -> sc_num_sites r <> t_no_limit pinned_tables ->
  Forall2 attached_to (s_ifaces s) eps -> (forall b, spans eps b <-> b = a) ->
  s_site s = None -> after = a.
Proof. exact (recorded_inferred pinned_tables). Qed.
Print Assumptions C10_site_recorded_inferred.

(* ... and a declared site is never overwritten *)
Theorem C10_site_recorded_declared : forall agree s d after,
  svc_ok pinned_tables agree s after -> s_site s = Some d -> after = Some d.
Proof. exact (recorded_declared pinned_tables). Qed.
Print Assumptions C10_site_recorded_declared.

(* ---- further consequences ---- *)
(* accept/reject does not depend on the order in which nodes and services are enumerated *)
Theorem C10_validate_order_independent : forall n n' s s', Permutation n n' -> Permutation s s' ->
  (snd (validate_cur (mk_slice n s)) = Ok <-> snd (validate_cur (mk_slice n' s')) = Ok).
Proof. exact validate_cur_order_independent. Qed.
Print Assumptions C10_validate_order_independent.

(* validating again the slice that now carries the recorded sites succeeds and records the same sites (the Ok
   case of C10_validate_stable below) *)
Theorem C10_validate_idempotent : forall sl sts,
  validate_cur sl = (sts, Ok) -> validate_cur (recorded sl sts) = (sts, Ok).
Proof. exact (fun sl sts => validate_cur_stable sl sts Ok). Qed.
Print Assumptions C10_validate_idempotent.

(* validate is a function of the CURRENT slice and its own side effect never changes its verdict: whatever the
   outcome (also a rejection that had already written some sites), validating again the slice as validate left it
   gives the same outcome and the same sites *)
Theorem C10_validate_stable : forall sl sts res,
  validate_cur sl = (sts, res) -> validate_cur (recorded sl sts) = (sts, res).
Proof. exact validate_cur_stable. Qed.
Print Assumptions C10_validate_stable.

(* sessions on one topology (mutations interleaved with validations): the outcomes of the validations after any
   prefix are those of a fresh session on the slice as it is at that moment -- nothing else is remembered *)
Theorem C10_session_memoryless : forall pre post st,
  (session st (pre ++ post) = session st pre ++ session (state_after st pre) post)%list.
Proof. exact session_memoryless. Qed.
Print Assumptions C10_session_memoryless.

Theorem C10_session_revalidate : forall st,
  session st [Validate; Validate] = [validate_cur st; validate_cur st] /\
  state_after st [Validate; Validate] = state_after st [Validate].
Proof. exact session_revalidate. Qed.
Print Assumptions C10_session_revalidate.

(* on well-formed input (every type has a table entry; interfaces of site-limited services belong to nodes)
   a rejection is the documented TopologyException, never another exception *)
Theorem C10_rejection_is_topology_exception : forall sl, slice_wf pinned_tables sl = true ->
  snd (validate_cur sl) = Ok \/ snd (validate_cur sl) = Err ETopology.
Proof. exact validate_cur_class. Qed.
Print Assumptions C10_rejection_is_topology_exception.

(* ---- connect time ---- *)
(* the constructor path refuses exactly L2PTP x SharedPort, with a TopologyException ... *)
Theorem C10_guardrail_exact : forall st it,
  connect_ctor gen_tables st it <> Ok <-> (st = "L2PTP"%string /\ it = "SharedPort"%string).
Proof. exact guard_exact. Qed.
Print Assumptions C10_guardrail_exact.

(* ... and only combinations no valid slice can contain (whatever the flags) *)
Theorem C10_guardrail_only_unsupported : forall st it, connect_ctor gen_tables st it <> Ok ->
  forall fac agree sl s i e, In s (sl_services sl) -> s_type s = st -> In i (s_ifaces s) -> attached_to i e ->
    ep_type e = it -> snd (validate gen_tables fac agree sl) <> Ok.
Proof. exact guardrail_only_unsupported_pinned. Qed.
Print Assumptions C10_guardrail_only_unsupported.

(* connect_interface() applies the same guardrail as the constructor *)
Theorem C10_connect_interface_guarded : forall st it,
  connect_method gen_tables cur_connect_interface_guarded st it = connect_ctor gen_tables st it.
Proof. exact connect_interface_guarded. Qed.
Print Assumptions C10_connect_interface_guarded.

(* ---- non-vacuity ---- *)
Example C10_nonvacuous_valid :      (* a 3-node, 6-service slice satisfies the full specification ... *)
  allowed_full example_valid /\
  validate_cur example_valid = ([Some 1%N; Some 2%N; Some 2%N; None; Some 2%N; Some 1%N], Ok).
Proof. split; [exact example_valid_allowed | exact example_valid_sites]. Qed.

Example C10_nonvacuous_hyps :       (* ... and the hypotheses of the partial theorem (it has a facility and a declared site) *)
  facilities_meet_constraints pinned_tables example_valid /\ declared_sites_agree pinned_tables example_valid.
Proof. exact (conj (allowed_facilities _ _ example_valid_allowed) (allowed_declared_agree _ _ example_valid_allowed)). Qed.

Example C10_nonvacuous_wf : slice_wf pinned_tables example_valid = true.
Proof. exact example_valid_wf. Qed.

Example C10_nonvacuous_session :   (* valid L2STS; a node moves to a third site: rejected; moves back: accepted *)
  map snd (session (ex_sts 2%N) [Validate; Mutate (fun _ => ex_sts 3%N); Validate; Mutate (fun _ => ex_sts 1%N); Validate])
  = [Ok; Err ETopology; Ok].
Proof. exact example_session. Qed.

Example C10_nonvacuous_reconnect :  (* declared site 1: valid; emptied: too few interfaces; reconnected at site 2: site
                                       mismatch; reconnected at site 1: valid *)
  map snd (session (ex_bridge [1%N]) [Validate; Mutate (fun _ => ex_bridge []); Validate;
                                      Mutate (fun _ => ex_bridge [2%N]); Validate;
                                      Mutate (fun _ => ex_bridge [1%N; 1%N]); Validate])
  = [Ok; Err ETopology; Err ETopology; Ok].
Proof. exact example_reconnect. Qed.

Example C10_nonvacuous_invalid :
  snd (validate_cur (mk_slice [] [mk_asvc "L2PTP" None []
        [mk_if "ServicePort" None (Some [mk_ep "SharedPort" (Some (Some 1%N))]);
         mk_if "ServicePort" None (Some [mk_ep "DedicatedPort" (Some (Some 2%N))])]])) = Err ETopology /\
  snd (validate_cur (mk_slice [mk_anode "Switch" ["site"; "image_type"; "image_ref"]] [])) = Err ETopology.
Proof. exact example_invalid_rejected. Qed.
