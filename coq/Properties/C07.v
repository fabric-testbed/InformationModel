(* C07 - every model the topology API builds satisfies the published graph rules.
   Only statements; each is closed by `exact` of a lemma from Proofs/T7*.v.
   The model: Model/T7Graph.v (graph, primitive mutations, state/exception monad), Model/T7Ops.v (the building
   calls as monadic programs, `step`), Model/T7WF.v (the rules: boolean wf_b and declarative WF, the views),
   Model/T7Steps.v (unit mutations, their side conditions, the claim about histories: op_pre, run_hist, pre_along).
   Tables regenerated from the source: Gen/Rules.v, pinned in Model/T7Pinned.v. *)
From Coq Require Import String List NArith Bool.
From FIM Require Import Base.Str Gen.Rules Model.T7Pinned Model.T7Graph Model.T7Ops Model.T7WF Model.T7Steps
     Model.T7Rel Proofs.T7Tables Proofs.T7WFRefl Proofs.T7Units Proofs.T7Api Proofs.T7Api2 Proofs.T7Api3 Proofs.T7Api4
     Proofs.T7RelAdd Proofs.T7Api5 Proofs.T7Api6 Proofs.T7Rem3 Proofs.T7Rem5 Proofs.T7Hist Proofs.T7Views Proofs.T7Refuted.
Import ListNotations.

(* ---- the tables ------------------------------------------------------------------------------------------ *)
(* the translator recognised every source it reads (fail-closed flag) *)
Theorem C07_translated : gen_ok = true.
Proof. exact tables_gen_ok. Qed.
Print Assumptions C07_translated.

(* the regenerated vocabularies, rule texts, enum member lists, catalogue shape, NAME_REGEX texts and the
   ViewOnlyDict method list are the pinned specification tables *)
Theorem C07_tables_are_pinned : all_tables = all_pinned.
Proof. exact tables_are_pinned. Qed.
Print Assumptions C07_tables_are_pinned.

(* every member of the enums the API takes may be written under the published vocabularies ... *)
Theorem C07_node_types_in_vocabulary : forall t, In t enum_node_types -> type_allowed KNode t = true.
Proof. exact node_types_in_vocab. Qed.
Print Assumptions C07_node_types_in_vocabulary.
Theorem C07_component_types_in_vocabulary : forall t, In t enum_component_types -> type_allowed KComp t = true.
Proof. exact component_types_in_vocab. Qed.
Print Assumptions C07_component_types_in_vocabulary.
Theorem C07_interface_types_in_vocabulary : forall t, In t enum_interface_types -> type_allowed KCP t = true.
Proof. exact interface_types_in_vocab. Qed.
Print Assumptions C07_interface_types_in_vocabulary.
Theorem C07_link_types_in_vocabulary : forall t, In t enum_link_types -> type_allowed KLink t = true.
Proof. exact link_types_in_vocab. Qed.
Print Assumptions C07_link_types_in_vocabulary.
Theorem C07_service_types_in_vocabulary : forall t, In t enum_service_types -> type_allowed KNS t = true.
Proof. exact service_types_in_vocab. Qed.
Print Assumptions C07_service_types_in_vocabulary.
(* the types the API chooses itself (catalogue components, facility / switch / peering constructs) *)
Theorem C07_builtin_types_in_vocabulary : builtin_types_ok = true.
Proof. exact builtin_types_in_vocab. Qed.
Print Assumptions C07_builtin_types_in_vocabulary.

(* ---- the rules -------------------------------------------------------------------------------------------- *)
(* the boolean checker the harness evaluates on every snapshot of the implementation decides the declarative
   statement of the rules (fields, vocabularies, distinct ids, one owning node per component, one owner per
   interface, links join only interfaces, one peer per service port, names unique per scope) *)
Theorem C07_wf_b_decides_WF : forall g, wf_b g = true <-> WF g.
Proof. exact wf_b_reflect. Qed.
Print Assumptions C07_wf_b_decides_WF.

(* ---- the unit mutations keep the rules (arbitrary graph, arbitrary element) -------------------------------- *)
Theorem C07_add_plain_preserves : forall g n, WF g -> plain_ok g n = true -> WF (add_plain g n).
Proof. exact WF_add_plain. Qed.
Print Assumptions C07_add_plain_preserves.
(* element + owner edge as a unit: component, node-level service, interface, sub-interface *)
Theorem C07_add_owned_preserves : forall g n a r, WF g -> owned_ok g n a r = true -> WF (add_owned g n a r).
Proof. exact WF_add_owned. Qed.
Print Assumptions C07_add_owned_preserves.
Theorem C07_add_link_edge_preserves : forall g l i, WF g -> link_edge_ok g l i = true -> WF (add_link_edge g l i).
Proof. exact WF_add_link_edge. Qed.
Print Assumptions C07_add_link_edge_preserves.
Theorem C07_relabel_preserves : forall g x f, WF g -> relabel_ok g x f = true -> WF (relabel g x f).
Proof. exact WF_relabel. Qed.
Print Assumptions C07_relabel_preserves.
(* removal of ANY closed set of elements (owners take their components / services / interfaces along, a service
   port survives only with its link and peer): every removal program deletes by delete_node only *)
Theorem C07_closed_removal_preserves : forall g del, WF g -> closed_b g del = true -> WF (remove_set g del).
Proof. exact WF_remove_set. Qed.
Print Assumptions C07_closed_removal_preserves.
(* a service port together with its link, as a unit: under service s, joined to the interface i (connect_interface) *)
Theorem C07_add_peering_preserves :
  forall g s i sp l, WF g -> peering_ok g s i sp l = true -> WF (add_peering g s i sp l).
Proof. exact WF_add_peering. Qed.
Print Assumptions C07_add_peering_preserves.
(* ... two service ports under two services joined by one link (peer) *)
Theorem C07_add_peering2_preserves :
  forall g a b pa pb l, WF g -> peering2_ok g a b pa pb l = true -> WF (add_peering2 g a b pa pb l).
Proof. exact WF_add_peering2. Qed.
Print Assumptions C07_add_peering2_preserves.

(* ---- the building calls ------------------------------------------------------------------------------------ *)
(* UNCONDITIONAL STATEMENT (false of the faithful model, see the ..._refuted theorems and the notes):
     forall sub fl g o drawn hint, WF g -> WF (fst (step sub fl g o drawn hint))
   PROVED, for EVERY building call of the API made through a handle of an element that exists (25 of the 26 constructors
   of `op`; the 26th, OStaleAddIface = add_interface through the kept handle of a REMOVED service, leaves an interface without
   owner before a4fc126 and nothing since, C07_stale_add_interface_refuted): add_node, remove_node, node.add_component,
   node.add_storage, node.remove_component, add_facility, remove_facility, add_switch, remove_switch, add_network_service
   with or without interfaces, add_port_mirror_service, remove_network_service, node.add_network_service,
   node.remove_network_service, add_link, remove_link, connect_interface, disconnect_interface, peer, unpeer,
   add_child_interface, remove_child_interface, rename, set_property, unset_property) under the precondition op_pre of
   the call (Model/T7Steps.v) and whatever its outcome -- normal return or any exception with the partial effects made
   before it, including the states the rollbacks of add_facility / add_switch / add_network_service / peer /
   connect_interface leave; the removals are shown never to fail once they have deleted something.
   op_pre holds: enum arguments inside their enum; the documented domain of add_link / connect / disconnect (interfaces,
   no service port handed in -- for disconnect_interface not needed when the library refuses peering ports, f52e05e);
   what excludes exactly the signature of a recorded defect (rename / set_property('name') to a name
   used in the scope, remove_link of a peering link, peer(a, a), a taken `<a>-<b>-link` name for peer); the repairs the
   proof relies on, as behaviour flags read off the running library (connect: 8b1a93d + 7b7379b; removals: 5286851);
   and three structural side conditions for the calls that remove service ports (every model the API builds has them,
   the published rules do not state them): subs_under_dedicated, ns_cp_connects, one_sp_peer. *)
Theorem C07_step_preserves :
  forall sub fl g o drawn hint g' out, WF g -> op_pre fl g o = true -> step sub fl g o drawn hint = (g', out) -> WF g'.
Proof. exact step_preserves. Qed.
Print Assumptions C07_step_preserves.

(* the calls that make or take away a service port with its link, one by one and with their hypotheses spelled out.
   connect_interface of an interface that is not a service port, by a library that checks the derived names: the
   result is well-formed, except -- for a library WITHOUT the rollback 7b7379b -- when the call raised between the
   two constructions (no id to draw / duplicate id / derived link name too long), which leaves the port without link *)
Theorem C07_connect_interface_preserves :
  forall fl sub s i st st' r,
    WF (sg st) -> fl_connect_names fl = true ->
    cls_is (sg st) s KNS = true -> cls_is (sg st) i KCP = true -> typ_is (sg st) i sServicePort = false ->
    connect_interface fl sub s i st = (st', r) -> WF (sg st') \/ (fl_connect_undo fl = false /\ late r).
Proof. exact api_connect. Qed.
Print Assumptions C07_connect_interface_preserves.
(* subs_under_dedicated: every interface-to-interface edge has a DedicatedPort end (add_child_interface enforces it) *)
Theorem C07_disconnect_interface_preserves :
  forall i s s' r,
    WF (sg s) -> subs_under_dedicated (sg s) = true -> cls_is (sg s) i KCP = true -> typ_is (sg s) i sServicePort = false ->
    disconnect_interface i s = (s', r) -> WF (sg s').
Proof. exact api_disconnect. Qed.
Print Assumptions C07_disconnect_interface_preserves.
Theorem C07_remove_child_interface_preserves :
  forall i name s s' r,
    WF (sg s) -> subs_under_dedicated (sg s) = true -> iface_remove_child i name s = (s', r) -> WF (sg s').
Proof. exact api_remove_child. Qed.
Print Assumptions C07_remove_child_interface_preserves.
(* peer: all or nothing -- when it raises after the first port was made, the handlers give back the graph before the
   call.  The library does not look whether the two services differ (peer(a, a) gives two ports of one name: the second
   handle's cached interface list does not see the first port) nor whether the derived link name is free: either the
   caller sees to both, or the library does (39e308b, flag fl_peer_checks) *)
Theorem C07_peer_preserves :
  forall fl sub a b st st' r,
    WF (sg st) -> cls_is (sg st) a KNS = true -> cls_is (sg st) b KNS = true ->
    (fl_peer_checks fl = false ->
     a <> b /\ forall an bn, name_of (sg st) a = Some an -> name_of (sg st) b = Some bn ->
                 name_free (sg st) KLink (Some (an ++ dash ++ bn ++ S "-link")) = true) ->
    ns_peer fl sub a b st = (st', r) -> WF (sg st').
Proof. exact api_peer. Qed.
Print Assumptions C07_peer_preserves.
(* unpeer (after 24d5e04): every peering between the two services is taken away, ports and link *)
Theorem C07_unpeer_preserves :
  forall a b st st' r,
    WF (sg st) -> subs_under_dedicated (sg st) = true -> ns_unpeer a b st = (st', r) -> WF (sg st').
Proof. exact api_unpeer. Qed.
Print Assumptions C07_unpeer_preserves.

(* the removals, one by one.  Side conditions (Model/T7Steps.v; each holds of every model the API builds, none is a
   published rule): subs_under_dedicated -- interface-to-interface edges have a DedicatedPort end; ns_cp_connects -- an
   interface hangs off a service over `connects`; one_sp_peer -- an interface has at most one service-port peer. *)
Theorem C07_remove_network_service_preserves :
  forall fl hint name s s' r,
    WF (sg s) -> subs_under_dedicated (sg s) = true -> one_sp_peer (sg s) = true -> fl_skip_gone fl = true ->
    t_remove_ns fl hint name s = (s', r) -> WF (sg s').
Proof. exact api_t_remove_ns. Qed.
Print Assumptions C07_remove_network_service_preserves.
Theorem C07_node_remove_network_service_preserves :
  forall fl hint nd name s s' r,
    WF (sg s) -> subs_under_dedicated (sg s) = true -> one_sp_peer (sg s) = true -> fl_skip_gone fl = true ->
    node_remove_ns fl hint nd name s = (s', r) -> WF (sg s').
Proof. exact api_node_remove_ns. Qed.
Print Assumptions C07_node_remove_network_service_preserves.
Theorem C07_remove_node_preserves :
  forall fl hint name s s' r,
    WF (sg s) -> subs_under_dedicated (sg s) = true -> ns_cp_connects (sg s) = true -> one_sp_peer (sg s) = true ->
    fl_skip_gone fl = true -> t_remove_node fl hint name s = (s', r) -> WF (sg s').
Proof. exact api_t_remove_node. Qed.
Print Assumptions C07_remove_node_preserves.
Theorem C07_remove_facility_preserves :
  forall fl hint name s s' r,
    WF (sg s) -> subs_under_dedicated (sg s) = true -> ns_cp_connects (sg s) = true -> one_sp_peer (sg s) = true ->
    fl_skip_gone fl = true -> t_remove_facility fl hint name s = (s', r) -> WF (sg s').
Proof. exact api_t_remove_facility. Qed.
Print Assumptions C07_remove_facility_preserves.
Theorem C07_remove_switch_preserves :
  forall fl hint name s s' r,
    WF (sg s) -> subs_under_dedicated (sg s) = true -> ns_cp_connects (sg s) = true -> one_sp_peer (sg s) = true ->
    fl_skip_gone fl = true -> t_remove_switch fl hint name s = (s', r) -> WF (sg s').
Proof. exact api_t_remove_switch. Qed.
Print Assumptions C07_remove_switch_preserves.
Theorem C07_remove_component_preserves :
  forall fl hint nd name s s' r,
    WF (sg s) -> subs_under_dedicated (sg s) = true -> ns_cp_connects (sg s) = true -> one_sp_peer (sg s) = true ->
    fl_skip_gone fl = true -> node_remove_component fl hint nd name s = (s', r) -> WF (sg s').
Proof. exact api_node_remove_component. Qed.
Print Assumptions C07_remove_component_preserves.

(* constructor level (used by the calls above and by add_component / add_facility / add_switch):
   the sliver additions create node + owner edge together (abc_property_graph.py:1242-1301) -- the pair
   add_node ; add_link keeps WF whatever its outcome, and when it returns normally the graph is the unit add_owned *)
Theorem C07_node_and_owner_edge_unit :
  forall n a rl s s' r, WF (sg s) -> (has_id (sg s) (nid n) = false -> owned_ok (sg s) n a rl = true) ->
    bind (add_node n) (fun _ => add_link a rl (nid n)) s = (s', r) ->
    WF (sg s') /\ (r = Ok tt -> sg s' = add_owned (sg s) n a rl).
Proof. exact api_add_owned. Qed.
Print Assumptions C07_node_and_owner_edge_unit.
(* Interface(NEW) (interface.py:62-80) for every interface kind but a service port, under a service or a parent port *)
Theorem C07_new_interface_preserves :
  forall sub name iid parent itype lab s s' r,
    WF (sg s) -> type_allowed KCP itype = true -> str_eqb itype sServicePort = false ->
    (if str_eqb itype sSubInterface then cls_is (sg s) parent KCP && negb (typ_is (sg s) parent sSubInterface)
     else cls_is (sg s) parent KNS) = true ->
    sibling_free (sg s) parent Connects KCP (Some name) = true ->
    new_interface sub name iid parent itype lab s = (s', r) -> WF (sg s').
Proof. exact api_new_interface. Qed.
Print Assumptions C07_new_interface_preserves.
(* NetworkService(NEW) under a node or component (network_service.py:80-98) *)
Theorem C07_new_owned_service_preserves :
  forall name sid nstype p s s' r,
    WF (sg s) -> type_allowed KNS nstype = true ->
    (cls_is (sg s) p KNode = true \/ cls_is (sg s) p KComposite = true \/ cls_is (sg s) p KComp = true) ->
    sibling_free (sg s) p Has KNS (Some name) = true ->
    new_service name sid nstype (Some p) s = (s', r) -> WF (sg s').
Proof. exact api_new_service_owned. Qed.
Print Assumptions C07_new_owned_service_preserves.

(* add_facility / add_switch build node + service + interfaces, each element with its owner edge; a rejected later step
   (e.g. a repeated interface name) takes the node away again.  Every outcome, no precondition: nothing but the call
   itself has touched the new node, so its interfaces carry no link and the removal strands nothing *)
Theorem C07_add_facility_preserves :
  forall sub name nid ifnames s s' r, WF (sg s) -> t_add_facility sub name nid ifnames s = (s', r) -> WF (sg s').
Proof. exact api_add_facility. Qed.
Print Assumptions C07_add_facility_preserves.
Theorem C07_add_switch_preserves :
  forall sub name nid nports s s' r, WF (sg s) -> t_add_switch sub name nid nports s = (s', r) -> WF (sg s').
Proof. exact api_add_switch. Qed.
Print Assumptions C07_add_switch_preserves.
(* add_network_service with interfaces (and add_port_mirror_service): the service, one connect_interface per interface;
   a failure disconnects what was connected and removes the service (16ce105).  The new service owns only the service
   ports this call made, each peered with the interface it was made for *)
Theorem C07_add_network_service_preserves :
  forall fl sub name sid nstype ifs s s' r,
    WF (sg s) -> subs_under_dedicated (sg s) = true -> type_allowed KNS nstype = true ->
    fl_connect_names fl = true -> fl_connect_undo fl = true ->
    (forall j, In j ifs -> cls_is (sg s) j KCP = true /\ typ_is (sg s) j sServicePort = false) ->
    t_add_ns fl sub name sid nstype ifs s = (s', r) -> WF (sg s').
Proof. exact api_add_ns. Qed.
Print Assumptions C07_add_network_service_preserves.

(* all histories of calls whose preconditions hold along the way, by induction over the history, from any well-formed
   model -- in particular from the empty one *)
Theorem C07_all_histories :
  forall sub fl h g, WF g -> pre_along sub fl g h = true -> WF (run_hist sub fl g h).
Proof. exact histories. Qed.
Print Assumptions C07_all_histories.
Theorem C07_empty_model_well_formed : WF empty_graph.
Proof. exact WF_empty. Qed.
Print Assumptions C07_empty_model_well_formed.

(* the defects that make the full statement false of the library WITHOUT the repairs (flags_off) *)
Theorem C07_rename_refuted :
  let g := run_hist false flags_off empty_graph w_rename_hist in
  WF g /\ ~ WF (fst (step false flags_off g w_rename_op [] [])).
Proof. exact rename_refuted. Qed.
Print Assumptions C07_rename_refuted.
Theorem C07_remove_link_refuted :
  let g := run_hist false flags_off empty_graph w_link_hist in
  WF g /\ ~ WF (fst (step false flags_off g w_link_op [] [])).
Proof. exact remove_link_refuted. Qed.
Print Assumptions C07_remove_link_refuted.
(* the library as it is (all landed repairs, incl. the rename check): rename to a used name is refused, the same name
   through set_properties(name=...) is written; with e7f5960 it is refused too *)
Theorem C07_set_properties_name_refuted :
  let g := run_hist false flags_rename_only empty_graph w_rename_hist in
  WF g /\ ~ WF (fst (step false flags_rename_only g w_setprops_op [] [])) /\
  snd (step false flags_rename_only g w_setprops_op [] []) = None /\
  step false flags_rename_only g w_rename_op [] [] = (g, Some ETopology) /\
  step false flags_on g w_setprops_op [] [] = (g, Some ETopology).
Proof. exact set_properties_name_refuted. Qed.
Print Assumptions C07_set_properties_name_refuted.
(* three more entry points (flags_head = the library at a4fc126); the first two are refused under flags_on (261150e,
   f52e05e), the third was repaired by a4fc126 (C09's side: the parent is looked up before the node is added) *)
Theorem C07_add_link_non_interfaces_refuted :
  let g := run_hist false flags_head empty_graph w_rename_hist in
  WF g /\ ~ WF (fst (step false flags_head g w_linknodes_op [] [])) /\
  snd (step false flags_head g w_linknodes_op [] []) = None /\
  step false flags_on g w_linknodes_op [] [] = (g, Some ETopology).
Proof. exact add_link_non_interfaces_refuted. Qed.
Print Assumptions C07_add_link_non_interfaces_refuted.
Theorem C07_disconnect_peering_port_refuted :
  let g := run_hist false flags_head empty_graph w_discpeer_hist in
  WF g /\ ~ WF (fst (step false flags_head g w_discpeer_op [] [])) /\
  snd (step false flags_head g w_discpeer_op [] []) = None /\
  step false flags_on g w_discpeer_op [] [] = (g, Some ETopology).
Proof. exact disconnect_peering_port_refuted. Qed.
Print Assumptions C07_disconnect_peering_port_refuted.
Theorem C07_stale_add_interface_refuted :
  ~ WF (fst (step false flags_before_parent_first empty_graph w_stale_op [] [])) /\
  snd (step false flags_before_parent_first empty_graph w_stale_op [] []) = Some EQuery /\
  step false flags_head empty_graph w_stale_op [] [] = (empty_graph, Some EQuery).
Proof. exact stale_add_interface_refuted. Qed.
Print Assumptions C07_stale_add_interface_refuted.
Theorem C07_peer_self_refuted :
  let g := run_hist false flags_off empty_graph w_selfpeer_hist in
  WF g /\ ~ WF (fst (step false flags_off g w_selfpeer_op w_selfpeer_ids [])) /\
  snd (step false flags_off g w_selfpeer_op w_selfpeer_ids []) = None.
Proof. exact peer_self_refuted. Qed.
Print Assumptions C07_peer_self_refuted.
Theorem C07_peer_link_name_refuted :
  let g := run_hist false flags_off empty_graph w_peerlink_hist in
  WF g /\ ~ WF (fst (step false flags_off g w_peerlink_op w_selfpeer_ids [])) /\
  snd (step false flags_off g w_peerlink_op w_selfpeer_ids []) = None.
Proof. exact peer_link_name_refuted. Qed.
Print Assumptions C07_peer_link_name_refuted.
Theorem C07_peer_witnesses_refused_when_repaired :
  step false flags_on (run_hist false flags_on empty_graph w_selfpeer_hist) w_selfpeer_op w_selfpeer_ids []
    = (run_hist false flags_on empty_graph w_selfpeer_hist, Some ETopology) /\
  step false flags_on (run_hist false flags_on empty_graph w_peerlink_hist) w_peerlink_op w_selfpeer_ids []
    = (run_hist false flags_on empty_graph w_peerlink_hist, Some ETopology).
Proof. exact peer_witnesses_refused_when_repaired. Qed.
Print Assumptions C07_peer_witnesses_refused_when_repaired.
(* ... and with the repairs (flags_on) the same two calls are refused and change nothing *)
Theorem C07_witnesses_refused_when_repaired :
  step false flags_on (run_hist false flags_on empty_graph w_rename_hist) w_rename_op [] []
    = (run_hist false flags_on empty_graph w_rename_hist, Some ETopology) /\
  step false flags_on (run_hist false flags_on empty_graph w_link_hist) w_link_op [] []
    = (run_hist false flags_on empty_graph w_link_hist, Some ETopology).
Proof. exact witnesses_refused_when_repaired. Qed.
Print Assumptions C07_witnesses_refused_when_repaired.
(* a repeated interface name in add_facility is refused and the half-built facility removed (fixes 18a115a, 2982a89) *)
Theorem C07_add_facility_duplicate_refused :
  forall fl, step false fl empty_graph w_facility_op [] [] = (empty_graph, Some ETopology).
Proof. exact add_facility_duplicate_refused. Qed.
Print Assumptions C07_add_facility_duplicate_refused.

(* ---- the read-only views ----------------------------------------------------------------------------------- *)
Theorem C07_view_nodes_exact : forall g, WF g -> view_nodes g = map nid (nodes_view g).
Proof. exact view_nodes_exact. Qed.
Print Assumptions C07_view_nodes_exact.
Theorem C07_view_facilities_exact : forall g, WF g -> view_facilities g = map nid (facilities_view g).
Proof. exact view_facilities_exact. Qed.
Print Assumptions C07_view_facilities_exact.
Theorem C07_view_links_exact : forall g, WF g -> view_links g = map nid (of_class KLink g).
Proof. exact view_links_exact. Qed.
Print Assumptions C07_view_links_exact.
Theorem C07_view_interface_list_exact :
  forall g, WF g -> view_interface_list g = flat_map (node_ifs g) (map nid (nodes_view g)).
Proof. exact view_interface_list_exact. Qed.
Print Assumptions C07_view_interface_list_exact.
(* FULL STATEMENT (false): forall g, WF g -> view_services g = map nid (of_class KNS g) *)
Theorem C07_view_services_exact_partial :
  forall g, NoDup (map nname (of_class KNS g)) -> view_services g = map nid (of_class KNS g).
Proof. exact view_services_exact_partial. Qed.
Print Assumptions C07_view_services_exact_partial.
Theorem C07_view_services_refuted :
  let g := run_hist false flags_off empty_graph w_services_hist in WF g /\ length (view_services g) <> length (of_class KNS g).
Proof. exact view_services_refuted. Qed.
Print Assumptions C07_view_services_refuted.
(* ViewOnlyDict(Mapping) defines read methods only *)
Theorem C07_viewonly_read_methods :
  viewonly_bases = [S "Mapping"] /\ forall m, In m viewonly_methods -> In m read_methods.
Proof. exact viewonly_is_read_only. Qed.
Print Assumptions C07_viewonly_read_methods.

(* ---- non-vacuity ------------------------------------------------------------------------------------------- *)
(* a model with components and a connected service ... *)
Definition base_hist : list hstep :=
  [(OAddNode (S "n1") None (S "VM"), [S "u1"], []);
   (OAddComponent (S "u1") (S "c1") None (S "SmartNIC") (S "ConnectX-6") None None, [S "u2"; S "u3"; S "u4"; S "u5"], []);
   (OAddComponent (S "u1") (S "c2") None (S "SharedNIC") (S "ConnectX-6") None None, [S "u6"; S "u7"; S "u8"], []);
   (OAddNS (S "s1") None (S "L2Bridge") [S "u7"], [S "u9"; S "u10"; S "u11"], [])].
Definition ex_base : graph := run_hist false flags_off empty_graph base_hist.
(* ... extended by a history of calls whose preconditions all hold: the hypothesis of C07_all_histories is satisfied by
   a non-trivial history (20 elements at the end) *)
Definition ex_hist : list hstep :=
  [(OAddNode (S "n2") None (S "Server"), [S "v1"], []);
   (ONodeAddNS (S "v1") (S "ns") None (S "P4"), [S "v2"], []);
   (OAddSub (S "u3") (S "sub1") None true, [S "v3"], []);
   (OAddComponent (S "v1") (S "nic") None (S "SmartNIC") (S "ConnectX-5") None None, [S "w1"; S "w2"; S "w3"; S "w4"], []);
   (OAddStorage (S "v1") (S "vol") None, [S "w5"], []);
   (OAddLink (S "l1") None (S "L2Path") [S "u3"; S "u4"], [S "v4"], []);
   (ORename (RNode (S "v1")) (S "n3"), [], []);
   (OSetProp (RIface (S "u4")) PLabels (S ""), [], []);
   (OUnsetProp (RIface (S "u4")) ULabels, [], []);
   (ORemoveLink (S "l1"), [], []);
   (OAddNS (S "s2") None (S "L2STS") [], [S "v5"], [])].
Example C07_histories_hypothesis_satisfiable :
  wf_b ex_base = true /\ pre_along false flags_off ex_base ex_hist = true /\ pre_along false flags_on ex_base ex_hist = true /\
  length (gnodes (run_hist false flags_on ex_base ex_hist)) = 20 /\ wf_b (run_hist false flags_on ex_base ex_hist) = true.
Proof. vm_compute. repeat split. Qed.
(* ... and by a history of the calls that make and take away service ports: two connections (one of a sub-interface),
   a peering, and their removal by disconnect_interface, unpeer and remove_child_interface; every call returns *)
Definition ex_hist2 : list hstep :=
  [(OAddNS (S "s2") None (S "L2Bridge") [], [S "v1"], []);
   (OAddNS (S "s3") None (S "L2Bridge") [], [S "v2"], []);
   (OAddSub (S "u3") (S "sub1") None true, [S "v3"], []);
   (OConnect (S "v1") (S "u3"), [S "v4"; S "v5"], []);
   (OConnect (S "v1") (S "v3"), [S "v6"; S "v7"], []);
   (OPeer (S "v1") (S "v2"), [S "v8"; S "v9"; S "v10"], []);
   (ODisconnect (S "v1") (S "u3"), [], []);
   (OUnpeer (S "v1") (S "v2"), [], []);
   (ORemoveSub (S "u3") (S "sub1"), [], [])].
Example C07_histories_hypothesis_satisfiable_ports :
  pre_along false flags_on ex_base ex_hist2 = true /\
  map (fun k => length (gnodes (run_hist false flags_on ex_base (firstn k ex_hist2)))) [3; 6; 7; 8; 9] = [14; 21; 19; 16; 13] /\
  wf_b (run_hist false flags_on ex_base ex_hist2) = true.
Proof. vm_compute. repeat split. Qed.
(* ... and by the removals, on a model with connections, a peering and a node-level service: the service with two
   connections and a peering goes (24 -> 16 elements), then the node-level service, a component whose port is connected
   to another service, and the node with what is left on it; the two services that remain are all that is left *)
Definition ex_hist3 : list hstep :=
  firstn 6 ex_hist2 ++
  [(ONodeAddNS (S "u1") (S "ns") None (S "OVS"), [S "v11"], []);
   (OConnect (S "v2") (S "u4"), [S "v12"; S "v13"], []);
   (ORemoveNS (S "s2"), [], []);
   (ONodeRemoveNS (S "u1") (S "ns"), [], []);
   (ORemoveComponent (S "u1") (S "c2"), [], []);
   (ORemoveNode (S "n1"), [], [])].
Example C07_histories_hypothesis_satisfiable_removals :
  pre_along false flags_on ex_base ex_hist3 = true /\
  map (fun k => length (gnodes (run_hist false flags_on ex_base (firstn k ex_hist3)))) [8; 9; 10; 11; 12] = [24; 16; 15; 10; 2] /\
  map nid (gnodes (run_hist false flags_on ex_base ex_hist3)) = [S "u9"; S "v2"] /\
  wf_b (run_hist false flags_on ex_base ex_hist3) = true.
Proof. vm_compute. repeat split. Qed.
(* ... and from the EMPTY model: the base, a facility, a switch, a facility whose repeated interface name is refused and
   rolled back (19 elements before and after), a service over a facility port and a switch port, a port mirror service,
   and the removal of facility and switch with what was connected to them *)
Definition fac_hist : list hstep :=
  [(OAddFacility (S "f1") None (Some [S "a"; S "b"]), [S "f1"; S "f2"; S "f3"; S "f4"], []);
   (OAddSwitch (S "w1") None 2, [S "w1"; S "w2"; S "w3"; S "w4"], []);
   (OAddFacility (S "f2") None (Some [S "a"; S "a"]), [S "x1"; S "x2"; S "x3"; S "x4"], []);
   (OAddNS (S "s9") None (S "L2STS") [S "f3"; S "w3"], [S "y1"; S "y2"; S "y3"; S "y4"; S "y5"], []);
   (OAddPM (S "pm") None (S "w4"), [S "z1"; S "z2"; S "z3"], []);
   (ORemoveFacility (S "f1"), [], []);
   (ORemoveSwitch (S "w1"), [], [])].
Example C07_histories_from_the_empty_model :
  pre_along false flags_on empty_graph (base_hist ++ fac_hist) = true /\
  map (fun k => length (gnodes (run_hist false flags_on empty_graph (firstn k (base_hist ++ fac_hist))))) [4; 5; 6; 7; 8; 9; 10; 11]
    = [11; 15; 19; 19; 24; 27; 21; 13] /\
  snd (step false flags_on (run_hist false flags_on empty_graph (firstn 6 (base_hist ++ fac_hist)))
         (OAddFacility (S "f2") None (Some [S "a"; S "a"])) [S "x1"; S "x2"; S "x3"; S "x4"] []) = Some ETopology /\
  wf_b (run_hist false flags_on empty_graph (base_hist ++ fac_hist)) = true.
Proof. vm_compute. repeat split. Qed.
(* a closed removal set that is not trivial: the component c1 with its service, ports and sub-interface *)
Example C07_closed_removal_satisfiable :
  let g := run_hist false flags_off ex_base (firstn 3 ex_hist) in
  let del := fun y => mem_str y [S "u2"; S "u3"; S "u4"; S "u5"; S "v3"] in
  closed_b g del = true /\ length (gnodes (remove_set g del)) = 9.
Proof. vm_compute. split; reflexivity. Qed.
(* the side condition of add_owned on a real element: a sub-interface under a dedicated port *)
Example C07_owned_ok_satisfiable :
  owned_ok ex_base (mkNode (S "new") KCP (Some sSubInterface) (Some (S "sub9")) true) (S "u3") Connects = true.
Proof. vm_compute. reflexivity. Qed.
