(* C14 - refinement: order independence of merging, transferred to the store level; proved once over the way a
   merged source enters the abstract history, here instantiated for the node projection. *)
From Coq Require Import List NArith Permutation.
From FIM Require Import Model.Cbm14Store Model.Cbm14Check Model.Cbm14Spec Model.Cbm14Abs Proofs.Cbm14Merge
     Proofs.Cbm14Hist Proofs.Cbm14Dec Proofs.Cbm14Frame Proofs.Cbm14RefBase Proofs.Cbm14RefHist.
Import ListNotations.
Open Scope N_scope.

(* a history that merges the models l = [(adm, temporary id); ...] in this order *)
Definition mops (l : list (N * N)) : list op := map (fun p => OpMerge (fst p) (snd p)) l.
Definition adms_of (st0 : store) (l : list (N * N)) : list adm := map (fun p => abs_adm_n (fst p) st0) l.

Lemma gexists_of_gid g st : gexists g st = true <-> of_gid g st <> [].
Proof.
  unfold gexists, of_gid. induction (s_nodes st) as [|n r IH]; simpl.
  - split; [discriminate|tauto].
  - destruct (n_gid n =? g); simpl; [split; [discriminate|auto]|exact IH].
Qed.

Section Order.
  Variable src : N -> store -> adm.
  Hypothesis src_id : forall a st, adm_id (src a st) = a.
  Hypothesis src_nodes : forall a st, adm_nodes (src a st) = abs_adm_nodes a st.
  Hypothesis src_same : forall g st st', Same g st st' -> src g st' = src g st.
  Variables (P : N -> op -> store -> hstate -> Prop) (R : N -> store -> hstate -> Prop).
  Hypothesis R_core : forall cbm st hs, R cbm st hs -> Core cbm st hs.
  Hypothesis P_pre : forall cbm o st hs, P cbm o st hs -> pre cbm o st hs.
  Hypothesis P_wf : forall cbm o st hs, R cbm st hs -> P cbm o st hs -> op_wf (hop_by src st o).
  Hypothesis R_step : forall cbm o st hs st',
    R cbm st hs -> P cbm o st hs -> step cbm o st = OOk st' -> R cbm st' (hstep hs (hop_by src st o)).

  (* the sources S stay as they are in st0 (frame theorem), so the abstract operations are merges of the
     abstractions taken in st0 *)
  Definition sources_kept (S : list N) (st0 st : store) : Prop :=
    forall a, In a S -> gexists a st0 = true /\ Good a st /\ Same a st0 st.

  Lemma run_merges cbm st0 S : ~ In cbm S -> forall l st hs st' hs',
    R cbm st hs -> sources_kept S st0 st -> incl (map fst l) S ->
    pre_by src P cbm st hs (mops l) -> run_by src cbm st hs (mops l) = Some (st', hs') ->
    merge_from (h_cur hs) (map (fun p => src (fst p) st0) l) = Some (h_cur hs') /\ R cbm st' hs' /\
    Forall wf_adm (map (fun p => src (fst p) st0) l).
  Proof.
    intro NC. induction l as [|[adm tmp] r IH]; intros st hs st' hs' S0 SK IN P0 H.
    - simpl in H. inversion H; subst. split; auto. split; auto. constructor.
    - cbn [mops map run_by pre_by fst snd] in H, P0. destruct P0 as [P0 P1].
      change (step cbm (OpMerge adm tmp) st) with (merge_adm cbm adm tmp st) in *.
      destruct (merge_adm cbm adm tmp st) as [s1| |] eqn:E; try discriminate.
      destruct (merge_not_refused src src_id src_nodes cbm adm tmp st hs s1 (R_core _ _ _ S0) (P_pre _ _ _ _ P0) E)
        as (C' & SM & HS).
      pose proof (R_step cbm (OpMerge adm tmp) st hs s1 S0 P0 E) as S1.
      pose proof (P_wf _ _ _ _ S0 P0) as WF.
      cbn [hop_by op_wf] in *. rewrite HS in *.
      assert (In adm S) as IA by (apply IN; simpl; auto).
      assert (src adm st = src adm st0) as EA by (apply src_same; apply (SK adm IA)).
      assert (sources_kept S st0 s1) as SK1.
      { intros a Ha. destruct (SK a Ha) as (G0 & GD & SM0). split; auto.
        assert (gexists a st = true) as GA.
        { apply gexists_of_gid. destruct SM0 as [-> _]. apply gexists_of_gid. exact G0. }
        destruct (P_pre _ _ _ _ P0) as (_ & _ & FR & _).
        assert (outside cbm a (OpMerge adm tmp)) as OUT.
        { split; [intro; subst; contradiction|]. intro; subst. congruence. }
        pose proof (step_frame a cbm (OpMerge adm tmp) st GD OUT) as PR.
        change (step cbm (OpMerge adm tmp) st) with (merge_adm cbm adm tmp st) in PR. rewrite E in PR.
        destruct PR as [SN GD']. split; auto. eapply Same_trans; eauto. }
      destruct (IH s1 _ st' hs' S1 SK1) as (MF & S' & WFr); auto.
      + intros x Hx. apply IN. simpl. auto.
      + cbn [map fst]. rewrite merge_from_cons, <- EA, SM. split; [exact MF|]. split; auto.
  Qed.

  (* merging the same delegation models in two different orders (each merge with its own fresh temporary id)
     leaves the abstract model in equivalent states *)
  Theorem order_independent cbm st hs l1 l2 st1 hs1 st2 hs2 :
    R cbm st hs ->
    Permutation (map fst l1) (map fst l2) -> ~ In cbm (map fst l1) ->
    (forall a, In a (map fst l1) -> gexists a st = true /\ Good a st) ->
    pairwise_compatible (map (fun p => src (fst p) st) l1) ->
    pre_by src P cbm st hs (mops l1) -> run_by src cbm st hs (mops l1) = Some (st1, hs1) ->
    pre_by src P cbm st hs (mops l2) -> run_by src cbm st hs (mops l2) = Some (st2, hs2) ->
    R cbm st1 hs1 /\ R cbm st2 hs2 /\ eqv (h_cur hs1) (h_cur hs2).
  Proof.
    intros S0 PM NC GS PC P1 R1 P2 R2.
    assert (sources_kept (map fst l1) st st) as SK.
    { intros a Ha. destruct (GS a Ha). split; auto. split; auto. apply Same_refl. }
    destruct (run_merges cbm st (map fst l1) NC l1 st hs st1 hs1 S0 SK (incl_refl _) P1 R1) as (M1 & S1 & WF).
    assert (incl (map fst l2) (map fst l1)) as I2 by (intros x Hx; eapply Permutation_in; [apply Permutation_sym; exact PM|exact Hx]).
    destruct (run_merges cbm st (map fst l1) NC l2 st hs st2 hs2 S0 SK I2 P2 R2) as (M2 & S2 & _).
    assert (Permutation (map (fun p => src (fst p) st) l1) (map (fun p => src (fst p) st) l2)) as PA.
    { rewrite <- (map_map fst (fun a => src a st) l1), <- (map_map fst (fun a => src a st) l2).
      apply Permutation_map. exact PM. }
    destruct (merge_from_perm _ _ PA (h_cur hs) (h_cur hs1) WF PC M1) as (D' & M2' & EQ).
    rewrite M2 in M2'. inversion M2'; subst D'. auto.
  Qed.
End Order.

Lemma abs_adm_n_same g st st' : Same g st st' -> abs_adm_n g st' = abs_adm_n g st.
Proof. intros [E _]. unfold abs_adm_n, abs_adm_nodes. rewrite E. reflexivity. Qed.

(* merging the same delegation models in two different orders gives combined graphs whose nodes are equivalent:
   same class, properties, delegations, contributors as sets *)
Theorem store_order_independent_nodes cbm st hs l1 l2 st1 hs1 st2 hs2 :
  NSim cbm st hs ->
  Permutation (map fst l1) (map fst l2) -> ~ In cbm (map fst l1) ->
  (forall a, In a (map fst l1) -> gexists a st = true /\ Good a st) ->
  pairwise_compatible (adms_of st l1) ->
  pre_run cbm st hs (mops l1) -> sim_run cbm st hs (mops l1) = Some (st1, hs1) ->
  pre_run cbm st hs (mops l2) -> sim_run cbm st hs (mops l2) = Some (st2, hs2) ->
  forall k, opt_rel eqv_node (getn k (abs_nodes cbm st1)) (getn k (abs_nodes cbm st2)).
Proof.
  intros S0 PM NC GS PC P1 R1 P2 R2 k.
  destruct (order_independent abs_adm_n (fun _ _ => eq_refl) (fun _ _ => eq_refl) abs_adm_n_same pre NSim
              (fun c s h => proj1 (nsim_core c s h)) (fun _ _ _ _ p => p) (fun c o s h S _ => pre_wf c o s h S) nsim_step
              cbm st hs l1 l2 st1 hs1 st2 hs2 S0 PM NC GS PC P1 R1 P2 R2) as (S1 & S2 & [EQ _]).
  rewrite (ns_cur _ _ _ S1 k), (ns_cur _ _ _ S2 k). apply EQ.
Qed.

(* a concrete instance: the two sources of ex_store merged in both orders *)
Lemma ex_order_store :
  let l1 := [(1, 100); (2, 101)] in let l2 := [(2, 100); (1, 101)] in
  NSim 0 ex_store hinit /\ Permutation (map fst l1) (map fst l2) /\ ~ In 0 (map fst l1) /\
  (forall a, In a (map fst l1) -> gexists a ex_store = true /\ Good a ex_store) /\
  pairwise_compatible (adms_of ex_store l1) /\
  pre_run 0 ex_store hinit (mops l1) /\ pre_run 0 ex_store hinit (mops l2) /\
  exists st1 hs1 st2 hs2, sim_run 0 ex_store hinit (mops l1) = Some (st1, hs1) /\
                          sim_run 0 ex_store hinit (mops l2) = Some (st2, hs2) /\
                          map n_si (of_gid 0 st1) = [SIds [1; 2]; SIds [1; 2]; SIds [2]] /\
                          map n_si (of_gid 0 st2) = [SIds [2; 1]; SIds [2; 1]; SIds [2]].
Proof.
  intros l1 l2. split.
  { apply nsim_init; [apply (rgoodb_sound 0); vm_compute; reflexivity | vm_compute; reflexivity]. }
  split; [apply perm_swap|]. split; [simpl; intros [X|[X|[]]]; discriminate|]. split.
  { intros a [<-|[<-|[]]]; (split; [vm_compute; reflexivity | apply goodb_sound; vm_compute; reflexivity]). }
  split; [apply (consistentb_sound (adms_of ex_store l1)); vm_compute; reflexivity|].
  split; [vm_compute; repeat split; try reflexivity; discriminate|].
  split; [vm_compute; repeat split; try reflexivity; discriminate|].
  eexists. eexists. eexists. eexists. split; [vm_compute; reflexivity|]. split; [vm_compute; reflexivity|].
  split; vm_compute; reflexivity.
Qed.
