(* C13: what adm_spec A d contains (membership, keep set, the traces and their closure), and re-keying of a
   graph whose delegation properties are absent or singletons; with the obligations on the regenerated table
   Gen/Adm13Gen.v that the closure arguments rest on. *)
From Coq Require Import List NArith Bool.
From FIM Require Import Base.ListFacts Gen.Adm13Gen Model.Adm13 Proofs.Adm13Spec.
Import ListNotations.
Open Scope N_scope.

Lemma gen_ok_true : gen_ok = true.
Proof. reflexivity. Qed.

(* the trace calls of generate_adms, as the proofs of the closure clauses expect them *)
Lemma gen_shape :
  cp_label = CLS_ConnectionPoint /\
  trace_link = (REL_connects, CLS_Link, REL_connects, CLS_ConnectionPoint) /\
  trace_owner = [(REL_connects, CLS_NetworkService, REL_has, CLS_NetworkNode);
                 (REL_connects, CLS_NetworkService, REL_has, CLS_Component)] /\
  deleg_label_first = true.
Proof. repeat split; reflexivity. Qed.

Lemma for_id_entries d o : NoDup (dkeys (entries o)) ->
  forall d' x, In (d', x) (entries (for_id_opt d o)) <-> d' = d /\ In (d, x) (entries o).
Proof.
  intros Hn d' x. destruct o as [m|]; simpl in *; [|tauto].
  unfold for_id, dget. destruct (assoc d m) as [y|] eqn:E; simpl.
  - split.
    + intros [H|[]]. inversion H; subst. split; [reflexivity|]. apply assoc_In. exact E.
    + intros [-> H]. left. apply (In_assoc _ _ _ Hn) in H. rewrite H in E. inversion E. reflexivity.
  - split; [intros []|]. intros [_ H]. apply assoc_None in E. apply E. apply (in_map fst) in H. exact H.
Qed.

Lemma for_id_only d o d' x : In (d', x) (entries (for_id_opt d o)) -> d' = d.
Proof.
  destruct o as [m|]; simpl; [|intros []]. unfold for_id. destruct (dget d m); simpl; [|intros []].
  intros [H|[]]. inversion H. reflexivity.
Qed.

Lemma restrict_restricted d n :
  NoDup (dkeys (entries (ldel n))) -> NoDup (dkeys (entries (cdel n))) -> restricted d n (restrict d n).
Proof.
  intros Hl Hc. unfold restricted, restrict. simpl.
  split; [reflexivity|]. split; [reflexivity|]. split; [reflexivity|]. split; [reflexivity|].
  split; intros d' x; apply for_id_entries; assumption.
Qed.

Lemma adm_node_ids A d : node_ids (adm_spec A d) = filter (fun i => memb i (keepset A d)) (node_ids A).
Proof.
  unfold adm_spec, node_ids. simpl. rewrite map_map. rewrite filter_map_comm.
  apply map_ext. intros n. reflexivity.
Qed.

Lemma adm_ids A d x : In x (node_ids (adm_spec A d)) <-> In x (node_ids A) /\ In x (keepset A d).
Proof. rewrite adm_node_ids, filter_In, memb_In. tauto. Qed.

Lemma adm_nodes A d n' : In n' (gnodes (adm_spec A d)) <->
  exists n, In n (gnodes A) /\ In (nid n) (keepset A d) /\ n' = restrict d n.
Proof.
  unfold adm_spec. simpl. rewrite in_map_iff. split.
  - intros [n [E H]]. apply filter_In in H. destruct H as [H1 H2]. apply memb_In in H2. exists n. auto.
  - intros [n [H1 [H2 E]]]. exists n. split; [auto|]. apply filter_In. split; [exact H1 | apply memb_In; exact H2].
Qed.

Lemma adm_edges A d e : In e (gedges (adm_spec A d)) <->
  In e (gedges A) /\ In (ea e) (keepset A d) /\ In (eb e) (keepset A d).
Proof. unfold adm_spec. simpl. rewrite filter_In, andb_true_iff, !memb_In. tauto. Qed.

Lemma pair_ids_In x ps : In x (pair_ids ps) <-> exists p, In p ps /\ (x = fst p \/ x = snd p).
Proof.
  unfold pair_ids. rewrite in_flat_map. split.
  - intros [p [H1 H2]]. exists p. simpl in H2. intuition.
  - intros [p [H1 H2]]. exists p. simpl. intuition.
Qed.

Lemma keepset_from_In arm k0 x : In x (keepset_from arm k0) <->
  In x k0 \/ In x (pair_ids (link_pairs arm (keep_cps0 arm k0))) \/
  In x (pair_ids (owner_pairs arm (keep_cps0 arm k0 ++ map snd (link_pairs arm (keep_cps0 arm k0))))).
Proof. unfold keepset_from. rewrite !in_app_iff. tauto. Qed.

(* the nodes a partition starts from: those delegated to d and the stitch nodes *)
Definition seeds (A : graph) (d : N) : list N := keep0 A (catalog_delegations A) (stitch_nodes A) d.

Lemma seeds_In A d x : In x (seeds A d) <->
  exists n, In n (gnodes A) /\ nid n = x /\ (delegated d n \/ is_stitch n = true).
Proof.
  unfold seeds, keep0. rewrite in_app_iff, keep_of_In. unfold stitch_nodes. rewrite in_map_iff. split.
  - intros [[n [H1 [H2 H3]]]|[n [H1 H2]]].
    + exists n. auto.
    + apply filter_In in H2. exists n. tauto.
  - intros [n [H1 [H2 [H3|H3]]]].
    + left. exists n. auto.
    + right. exists n. split; [exact H2|]. apply filter_In. auto.
Qed.

Lemma keepset_seeds A d : keepset A d = keepset_from A (seeds A d).
Proof. reflexivity. Qed.

Lemma nodes_by_class_In g l x : In x (nodes_by_class g l) <-> exists n, In n (gnodes g) /\ nid n = x /\ ncls n = l.
Proof.
  unfold nodes_by_class. rewrite in_map_iff. split.
  - intros [n [E H]]. apply filter_In in H. destruct H as [H1 H2]. apply N.eqb_eq in H2. exists n. auto.
  - intros [n [H1 [H2 H3]]]. exists n. split; [exact H2|]. apply filter_In. split; [exact H1|]. apply N.eqb_eq. exact H3.
Qed.

Lemma keep_cps0_In arm k0 x : In x (keep_cps0 arm k0) <->
  In x k0 /\ exists n, In n (gnodes arm) /\ nid n = x /\ ncls n = cp_label.
Proof. unfold keep_cps0. rewrite filter_In, memb_In, nodes_by_class_In. tauto. Qed.

(* the connection points the owner traces start from: the seeds' and the peers found by the link trace *)
Definition traced_cps (A : graph) (d : N) : list N :=
  keep_cps0 A (seeds A d) ++ map snd (link_pairs A (keep_cps0 A (seeds A d))).

Lemma nbrs_In g e x y : In e (gedges g) -> joins e x y -> In (y, ecls e) (nbrs g x).
Proof.
  intros Hi Hj. unfold nbrs. apply in_flat_map. exists e. split; [exact Hi|].
  destruct Hj as [[Ha Hb]|[Ha Hb]].
  - rewrite Ha, N.eqb_refl, Hb. left. reflexivity.
  - destruct (ea e =? x) eqn:E.
    + apply N.eqb_eq in E. left. congruence.
    + rewrite Hb, N.eqb_refl, Ha. left. reflexivity.
Qed.

Lemma filter_label_In g l ids i : In i (filter_label g l ids) <-> In i ids /\ cls_of g i = Some l.
Proof.
  unfold filter_label. rewrite filter_In. destruct (cls_of g i) as [c|]; split; intros [H1 H2]; split; auto; try discriminate.
  - apply N.eqb_eq in H2. congruence.
  - inversion H2. apply N.eqb_refl.
Qed.

Lemma removeN_In x y l : In y (removeN x l) <-> In y l /\ y <> x.
Proof. unfold removeN. rewrite filter_In, negb_true_iff, N.eqb_neq. tauto. Qed.

Lemma second_of_In g rel2 n k e : In e (gedges g) -> joins e n k -> ecls e = rel2 -> k <> n ->
  In k (second_of g rel2 n).
Proof.
  intros Hi Hj Hc Hne. pose proof (nbrs_In g e n k Hi Hj) as Hn. unfold second_of.
  destruct fsn_rel2_effective.
  - apply in_map_iff. exists (k, ecls e). split; [reflexivity|]. apply filter_In. split; [exact Hn|].
    simpl. apply N.eqb_eq. exact Hc.
  - assert (Hk : In k (map fst (nbrs g n))) by (apply in_map_iff; exists (k, ecls e); auto).
    destruct (existsb _ _); [apply removeN_In; auto | exact Hk].
Qed.

(* get_first_and_second_neighbor: what it finds, and (fsn_classes) of which classes *)
Lemma fsn_complete g x rel1 l1 rel2 l2 n k e1 e2 :
  In e1 (gedges g) -> joins e1 x n -> ecls e1 = rel1 -> cls_of g n = Some l1 ->
  In e2 (gedges g) -> joins e2 n k -> ecls e2 = rel2 -> cls_of g k = Some l2 -> k <> x -> k <> n ->
  In (n, k) (fsn g x rel1 l1 rel2 l2).
Proof.
  intros Hi1 Hj1 Hc1 Hl1 Hi2 Hj2 Hc2 Hl2 Hx Hn. unfold fsn. apply in_flat_map. exists n. split.
  - apply filter_label_In. split; [|exact Hl1]. apply in_map_iff. exists (n, ecls e1). split; [reflexivity|].
    apply filter_In. split; [apply nbrs_In; assumption|]. simpl. apply N.eqb_eq. exact Hc1.
  - apply in_map_iff. exists k. split; [reflexivity|]. apply removeN_In. split; [|exact Hx].
    apply filter_label_In. split; [|exact Hl2]. apply (second_of_In g rel2 n k e2); assumption.
Qed.

Lemma fsn_classes g x rel1 l1 rel2 l2 p : In p (fsn g x rel1 l1 rel2 l2) ->
  cls_of g (fst p) = Some l1 /\ cls_of g (snd p) = Some l2.
Proof.
  unfold fsn. intros H. apply in_flat_map in H. destruct H as [n [Hn Hp]].
  apply filter_label_In in Hn. apply in_map_iff in Hp. destruct Hp as [k [E Hk]]. subst p. simpl.
  apply removeN_In in Hk. destruct Hk as [Hk _]. apply filter_label_In in Hk. tauto.
Qed.

Lemma fsn4_classes g x rel1 l1 rel2 l2 p : In p (fsn4 g x (rel1, l1, rel2, l2)) ->
  cls_of g (fst p) = Some l1 /\ cls_of g (snd p) = Some l2.
Proof. apply fsn_classes. Qed.

Section Clauses.
  Variable A : graph.
  Hypothesis Hw : wfb A = true.
  Variable d : N.
  Let P := adm_spec A d.

  Let Hnd : NoDup (node_ids A) := wfb_NoDup A Hw.

  Lemma restricted_wf n : In n (gnodes A) -> restricted d n (restrict d n).
  Proof. intros Hi. destruct (wfb_dmaps A n Hw Hi). apply restrict_restricted; assumption. Qed.

  Lemma seed_kept n : In n (gnodes A) -> delegated d n \/ is_stitch n = true -> In (nid n) (keepset A d).
  Proof. intros Hi Hs. rewrite keepset_seeds. apply keepset_from_In. left. apply seeds_In. exists n. auto. Qed.

  Lemma kept_in n : In n (gnodes A) -> In (nid n) (keepset A d) -> In (nid n) (node_ids P).
  Proof. intros Hi Hk. apply adm_ids. split; [apply in_map|]; assumption. Qed.

  Lemma edge_kept e x y :
    In e (gedges A) -> joins e x y -> In x (keepset A d) -> In y (keepset A d) -> In e (gedges P).
  Proof. intros He Hj Hx Hy. apply adm_edges. destruct Hj as [[-> ->]|[-> ->]]; auto. Qed.

  Lemma adm_edges_induced e : In e (gedges P) <->
    In e (gedges A) /\ In (ea e) (node_ids P) /\ In (eb e) (node_ids P).
  Proof.
    unfold P. rewrite adm_edges, !adm_ids. split; [|tauto].
    intros [H1 [H2 H3]]. destruct (wfb_edges_in A Hw e H1). tauto.
  Qed.

  Lemma spec_ids_sub x : In x (node_ids P) -> In x (node_ids A).
  Proof. unfold P. rewrite adm_ids. tauto. Qed.

  Lemma adm_ids_NoDup : NoDup (node_ids P).
  Proof. unfold P. rewrite adm_node_ids. apply NoDup_filter. exact Hnd. Qed.

  Lemma nid_ne a b : In a (gnodes A) -> In b (gnodes A) -> ncls a <> ncls b -> nid a <> nid b.
  Proof. intros Ha Hb Hc E. apply Hc. f_equal. apply (NoDup_map_inj nid (gnodes A)); assumption. Qed.

  Lemma trace_complete x m k e1 e2 rel1 l1 rel2 l2 :
    In m (gnodes A) -> ncls m = l1 -> In e1 (gedges A) -> joins e1 x (nid m) -> ecls e1 = rel1 ->
    In k (gnodes A) -> ncls k = l2 -> In e2 (gedges A) -> joins e2 (nid m) (nid k) -> ecls e2 = rel2 ->
    nid k <> x -> nid k <> nid m ->
    In (nid m, nid k) (fsn4 A x (rel1, l1, rel2, l2)).
  Proof.
    intros Hm <- He1 Hj1 Hr1 Hk <- He2 Hj2 Hr2 Hx Hkm.
    apply (fsn_complete A x rel1 _ rel2 _ _ _ e1 e2); auto using cls_of_unique.
  Qed.

  Lemma kept_cp_traced c : In c (gnodes A) -> ncls c = CLS_ConnectionPoint -> In (nid c) (keepset A d) ->
    In (nid c) (traced_cps A d).
  Proof.
    intros Hc Hcc HK. rewrite keepset_seeds in HK. apply keepset_from_In in HK. unfold traced_cps. apply in_app_iff.
    assert (Hcls : cls_of A (nid c) = Some CLS_ConnectionPoint) by (rewrite cls_of_unique by auto; congruence).
    destruct gen_shape as [Ecp [Elink [Eown _]]].
    (* by class: a pair of the link trace is (Link, ConnectionPoint); the owner traces yield no connection point *)
    destruct HK as [H|[H|H]]; [|apply pair_ids_In in H as [p [Hp Hx]] ..].
    - left. apply keep_cps0_In. split; [exact H|]. exists c. rewrite Ecp. auto.
    - right. pose proof Hp as Hq. apply in_flat_map in Hq as [cp [_ Hq]]. rewrite Elink in Hq.
      apply fsn4_classes in Hq as [F1 _]. destruct Hx as [Hx|Hx]; rewrite Hx in *.
      + rewrite F1 in Hcls. discriminate.
      + apply in_map. exact Hp.
    - exfalso. apply in_flat_map in Hp as [cp [_ Hp]]. apply in_flat_map in Hp as [t [Ht Hp]]. rewrite Eown in Ht.
      destruct Ht as [<-|[<-|[]]]; apply fsn4_classes in Hp as [F1 F2];
        destruct Hx as [Hx|Hx]; rewrite Hx in Hcls; (rewrite F1 in Hcls || rewrite F2 in Hcls); discriminate.
  Qed.
End Clauses.

Definition single_opt (o : option dmap) : Prop := o = None \/ exists k x, o = Some [(k, x)].
Definition single_node (n : node) : Prop := single_opt (ldel n) /\ single_opt (cdel n).

Lemma for_id_single d o : single_opt (for_id_opt d o).
Proof.
  destruct o as [m|]; simpl; [|left; reflexivity]. unfold for_id. destruct (dget d m) as [x|].
  - right. exists d, x. reflexivity.
  - left. reflexivity.
Qed.

Lemma restrict_single d n : single_node (restrict d n).
Proof. split; apply for_id_single. Qed.

Lemma rekey_single gid o : single_opt o -> rekey gid o = Ok (rekey_map gid o).
Proof. intros [->|[k [x ->]]]; reflexivity. Qed.

Lemma rekey_map_single gid o : single_opt o -> single_opt (rekey_map gid o).
Proof. intros [->|[k [x ->]]]; [left | right; exists gid, x]; reflexivity. Qed.

Lemma rekey_node_single gid n : single_node n -> rekey_node gid n = Ok (rekeyed gid n).
Proof.
  intros [Hl Hc]. unfold rekey_node, rekeyed. rewrite (rekey_single _ _ Hl), (rekey_single _ _ Hc). reflexivity.
Qed.

Lemma rekeyed_single gid n : single_node n -> single_node (rekeyed gid n).
Proof. intros [Hl Hc]. split; simpl; apply rekey_map_single; assumption. Qed.

(* what rewrite_delegations asks of a graph in order not to raise (beyond having nodes); kept by every write it does *)
Definition rekeyable (g : graph) : Prop := NoDup (node_ids g) /\ Forall single_node (gnodes g).

Lemma rekeyable_map f g :
  (forall n, nid (f n) = nid n) -> (forall n, single_node n -> single_node (f n)) ->
  rekeyable g -> node_ids (mkGraph (map f (gnodes g)) (gedges g)) = node_ids g /\
                 rekeyable (mkGraph (map f (gnodes g)) (gedges g)).
Proof.
  intros Hid Hs [Hn Ha].
  assert (E : node_ids (mkGraph (map f (gnodes g)) (gedges g)) = node_ids g).
  { unfold node_ids. cbn [gnodes]. rewrite map_map. apply map_ext. exact Hid. }
  split; [exact E|]. split; [rewrite E; exact Hn|].
  cbn [gnodes]. apply Forall_map. revert Ha. apply Forall_impl. exact Hs.
Qed.

Lemma rekeyable_upd gid g i : rekeyable g ->
  node_ids (upd_node g i (rekeyed gid)) = node_ids g /\ rekeyable (upd_node g i (rekeyed gid)).
Proof.
  apply (rekeyable_map (fun n => if nid n =? i then rekeyed gid n else n));
    intros n; destruct (nid n =? i); auto using rekeyed_single.
Qed.

Lemma rewrite_nodes_ok gid todo : forall g, rekeyable g -> incl todo (node_ids g) ->
  rewrite_nodes gid todo g = (fold_left (fun g i => upd_node g i (rekeyed gid)) todo g, None).
Proof.
  induction todo as [|i todo IH]; intros g Hg Hincl; [reflexivity|]. cbn [rewrite_nodes fold_left].
  destruct (proj1 (in_map_iff _ _ _) (Hincl i (or_introl eq_refl))) as [n [<- Hin]].
  destruct (rekeyable_upd gid g (nid n) Hg) as [Eids Hg']. destruct Hg as [Hnd Hs].
  rewrite (find_node_unique g n Hnd Hin), (rekey_node_single gid n (proj1 (Forall_forall _ _) Hs n Hin)).
  (* ids are unique, so writing n's new value to "the" node with n's id is applying rekeyed there *)
  replace (upd_node g (nid n) (fun _ => rekeyed gid n)) with (upd_node g (nid n) (rekeyed gid)).
  - apply IH; [exact Hg'|]. rewrite Eids. intros x Hx. apply Hincl. right. exact Hx.
  - unfold upd_node. f_equal. apply map_ext_in. intros m Hm. destruct (nid m =? nid n) eqn:E; [|reflexivity].
    apply N.eqb_eq in E. f_equal. apply (NoDup_map_inj nid (gnodes g)); assumption.
Qed.

Lemma rewrite_delegations_ok g gid : rekeyable g -> gnodes g <> [] ->
  rewrite_delegations g gid = (mkGraph (map (rekeyed gid) (gnodes g)) (gedges g), None).
Proof.
  intros Hg Hne. unfold rewrite_delegations.
  rewrite rewrite_nodes_ok, (upd_all_nodes _ (fun _ => rekeyed gid)) by (reflexivity || apply Hg || apply incl_refl).
  destruct (gnodes g); [contradiction | reflexivity].
Qed.

Lemma rekeyed_fields gid n :
  nid (rekeyed gid n) = nid n /\ ncls (rekeyed gid n) = ncls n /\ nstitch (rekeyed gid n) = nstitch n /\
  nprops (rekeyed gid n) = nprops n /\
  is_some (ldel (rekeyed gid n)) = is_some (ldel n) /\ is_some (cdel (rekeyed gid n)) = is_some (cdel n) /\
  entries (ldel (rekeyed gid n)) = map (fun p => (gid, snd p)) (entries (ldel n)) /\
  entries (cdel (rekeyed gid n)) = map (fun p => (gid, snd p)) (entries (cdel n)).
Proof. destruct n as [i c s p [l|] [cd|]]; repeat split; reflexivity. Qed.

Lemma adm_rekeyable A d : NoDup (node_ids A) -> rekeyable (adm_spec A d).
Proof.
  intros Hn. split.
  - rewrite adm_node_ids. apply NoDup_filter. exact Hn.
  - apply Forall_forall. intros n H. apply adm_nodes in H as [m [_ [_ ->]]]. apply restrict_single.
Qed.

Lemma rekeyed_rekeyed g1 g2 n : rekeyed g2 (rekeyed g1 n) = rekeyed g2 n.
Proof.
  destruct n as [i c s p l cd]. unfold rekeyed, set_cdel, set_ldel, rekey_map. simpl.
  f_equal; [destruct l as [m|] | destruct cd as [m|]]; simpl; try reflexivity;
    rewrite map_map; reflexivity.
Qed.

Lemma rewrite_delegations_twice g g1 g2 : rekeyable g -> gnodes g <> [] ->
  rewrite_delegations (fst (rewrite_delegations g g1)) g2 = rewrite_delegations g g2.
Proof.
  intros Hg Hne. rewrite !(rewrite_delegations_ok g) by assumption. cbn [fst]. rewrite rewrite_delegations_ok.
  - cbn [gnodes gedges]. rewrite map_map. f_equal. f_equal. apply map_ext. intros n. apply rekeyed_rekeyed.
  - apply rekeyable_map; auto using rekeyed_single.
  - cbn [gnodes]. intros E. apply map_eq_nil in E. contradiction.
Qed.

Lemma rekeyed_same_key d n :
  (forall d' x, In (d', x) (entries (ldel n)) \/ In (d', x) (entries (cdel n)) -> d' = d) -> rekeyed d n = n.
Proof.
  intros H. destruct n as [i c s p l cd]. unfold rekeyed, set_cdel, set_ldel, rekey_map. simpl in *.
  assert (M : forall m : dmap, (forall d' x, In (d', x) m -> d' = d) -> map (fun p => (d, snd p)) m = m).
  { intros m Hm. rewrite <- (map_id m) at 2. apply map_ext_in. intros [k x] Hi. rewrite (Hm k x Hi). reflexivity. }
  f_equal; [destruct l as [m|] | destruct cd as [m|]]; simpl; try reflexivity; f_equal; apply M; intros d' x Hi;
    apply (H d' x); auto.
Qed.
