(* C09 - the shape of the graph while NetworkService.__init__ connects interfaces: the pre-state g extended by
   the service node and, per connected interface, one ServicePort, one Link and three edges; adjacency,
   class look-ups and the peers of an interface in such a graph. *)
From Coq Require Import List NArith Bool.
From FIM Require Import Base.ListFacts Base.Str Model.T9Graph Model.T9Ops Proofs.T9Simple.
Import ListNotations.
Open Scope N_scope.

Lemma flat_map_flat_map {A B C} (f : B -> list C) (h : A -> list B) (l : list A) :
  flat_map f (flat_map h l) = flat_map (fun a => flat_map f (h a)) l.
Proof. induction l; simpl; auto. rewrite flat_map_app. congruence. Qed.

Lemma nodupN_NoDup l : nodupN l = true -> NoDup l.
Proof.
  induction l; simpl; intro H; constructor.
  - apply andb_true_iff in H as [H _]. apply negb_true_iff in H. intro Hin.
    assert (existsb (N.eqb a) l = true) by (apply existsb_exists; exists a; split; auto; apply N.eqb_refl). congruence.
  - apply andb_true_iff in H as [_ H]. auto.
Qed.

Lemma neqb_of_neq (a b : N) : a <> b -> (a =? b) = false.
Proof. intro; apply N.eqb_neq; auto. Qed.

Definition ids (g : graph) : list N := map nid (gnodes g).

Lemma has_node_In g x : has_node g x = true <-> In x (ids g).
Proof.
  unfold has_node, ids. rewrite existsb_exists. split.
  - intros [n [Hin He]]. apply N.eqb_eq in He. subst. apply in_map; auto.
  - intro H. apply in_map_iff in H as [n [He Hin]]. exists n. split; auto. apply N.eqb_eq; auto.
Qed.

Lemma has_node_false_In g x : has_node g x = false <-> ~ In x (ids g).
Proof. rewrite <- has_node_In. destruct (has_node g x); split; intro H; try congruence; try (exfalso; apply H; reflexivity). Qed.

Lemma find_node_In g x n : find_node g x = Ok n -> In x (ids g).
Proof. intro H. apply has_node_In. eapply find_node_has; eauto. Qed.

Lemma find_nodes_unique (L : list node) n : NoDup (map nid L) -> In n L ->
  filter (fun m => nid m =? nid n) L = [n].
Proof.
  induction L as [|m L IH]; simpl; intros Hnd Hin; [contradiction|].
  inversion Hnd; subst. destruct Hin as [->|Hin].
  - rewrite N.eqb_refl. f_equal. apply filter_none. intros a Ha.
    apply N.eqb_neq. intro He. apply H1. rewrite <- He. apply in_map; auto.
  - destruct (nid m =? nid n) eqn:E.
    + apply N.eqb_eq in E. exfalso. apply H1. rewrite E. apply in_map; auto.
    + auto.
Qed.

Lemma find_node_unique g n : NoDup (ids g) -> In n (gnodes g) -> find_node g (nid n) = Ok n.
Proof. intros. unfold find_node, find_nodes. rewrite find_nodes_unique; auto. Qed.

Lemma In_ids_find g x : NoDup (ids g) -> In x (ids g) -> exists n, find_node g x = Ok n /\ In n (gnodes g) /\ nid n = x.
Proof.
  intros Hnd Hin. apply in_map_iff in Hin as [n [He Hin]]. exists n. subst. split; [|auto].
  apply find_node_unique; auto.
Qed.

Lemma found_In g x : In x (ids g) -> NoDup (ids g) -> found g x.
Proof. intros H Hnd. destruct (In_ids_find g x Hnd H) as [n [Hn _]]. exists n; exact Hn. Qed.

Definition closed (g : graph) : Prop := forall e, In e (gedges g) -> In (ea e) (ids g) /\ In (eb e) (ids g).
Definition untouched (x : N) (es : list edge) : Prop := forall e, In e es -> touches x e = false.

Lemma wf_closed g : wf_graph g = true -> closed g.
Proof.
  unfold wf_graph. intro H. apply andb_true_iff in H as [H _]. apply andb_true_iff in H as [_ H].
  intros e He. rewrite forallb_forall in H. specialize (H e He). apply andb_true_iff in H as [H1 H2].
  split; apply has_node_In; auto.
Qed.
Lemma wf_nodup g : wf_graph g = true -> NoDup (ids g).
Proof.
  unfold wf_graph. intro H. apply andb_true_iff in H as [H _]. apply andb_true_iff in H as [H _].
  apply nodupN_NoDup; auto.
Qed.

Lemma closed_untouched g x : closed g -> ~ In x (ids g) -> untouched x (gedges g).
Proof.
  intros Hc Hx e He. destruct (Hc e He) as [Ha Hb]. unfold touches.
  apply orb_false_iff; split; apply N.eqb_neq; intro; subst; auto.
Qed.

Lemma untouched_app x a b : untouched x a -> untouched x b -> untouched x (a ++ b).
Proof. intros Ha Hb e He. apply in_app_iff in He as [?|?]; auto. Qed.

Definition adj_es (es : list edge) (x r : N) : list N :=
  flat_map (fun e => if erel e =? r then other_end x e else []) es.
Definition adj_any_es (es : list edge) (x : N) : list N := flat_map (other_end x) es.

Lemma other_end_untouched x e : touches x e = false -> other_end x e = [].
Proof. unfold touches, other_end. intro H. apply orb_false_iff in H as [-> ->]. reflexivity. Qed.

Lemma adj_es_untouched es x r : untouched x es -> adj_es es x r = [].
Proof.
  intro H. apply flat_map_nil. intros e He. rewrite other_end_untouched by auto. destruct (erel e =? r); auto.
Qed.
Lemma adj_any_es_untouched es x : untouched x es -> adj_any_es es x = [].
Proof. intro H. apply flat_map_nil. intros e He. apply other_end_untouched; auto. Qed.

Lemma adj_es_app a b x r : adj_es (a ++ b) x r = adj_es a x r ++ adj_es b x r.
Proof. apply flat_map_app. Qed.
Lemma adj_any_es_app a b x : adj_any_es (a ++ b) x = adj_any_es a x ++ adj_any_es b x.
Proof. apply flat_map_app. Qed.

Lemma filter_untouched x es : untouched x es -> filter (fun e => negb (touches x e)) es = es.
Proof. intro H. apply filter_all. intros e He. rewrite H; auto. Qed.

Lemma filter_nodes_notin (L : list node) x : (forall n, In n L -> nid n <> x) ->
  filter (fun n => negb (nid n =? x)) L = L.
Proof. intro H. apply filter_all. intros n Hn. apply negb_true_iff. apply N.eqb_neq. auto. Qed.

(* deleting a node that is not a node of the closed graph g leaves the nodes and edges of g alone *)
Lemma filter_old_nodes g (N : list node) x : ~ In x (ids g) ->
  filter (fun n => negb (nid n =? x)) (gnodes g ++ N) = gnodes g ++ filter (fun n => negb (nid n =? x)) N.
Proof.
  intro Hx. rewrite filter_app. f_equal. apply filter_nodes_notin. intros n Hn X. apply Hx. rewrite <- X. apply in_map; auto.
Qed.
Lemma filter_old_edges g (E : list edge) x : closed g -> ~ In x (ids g) ->
  filter (fun e => negb (touches x e)) (gedges g ++ E) = gedges g ++ filter (fun e => negb (touches x e)) E.
Proof. intros Hcl Hx. rewrite filter_app. f_equal. apply filter_untouched, closed_untouched; auto. Qed.

Lemma same_pair_untouched a b es : untouched b es -> existsb (same_pair a b) es = false.
Proof.
  intro H. induction es; simpl; auto. rewrite IHes by (intros e He; apply H; right; auto).
  specialize (H a0 (or_introl eq_refl)). unfold touches in H. apply orb_false_iff in H as [H1 H2].
  unfold same_pair. rewrite H1, H2. rewrite !andb_false_r. reflexivity.
Qed.
Lemma same_pair_untouched_l a b es : untouched a es -> existsb (same_pair a b) es = false.
Proof.
  intro H. induction es; simpl; auto. rewrite IHes by (intros e He; apply H; right; auto).
  specialize (H a0 (or_introl eq_refl)). unfold touches in H. apply orb_false_iff in H as [H1 H2].
  unfold same_pair. rewrite H1, H2. rewrite !andb_false_l, !andb_false_r. reflexivity.
Qed.

Lemma adj_in_closed g x r y : closed g -> In y (adj_rel g x r) -> In y (ids g).
Proof.
  intros Hc H. unfold adj_rel in H. apply in_flat_map in H as [e [He Hy]].
  destruct (Hc e He) as [Ha Hb]. destruct (erel e =? r); [|contradiction].
  unfold other_end in Hy. destruct (ea e =? x); [destruct Hy as [<-|[]]; auto|].
  destruct (eb e =? x); [destruct Hy as [<-|[]]; auto|contradiction].
Qed.
Lemma adj_any_in_closed g x y : closed g -> In y (adj_any g x) -> In y (ids g).
Proof.
  intros Hc H. unfold adj_any in H. apply in_flat_map in H as [e [He Hy]].
  destruct (Hc e He) as [Ha Hb].
  unfold other_end in Hy. destruct (ea e =? x); [destruct Hy as [<-|[]]; auto|].
  destruct (eb e =? x); [destruct Hy as [<-|[]]; auto|contradiction].
Qed.

Record conn := mkConn { k_if : iface_h; k_p : N; k_l : N; k_lty : N; k_pname : str }.
Definition k_i (c : conn) : N := ih_id (k_if c).
Definition conn_nodes (c : conn) : list node :=
  [mkNode (k_p c) cCP (k_pname c) tServicePort 0; mkNode (k_l c) cLink (k_pname c ++ suffix_link) (k_lty c) 0].
Definition conn_edges (ns : N) (c : conn) : list edge :=
  [mkEdge ns (k_p c) rConnects; mkEdge (k_l c) (k_i c) rConnects; mkEdge (k_l c) (k_p c) rConnects].
Definition ext (g : graph) (nsn : node) (cs : list conn) : graph :=
  mkGraph (gnodes g ++ nsn :: flat_map conn_nodes cs) (gedges g ++ flat_map (conn_edges (nid nsn)) cs).
Definition conn_ids (cs : list conn) : list N := flat_map (fun c => [k_p c; k_l c]) cs.
Definition new_ids (nsn : node) (cs : list conn) : list N := nid nsn :: conn_ids cs.

Lemma ids_ext g nsn cs : ids (ext g nsn cs) = ids g ++ new_ids nsn cs.
Proof.
  unfold ids, ext, new_ids, conn_ids; simpl. rewrite map_app. simpl. f_equal. f_equal.
  induction cs; simpl; auto. f_equal. f_equal. auto.
Qed.

Record good (g : graph) (nsn : node) (cs : list conn) : Prop := mkGood {
  gd_nodup : NoDup (ids g ++ new_ids nsn cs);
  gd_cls : ncls nsn = cNS;
  gd_cp : forall c, In c cs -> has_cls g cCP (k_i c) = true;
  gd_ifs : NoDup (map k_i cs);
  gd_peers : forall c, In c cs -> peer_cps g (k_i c) = Ok [] }.

Lemma has_cls_In g k y : has_cls g k y = true -> In y (ids g).
Proof.
  unfold has_cls, cls_of, find_nodes. destruct (filter _ _) as [|n l] eqn:E; [discriminate|]. intros _.
  assert (In n (filter (fun n0 => nid n0 =? y) (gnodes g))) by (rewrite E; left; auto).
  apply filter_In in H as [Hin He]. apply N.eqb_eq in He. subst. apply in_map; auto.
Qed.

(* class look-ups: nodes of g keep their class when nodes are appended *)
Lemma cls_of_app_old g X e y : In y (ids g) -> cls_of (mkGraph (gnodes g ++ X) e) y = cls_of g y.
Proof.
  intro Hin. unfold cls_of, find_nodes; simpl. rewrite filter_app.
  apply in_map_iff in Hin as [n [He Hin]].
  destruct (filter (fun n0 => nid n0 =? y) (gnodes g)) as [|m l] eqn:E.
  - exfalso. assert (In n (filter (fun n0 => nid n0 =? y) (gnodes g))).
    { apply filter_In; split; auto. apply N.eqb_eq; auto. }
    rewrite E in H; contradiction.
  - reflexivity.
Qed.
Lemma has_cls_app_old g X e k y : In y (ids g) -> has_cls (mkGraph (gnodes g ++ X) e) k y = has_cls g k y.
Proof. intro H. unfold has_cls. rewrite cls_of_app_old; auto. Qed.

Lemma cls_of_ext_new g nsn cs n :
  NoDup (ids g ++ new_ids nsn cs) -> In n (nsn :: flat_map conn_nodes cs) ->
  cls_of (ext g nsn cs) (nid n) = Some (ncls n).
Proof.
  intros Hnd Hin. unfold cls_of.
  assert (H : find_nodes (ext g nsn cs) (nid n) = [n]).
  { unfold find_nodes. apply find_nodes_unique.
    - fold (ids (ext g nsn cs)). rewrite ids_ext. exact Hnd.
    - unfold ext; simpl. apply in_app_iff. right. exact Hin. }
  rewrite H. reflexivity.
Qed.

Lemma conn_p_node c cs : In c cs -> In (mkNode (k_p c) cCP (k_pname c) tServicePort 0) (flat_map conn_nodes cs).
Proof. intro H. apply in_flat_map. exists c. split; auto. left; auto. Qed.
Lemma conn_l_node c cs : In c cs ->
  In (mkNode (k_l c) cLink (k_pname c ++ suffix_link) (k_lty c) 0) (flat_map conn_nodes cs).
Proof. intro H. apply in_flat_map. exists c. split; auto. right; left; auto. Qed.

Lemma conn_ids_In_p c cs : In c cs -> In (k_p c) (conn_ids cs).
Proof. intro H. apply in_flat_map. exists c. split; auto. left; auto. Qed.
Lemma conn_ids_In_l c cs : In c cs -> In (k_l c) (conn_ids cs).
Proof. intro H. apply in_flat_map. exists c. split; auto. right; left; auto. Qed.

(* disjointness facts read off the NoDup *)
Lemma good_new_not_old g nsn cs x : good g nsn cs -> In x (new_ids nsn cs) -> ~ In x (ids g).
Proof. intros G Hn Ho. eapply NoDup_app_disj; [apply (gd_nodup _ _ _ G)|eauto|eauto]. Qed.

Lemma good_i_old g nsn cs c : good g nsn cs -> In c cs -> In (k_i c) (ids g).
Proof. intros G Hc. eapply has_cls_In. apply (gd_cp _ _ _ G); auto. Qed.

Lemma ext_closed g nsn cs : closed g -> good g nsn cs -> closed (ext g nsn cs).
Proof.
  intros Hc G e He. rewrite ids_ext. unfold ext in He; simpl in He.
  apply in_app_iff in He as [He|He].
  - destruct (Hc e He). split; apply in_app_iff; auto.
  - apply in_flat_map in He as [c [Hin He]].
    assert (Hi := good_i_old _ _ _ _ G Hin).
    assert (Hp := conn_ids_In_p _ _ Hin). assert (Hl := conn_ids_In_l _ _ Hin).
    unfold new_ids. simpl in He.
    destruct He as [<-|[<-|[<-|[]]]]; simpl; split; apply in_app_iff; simpl; auto.
Qed.

Lemma conns_untouched x ns cs :
  x <> ns -> (forall c', In c' cs -> k_p c' <> x /\ k_l c' <> x /\ k_i c' <> x) ->
  untouched x (flat_map (conn_edges ns) cs).
Proof.
  intros Hns H e He. apply in_flat_map in He as [c' [Hin He]]. destruct (H c' Hin) as (Hp & Hl & Hi).
  simpl in He. unfold touches.
  destruct He as [<-|[<-|[<-|[]]]]; simpl; apply orb_false_iff; split; apply N.eqb_neq; auto.
Qed.

Lemma cp_not_link g x y : has_cls g cCP x = true -> has_cls g cLink y = true -> x <> y.
Proof.
  unfold has_cls. intros Hx Hy <-. destruct (cls_of g x); [|discriminate].
  apply N.eqb_eq in Hx. apply N.eqb_eq in Hy. subst. discriminate.
Qed.

(* nodes and edges appended to g that leave the Link nodes of g alone do not change what an interface of g sees
   through its old links *)
Lemma old_links_same g X Es i :
  closed g -> (forall l0, In l0 (ids g) -> has_cls g cLink l0 = true -> untouched l0 Es) ->
  let E := mkGraph (gnodes g ++ X) (gedges g ++ Es) in
  flat_map (fun l0 => remove_N i (filter (has_cls E cCP) (adj_any E l0)))
           (filter (has_cls E cLink) (adj_rel g i rConnects))
  = flat_map (fun l0 => remove_N i (filter (has_cls g cCP) (adj_any g l0)))
             (filter (has_cls g cLink) (adj_rel g i rConnects)).
Proof.
  intros Hcl Hunt E.
  rewrite (filter_ext_in (has_cls E cLink) (has_cls g cLink)).
  2:{ intros y Hy. apply has_cls_app_old. eapply adj_in_closed; eauto. }
  apply flat_map_ext_in. intros l0 Hl0. apply filter_In in Hl0 as [Hl0 Hcl0].
  assert (Hin0 : In l0 (ids g)) by (eapply adj_in_closed; eauto).
  f_equal. unfold adj_any at 1. unfold E. cbn [gedges]. rewrite flat_map_app.
  fold (adj_any_es Es l0). rewrite (adj_any_es_untouched _ _ (Hunt l0 Hin0 Hcl0)), app_nil_r.
  apply filter_ext_in. intros y Hy. apply has_cls_app_old. eapply adj_any_in_closed; eauto.
Qed.

Lemma In_remove_N x y l : In y l -> y <> x -> In y (remove_N x l).
Proof.
  induction l; simpl; intros Hin Hne; [contradiction|].
  destruct (a =? x) eqn:Ea.
  - destruct Hin as [->|Hin]; [apply N.eqb_eq in Ea; contradiction|auto].
  - destruct Hin as [->|Hin]; [left; auto|right; auto].
Qed.

Section Peers.
  Variables (g : graph) (nsn : node) (cs : list conn).
  Hypothesis Hclosed : closed g.
  Hypothesis G : good g nsn cs.
  Let E := ext g nsn cs.
  Let ns := nid nsn.

  Local Lemma ns_new : ~ In ns (ids g).
  Proof. apply (good_new_not_old g nsn cs ns G). left; reflexivity. Qed.
  Local Lemma p_new c : In c cs -> ~ In (k_p c) (ids g).
  Proof. intro H. apply (good_new_not_old g nsn cs _ G). right. apply conn_ids_In_p; auto. Qed.
  Local Lemma l_new c : In c cs -> ~ In (k_l c) (ids g).
  Proof. intro H. apply (good_new_not_old g nsn cs _ G). right. apply conn_ids_In_l; auto. Qed.

  Local Lemma adj_rel_ext x r : adj_rel E x r = adj_rel g x r ++ adj_es (flat_map (conn_edges ns) cs) x r.
  Proof. unfold adj_rel, E, ext; simpl. rewrite flat_map_app. reflexivity. Qed.
  Local Lemma adj_any_ext x : adj_any E x = adj_any g x ++ adj_any_es (flat_map (conn_edges ns) cs) x.
  Proof. unfold adj_any, E, ext; simpl. rewrite flat_map_app. reflexivity. Qed.

  (* a Link-class node of g is not touched by the new edges *)
  Local Lemma old_link_untouched l0 : In l0 (ids g) -> has_cls g cLink l0 = true ->
    untouched l0 (flat_map (conn_edges ns) cs).
  Proof.
    intros Hin Hcl. apply conns_untouched.
    - intro X. apply ns_new. rewrite <- X. auto.
    - intros c' Hc'. repeat split.
      + intro X. apply (p_new c' Hc'). rewrite X. auto.
      + intro X. apply (l_new c' Hc'). rewrite X. auto.
      + apply (cp_not_link g); auto. apply (gd_cp _ _ _ G c' Hc').
  Qed.

  Local Lemma peers_nodup : NoDup (ids E).
  Proof. unfold E. rewrite ids_ext. apply (gd_nodup _ _ _ G). Qed.

  Local Lemma find_E_old x : In x (ids g) -> exists n, find_node E x = Ok n.
  Proof.
    intro H. destruct (In_ids_find E x peers_nodup) as [n [Hn _]]; eauto.
    unfold E. rewrite ids_ext. apply in_app_iff; auto.
  Qed.

  (* an interface of g that the constructor has not connected has the peers it had in g *)
  Lemma peers_transport i : In i (ids g) -> NoDup (ids g) -> ~ In i (map k_i cs) ->
    peer_cps E i = peer_cps g i.
  Proof.
    intros Hin Hndg Hnot. unfold peer_cps.
    destruct (find_E_old i Hin) as [n ->]. destruct (In_ids_find g i Hndg Hin) as [m [-> _]].
    f_equal. rewrite adj_rel_ext.
    assert (U : untouched i (flat_map (conn_edges ns) cs)).
    { apply conns_untouched.
      - intro X. apply ns_new. rewrite <- X. auto.
      - intros c' Hc'. repeat split.
        + intro X. apply (p_new c' Hc'). rewrite X. auto.
        + intro X. apply (l_new c' Hc'). rewrite X. auto.
        + intro X. apply Hnot. rewrite <- X. apply in_map; auto. }
    rewrite (adj_es_untouched _ _ _ U). rewrite app_nil_r.
    exact (old_links_same g _ _ i Hclosed old_link_untouched).
  Qed.


  (* an interface the constructor has connected has the new ServicePort among its peers *)
  Lemma peers_member c : In c cs -> exists L, peer_cps E (k_i c) = Ok L /\ In (k_p c) L.
  Proof.
    intro Hc. assert (Hi : In (k_i c) (ids g)) by (eapply good_i_old; eauto).
    assert (Hnp := p_new c Hc). assert (Hnl := l_new c Hc).
    unfold peer_cps. destruct (find_E_old _ Hi) as [n ->]. eexists. split; [reflexivity|].
    apply in_flat_map. exists (k_l c). split.
    - apply filter_In. split.
      + rewrite adj_rel_ext. apply in_app_iff. right. unfold adj_es. apply in_flat_map.
        exists (mkEdge (k_l c) (k_i c) rConnects). split.
        * apply in_flat_map. exists c. split; auto. right; left; reflexivity.
        * simpl. unfold other_end; simpl.
          rewrite (neqb_of_neq (k_l c) (k_i c)) by (intro X; apply Hnl; rewrite X; auto).
          rewrite N.eqb_refl. left; reflexivity.
      + unfold has_cls, E.
        assert (X := cls_of_ext_new g nsn cs (mkNode (k_l c) cLink (k_pname c ++ suffix_link) (k_lty c) 0)
                                (gd_nodup _ _ _ G) (or_intror (conn_l_node c cs Hc))).
        simpl in X. rewrite X. reflexivity.
    - apply In_remove_N; [|intro X; apply Hnp; rewrite X; auto].
      apply filter_In. split.
      + rewrite adj_any_ext. apply in_app_iff. right. unfold adj_any_es. apply in_flat_map.
        exists (mkEdge (k_l c) (k_p c) rConnects). split.
        * apply in_flat_map. exists c. split; auto. right; right; left; reflexivity.
        * unfold other_end; simpl. rewrite N.eqb_refl. left; reflexivity.
      + unfold has_cls, E.
        assert (X := cls_of_ext_new g nsn cs (mkNode (k_p c) cCP (k_pname c) tServicePort 0)
                                (gd_nodup _ _ _ G) (or_intror (conn_p_node c cs Hc))).
        simpl in X. rewrite X. reflexivity.
  Qed.
End Peers.
