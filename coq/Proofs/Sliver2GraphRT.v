(* C02, graph route: the readers rebuild every sliver of a tree from the graph grown by it (Section
   Readers), hence the theorem for any graph (graph_under_generic) and its empty-graph case
   graph_roundtrip t = Ok t.  Rests on Sliver2GraphW (writers) and Sliver2GraphR (what is in the graph). *)
From Coq Require Import List String Bool.
From FIM Require Import Base.ListFacts Base.Str Model.Sliver2Kinds Gen.PropMap Model.Sliver2Map Model.Sliver2WF
  Model.Sliver2Deep Model.Sliver2DeepWF Model.Sliver2Graph Model.Sliver2GraphWF
  Proofs.Sliver2Assoc Proofs.Sliver2MapRT Proofs.Sliver2Elem Proofs.Sliver2DeepRT
  Proofs.Sliver2GraphW Proofs.Sliver2GraphR.
Import ListNotations.

Local Opaque enums type_enum to_base from_base to_specific from_specific setters getters init_attrs
  sliver_property_to_graph no_unset_properties child_keys node_id_prop add_interface_descends all_tables_ok.

Lemma node_props_lookup id p g :
  NoDup (akeys p) -> g <> node_id_prop -> alookup g (node_props id p) = alookup g p.
Proof.
  intros ND Hg. unfold node_props. rewrite aupdate_is_asets.
  destruct (alookup g p) as [v|] eqn:E.
  - apply asets_lookup_in; [exact ND | apply alookup_some_in; exact E].
  - rewrite asets_lookup_notin.
    + simpl. destruct (String.eqb g node_id_prop) eqn:E2; [apply String.eqb_eq in E2; contradiction | reflexivity].
    + intro Hc. destruct (alookup_in_keys _ _ Hc) as [v Hv]. rewrite Hv in E. discriminate.
Qed.

Lemma node_props_id id p : ~ In node_id_prop (akeys p) -> node_id_of (node_props id p) = Some id.
Proof.
  intro Hn. unfold node_id_of, pget, node_props. rewrite aupdate_is_asets.
  rewrite asets_lookup_notin by exact Hn. simpl. rewrite String.eqb_refl. reflexivity.
Qed.

Lemma Forall2_from_val_cong k d1 d2 : forall F xs,
  (forall fe, In fe F -> pget (snd (fst fe)) d2 = pget (snd (fst fe)) d1) ->
  Forall2 (fun fe xv => from_val k d1 fe = Ok xv) F xs ->
  Forall2 (fun fe xv => from_val k d2 fe = Ok xv) F xs.
Proof.
  intros F xs Hc HF. induction HF as [|fe xv F xs H HF IH]; constructor.
  - rewrite <- H. apply from_val_cong. apply Hc. left. reflexivity.
  - apply IH. intros fe' Hfe'. apply Hc. right. exact Hfe'.
Qed.

Lemma from_props_node_props k id p r :
  tables_symmetric k = true -> dict_tables_ok k = true -> NoDup (akeys p) ->
  from_props k p = Ok r -> from_props k (node_props id p) = Ok r.
Proof.
  intros Hs Hd ND Hr. unfold from_props in *.
  destruct (fold_from_spec k p _ _ _ Hr) as [xs [HF Hrx]]. subst r.
  apply fold_from_build.
  unfold dict_tables_ok in Hd. apply andb_true_iff in Hd as [Hd _]. apply andb_true_iff in Hd as [_ Hd].
  rewrite forallb_forall in Hd.
  apply (Forall2_from_val_cong k p (node_props id p) _ _); [|exact HF].
  intros fe Hfe. unfold pget. rewrite node_props_lookup; [reflexivity | exact ND |].
  specialize (Hd fe Hfe). intro E. rewrite E in Hd. rewrite String.eqb_refl in Hd. discriminate Hd.
Qed.

Lemma tree_wf_sub : forall t, tree_wf t = true -> forall u, In u (subtrees t) -> tree_wf u = true.
Proof.
  apply (kids_ind (fun t => tree_wf t = true -> forall u, In u (subtrees t) -> tree_wf u = true)).
  intros t IH Hwf u Hu. rewrite subtrees_eq in Hu. destruct Hu as [E|Hu]; [subst; exact Hwf|].
  apply in_flat_map in Hu as [c [Hc Hu]]. apply (IH c Hc); [apply (wf_kids t c Hwf Hc) | exact Hu].
Qed.

Lemma mapM_ids (f : str -> res tree) l :
  (forall c, In c l -> f (id_of c) = Ok c) -> mapM f (map id_of l) = Ok l.
Proof.
  induction l as [|c l IH]; intro H; [reflexivity|].
  simpl. rewrite (H c (or_introl eq_refl)). simpl.
  rewrite IH by (intros c' Hc'; apply H; right; exact Hc'). reflexivity.
Qed.

Lemma slot_info ck o :
  slot_ok tree_wf true ck o = true -> info_of ck (olist o) = Ok o.
Proof.
  intro Hs. simpl in Hs. destruct o as [l|]; [|reflexivity]. simpl in *.
  apply andb_true_iff in Hs as [Hs Hnd]. apply andb_true_iff in Hs as [Hne Hall].
  destruct l as [|u l]; [discriminate|]. unfold info_of.
  rewrite build_info_ok; [reflexivity | | exact Hnd].
  rewrite forallb_forall in *. intros x Hx. specialize (Hall x Hx).
  apply andb_true_iff in Hall as [Hall Hty]. apply andb_true_iff in Hall as [_ Hnm].
  unfold child_ok. rewrite Hnm. exact Hty.
Qed.

Lemma slot_none ck o : slot_ok tree_wf false ck o = true -> o = None.
Proof. simpl. destruct o; [discriminate | reflexivity]. Qed.

Lemma filter_all_kids (f : tree -> bool) l : (forall c, In c l -> f c = true) -> filter f l = l.
Proof. apply filter_all. Qed.

(* a stand-in for the node the tree hangs under (only its id matters to the writers) *)
Definition ptree (pid : str) : tree := T KLink (Some pid) [] None None None.

(* reading the slivers of t back from the graph g0 grown by t, written at a place the API uses *)
Section Readers.
  Variables (g0 : graph) (parent : option str) (t : tree).
  Hypothesis Hok : all_tables_ok = true.
  Hypothesis Hwf : tree_wf t = true.
  Hypothesis Hids : forallb has_id (subtrees t) = true.
  Hypothesis Hshape : forallb shape_ok (subtrees t) = true.
  Hypothesis Hg0 : good g0.
  Hypothesis NDall : NoDup (gids g0 ++ map id_of (subtrees t)).
  Hypothesis Hpo : parent_ok g0 parent t = true.
  Let up := option_map ptree parent.
  Local Notation G := (grown g0 up t).
  Let ND := NoDup_app_r _ _ NDall.

  Lemma par_in : parent_in g0 up.
  Proof.
    intros pt E. unfold up in E. destruct parent as [pid|]; [|discriminate E]. inversion E; subst pt.
    unfold parent_ok in Hpo. destruct (find_node g0 pid) as [n|] eqn:Ef; [|discriminate Hpo].
    apply find_node_some_in in Ef as [Hin Eid]. change (id_of (ptree pid)) with pid. rewrite <- Eid.
    unfold gids. apply in_map. exact Hin.
  Qed.

  (* the class of the node the root hangs under, as parent_ok admits it *)
  Lemma par_label pt n : up = Some pt -> find_node g0 (id_of pt) = Some n ->
    match t_kind t with
    | KComponent => String.eqb (g_label n) (class_label KNode)
    | KService => String.eqb (g_label n) (class_label KNode) || String.eqb (g_label n) (class_label KComponent)
    | KInterface => String.eqb (g_label n) (class_label KService)
                    || (String.eqb (g_label n) (class_label KInterface) && childless t && negb (is_dedicated t))
    | KNode | KLink => false
    end = true.
  Proof.
    intros E Hf. unfold up in E. destruct parent as [pid|]; [|discriminate E]. inversion E; subst pt.
    unfold parent_ok in Hpo. change (id_of (ptree pid)) with pid in Hf. rewrite Hf in Hpo. exact Hpo.
  Qed.

  Lemma find_new u : In u (subtrees t) -> find_node G (id_of u) = Some (rec_of u).
  Proof. apply find_in_grown. exact NDall. Qed.

  Lemma sub_wf u : In u (subtrees t) -> tree_wf u = true.
  Proof. apply tree_wf_sub. exact Hwf. Qed.

  Lemma sub_id u : In u (subtrees t) -> t_nid u = Some (id_of u).
  Proof. intro Hu. apply has_id_nid. rewrite forallb_forall in Hids. apply Hids. exact Hu. Qed.

  Lemma read_node u : In u (subtrees t) ->
    get_node_properties G (id_of u) = Ok (class_label (t_kind u), node_props (id_of u) (props_of u)) /\
    from_props (t_kind u) (node_props (id_of u) (props_of u)) = Ok (t_attrs u) /\
    node_id_of (node_props (id_of u) (props_of u)) = Some (id_of u).
  Proof.
    intro Hu. assert (Hwu := sub_wf u Hu).
    destruct (tables_ok_parts (t_kind u) Hok) as [Hs [Hd [_ Hnone]]].
    assert (Hp := props_of_ok u Hok Hwu).
    assert (Hrt := props_roundtrip_exact_generic _ _ Hs Hnone (tree_wf_attrs u Hwu)).
    rewrite Hp in Hrt. cbn [bind] in Hrt.
    assert (NDp := to_props_result_nodup _ _ _ Hs Hp).
    split; [|split].
    - unfold get_node_properties. rewrite (find_new u Hu). reflexivity.
    - apply from_props_node_props; assumption.
    - apply node_props_id. intro Hc. destruct (alookup_in_keys _ _ Hc) as [v Hv].
      destruct (sym_parts _ Hs) as [_ [NDg _]]. unfold to_props in Hp.
      destruct (to_props_entries_spec _ _ [] _ NDg Hp) as [_ H2].
      rewrite H2 in Hv; [discriminate Hv|].
      unfold dict_tables_ok in Hd. apply andb_true_iff in Hd as [Hd _]. apply andb_true_iff in Hd as [Hd _].
      rewrite forallb_forall in Hd. intro Hin. apply in_map_iff in Hin as [te [E Hte]]. specialize (Hd te Hte).
      apply andb_true_iff in Hd as [_ Hd]. unfold gp in E. rewrite E in Hd. rewrite String.eqb_refl in Hd. discriminate Hd.
  Qed.

  (* how every deep reader starts: the node has the label of the class, its properties are those of u *)
  Lemma read_head {A} u k (K : props -> attrs -> res A) : In u (subtrees t) -> t_kind u = k ->
    bind (with_label G (id_of u) k) (fun p => bind (from_props k p) (K p)) =
    K (node_props (id_of u) (props_of u)) (t_attrs u).
  Proof.
    intros Hu Hk. subst k. destruct (read_node u Hu) as [H1 [H2 _]].
    unfold with_label. rewrite H1. cbn [bind fst snd]. rewrite String.eqb_refl. cbn [bind]. rewrite H2. reflexivity.
  Qed.

  Lemma kid_in u c : In u (subtrees t) -> In c (kids u) -> In c (subtrees t).
  Proof. intros Hu Hc. apply (subtrees_trans t u c Hu). apply in_kids_subtrees. exact Hc. Qed.

  Lemma R_flat u : In u (subtrees t) -> t_kind u = KInterface -> childless u = true ->
    bind (get_node_properties G (id_of u)) (fun lp => flat_sliver KInterface (snd lp)) = Ok u.
  Proof.
    intros Hu Hk Hcl. destruct (read_node u Hu) as [H1 [H2 H3]]. rewrite H1. cbn [bind snd].
    unfold flat_sliver. rewrite Hk in H2. rewrite H2. cbn [bind]. rewrite H3.
    assert (Hn := sub_id u Hu).
    destruct u as [k nid a c n i]. simpl in *. subst k. rewrite Hn.
    destruct c, n, i; try discriminate Hcl. reflexivity.
  Qed.

  Lemma shape_of u : In u (subtrees t) -> shape_ok u = true.
  Proof. intro Hu. rewrite forallb_forall in Hshape. apply Hshape. exact Hu. Qed.

  Lemma read_id u : In u (subtrees t) -> node_id_of (node_props (id_of u) (props_of u)) = Some (id_of u).
  Proof. intro Hu. apply (read_node u Hu). Qed.

  Lemma kids_kept u ck rel : rel = relk ck -> (forall c, In c (kids u) -> t_kind c = ck) ->
    filter (fun c => String.eqb (class_label (t_kind c)) (class_label ck) && String.eqb (relk (t_kind c)) rel)
           (kids u) = kids u.
  Proof. intros E H. subst rel. apply filter_all. intros c Hc. rewrite (H c Hc), !String.eqb_refl. reflexivity. Qed.

  Lemma R_if u : In u (subtrees t) -> t_kind u = KInterface ->
    build_deep_interface_sliver G (id_of u) = Ok u.
  Proof.
    intros Hu Hk. assert (Hwu := sub_wf u Hu). assert (Hsh := shape_of u Hu). assert (Hn := sub_id u Hu).
    unfold build_deep_interface_sliver. rewrite (read_head u KInterface _ Hu Hk), (read_id u Hu).
    assert (Hkid : forall c, In c (kids u) -> t_kind c = KInterface).
    { intros c Hc. destruct (wf_kids u c Hwu Hc) as [_ B]. rewrite Hk in B. exact B. }
    destruct u as [k [id|] a c n i]; [|discriminate Hn]. simpl in Hk. subst k. clear Hn.
    simpl in Hwu. repeat rewrite andb_true_iff in Hwu. destruct Hwu as [[[Ha Hsc] Hsn] Hsi].
    apply (slot_none KComponent) in Hsc. apply (slot_none KService) in Hsn. subst c n.
    unfold shape_ok in Hsh. simpl t_kind in Hsh. simpl t_ifs in Hsh. unfold is_dedicated in Hsh. simpl t_attrs in *.
    set (u := T KInterface (Some id) a None None i) in *.
    change id with (id_of u).
    destruct (alookup "resource_type" a) as [[ty|]|] eqn:Ety.
    2,3: (destruct i as [l|]; [simpl in Hsh; discriminate Hsh | reflexivity]).
    destruct (fval_eqb ty dedicated) eqn:Ed.
    2: (destruct i as [l|]; [simpl in Hsh; discriminate Hsh | reflexivity]).
    (* a DedicatedPort: its kids are its neighbours *)
    assert (Hded : is_dedicated u = true) by (unfold is_dedicated, u; simpl t_attrs; rewrite Ety; exact Ed).
    rewrite (neighbours_new g0 up t Hg0 NDall par_in u rel_connects (class_label KInterface) Hu).
    - cbn [bind]. rewrite (kids_kept u KInterface rel_connects eq_refl Hkid).
      assert (Hleaves : forall c0, In c0 (kids u) -> childless c0 = true).
      { intros c0 Hc0. unfold u in Hc0. simpl in Hc0. destruct i as [l|]; [|contradiction].
        simpl in Hc0, Hsh. try (apply andb_true_iff in Hsh as [_ Hsh]). rewrite forallb_forall in Hsh.
        specialize (Hsh c0 Hc0). apply andb_true_iff in Hsh as [Hsh _]. exact Hsh. }
      rewrite (mapM_ids _ (kids u)).
      + cbn [bind]. unfold u at 1. simpl kids. rewrite (slot_info KInterface i Hsi). reflexivity.
      + intros c0 Hc0. apply R_flat; [exact (kid_in u c0 Hu Hc0) | exact (Hkid c0 Hc0) | exact (Hleaves c0 Hc0)].
    - intros v Hv Hkv _ Hl.
      assert (Hkv' : t_kind v = KInterface) by (destruct (t_kind v); simpl in Hl; try discriminate Hl; reflexivity).
      (* an interface parent only has leaves that are not DedicatedPorts, but u is one *)
      assert (Hsv := shape_of v Hv). unfold shape_ok in Hsv. rewrite Hkv' in Hsv.
      destruct v as [kv nv av cv nnv iv]. simpl in Hkv'. subst kv. simpl in Hkv, Hsv.
      destruct iv as [lv|]; [|contradiction]. simpl in Hkv.
      apply andb_true_iff in Hsv as [_ Hsv]. rewrite forallb_forall in Hsv. specialize (Hsv u Hkv).
      apply andb_true_iff in Hsv as [_ Hsv]. unfold is_dedicated in Hsv. unfold u in Hsv. simpl t_attrs in Hsv.
      rewrite Ety, Ed in Hsv. discriminate Hsv.
    - (* hung under an interface of the graph, the root would not be a DedicatedPort *)
      intros pt n E Hf Eu _ Hl. assert (H := par_label pt n E Hf). rewrite <- Eu, Hl, Hded in H.
      simpl in H. rewrite andb_false_r in H. discriminate H.
  Qed.

  Lemma R_ns u : In u (subtrees t) -> t_kind u = KService -> build_deep_ns_sliver G (id_of u) = Ok u.
  Proof.
    intros Hu Hk. assert (Hwu := sub_wf u Hu). assert (Hn := sub_id u Hu).
    unfold build_deep_ns_sliver. rewrite (read_head u KService _ Hu Hk), (read_id u Hu).
    assert (Hkid : forall c, In c (kids u) -> t_kind c = KInterface).
    { intros c Hc. destruct (wf_kids u c Hwu Hc) as [_ B]. rewrite Hk in B. exact B. }
    rewrite (neighbours_new g0 up t Hg0 NDall par_in u rel_connects (class_label KInterface) Hu).
    - cbn [bind]. rewrite (kids_kept u KInterface rel_connects eq_refl Hkid). rewrite (mapM_ids _ (kids u)).
      + cbn [bind]. destruct u as [k [id|] a c n i]; [|discriminate Hn]. simpl in Hk. subst k.
        simpl in Hwu. repeat rewrite andb_true_iff in Hwu. destruct Hwu as [[[Ha Hsc] Hsn] Hsi].
        apply (slot_none KComponent) in Hsc. apply (slot_none KService) in Hsn. subst c n.
        simpl kids. rewrite (slot_info KInterface i Hsi). reflexivity.
      + intros c0 Hc0. exact (R_if c0 (kid_in u c0 Hu Hc0) (Hkid c0 Hc0)).
    - intros v Hv Hkv Hr. rewrite Hk in Hr. discriminate Hr.
    - intros pt n _ _ Eu Er. rewrite <- Eu, Hk in Er. discriminate Er.
  Qed.

  Lemma R_comp u : In u (subtrees t) -> t_kind u = KComponent -> build_deep_component_sliver G (id_of u) = Ok u.
  Proof.
    intros Hu Hk. assert (Hwu := sub_wf u Hu). assert (Hn := sub_id u Hu).
    unfold build_deep_component_sliver. rewrite (read_head u KComponent _ Hu Hk), (read_id u Hu).
    assert (Hkid : forall c, In c (kids u) -> t_kind c = KService).
    { intros c Hc. destruct (wf_kids u c Hwu Hc) as [_ B]. rewrite Hk in B. exact B. }
    rewrite (neighbours_new g0 up t Hg0 NDall par_in u rel_has (class_label KService) Hu).
    - cbn [bind]. rewrite (kids_kept u KService rel_has eq_refl Hkid). rewrite (mapM_ids _ (kids u)).
      + cbn [bind]. destruct u as [k [id|] a c n i]; [|discriminate Hn]. simpl in Hk. subst k.
        simpl in Hwu. repeat rewrite andb_true_iff in Hwu. destruct Hwu as [[[Ha Hsc] Hsn] Hsi].
        apply (slot_none KComponent) in Hsc. apply (slot_none KInterface) in Hsi. subst c i.
        simpl kids. rewrite app_nil_r. rewrite (slot_info KService n Hsn). reflexivity.
      + intros c0 Hc0. exact (R_ns c0 (kid_in u c0 Hu Hc0) (Hkid c0 Hc0)).
    - (* the parent of a component is a node, not a service *)
      intros v Hv Hkv _ Hl. destruct (wf_kids v u (sub_wf v Hv) Hkv) as [_ B]. rewrite Hk in B.
      destruct (t_kind v); simpl in Hl; try discriminate Hl; try contradiction;
        try (destruct B as [B|B]); discriminate B.
    - intros pt n E Hf Eu _ Hl. assert (H := par_label pt n E Hf). rewrite <- Eu, Hk, Hl in H. discriminate H.
  Qed.

  Lemma R_node u : In u (subtrees t) -> t_kind u = KNode -> build_deep_node_sliver G (id_of u) = Ok u.
  Proof.
    intros Hu Hk. assert (Hwu := sub_wf u Hu). assert (Hn := sub_id u Hu).
    unfold build_deep_node_sliver. rewrite (read_head u KNode _ Hu Hk), (read_id u Hu).
    assert (Hnopar : forall v, In v (subtrees t) -> In u (kids v) -> False).
    { intros v Hv Hkv. destruct (wf_kids v u (sub_wf v Hv) Hkv) as [_ B]. rewrite Hk in B.
      destruct (t_kind v); try contradiction; try discriminate B; destruct B as [B|B]; discriminate B. }
    assert (Hnb : forall L, get_first_neighbor G (id_of u) rel_has L = _) by
      (intro L; apply (neighbours_new g0 up t Hg0 NDall par_in u rel_has L Hu);
       [intros v Hv Hkv; exfalso; exact (Hnopar v Hv Hkv) |
        intros pt n E Hf Eu; assert (H := par_label pt n E Hf); rewrite <- Eu, Hk in H; discriminate H]).
    rewrite !Hnb. cbn [bind].
    destruct u as [k [id|] a c n i]; [|discriminate Hn]. simpl in Hk. subst k.
    simpl in Hwu. repeat rewrite andb_true_iff in Hwu. destruct Hwu as [[[Ha Hsc] Hsn] Hsi].
    apply (slot_none KInterface) in Hsi. subst i.
    set (u := T KNode (Some id) a c n None) in *.
    assert (Hkc : forall c0, In c0 (olist c) -> t_kind c0 = KComponent).
    { intros c0 Hc0. apply (slot_kid_wf true KComponent c c0 _ Hsc eq_refl Hc0). }
    assert (Hkn : forall c0, In c0 (olist n) -> t_kind c0 = KService).
    { intros c0 Hc0. apply (slot_kid_wf true KService n c0 _ Hsn eq_refl Hc0). }
    assert (Hk1 : filter (fun c0 => String.eqb (class_label (t_kind c0)) (class_label KComponent)
                                    && String.eqb (relk (t_kind c0)) rel_has) (kids u) = olist c).
    { unfold u. simpl kids. rewrite app_nil_r. rewrite filter_app.
      rewrite filter_all by (intros c0 Hc0; rewrite (Hkc c0 Hc0); reflexivity).
      rewrite filter_none by (intros c0 Hc0; rewrite (Hkn c0 Hc0); reflexivity). apply app_nil_r. }
    assert (Hk2 : filter (fun c0 => String.eqb (class_label (t_kind c0)) (class_label KService)
                                    && String.eqb (relk (t_kind c0)) rel_has) (kids u) = olist n).
    { unfold u. simpl kids. rewrite app_nil_r. rewrite filter_app.
      rewrite filter_none by (intros c0 Hc0; rewrite (Hkc c0 Hc0); reflexivity).
      rewrite filter_all by (intros c0 Hc0; rewrite (Hkn c0 Hc0); reflexivity). reflexivity. }
    assert (Hin : forall c0, In c0 (olist c) \/ In c0 (olist n) -> In c0 (subtrees t)).
    { intros c0 Hc0. apply (kid_in u c0 Hu). unfold u. simpl kids. rewrite app_nil_r.
      apply in_or_app. exact Hc0. }
    rewrite Hk1, Hk2. rewrite (mapM_ids _ (olist c)), (mapM_ids _ (olist n)).
    - cbn [bind]. rewrite (slot_info KComponent c Hsc), (slot_info KService n Hsn). reflexivity.
    - intros c0 Hc0. exact (R_ns c0 (Hin c0 (or_intror Hc0)) (Hkn c0 Hc0)).
    - intros c0 Hc0. exact (R_comp c0 (Hin c0 (or_introl Hc0)) (Hkc c0 Hc0)).
  Qed.

  Lemma R_link u : In u (subtrees t) -> t_kind u = KLink -> build_deep_link_sliver G (id_of u) = Ok u.
  Proof.
    intros Hu Hk. assert (Hwu := sub_wf u Hu). assert (Hn := sub_id u Hu).
    unfold build_deep_link_sliver, flat_sliver. rewrite (read_head u KLink _ Hu Hk), (read_id u Hu).
    destruct u as [k [id|] a c n i]; [|discriminate Hn]. simpl in Hk. subst k.
    simpl in Hwu. repeat rewrite andb_true_iff in Hwu. destruct Hwu as [[[Ha Hsc] Hsn] Hsi].
    apply (slot_none KComponent) in Hsc. apply (slot_none KService) in Hsn. apply (slot_none KInterface) in Hsi.
    subst c n i. reflexivity.
  Qed.
End Readers.

Lemma strs_nodup_NoDup l : strs_nodup l = true -> NoDup l.
Proof.
  induction l as [|x l IH]; simpl; intro H; [constructor|].
  apply andb_true_iff in H as [H1 H2]. constructor; [|apply IH; exact H2].
  intro Hin. apply negb_true_iff in H1. rewrite existsb_id_true in H1 by exact Hin. discriminate.
Qed.

Lemma NoDup_strs_nodup l : NoDup l -> strs_nodup l = true.
Proof.
  induction 1 as [|x l NI ND IH]; [reflexivity|]. simpl. rewrite IH.
  rewrite existsb_id_false by exact NI. reflexivity.
Qed.

Lemma good_graph_good g : good_graph g = true <-> good g.
Proof.
  unfold good_graph, good, edges_closed. split.
  - intro H. apply andb_true_iff in H as [H1 H2]. split; [apply strs_nodup_NoDup; exact H1|].
    intros a r b Hin. rewrite forallb_forall in H2. specialize (H2 _ Hin). cbn in H2.
    apply andb_true_iff in H2 as [Ha Hb]. split; apply (existsb_eqb_In str_eqb str_eqb_eq); assumption.
  - intros [ND EC]. apply andb_true_iff. split; [apply NoDup_strs_nodup; exact ND|].
    apply forallb_forall. intros [[a r] b] Hin. destruct (EC a r b Hin) as [Ha Hb].
    apply andb_true_iff. split; apply (existsb_eqb_In str_eqb str_eqb_eq); assumption.
Qed.

Lemma grown_empty t : grown empty_graph None t = graph_of t.
Proof. reflexivity. Qed.

(* THE GRAPH ROUTE, any nesting, any graph: a sliver tree whose node ids are fresh is written with
   add_*_sliver into a well-formed graph - stand-alone or under an existing node of the right class -
   and rebuilt with build_deep_*_sliver identical; the graph only grows (frame): every old node keeps
   its record and its neighbours, except that the parent gains the tree's root. *)
Theorem graph_under_generic g parent t :
  all_tables_ok = true -> add_interface_descends = true ->
  good_graph g = true -> graph_wf_sub t = true -> fresh_in g t = true -> parent_ok g parent t = true ->
  exists g', add_under g parent t = Ok g' /\
    build_deep g' (t_kind t) (id_of t) = Ok t /\
    good_graph g' = true /\
    gids g' = gids g ++ map id_of (subtrees t) /\
    (forall x, In x (gids g) -> find_node g' x = find_node g x) /\
    (forall x rel L, In x (gids g) -> parent <> Some x ->
                     get_first_neighbor g' x rel L = get_first_neighbor g x rel L).
Proof.
  intros Hok Hdesc Hgg Hgw Hfr Hpo.
  apply good_graph_good in Hgg. unfold fresh_in in Hfr. apply strs_nodup_NoDup in Hfr.
  unfold graph_wf_sub in Hgw. repeat rewrite andb_true_iff in Hgw. destruct Hgw as [[Hwf Hids] Hshape].
  assert (Hroot : In t (subtrees t)) by (rewrite subtrees_eq; left; reflexivity).
  set (par := option_map ptree parent).
  assert (Hpar := par_in g parent t Hpo : parent_in g par).
  assert (Hparid : option_map id_of par = parent) by (unfold par; destruct parent; reflexivity).
  assert (HW : add_under g parent t = Ok (grown g par t)).
  { unfold add_under. unfold parent_ok in Hpo. destruct (t_kind t) eqn:Ek; destruct parent as [pid|] eqn:Ep;
      try (destruct (find_node g pid); discriminate Hpo); try discriminate Hpo.
    - apply (W_node Hok Hdesc t g Ek Hwf Hids Hgg Hfr). exact Hpo.
    - exact (W_comp Hok Hdesc t (ptree pid) Ek Hwf Hids g Hgg (Hpar (ptree pid) eq_refl) Hfr).
    - rewrite <- Hparid. apply (W_ns Hok Hdesc t Ek Hwf Hids g par); try assumption. intros _ E; discriminate E.
    - rewrite <- Hparid. apply (W_ns Hok Hdesc t Ek Hwf Hids g par); try assumption. intros _ _. rewrite Ek. exact Hpo.
    - rewrite <- Hparid. apply (W_if Hok Hdesc t Ek Hwf Hids g par); try assumption. intro E; discriminate E.
    - rewrite <- Hparid. apply (W_if Hok Hdesc t Ek Hwf Hids g par); try assumption. intro E; discriminate E.
    - apply (W_link Hok t g Ek Hwf (forallb_subtrees_root _ _ Hids)).
      intro Hc. apply (NoDup_app_disj _ _ (id_of t) Hfr Hc). apply in_map. exact Hroot. }
  exists (grown g par t). split; [exact HW|].
  split; [|split; [|split; [|split]]].
  - unfold build_deep. destruct (t_kind t) eqn:Ek.
    + exact (R_node g parent t Hok Hwf Hids Hshape Hgg Hfr Hpo t Hroot Ek).
    + exact (R_comp g parent t Hok Hwf Hids Hshape Hgg Hfr Hpo t Hroot Ek).
    + exact (R_ns g parent t Hok Hwf Hids Hshape Hgg Hfr Hpo t Hroot Ek).
    + exact (R_if g parent t Hok Hwf Hids Hshape Hgg Hfr Hpo t Hroot Ek).
    + exact (R_link g parent t Hok Hwf Hids Hfr t Hroot Ek).
  - apply good_graph_good. apply good_grown; assumption.
  - apply gids_grown.
  - intros x Hx. apply frame_find; assumption.
  - intros x rel L Hx Hnp. apply frame_neighbours; try assumption.
    intros pt E Eid. apply Hnp. unfold par in E. destruct parent as [pid|]; [|discriminate E].
    inversion E; subst pt. simpl in Eid. subst. reflexivity.
Qed.

Theorem graph_roundtrip_generic t :
  all_tables_ok = true -> add_interface_descends = true -> graph_wf t = true ->
  graph_roundtrip t = Ok t.
Proof.
  intros Hok Hdesc Hg. unfold graph_wf in Hg. repeat rewrite andb_true_iff in Hg.
  destruct Hg as [[[[Hwf Hk] Hids] Hnd] Hshape].
  assert (Hn := has_id_nid t (forallb_subtrees_root _ _ Hids)).
  assert (Hpo : parent_ok empty_graph None t = true).
  { unfold parent_ok. destruct (t_kind t); try reflexivity. discriminate Hk. }
  assert (Hgw : graph_wf_sub t = true) by (unfold graph_wf_sub; rewrite Hwf, Hids, Hshape; reflexivity).
  destruct (graph_under_generic empty_graph None t Hok Hdesc eq_refl Hgw Hnd Hpo) as [g' [HW [HR _]]].
  unfold graph_roundtrip. apply negb_true_iff in Hk. rewrite Hk. rewrite Hn.
  assert (HA : add_sliver empty_graph t = add_under empty_graph None t).
  { unfold add_sliver, add_under. destruct (t_kind t); reflexivity. }
  rewrite HA, HW. cbn [bind]. exact HR.
Qed.
