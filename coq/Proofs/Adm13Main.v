(* C13: the clauses stated about generate_adms / st_generate_adms / rewrite_delegations themselves. *)
From Coq Require Import List NArith Bool.
From FIM Require Import Gen.Adm13Gen Model.Adm13 Proofs.Adm13Spec Proofs.Adm13Props.
Import ListNotations.
Open Scope N_scope.

Lemma generate_adms_keys A : gnodes A <> [] ->
  exists L, generate_adms A = Ok L /\ map fst L = c_ids (catalog_delegations A).
Proof. intros Hne. eexists. split; [apply generate_adms_ok, Hne|]. rewrite map_map. apply map_id. Qed.

Lemma total_one_model_per_id A : wfb A = true -> gnodes A <> [] ->
  exists L, generate_adms A = Ok L /\ NoDup (map fst L) /\
            forall d, In d (map fst L) <-> exists n, In n (gnodes A) /\ delegated d n.
Proof.
  (* well-formedness plays no part: generate_adms_keys *)
  intros _ Hne. destruct (generate_adms_keys A Hne) as [L [HL E]]. exists L. rewrite E.
  split; [exact HL|]. split; [apply c_ids_NoDup | apply c_ids_In].
Qed.

Lemma empty_raises A : gnodes A = [] -> generate_adms A = Err EQuery.
Proof. intros E. unfold generate_adms, node_ids. rewrite E. reflexivity. Qed.

Section Transfer.
  Variables (A : graph) (L : list (N * graph)) (d : N) (P : graph).
  Hypothesis Hw : wfb A = true.
  Hypothesis HL : generate_adms A = Ok L.
  Hypothesis Hin : In (d, P) L.

  Let HP : P = adm_spec A d := proj1 (generate_adms_inv A L d P Hw HL Hin).

  Lemma present_exact n : In n (gnodes A) -> delegated d n -> exists n', In n' (gnodes P) /\ restricted d n n'.
  Proof.
    rewrite HP. intros Hi Hd. exists (restrict d n). split; [|apply (restricted_wf A Hw); assumption].
    apply adm_nodes. exists n. split; [exact Hi|]. split; [|reflexivity]. apply seed_kept; auto.
  Qed.

  Lemma no_leak n' d' x : In n' (gnodes P) ->
    In (d', x) (entries (ldel n')) \/ In (d', x) (entries (cdel n')) -> d' = d.
  Proof.
    rewrite HP. intros H. apply adm_nodes in H as [n [_ [_ ->]]].
    intros [H|H]; apply for_id_only in H; exact H.
  Qed.

  Lemma submodel :
    (forall n', In n' (gnodes P) -> exists n, In n (gnodes A) /\ restricted d n n') /\
    NoDup (node_ids P) /\
    (forall e, In e (gedges P) <-> In e (gedges A) /\ In (ea e) (node_ids P) /\ In (eb e) (node_ids P)).
  Proof.
    rewrite HP. split; [|split].
    - intros n' H. apply adm_nodes in H as [n [Hi [_ ->]]]. exists n. split; [exact Hi|]. apply (restricted_wf A Hw); assumption.
    - apply adm_ids_NoDup. exact Hw.
    - intros e. apply adm_edges_induced. exact Hw.
  Qed.

  Lemma stitch_everywhere n : In n (gnodes A) -> is_stitch n = true -> In (nid n) (node_ids P).
  Proof. rewrite HP. intros Hi Hs. apply kept_in; [|apply seed_kept]; auto. Qed.

  (* closure, from an interface delegated to d (or a stitch interface): link and peers *)
  Lemma closure_seed c l p e1 e2 :
    In c (gnodes A) -> ncls c = CLS_ConnectionPoint -> (delegated d c \/ is_stitch c = true) ->
    In l (gnodes A) -> ncls l = CLS_Link -> In e1 (gedges A) -> joins e1 (nid c) (nid l) -> ecls e1 = REL_connects ->
    In p (gnodes A) -> ncls p = CLS_ConnectionPoint -> In e2 (gedges A) -> joins e2 (nid l) (nid p) -> ecls e2 = REL_connects ->
    nid p <> nid c ->
    In (nid c) (node_ids P) /\ In (nid l) (node_ids P) /\ In (nid p) (node_ids P) /\ In e1 (gedges P) /\ In e2 (gedges P).
  Proof.
    rewrite HP. intros Hc Hcc Hseed Hl Hlc He1 Hj1 Hr1 Hp Hpc He2 Hj2 Hr2 Hne.
    destruct gen_shape as [Ecp [Elink _]].
    assert (Hpair : In (nid l, nid p) (link_pairs A (keep_cps0 A (seeds A d)))).
    { apply in_flat_map. exists (nid c). split.
      - apply keep_cps0_In. split; [apply seeds_In|]; exists c; rewrite ?Ecp; auto.
      - rewrite Elink. apply (trace_complete A Hw (nid c) l p e1 e2 _ _ _ _ Hl Hlc He1 Hj1 Hr1 Hp Hpc He2 Hj2 Hr2 Hne).
        apply (nid_ne A Hw); auto. rewrite Hpc, Hlc. discriminate. }
    assert (K : In (nid l) (keepset A d) /\ In (nid p) (keepset A d))
      by (split; rewrite keepset_seeds; apply keepset_from_In; right; left; apply pair_ids_In; exists (nid l, nid p); auto).
    destruct K as [Kl Kp]. pose proof (seed_kept A d c Hc Hseed) as Kc.
    repeat split; eauto using kept_in, edge_kept.
  Qed.

  (* closure, from ANY interface of the partition: owning service and that service's owner *)
  Lemma closure_service c s o e1 e2 :
    In c (gnodes A) -> ncls c = CLS_ConnectionPoint -> In (nid c) (node_ids P) ->
    In s (gnodes A) -> ncls s = CLS_NetworkService -> In e1 (gedges A) -> joins e1 (nid c) (nid s) -> ecls e1 = REL_connects ->
    In o (gnodes A) -> (ncls o = CLS_NetworkNode \/ ncls o = CLS_Component) ->
    In e2 (gedges A) -> joins e2 (nid s) (nid o) -> ecls e2 = REL_has ->
    In (nid s) (node_ids P) /\ In (nid o) (node_ids P) /\ In e1 (gedges P) /\ In e2 (gedges P).
  Proof.
    rewrite HP. intros Hc Hcc Hk Hs Hsc He1 Hj1 Hr1 Ho Hoc He2 Hj2 Hr2.
    apply adm_ids in Hk as [_ Kc]. destruct gen_shape as [_ [_ [Eown _]]].
    assert (Hpair : In (nid s, nid o)
              (owner_pairs A (traced_cps A d))).
    { apply in_flat_map. exists (nid c). split; [apply kept_cp_traced; assumption|].
      apply in_flat_map. exists (REL_connects, CLS_NetworkService, REL_has, ncls o). split.
      - rewrite Eown. destruct Hoc as [->| ->]; simpl; auto.
      - apply (trace_complete A Hw (nid c) s o e1 e2 _ _ _ _ Hs Hsc He1 Hj1 Hr1 Ho eq_refl He2 Hj2 Hr2);
          apply (nid_ne A Hw); auto; rewrite ?Hcc, ?Hsc; destruct Hoc as [->| ->]; discriminate. }
    assert (K : In (nid s) (keepset A d) /\ In (nid o) (keepset A d))
      by (split; rewrite keepset_seeds; apply keepset_from_In; right; right; apply pair_ids_In; exists (nid s, nid o); auto).
    destruct K as [Ks Ko]. repeat split; eauto using kept_in, edge_kept.
  Qed.

  Lemma P_rekeyable : rekeyable P /\ gnodes P <> [].
  Proof.
    split; [rewrite HP; apply adm_rekeyable, wfb_NoDup, Hw|].
    destruct (proj1 (c_ids_In A d) (proj2 (generate_adms_inv A L d P Hw HL Hin))) as [n [Hn Hd]].
    destruct (present_exact n Hn Hd) as [n' [Hn' _]]. intros E. rewrite E in Hn'. exact Hn'.
  Qed.

  Lemma rekey_only_key gid :
    rewrite_delegations P gid = (mkGraph (map (rekeyed gid) (gnodes P)) (gedges P), None).
  Proof. apply rewrite_delegations_ok; apply P_rekeyable. Qed.

  Lemma rekey_twice g1 g2 :
    rewrite_delegations (fst (rewrite_delegations P g1)) g2 = rewrite_delegations P g2.
  Proof. apply rewrite_delegations_twice; apply P_rekeyable. Qed.

  Lemma rekey_idempotent gid :
    rewrite_delegations (fst (rewrite_delegations P gid)) gid = (fst (rewrite_delegations P gid), None) /\
    rewrite_delegations P d = (P, None).
  Proof.
    split.
    - rewrite rekey_twice. rewrite rekey_only_key. reflexivity.
    - rewrite rekey_only_key. f_equal. rewrite <- (graph_eta P) at 3. f_equal.
      rewrite <- (map_id (gnodes P)) at 2. apply map_ext_in. intros n Hn. apply rekeyed_same_key.
      intros d' x Hx. apply (no_leak n d' x Hn Hx).
  Qed.
End Transfer.

Lemma sget_sset st gid g k : sget (sset st gid g) k = if k =? gid then Some g else sget st k.
Proof.
  unfold sget. induction st as [|[k' v] st IH]; simpl.
  - rewrite N.eqb_sym. reflexivity.
  - destruct (k' =? gid) eqn:E; simpl.
    + apply N.eqb_eq in E. subst k'. rewrite (N.eqb_sym gid k). destruct (k =? gid); reflexivity.
    + rewrite IH. destruct (k' =? k) eqn:F; [|reflexivity]. apply N.eqb_eq in F. subst k'. rewrite E. reflexivity.
Qed.

Lemma sget_supd st gid f k :
  sget (supd st gid f) k = if k =? gid then option_map f (sget st k) else sget st k.
Proof.
  unfold sget, supd. induction st as [|[k' v] st IH]; simpl.
  - destruct (k =? gid); reflexivity.
  - destruct (k' =? k) eqn:F.
    + apply N.eqb_eq in F. subst k'. destruct (k =? gid); simpl; rewrite N.eqb_refl; reflexivity.
    + destruct (k' =? gid); simpl; rewrite F; exact IH.
Qed.

Lemma sget_fold_supd {X} (F : graph -> X -> graph) gid (xs : list X) : forall st k,
  sget (fold_left (fun s x => supd s gid (fun g => F g x)) xs st) k =
  if k =? gid then option_map (fun g => fold_left F xs g) (sget st k) else sget st k.
Proof.
  induction xs as [|x xs IH]; intros st k; simpl.
  - destruct (k =? gid); [destruct (sget st k)|]; reflexivity.
  - rewrite IH, sget_supd. destruct (k =? gid); [|reflexivity]. destruct (sget st k); reflexivity.
Qed.

Lemma sview_sget st k g : sget st k = Some g -> sview st k = g.
Proof. unfold sview. intros ->. reflexivity. Qed.

(* every write of a partitioning is addressed to one of the new graph ids: whatever the graphs and the ids are,
   nothing else in the store changes *)
Lemma st_gen_one_frame garm ids c stitch st d gid k : k <> gid ->
  sget (st_gen_one garm ids c stitch st (d, gid)) k = sget st k.
Proof.
  intros Hk. apply N.eqb_neq in Hk. unfold st_gen_one.
  rewrite (sget_fold_supd delete_node), Hk, (sget_fold_supd (rewrite_node (c_by c) d)), Hk, sget_sset, Hk. reflexivity.
Qed.

Lemma st_gen_all_frame garm ids c stitch dgs : forall st k, ~ In k (map snd dgs) ->
  sget (fold_left (st_gen_one garm ids c stitch) dgs st) k = sget st k.
Proof.
  induction dgs as [|[d gid] dgs IH]; intros st k Hk; [reflexivity|]. cbn [fold_left].
  rewrite IH, st_gen_one_frame; [reflexivity | |]; intros E; apply Hk; simpl; auto.
Qed.

Theorem st_generate_adms_frame st garm supplied fresh st' dgs :
  st_generate_adms st garm supplied fresh = (st', Ok dgs) ->
  forall k, ~ In k (map snd dgs) -> sget st' k = sget st k.
Proof.
  unfold st_generate_adms. destruct (node_ids _); [discriminate|]. destruct (guids_ok _ _ _); [|discriminate].
  intros R. injection R as <- <-. apply st_gen_all_frame.
Qed.

(* one delegation id: clone under the new graph id, write to the clone, read the traces from the source *)
Lemma st_gen_one_spec garm A ids c stitch st d gid :
  sget st garm = Some A -> gid <> garm ->
  sget (st_gen_one garm ids c stitch st (d, gid)) gid = Some (gen_one A ids c stitch d).
Proof.
  intros HA Hne. apply N.eqb_neq in Hne. unfold st_gen_one, gen_one.
  set (st2 := fold_left (fun s id => supd s gid (fun g => rewrite_node (c_by c) d g id)) ids _).
  assert (S2 : forall k, sget st2 k =
                         if k =? gid then Some (fold_left (rewrite_node (c_by c) d) ids A) else sget st k).
  { intros k. unfold st2. rewrite (sget_fold_supd (rewrite_node (c_by c) d)), sget_sset, (sview_sget _ _ _ HA).
    destruct (k =? gid); reflexivity. }
  rewrite (sview_sget st2 garm A) by (rewrite S2, N.eqb_sym, Hne; exact HA).
  rewrite (sget_fold_supd delete_node), S2, N.eqb_refl. reflexivity.
Qed.

Lemma st_gen_all garm A ids c stitch dgs : forall st,
  sget st garm = Some A -> ~ In garm (map snd dgs) -> NoDup (map snd dgs) ->
  forall d gid, In (d, gid) dgs ->
  sget (fold_left (st_gen_one garm ids c stitch) dgs st) gid = Some (gen_one A ids c stitch d).
Proof.
  induction dgs as [|[d0 g0] dgs IH]; intros st HA Hnot Hnd d gid Hi; [destruct Hi|].
  cbn [fold_left map snd In] in *. apply NoDup_cons_iff in Hnd as [Hg Hnd].
  assert (Hne : g0 <> garm) by tauto. destruct Hi as [E|Hi].
  - injection E as -> ->. rewrite st_gen_all_frame by exact Hg. apply st_gen_one_spec; assumption.
  - apply IH; [rewrite st_gen_one_frame by auto; exact HA | tauto | exact Hnd | exact Hi].
Qed.

Lemma gid_for_cases supplied fresh ds x : In x (map (gid_for supplied fresh) ds) ->
  In x (supplied_for supplied ds) \/ In x (map fresh (generated_ids supplied ds)).
Proof.
  induction ds as [|d ds IH]; simpl; [tauto|]. unfold gid_for at 1.
  unfold supplied_for, generated_ids in *. simpl.
  destruct (assoc d supplied) as [g|]; simpl.
  - intros [H|H]; [left; left; exact H|]. destruct (IH H); [left; right|right]; assumption.
  - intros [H|H]; [right; left; exact H|]. destruct (IH H); [left|right; right]; assumption.
Qed.

Lemma gid_for_fresh garm supplied fresh ds :
  guids_ok garm supplied ds = true -> uuid_fresh garm supplied fresh ds ->
  ~ In garm (map (gid_for supplied fresh) ds) /\ NoDup (map (gid_for supplied fresh) ds).
Proof.
  unfold guids_ok, uuid_fresh. rewrite andb_true_iff, negb_true_iff, memb_false, nodupb_NoDup.
  intros [Hg Hn] [Ug [Un Ud]]. split.
  - intros H. apply gid_for_cases in H. tauto.
  - clear Hg Ug. induction ds as [|d ds IH]; simpl; [constructor|].
    unfold supplied_for, generated_ids in *. simpl in *. unfold gid_for at 1.
    destruct (assoc d supplied) as [g|] eqn:E; simpl in *.
    + inversion Hn; subst. constructor.
      * intros H. apply gid_for_cases in H. destruct H as [H|H]; [contradiction|].
        apply in_map_iff in H. destruct H as [d' [E' H]]. apply (Ud d' H). left. symmetry. exact E'.
      * apply IH; [assumption | assumption |]. intros d' Hd' Hi. apply (Ud d' Hd'). right. exact Hi.
    + inversion Un; subst. constructor.
      * intros H. apply gid_for_cases in H. destruct H as [H|H]; [|contradiction].
        apply (Ud d (or_introl eq_refl)). exact H.
      * apply IH; [assumption | assumption |]. intros d' Hd' Hi. apply (Ud d' (or_intror Hd')). exact Hi.
Qed.

(* a run that returns: the store afterwards is the old one with adm_spec A d under the graph id of every d, and
   the ARM's own id is not among those ids.  Nothing is assumed of the caller's delegation_guids (a bad dictionary
   is rejected, see below); uuid_fresh is about the ids uuid4 hands out for the delegation ids the caller did not
   mention. *)
Theorem st_generate_adms_spec st garm A supplied fresh st' dgs :
  sget st garm = Some A -> wfb A = true ->
  let ds := c_ids (catalog_delegations A) in
  uuid_fresh garm supplied fresh ds ->
  st_generate_adms st garm supplied fresh = (st', Ok dgs) ->
  gnodes A <> [] /\ dgs = map (fun d => (d, gid_for supplied fresh d)) ds /\ ~ In garm (map snd dgs) /\
  (forall d, In d ds -> sget st' (gid_for supplied fresh d) = Some (adm_spec A d)).
Proof.
  intros HA Hw ds Hu. unfold st_generate_adms. rewrite (sview_sget _ _ _ HA). fold ds.
  destruct (node_ids A) eqn:E; [discriminate|]. rewrite <- E.
  destruct (guids_ok garm supplied ds) eqn:Hok; [|discriminate]. intros R. injection R as <- <-.
  destruct (gid_for_fresh garm supplied fresh ds Hok Hu) as [Hfresh Hnd].
  set (dgs := map (fun d => (d, gid_for supplied fresh d)) ds).
  assert (Hs : map snd dgs = map (gid_for supplied fresh) ds) by (unfold dgs; rewrite map_map; reflexivity).
  rewrite Hs.
  split; [intros H; unfold node_ids in E; rewrite H in E; discriminate|].
  split; [reflexivity|]. split; [exact Hfresh|].
  intros d Hd. rewrite <- (gen_one_spec A d (wfb_NoDup A Hw) (wfb_edges_in A Hw)).
  apply (st_gen_all garm A _ _ _ dgs st HA); [rewrite Hs; assumption ..|]. apply in_map_iff. exists d. auto.
Qed.

Lemma source_untouched st garm A supplied fresh st' dgs :
  sget st garm = Some A -> wfb A = true ->
  uuid_fresh garm supplied fresh (c_ids (catalog_delegations A)) ->
  st_generate_adms st garm supplied fresh = (st', Ok dgs) ->
  exists L, generate_adms A = Ok L /\
    dgs = map (fun dp => (fst dp, gid_for supplied fresh (fst dp))) L /\
    sget st' garm = Some A /\
    (forall d P, In (d, P) L -> sget st' (gid_for supplied fresh d) = Some P) /\
    (forall k, ~ In k (map snd dgs) -> sget st' k = sget st k).
Proof.
  intros HA Hw Hu Hrun.
  destruct (st_generate_adms_spec _ _ _ _ _ _ _ HA Hw Hu Hrun) as [Hne [E [Hg S3]]].
  pose proof (st_generate_adms_frame _ _ _ _ _ _ Hrun) as S4.
  exists (map (fun d => (d, adm_spec A d)) (c_ids (catalog_delegations A))).
  split; [apply generate_adms_spec; assumption|].
  split; [rewrite map_map; exact E|]. split; [rewrite S4; assumption|]. split; [|exact S4].
  intros d P Hi. apply in_map_iff in Hi as [d' [Ed Hi]]. inversion Ed; subst. apply S3. exact Hi.
Qed.

Lemma bad_guids_rejected st garm supplied fresh :
  guids_ok garm supplied (c_ids (catalog_delegations (sview st garm))) = false ->
  st_generate_adms st garm supplied fresh = (st, Err EQuery).
Proof.
  intros H. unfold st_generate_adms. destruct (node_ids (sview st garm)); [reflexivity|]. rewrite H. reflexivity.
Qed.

Lemma guids_ok_iff garm supplied ds :
  guids_ok garm supplied ds = true <->
  ~ In garm (supplied_for supplied ds) /\ NoDup (supplied_for supplied ds).
Proof. unfold guids_ok. rewrite andb_true_iff, negb_true_iff, memb_false, nodupb_NoDup. tauto. Qed.

(* The outcome of generate_adms for the graph stored under garm depends only on that graph (and the supplied /
   generated ids), not on what else is in the store -- in particular not on the partitions left by, or anything
   computed in, an earlier call.  (The implementation keeps self.node_ids on the ARM object; that it re-lists
   the nodes on every call is what the history stream of the correspondence checks.) *)
Lemma outcome_only_current st1 st2 garm supplied fresh :
  sview st1 garm = sview st2 garm ->
  snd (st_generate_adms st1 garm supplied fresh) = snd (st_generate_adms st2 garm supplied fresh).
Proof.
  intros H. unfold st_generate_adms. rewrite H.
  destruct (node_ids (sview st2 garm)); [reflexivity|]. destruct (guids_ok _ _ _); reflexivity.
Qed.

Lemma depends_only_on_current_graph st1 st2 garm A supplied fresh st1' st2' dgs1 dgs2 :
  sget st1 garm = Some A -> sget st2 garm = Some A -> wfb A = true ->
  uuid_fresh garm supplied fresh (c_ids (catalog_delegations A)) ->
  st_generate_adms st1 garm supplied fresh = (st1', Ok dgs1) ->
  st_generate_adms st2 garm supplied fresh = (st2', Ok dgs2) ->
  dgs1 = dgs2 /\ (forall d gid, In (d, gid) dgs1 -> sget st1' gid = sget st2' gid) /\
  sget st1' garm = Some A /\ sget st2' garm = Some A.
Proof.
  intros H1 H2 Hw Hu R1 R2.
  destruct (source_untouched _ _ _ _ _ _ _ H1 Hw Hu R1) as [L1 [G1 [D1 [S1 [P1 _]]]]].
  destruct (source_untouched _ _ _ _ _ _ _ H2 Hw Hu R2) as [L2 [G2 [D2 [S2 [P2 _]]]]].
  rewrite G1 in G2. inversion G2; subst L2. split; [congruence|]. split; [|tauto].
  intros d gid Hi. rewrite D1 in Hi. apply in_map_iff in Hi. destruct Hi as [[d' P] [E Hi]]. simpl in E.
  inversion E; subst. rewrite (P1 _ _ Hi), (P2 _ _ Hi). reflexivity.
Qed.

Lemma repeatable st garm A sup1 fresh1 sup2 fresh2 st' dgs1 st'' dgs2 :
  sget st garm = Some A -> wfb A = true ->
  uuid_fresh garm sup1 fresh1 (c_ids (catalog_delegations A)) ->
  uuid_fresh garm sup2 fresh2 (c_ids (catalog_delegations A)) ->
  st_generate_adms st garm sup1 fresh1 = (st', Ok dgs1) ->
  st_generate_adms st' garm sup2 fresh2 = (st'', Ok dgs2) ->
  exists L, generate_adms A = Ok L /\ sget st'' garm = Some A /\
    (forall d P, In (d, P) L -> sget st' (gid_for sup1 fresh1 d) = Some P /\ sget st'' (gid_for sup2 fresh2 d) = Some P).
Proof.
  intros HA Hw U1 U2 R1 R2.
  destruct (source_untouched _ _ _ _ _ _ _ HA Hw U1 R1) as [L1 [G1 [_ [S1 [P1 _]]]]].
  destruct (source_untouched _ _ _ _ _ _ _ S1 Hw U2 R2) as [L2 [G2 [_ [S2 [P2 _]]]]].
  rewrite G1 in G2. inversion G2; subst L2. exists L1. split; [exact G1|]. split; [exact S2|].
  intros d P Hi. split; [apply P1 | apply P2]; exact Hi.
Qed.

Lemma rekey_frame st gid key k : k <> gid -> sget (fst (st_rewrite_delegations st gid key)) k = sget st k.
Proof.
  intros Hne. unfold st_rewrite_delegations. destruct (sget st gid); [|reflexivity]. simpl.
  rewrite sget_supd. apply N.eqb_neq in Hne. rewrite Hne. reflexivity.
Qed.

Lemma rekey_at st gid key g : sget st gid = Some g ->
  sget (fst (st_rewrite_delegations st gid key)) gid = Some (fst (rewrite_delegations g key)) /\
  snd (st_rewrite_delegations st gid key) = snd (rewrite_delegations g key).
Proof.
  intros H. unfold st_rewrite_delegations. rewrite H. simpl. rewrite sget_supd, N.eqb_refl, H. auto.
Qed.

Lemma rekey_then_repartition st garm A sup1 fresh1 st1 dgs1 d gid key sup2 fresh2 st3 dgs2 :
  sget st garm = Some A -> wfb A = true ->
  uuid_fresh garm sup1 fresh1 (c_ids (catalog_delegations A)) ->
  uuid_fresh garm sup2 fresh2 (c_ids (catalog_delegations A)) ->
  st_generate_adms st garm sup1 fresh1 = (st1, Ok dgs1) -> In (d, gid) dgs1 ->
  let st2 := fst (st_rewrite_delegations st1 gid key) in
  st_generate_adms st2 garm sup2 fresh2 = (st3, Ok dgs2) ->
  gid <> garm /\ sget st2 garm = Some A /\
  exists L, generate_adms A = Ok L /\ sget st3 garm = Some A /\
    (forall d' P, In (d', P) L -> sget st3 (gid_for sup2 fresh2 d') = Some P).
Proof.
  intros HA Hw U1 U2 R1 Hi st2 R2.
  destruct (st_generate_adms_spec _ _ _ _ _ _ _ HA Hw U1 R1) as [_ [_ [Hg _]]].
  pose proof (st_generate_adms_frame _ _ _ _ _ _ R1) as S4.
  assert (Hne : gid <> garm) by (intros ->; apply Hg; apply (in_map snd) in Hi; exact Hi).
  assert (S2 : sget st2 garm = Some A) by (unfold st2; rewrite rekey_frame, S4; auto).
  split; [exact Hne|]. split; [exact S2|].
  destruct (source_untouched _ _ _ _ _ _ _ S2 Hw U2 R2) as [L2 [G2 [_ [S3 [P3 _]]]]].
  exists L2. auto.
Qed.

Lemma earlier_result_unchanged st garm1 A1 sup1 fresh1 st1 dgs1 garm2 A2 sup2 fresh2 st2 dgs2 :
  sget st garm1 = Some A1 -> wfb A1 = true -> uuid_fresh garm1 sup1 fresh1 (c_ids (catalog_delegations A1)) ->
  st_generate_adms st garm1 sup1 fresh1 = (st1, Ok dgs1) ->
  sget st1 garm2 = Some A2 -> wfb A2 = true -> uuid_fresh garm2 sup2 fresh2 (c_ids (catalog_delegations A2)) ->
  st_generate_adms st1 garm2 sup2 fresh2 = (st2, Ok dgs2) ->
  (forall gid, In gid (map snd dgs1) -> ~ In gid (map snd dgs2)) ->
  exists L1, generate_adms A1 = Ok L1 /\
    forall d P, In (d, P) L1 -> sget st2 (gid_for sup1 fresh1 d) = Some P.
Proof.
  (* of the later call only its frame is used, and that needs none of its three hypotheses *)
  intros H1 W1 U1 R1 _ _ _ R2 Hdis.
  destruct (source_untouched _ _ _ _ _ _ _ H1 W1 U1 R1) as [L1 [G1 [D1 [_ [P1 _]]]]].
  exists L1. split; [exact G1|]. intros d P Hi. rewrite (st_generate_adms_frame _ _ _ _ _ _ R2); [apply P1; exact Hi|].
  apply Hdis. rewrite D1, map_map. simpl. apply in_map_iff. exists (d, P). auto.
Qed.

(* closure is one hop deep: a -L1- b -L2- c, only a carries a delegation (capacity, id 1).  b is kept as the
   peer of a; b's other link L2 and its peer c are not. *)
Definition wit_A : graph :=
  mkGraph [mkNode 1 CLS_ConnectionPoint None 0 None (Some [(1, DSingle 1)]);
           mkNode 2 CLS_ConnectionPoint None 0 None None;
           mkNode 3 CLS_ConnectionPoint None 0 None None;
           mkNode 4 CLS_Link None 0 None None;
           mkNode 5 CLS_Link None 0 None None]
          [mkEdge 1 4 REL_connects 0; mkEdge 2 4 REL_connects 0; mkEdge 2 5 REL_connects 0; mkEdge 3 5 REL_connects 0].
Definition wit_P : graph :=
  mkGraph [mkNode 1 CLS_ConnectionPoint None 0 None (Some [(1, DSingle 1)]);
           mkNode 2 CLS_ConnectionPoint None 0 None None;
           mkNode 4 CLS_Link None 0 None None]
          [mkEdge 1 4 REL_connects 0; mkEdge 2 4 REL_connects 0].

Lemma closure_every_kept_interface_refuted :
  exists A L d P c l p e1 e2,
    wfb A = true /\ generate_adms A = Ok L /\ In (d, P) L /\
    In c (gnodes A) /\ ncls c = CLS_ConnectionPoint /\ In (nid c) (node_ids P) /\
    In l (gnodes A) /\ ncls l = CLS_Link /\ In e1 (gedges A) /\ joins e1 (nid c) (nid l) /\ ecls e1 = REL_connects /\
    In p (gnodes A) /\ ncls p = CLS_ConnectionPoint /\ In e2 (gedges A) /\ joins e2 (nid l) (nid p) /\ ecls e2 = REL_connects /\
    nid p <> nid c /\
    ~ In (nid l) (node_ids P).
Proof.
  exists wit_A, [(1, wit_P)], 1, wit_P,
         (mkNode 2 CLS_ConnectionPoint None 0 None None), (mkNode 5 CLS_Link None 0 None None),
         (mkNode 3 CLS_ConnectionPoint None 0 None None), (mkEdge 2 5 REL_connects 0), (mkEdge 3 5 REL_connects 0).
  split; [vm_compute; reflexivity|]. split; [vm_compute; reflexivity|].
  split; [left; reflexivity|].
  split; [simpl; tauto|]. split; [reflexivity|]. split; [simpl; tauto|].
  split; [simpl; tauto|]. split; [reflexivity|]. split; [simpl; tauto|]. split; [left; split; reflexivity|].
  split; [reflexivity|].
  split; [simpl; tauto|]. split; [reflexivity|]. split; [simpl; tauto|]. split; [right; split; reflexivity|].
  split; [reflexivity|]. split; [simpl; discriminate|].
  simpl. intros [H|[H|[H|[]]]]; discriminate.
Qed.

(* two workers' interfaces (1, 2) on services (6, 7) of nodes (8, 9), switch ports 3 and 4 (4 a stitch node) on a
   stitch service (10) of a stitch switch (11), links 12 (1-3) and 13 (2-4); node 1 is label-only for id 1,
   node 2 capacity-only for id 2 plus a pool reference for id 1, node 8 both types for id 1 and id 2. *)
Definition ex_A : graph :=
  mkGraph [mkNode 1 CLS_ConnectionPoint (Some 2) 7 (Some [(1, DSingle 1)]) None;
           mkNode 2 CLS_ConnectionPoint (Some 2) 7 (Some [(1, DPoolRef 1)]) (Some [(2, DSingle 2)]);
           mkNode 3 CLS_ConnectionPoint (Some 2) 7 None None;
           mkNode 4 CLS_ConnectionPoint (Some 1) 7 None None;
           mkNode 6 CLS_NetworkService (Some 2) 7 None None;
           mkNode 7 CLS_NetworkService (Some 2) 7 None None;
           mkNode 8 CLS_NetworkNode (Some 2) 7 (Some [(1, DPoolDef 1 3); (2, DSingle 4)]) (Some [(1, DSingle 5); (2, DSingle 6)]);
           mkNode 9 CLS_Component (Some 2) 7 None None;
           mkNode 10 CLS_NetworkService (Some 1) 7 None None;
           mkNode 11 CLS_NetworkNode (Some 1) 7 None None;
           mkNode 12 CLS_Link (Some 2) 7 None None;
           mkNode 13 CLS_Link (Some 2) 7 None None;
           mkNode 14 CLS_NetworkNode (Some 2) 7 None None]
          [mkEdge 1 6 REL_connects 0; mkEdge 2 7 REL_connects 0; mkEdge 6 8 REL_has 0; mkEdge 7 9 REL_has 0;
           mkEdge 3 10 REL_connects 0; mkEdge 4 10 REL_connects 0; mkEdge 10 11 REL_has 0;
           mkEdge 1 12 REL_connects 0; mkEdge 3 12 REL_connects 0; mkEdge 2 13 REL_connects 0; mkEdge 4 13 REL_connects 0;
           mkEdge 9 14 REL_has 0].

Lemma ex_nonvacuous :
  wfb ex_A = true /\
  (exists L, generate_adms ex_A = Ok L /\ map fst L = [1; 2] /\
     (* both partitions are proper sub-models, and differ *)
     map (fun dp => node_ids (snd dp)) L = [[1; 2; 3; 4; 6; 7; 8; 9; 10; 11; 12; 13]; [2; 4; 7; 8; 9; 10; 11; 13]] /\
     (* node 8 carries exactly its own entries in each *)
     map (fun dp => option_map (fun n => (ldel n, cdel n)) (find_node (snd dp) 8)) L =
       [Some (Some [(1, DPoolDef 1 3)], Some [(1, DSingle 5)]); Some (Some [(2, DSingle 4)], Some [(2, DSingle 6)])] /\
     (* re-keying succeeds on both *)
     map (fun dp => snd (rewrite_delegations (snd dp) 99)) L = [None; None] /\
     (* and raises on the aggregate model itself (node 8 holds two ids) *)
     snd (rewrite_delegations ex_A 99) = Some EQuery) /\
  (* store level next to a bystander graph (50): id 1 gets the supplied graph id 101, id 2 a generated one (102);
     supplying the ARM's own id (100), or one id twice, is rejected and nothing is touched *)
  (exists st', st_generate_adms [(50, wit_A); (100, ex_A)] 100 [(1, 101); (7, 100)] (fun d => 100 + d) = (st', Ok [(1, 101); (2, 102)]) /\
     map fst st' = [50; 100; 101; 102] /\ sget st' 100 = Some ex_A /\ sget st' 50 = Some wit_A /\
     uuid_fresh 100 [(1, 101); (7, 100)] (fun d => 100 + d) (c_ids (catalog_delegations ex_A))) /\
  st_generate_adms [(50, wit_A); (100, ex_A)] 100 [(2, 100)] (fun d => 100 + d) = ([(50, wit_A); (100, ex_A)], Err EQuery) /\
  st_generate_adms [(50, wit_A); (100, ex_A)] 100 [(1, 77); (2, 77)] (fun d => 100 + d) = ([(50, wit_A); (100, ex_A)], Err EQuery).
Proof.
  (* every witness is a closed term, so that each clause is one evaluation of a closed goal *)
  split; [vm_compute; reflexivity|]. split.
  - exists (match generate_adms ex_A with Ok L => L | Err _ => [] end).
    do 5 (split; [vm_compute; reflexivity|]). vm_compute; reflexivity.
  - split; [|split; vm_compute; reflexivity].
    exists (fst (st_generate_adms [(50, wit_A); (100, ex_A)] 100 [(1, 101); (7, 100)] (fun d => 100 + d))).
    do 4 (split; [vm_compute; reflexivity|]).
    replace (c_ids (catalog_delegations ex_A)) with [1; 2] by (vm_compute; reflexivity).
    split; [intros [H|[]]; discriminate|]. split; [constructor; [intros []|constructor]|].
    intros d [<-|[]] [H|[]]. discriminate.
Qed.
