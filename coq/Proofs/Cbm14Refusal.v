(* C14 - refusals that are not clean (store-level model): concrete witnesses, replayed on the implementation by the
   harness (known findings F5, F6; F7 is about the statement order of rollback before its repair). *)
From Coq Require Import List NArith.
From FIM Require Import Model.Cbm14Store Model.Cbm14Check.
Import ListNotations.
Open Scope N_scope.

(* source 1 and source 2 both delegate node 10; they also share node 11 *)
Definition rf_store : store :=
  mkStore [mkNode 1 1 10 1 [] SAbs DAbs (DDict [(7, 8)]); mkNode 2 1 11 2 [] SAbs DAbs DAbs; mkNode 3 1 12 3 [] SAbs DAbs DAbs;
           mkNode 4 2 10 1 [] SAbs DAbs (DDict [(7, 9)]); mkNode 5 2 11 2 [] SAbs DAbs DAbs; mkNode 6 2 13 3 [] SAbs DAbs DAbs]
          [mkEdge 1 2 4 [] false; mkEdge 4 5 4 [] false] 7.
Definition the_store (o : outcome) : store := match o with OOk s => s | OErr _ s => s | OErrU _ => rf_store end.
Definition rf_merged : store := the_store (merge_adm 0 1 100 rf_store).

(* F5: the second merge is refused at node 10; when node 11 is met first it is already merged, and in any case the
   temporary clone stays in the store *)
Theorem refused_merge_not_atomic :
  exists st', step_o 0 (OpMerge 2 101) [11; 10] rf_merged = OErr EPGQ st' /\
              view_of 0 st' <> view_of 0 rf_merged /\ gexists 101 st' = true /\
              exists st'', step_o 0 (OpMerge 2 101) [10; 11] rf_merged = OErr EPGQ st'' /\
                           view_of 0 st'' = view_of 0 rf_merged /\ gexists 101 st'' = true.
Proof.
  eexists. split; [vm_compute; reflexivity|]. split; [vm_compute; discriminate|]. split; [vm_compute; reflexivity|].
  eexists. split; [vm_compute; reflexivity|]. split; vm_compute; reflexivity.
Qed.

(* F6: a model that delegates nothing can be merged twice; one unmerge does not undo it *)
Definition rm_store : store :=
  mkStore [mkNode 1 1 10 1 [] SAbs DAbs DAbs; mkNode 2 1 11 2 [] SAbs DAbs DAbs] [mkEdge 1 2 4 [] false] 3.
Theorem remerge_not_refused :
  exists s1 s2 s3, merge_adm 0 1 100 rm_store = OOk s1 /\ merge_adm 0 1 101 s1 = OOk s2 /\
                   map n_si (of_gid 0 s2) = [SIds [1; 1]; SIds [1; 1]] /\
                   unmerge_adm 0 1 s2 = OOk s3 /\ map n_si (of_gid 0 s3) = [SIds [1]; SIds [1]].
Proof.
  eexists. eexists. eexists. split; [vm_compute; reflexivity|]. split; [vm_compute; reflexivity|].
  split; [vm_compute; reflexivity|]. split; vm_compute; reflexivity.
Qed.

(* F7: with the UNREPAIRED statement order (delete_graph before the lookup) rollback to a snapshot id that does not
   exist deletes the combined graph, then fails *)
Theorem rollback_unknown_destroys :
  exists s1 s2, merge_adm 0 1 100 rm_store = OOk s1 /\ gexists 0 s1 = true /\
                rollback_gen false 0 55 s1 = OErr EAssert s2 /\ gexists 0 s2 = false.
Proof.
  eexists. eexists. split; [vm_compute; reflexivity|]. split; [vm_compute; reflexivity|]. split; vm_compute; reflexivity.
Qed.

(* with the REPAIRED order (lookup first) the full statement holds: rollback to an unknown or already used snapshot id
   is refused and changes nothing *)
Theorem rollback_unknown_refused cbm sid st :
  gexists sid st = false -> rollback_gen true cbm sid st = OErr EAssert st.
Proof. intro G. unfold rollback_gen. rewrite G. reflexivity. Qed.

(* the model follows the source: which of the two the code does is regenerated on every run *)
Lemma gen_ok_true : Cbm14Gen.gen_ok = true.
Proof. reflexivity. Qed.
Lemma rollback_follows_source : rollback = rollback_gen Cbm14Gen.rollback_checks_first.
Proof. reflexivity. Qed.
