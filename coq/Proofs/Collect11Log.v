(* C11: the LogCollector summary equals a direct tally of the slice. *)
From Coq Require Import List ZArith NArith Permutation Lia.
From FIM Require Import Base.Str Base.ListFacts Gen.CollectGen Model.Collect11 Model.Collect11Spec Proofs.Collect11Tables Proofs.Collect11Attrs.
Import ListNotations.
Open Scope Z_scope.

Lemma smem_In x l : smem x l = true <-> In x l.
Proof. apply existsb_eqb_In, str_eqb_eq. Qed.

Lemma sadd_In x y l : In x (sadd y l) <-> In x l \/ y = x.
Proof. exact (add_once_In str_eqb str_eqb_eq y l x). Qed.

Lemma sadd_NoDup y l : NoDup l -> NoDup (sadd y l).
Proof. exact (add_once_NoDup str_eqb str_eqb_eq y l). Qed.

Lemma countb_cons {A} (f : A -> bool) x l : countb f (x :: l) = (if f x then 1 else 0) + countb f l.
Proof. unfold countb. simpl. destruct (f x); simpl List.length; lia. Qed.

Lemma countb_app {A} (f : A -> bool) a b : countb f (a ++ b) = countb f a + countb f b.
Proof. unfold countb. rewrite filter_app, app_length. lia. Qed.

Lemma countb_nil {A} (f : A -> bool) : countb f [] = 0.
Proof. reflexivity. Qed.

Lemma sumZ_app a b : sumZ (a ++ b) = sumZ a + sumZ b.
Proof. unfold sumZ. induction a as [|x r IH]; simpl; [reflexivity|]. rewrite IH. lia. Qed.

Lemma dget_inc c c' d : dget c (cnt_inc c' d) = dget c d + (if str_eqb c c' then 1 else 0).
Proof.
  induction d as [|[c0 n] r IH]; simpl.
  - destruct (str_eqb c c'); lia.
  - destruct (str_eqb c' c0) eqn:E; simpl.
    + apply str_eqb_eq in E. subst c0. destruct (str_eqb c c'); lia.
    + destruct (str_eqb c c0) eqn:E0.
      * apply str_eqb_eq in E0. subst c0. rewrite str_eqb_sym in E. rewrite E. lia.
      * exact IH.
Qed.

Lemma keys_inc c c' d : In c (map fst (cnt_inc c' d)) <-> c' = c \/ In c (map fst d).
Proof.
  induction d as [|[c0 n] r IH]; simpl.
  - tauto.
  - destruct (str_eqb c' c0) eqn:E; simpl.
    + apply str_eqb_eq in E. subst. clear IH. tauto.
    + rewrite IH. clear IH. tauto.
Qed.

Lemma NoDup_inc c' d : NoDup (map fst d) -> NoDup (map fst (cnt_inc c' d)).
Proof.
  induction d as [|[c0 n] r IH]; simpl; intro H.
  - constructor; [tauto | constructor].
  - inversion H; subst. destruct (str_eqb c' c0) eqn:E; simpl.
    + constructor; assumption.
    + constructor; [|apply IH; assumption].
      intro Hi. apply keys_inc in Hi as [Hi|Hi]; [|tauto].
      subst. rewrite str_eqb_refl in E. discriminate.
Qed.

Definition incs (cs : list str) (d : list (str * Z)) : list (str * Z) := fold_left (fun d c => cnt_inc c d) cs d.

Lemma dget_fold_inc {X} (f : X -> str) c xs d :
  dget c (fold_left (fun d x => cnt_inc (f x) d) xs d) = dget c d + countb (str_eqb c) (map f xs).
Proof.
  revert d. induction xs as [|x r IH]; simpl; intro d; [rewrite countb_nil; lia|].
  rewrite IH, dget_inc, countb_cons. lia.
Qed.

Lemma dget_incs c cs d : dget c (incs cs d) = dget c d + countb (str_eqb c) cs.
Proof. unfold incs. rewrite (dget_fold_inc (fun x => x)), map_id. reflexivity. Qed.

Lemma keys_incs c cs d : In c (map fst (incs cs d)) <-> In c (map fst d) \/ In c cs.
Proof.
  unfold incs. revert d. induction cs as [|c' r IH]; simpl; intro d; [tauto|].
  rewrite IH, keys_inc. clear IH. tauto.
Qed.

Lemma NoDup_incs cs d : NoDup (map fst d) -> NoDup (map fst (incs cs d)).
Proof.
  unfold incs. revert d. induction cs as [|c' r IH]; simpl; intros d H; [exact H|].
  apply IH, NoDup_inc, H.
Qed.

Definition opt_list {A} (o : option A) : list A := match o with Some x => [x] | None => [] end.

Record node_effect := mkEff { e_nodes : list caps3; e_core : Z; e_vm : Z; e_p4 : Z; e_facs : list str }.

Definition node_effect_of (n : node) : node_effect :=
  mkEff (vm_caps n) (sumZ (map core_of (vm_caps n))) (if is_vm n then 1 else 0) (if is_switch n then 1 else 0)
        (if is_facility n then [n_name n] else []).

Definition eff_app (a b : node_effect) : node_effect :=
  mkEff (e_nodes a ++ e_nodes b) (e_core a + e_core b) (e_vm a + e_vm b) (e_p4 a + e_p4 b) (e_facs a ++ e_facs b).

Definition only_facs (fs : list str) : node_effect := mkEff [] 0 0 0 fs.

(* the dictionary after a node effect, component types, service entries and sites have been added to it *)
Definition grow (st : logst) (e : node_effect) (cs : list str) (vs : list (str * Z)) (xs : list str) : logst :=
  mkLog (l_nodes st ++ e_nodes e) (l_core st + e_core e) (l_vm st + e_vm e) (l_p4 st + e_p4 e)
        (incs cs (l_comps st)) (l_svcs st ++ vs) (add_all str_eqb (e_facs e) (l_facs st)) (add_all str_eqb xs (l_sites st)).

Lemma grow_nothing st : grow st (only_facs []) [] [] [] = st.
Proof. destruct st. unfold grow. simpl. rewrite !app_nil_r, !Z.add_0_r. reflexivity. Qed.

Lemma grow_grow st e1 c1 v1 x1 e2 c2 v2 x2 :
  grow (grow st e1 c1 v1 x1) e2 c2 v2 x2 = grow st (eff_app e1 e2) (c1 ++ c2) (v1 ++ v2) (x1 ++ x2).
Proof.
  unfold grow, incs, add_all. simpl. rewrite !fold_left_app, !app_assoc, !Z.add_assoc. reflexivity.
Qed.

Lemma kinds_distinct : NT_VM <> NT_Switch /\ NT_VM <> NT_Facility /\ NT_Switch <> NT_Facility.
Proof. repeat split; discriminate. Qed.

Lemma eff_app_nil e : eff_app e (only_facs []) = e.
Proof. destruct e. unfold eff_app. cbn. rewrite !app_nil_r, !Z.add_0_r. reflexivity. Qed.

Lemma log_comps cs st :
  fold_left (fun st c => mkLog (l_nodes st) (l_core st) (l_vm st) (l_p4 st) (cnt_inc c (l_comps st)) (l_svcs st) (l_facs st) (l_sites st)) cs st
  = grow st (only_facs []) cs [] [].
Proof.
  revert st. induction cs as [|c r IH]; intro st; simpl; [symmetry; apply grow_nothing|].
  rewrite IH. destruct st. unfold grow. cbn. rewrite !app_nil_r, !Z.add_0_r. reflexivity.
Qed.

Lemma with_site_grow o st : with_site o st = grow st (only_facs []) [] [] (opt_list o).
Proof.
  destruct o; [|symmetry; apply grow_nothing].
  destruct st. unfold with_site, grow. cbn. rewrite !app_nil_r, !Z.add_0_r. reflexivity.
Qed.

(* the three steps of log_node (by kind, site, components) are each a `grow`; the case analysis on the kind is done
   on the first step alone, where the goal is small *)
Lemma log_node_grow st n : log_node st n = grow st (node_effect_of n) (n_comps n) [] (opt_list (n_site n)).
Proof.
  unfold log_node. rewrite log_comps, with_site_grow, grow_grow, eff_app_nil.
  set (K := if N.eqb (n_kind n) NT_VM then _ else _).
  assert (HK : K = grow st (node_effect_of n) [] [] []).
  { destruct kinds_distinct as (D1 & D2 & D3).
    unfold K, grow, node_effect_of, vm_caps, is_vm, is_switch, is_facility.
    destruct (N.eqb_spec (n_kind n) NT_VM) as [Ev|_].
    - rewrite Ev, (proj2 (N.eqb_neq _ _) D1), (proj2 (N.eqb_neq _ _) D2).
      destruct (eff_caps n) as [[[c r] d]|]; cbn; rewrite ?app_nil_r, ?Z.add_0_r; reflexivity.
    - destruct (N.eqb_spec (n_kind n) NT_Switch) as [Es|_].
      + rewrite Es, (proj2 (N.eqb_neq _ _) D3). cbn. rewrite ?app_nil_r, ?Z.add_0_r. reflexivity.
      + destruct (N.eqb (n_kind n) NT_Facility); cbn; rewrite ?app_nil_r, ?Z.add_0_r; [reflexivity | destruct st; reflexivity]. }
  rewrite HK, grow_grow, eff_app_nil, !app_nil_r. reflexivity.
Qed.

Definition nodes_effect (ns : list node) : node_effect :=
  mkEff (flat_map vm_caps ns) (sumZ (map core_of (flat_map vm_caps ns))) (countb is_vm ns) (countb is_switch ns)
        (flat_map (fun n => if is_facility n then [n_name n] else []) ns).

Lemma log_nodes_grow ns st :
  fold_left log_node ns st
  = grow st (nodes_effect ns) (flat_map n_comps ns) [] (flat_map (fun n => opt_list (n_site n)) ns).
Proof.
  revert st. induction ns as [|n r IH]; intro st; simpl; [symmetry; apply grow_nothing|].
  rewrite IH, log_node_grow, grow_grow. f_equal.
  unfold eff_app, nodes_effect, node_effect_of. simpl. rewrite map_app, sumZ_app, !countb_cons. reflexivity.
Qed.

Definition svc_entry (v : svc) : str * Z := (stype_name (s_type v), match s_bw v with Some b => b | None => 0 end).

Lemma log_svcs_grow vs st :
  fold_left log_svc vs st = grow st (only_facs []) [] (map svc_entry vs) (flat_map (fun v => opt_list (s_site v)) vs).
Proof.
  revert st. induction vs as [|v r IH]; intro st; simpl; [symmetry; apply grow_nothing|].
  rewrite IH. replace (log_svc st v) with (grow st (only_facs []) [] [svc_entry v] (opt_list (s_site v))); [apply grow_grow|].
  unfold log_svc, with_site, grow. destruct (s_site v); simpl; rewrite !app_nil_r, !Z.add_0_r; reflexivity.
Qed.

Lemma log_facs_grow fs st :
  fold_left (fun st f => mkLog (l_nodes st) (l_core st) (l_vm st) (l_p4 st) (l_comps st) (l_svcs st) (sadd f (l_facs st)) (l_sites st)) fs st
  = grow st (only_facs fs) [] [] [].
Proof.
  revert st. induction fs as [|f r IH]; intro st; simpl; [symmetry; apply grow_nothing|].
  rewrite IH. unfold grow. simpl. rewrite !app_nil_r, !Z.add_0_r. reflexivity.
Qed.

Definition logged (s : slice) : logst := log_topo log_init s.

Lemma log_run_topo s : log_run [OTopo s] = logged s.
Proof. reflexivity. Qed.

Lemma logged_grow s :
  logged s = grow log_init (eff_app (nodes_effect (sl_nodes s)) (only_facs (sl_facs s)))
               (flat_map n_comps (sl_nodes s)) (tally_services s)
               (flat_map (fun n => opt_list (n_site n)) (sl_nodes s) ++ flat_map (fun v => opt_list (s_site v)) (sl_svcs s)).
Proof.
  unfold logged, log_topo. rewrite log_nodes_grow, log_svcs_grow, log_facs_grow, !grow_grow.
  unfold eff_app, only_facs. simpl. rewrite !app_nil_r, !Z.add_0_r. reflexivity.
Qed.

Theorem log_vms s : l_vm (logged s) = tally_vms s.
Proof. rewrite logged_grow. apply Z.add_0_r. Qed.
Theorem log_cores s : l_core (logged s) = tally_cores s.
Proof. rewrite logged_grow. apply Z.add_0_r. Qed.
Theorem log_switches s : l_p4 (logged s) = tally_switches s.
Proof. rewrite logged_grow. apply Z.add_0_r. Qed.
Theorem log_vm_caps s : l_nodes (logged s) = flat_map vm_caps (sl_nodes s).
Proof. rewrite logged_grow. apply app_nil_r. Qed.
Theorem log_services s : l_svcs (logged s) = tally_services s.
Proof. rewrite logged_grow. reflexivity. Qed.

Theorem log_components s c : dget c (l_comps (logged s)) = tally_component c s.
Proof. rewrite logged_grow. apply (dget_incs c _ []). Qed.

Theorem log_component_keys s c : In c (map fst (l_comps (logged s))) <-> In c (flat_map n_comps (sl_nodes s)).
Proof. rewrite logged_grow. simpl. rewrite keys_incs. simpl. tauto. Qed.

Theorem log_component_keys_once s : NoDup (map fst (l_comps (logged s))).
Proof. rewrite logged_grow. apply NoDup_incs. constructor. Qed.

Lemma in_flat_opt {A} (g : A -> option str) l x : In x (flat_map (fun a => opt_list (g a)) l) <-> exists a, In a l /\ g a = Some x.
Proof.
  rewrite in_flat_map. split; intros [a [Ha H]]; exists a; split; try exact Ha.
  - destruct (g a); simpl in H; [destruct H as [H|[]]; congruence | destruct H].
  - rewrite H. left. reflexivity.
Qed.

Theorem log_sites s x : In x (l_sites (logged s)) <-> site_used s x.
Proof.
  rewrite logged_grow. simpl. rewrite (add_all_In str_eqb str_eqb_eq), in_app_iff, !in_flat_opt.
  unfold site_used. simpl. tauto.
Qed.

Theorem log_sites_once s : NoDup (l_sites (logged s)).
Proof. rewrite logged_grow. apply (add_all_NoDup str_eqb str_eqb_eq). constructor. Qed.

Theorem log_facilities s f : In f (l_facs (logged s)) <-> facility_used s f.
Proof.
  rewrite logged_grow. simpl. rewrite (add_all_In str_eqb str_eqb_eq), in_app_iff, in_flat_map.
  unfold facility_used. simpl. split.
  - intros [[]|[[n [Hn Hf]]|Hf]]; [|left; exact Hf].
    right. exists n. destruct (is_facility n) eqn:E; [|destruct Hf]. destruct Hf as [Hf|[]]. tauto.
  - intros [Hf|[n (Hn & E & Hf)]]; [right; right; exact Hf|].
    right. left. exists n. split; [exact Hn|]. rewrite E. left. exact Hf.
Qed.

Theorem log_facilities_once s : NoDup (l_facs (logged s)).
Proof. rewrite logged_grow. apply (add_all_NoDup str_eqb str_eqb_eq). constructor. Qed.

Lemma countb_perm {A} (f : A -> bool) l l' : Permutation l l' -> countb f l = countb f l'.
Proof. intro H. unfold countb. f_equal. apply Permutation_length, Permutation_filter', H. Qed.

Lemma sumZ_perm l l' : Permutation l l' -> sumZ l = sumZ l'.
Proof. unfold sumZ. induction 1; simpl; lia. Qed.

Theorem tallies_order_independent s s' : slice_perm s s' ->
  tally_vms s = tally_vms s' /\ tally_cores s = tally_cores s' /\ tally_switches s = tally_switches s' /\
  (forall c, tally_component c s = tally_component c s') /\
  Permutation (tally_services s) (tally_services s') /\
  (forall x, site_used s x <-> site_used s' x) /\ (forall f, facility_used s f <-> facility_used s' f).
Proof.
  intros (Hn & Hs & Hf & _).
  unfold tally_vms, tally_cores, tally_switches, tally_component, tally_services, site_used, facility_used.
  repeat apply conj.
  - apply countb_perm, Hn.
  - apply sumZ_perm, Permutation_map, Permutation_flat_map, Hn.
  - apply countb_perm, Hn.
  - intro c. apply countb_perm, Permutation_flat_map, Hn.
  - apply Permutation_map, Hs.
  - intro x. setoid_rewrite Hn. setoid_rewrite Hs. reflexivity.
  - intro f. setoid_rewrite Hn. rewrite Hf. reflexivity.
Qed.
