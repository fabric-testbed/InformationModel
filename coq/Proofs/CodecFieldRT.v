(* C03: the JSONField family -- round trip, canonical form, forward compatibility, update, the decode side (accepted
   language, closure, re-encoding) -- and Gateway, which is the Labels codec composed with an idempotent constructor *)
From Coq Require Import String List NArith ZArith Bool Permutation.
From FIM Require Import Base.ListFacts Base.Str Base.Json Base.JsonRT Gen.CodecGen Model.CodecField Model.CodecWf
     Proofs.CodecAssoc.
Import ListNotations.

Lemma no_obj_jsort : forall v, no_obj v = true -> jsort v = v.
Proof.
  apply (json_ind2 (fun v => no_obj v = true -> jsort v = v)); try reflexivity.
  - intros l HF H. simpl in *. f_equal.
    induction HF as [|x l Hx HF IH]; [reflexivity|]. simpl in H. apply andb_true_iff in H as [H1 H2].
    simpl. rewrite (Hx H1), (IH H2). reflexivity.
  - intros m _ H. discriminate H.
Qed.

Lemma dropped_in_droppable r v : dropped r v = true -> In v droppable.
Proof.
  unfold droppable. destruct r; simpl; try discriminate.
  - destruct v; try discriminate; simpl.
    + tauto.
    + destruct b; [discriminate|]. tauto.
    + intro H. apply Z.eqb_eq in H. subst. tauto.
    + intro H. apply orb_true_iff in H as [H|H]; apply str_eqb_eq in H; subst; tauto.
  - destruct v; try discriminate. tauto.
Qed.

Lemma norm_id c o :
  (forall k v, In (k, v) o -> dropped (jc_json_drop c) v = true -> aget k (jc_fields c) = Some v) -> norm_obj c o = o.
Proof.
  intro H. unfold norm_obj. rewrite <- (map_id o) at 2. apply map_ext_in. intros [k v] Hin. cbn [fst snd].
  destruct (dropped (jc_json_drop c) v) eqn:D; [|reflexivity]. unfold fld. rewrite (H k v Hin D). reflexivity.
Qed.

Lemma kept_norm c o : norm_stable c = true -> kept (jc_json_drop c) (norm_obj c o) = kept (jc_json_drop c) o.
Proof.
  intro H. unfold kept, norm_obj. induction o as [|[k v] o IH]; [reflexivity|].
  cbn [map filter fst snd]. rewrite IH.
  destruct (dropped (jc_json_drop c) v) eqn:D; cbn [negb]; [|rewrite D; reflexivity].
  (* the default that replaces a dropped value is dropped as well *)
  enough (dropped (jc_json_drop c) (fld k (jc_fields c)) = true) as -> by reflexivity.
  unfold norm_stable in H. unfold fld. destruct (aget k (jc_fields c)) as [d|] eqn:G.
  - apply aget_in in G. destruct (jc_json_drop c); try discriminate D;
      (rewrite forallb_forall in H; exact (H (k, d) G)).
  - destruct (jc_json_drop c); (discriminate D || reflexivity).
Qed.

Section FieldProofs.
  Variable V : str -> json -> bool.

  Lemma elem_ok_iff c k v :
    elem_ok V c k v = true <-> check_value c v = None /\ jc_validated c && negb (V k v) = false.
  Proof.
    unfold elem_ok. destruct (check_value c v), (jc_validated c), (V k v); simpl; split;
      (discriminate || (intros [? ?]; discriminate) || auto).
  Qed.

  (* when every key is a field of o, _set_fields (forgiving or not) succeeds exactly if every value is accepted, and
     then has assigned them in order *)
  Lemma set_fields_known c fg kw : forall o y, (forall k v, In (k, v) kw -> ahas k o = true) ->
    set_fields V c fg kw o = Ok y <-> y = aset_all kw o /\ (forall k v, In (k, v) kw -> elem_ok V c k v = true).
  Proof.
    induction kw as [|[k v] kw IH]; intros o y K.
    - simpl. split; [intros [= <-]; split; [reflexivity|intros k v []]|intros [-> _]; reflexivity].
    - cbn [set_fields]. rewrite (K k v (or_introl eq_refl)).
      pose proof (elem_ok_iff c k v) as E.
      destruct (check_value c v); [|destruct (jc_validated c && negb (V k v))].
      1,2: split; [discriminate|]; intros [_ Q]; apply E in Q as [? ?]; [discriminate|left; reflexivity].
      rewrite IH by (intros k' v' Hin; apply ahas_aset, (K k' v'); right; exact Hin).
      split; intros [-> Q]; (split; [reflexivity|]); intros k' v' Hin.
      + destruct Hin as [[= <- <-]|Hin]; [apply E; auto|exact (Q k' v' Hin)].
      + apply Q. right. exact Hin.
  Qed.

  (* the strict form refuses a key that is not a field *)
  Lemma set_fields_strict_inv c kw : forall o y, set_fields V c false kw o = Ok y ->
    y = aset_all kw o /\ (forall k v, In (k, v) kw -> ahas k o = true /\ elem_ok V c k v = true).
  Proof.
    intros o y H.
    assert (K : forall k v, In (k, v) kw -> ahas k o = true).
    { revert o y H. induction kw as [|[k v] kw IH]; intros o y H k' v' Hin; [destruct Hin|].
      cbn [set_fields] in H. destruct (check_value c v); [discriminate|].
      destruct (ahas k o) eqn:Kk; [|discriminate]. destruct (jc_validated c && negb (V k v)); [discriminate|].
      destruct Hin as [[= <- <-]|Hin]; [exact Kk|].
      rewrite <- (ahas_aset_present k' k v o Kk). exact (IH _ _ H k' v' Hin). }
    apply (set_fields_known c false kw o y K) in H as [E Q]. split; [exact E|]. intros k v Hin. exact (conj (K k v Hin) (Q k v Hin)).
  Qed.

  Lemma cls_nodup c : cls_ok V c = true -> NoDup (map fst (jc_fields c)).
  Proof. unfold cls_ok. intro H. apply andb_true_iff in H as [H _]. apply nodup_keys_NoDup. exact H. Qed.

  Lemma cls_field c k d : cls_ok V c = true -> In (k, d) (jc_fields c) ->
    str_ok k = true /\ jwfb d = true /\ no_obj d = true /\
    (dropped (jc_json_drop c) d = true \/ elem_ok V c k d = true).
  Proof.
    unfold cls_ok. intros H Hin. apply andb_true_iff in H as [_ H]. rewrite forallb_forall in H.
    specialize (H (k, d) Hin). cbn [fst snd] in H.
    apply andb_true_iff in H as [H H5]. apply andb_true_iff in H as [H H4].
    apply andb_true_iff in H as [H1 H3]. apply orb_true_iff in H5. tauto.
  Qed.

  Lemma semi_keys c o : semi_wf V c o = true -> map fst o = map fst (jc_fields c).
  Proof. unfold semi_wf. intro H. apply andb_true_iff in H as [H _]. apply list_eqb_str_eq. exact H. Qed.

  Lemma semi_field c o k v : semi_wf V c o = true -> In (k, v) o ->
    exists d, aget k (jc_fields c) = Some d /\ (v = d \/ elem_ok V c k v = true /\ jwfb v = true /\ no_obj v = true).
  Proof.
    unfold semi_wf. intros H Hin. apply andb_true_iff in H as [_ H]. rewrite forallb_forall in H.
    specialize (H (k, v) Hin). unfold semi_ok in H. cbn [fst snd] in H.
    destruct (aget k (jc_fields c)) as [d|]; [|discriminate]. exists d. split; [reflexivity|].
    apply orb_true_iff in H as [H|H]; [left; apply json_eqb_eq; exact H|right].
    apply andb_true_iff in H as [H H3]. apply andb_true_iff in H as [H1 H2]. auto.
  Qed.

  (* a constructible field value is one the decoder can produce, and if the encoder drops it, it is the default *)
  Lemma field_ok_semi c k v : field_ok V c k v = true ->
    semi_ok V c k v = true /\ (dropped (jc_json_drop c) v = true -> aget k (jc_fields c) = Some v).
  Proof.
    unfold field_ok, semi_ok. destruct (aget k (jc_fields c)) as [d|]; [|discriminate]. intro H.
    apply orb_true_iff in H as [H|H].
    - rewrite H. apply json_eqb_eq in H. subst d. auto.
    - apply andb_true_iff in H as [H F4]. apply andb_true_iff in H as [H F3]. apply andb_true_iff in H as [F1 F2].
      rewrite F1, F3, F4, orb_true_r. split; [reflexivity|]. intro D. rewrite D in F2. discriminate.
  Qed.

  Lemma wf_semi c o : wf_obj V c o = true -> semi_wf V c o = true.
  Proof.
    unfold wf_obj, semi_wf. intro H. apply andb_true_iff in H as [H1 H2]. rewrite H1. cbn [andb].
    rewrite forallb_forall in *. intros kv Hin. exact (proj1 (field_ok_semi c _ _ (H2 kv Hin))).
  Qed.

  Lemma wf_keys c o : wf_obj V c o = true -> map fst o = map fst (jc_fields c).
  Proof. intro H. exact (semi_keys c o (wf_semi c o H)). Qed.

  Lemma norm_wf_id c o : wf_obj V c o = true -> norm_obj c o = o.
  Proof.
    unfold wf_obj. intro W. apply andb_true_iff in W as [_ W]. rewrite forallb_forall in W.
    apply norm_id. intros k v Hin. exact (proj2 (field_ok_semi c k v (W (k, v) Hin))).
  Qed.

  Lemma norm_lossless_id c o : lossless_cls c = true -> semi_wf V c o = true -> norm_obj c o = o.
  Proof.
    intros L W. apply norm_id. intros k v Hin D.
    destruct (semi_field c o k v W Hin) as (d & G & [->|(F & _)]); [exact G|].
    apply elem_ok_iff in F as [F _].
    unfold lossless_cls in L. rewrite forallb_forall in L. specialize (L v (dropped_in_droppable _ _ D)).
    rewrite F, D in L. cbn in L. rewrite forallb_forall in L. specialize (L (k, d) (aget_in _ _ _ G)).
    apply json_eqb_eq in L. cbn [snd] in L. congruence.
  Qed.

  Lemma kept_accepted c o : cls_ok V c = true -> semi_wf V c o = true ->
    forall k v, In (k, v) (kept (jc_json_drop c) o) ->
    elem_ok V c k v = true /\ jwfb v = true /\ no_obj v = true /\ str_ok k = true
    /\ ahas k (jc_fields c) = true.
  Proof.
    intros C W k v Hin. unfold kept in Hin. apply filter_In in Hin as [Hin Hd]. cbn [snd] in Hd.
    apply negb_true_iff in Hd.
    destruct (semi_field c o k v W Hin) as (d & G & F).
    pose proof (cls_field c k d C (aget_in _ _ _ G)) as (P1 & P3 & P4 & P5).
    assert (HK : ahas k (jc_fields c) = true) by (unfold ahas; rewrite G; reflexivity).
    destruct F as [->|F]; [|tauto]. destruct P5 as [P5|P5]; [congruence|tauto].
  Qed.

  Lemma of_dict_kept_norm c o sd : cls_ok V c = true -> semi_wf V c o = true ->
    Permutation sd (kept (jc_json_drop c) o) -> of_dict V c sd = Ok (norm_obj c o).
  Proof.
    intros C W HP. unfold of_dict, defaults.
    pose proof (cls_nodup c C) as NDf. pose proof (semi_keys c o W) as K.
    assert (NDo : NoDup (map fst o)) by (rewrite K; exact NDf).
    assert (NDk : NoDup (map fst (kept (jc_json_drop c) o))) by (apply NoDup_map_filter; exact NDo).
    assert (NDs : NoDup (map fst sd)).
    { eapply Permutation_NoDup; [apply Permutation_sym; apply Permutation_map; exact HP|exact NDk]. }
    assert (KN : map fst (norm_obj c o) = map fst o) by (unfold norm_obj; rewrite map_map; reflexivity).
    assert (Q : forall k v, In (k, v) sd -> elem_ok V c k v = true /\ ahas k (jc_fields c) = true).
    { intros k v Hin. pose proof (kept_accepted c o C W k v (Permutation_in _ HP Hin)). tauto. }
    apply set_fields_known; [intros k v Hin; exact (proj2 (Q k v Hin))|].
    split; [|intros k v Hin; exact (proj1 (Q k v Hin))].
    apply assoc_ext.
    - rewrite KN. rewrite aset_all_keys; [exact K|].
      intros [k v] Hin. exact (proj2 (Q k v Hin)).
    - rewrite KN. exact NDo.
    - intro k. rewrite (aset_all_get sd _ k NDs).
      rewrite (aget_perm sd _ k HP NDs).
      unfold kept. rewrite (aget_filter (fun v => negb (dropped (jc_json_drop c) v)) k o NDo).
      unfold norm_obj.
      rewrite (aget_map_val (fun k v => if dropped (jc_json_drop c) v then fld k (jc_fields c) else v) k o).
      destruct (aget k o) as [v|] eqn:G; cbn [option_map].
      + destruct (dropped (jc_json_drop c) v) eqn:D; simpl; [|reflexivity].
        assert (IN : In k (map fst (jc_fields c))).
        { rewrite <- K. apply in_map_iff. exists (k, v). split; [reflexivity|apply aget_in; exact G]. }
        apply ahas_in in IN. unfold ahas in IN. unfold fld.
        destruct (aget k (jc_fields c)); [reflexivity|discriminate].
      + symmetry. apply aget_none_notin. rewrite <- K. apply aget_none_notin. exact G.
  Qed.

  Lemma kept_jwfb c o : cls_ok V c = true -> semi_wf V c o = true -> jwfb (JObj (kept (jc_json_drop c) o)) = true.
  Proof.
    intros C W. cbn [jwfb]. apply andb_true_iff. split.
    - apply forallb_forall. intros [k v] Hin. cbn [fst snd].
      pose proof (kept_accepted c o C W k v Hin) as (_ & Q2 & _ & Q4 & _). rewrite Q2, Q4. reflexivity.
    - apply NoDup_nodup_keys. apply NoDup_map_filter. rewrite (semi_keys c o W). exact (cls_nodup c C).
  Qed.

  Lemma kept_jsort c o : cls_ok V c = true -> semi_wf V c o = true ->
    jsort (JObj (kept (jc_json_drop c) o)) = JObj (sort_kv (kept (jc_json_drop c) o)).
  Proof.
    intros C W. cbn [jsort]. f_equal. f_equal.
    rewrite <- (map_id (kept (jc_json_drop c) o)) at 2. apply map_ext_in.
    intros [k v] Hin. cbn [fst snd].
    pose proof (kept_accepted c o C W k v Hin) as (_ & _ & Q3 & _). rewrite (no_obj_jsort v Q3). reflexivity.
  Qed.

  Lemma kept_all_known c o (sd : obj) : cls_ok V c = true -> semi_wf V c o = true ->
    Permutation sd (kept (jc_json_drop c) o) -> filter (known_key c) sd = sd.
  Proof.
    intros C W HP. apply filter_all. intros [k v] Hin. unfold known_key. cbn [fst].
    pose proof (kept_accepted c o C W k v (Permutation_in _ HP Hin)) as (_ & _ & _ & _ & Q). exact Q.
  Qed.

  (* encode / decode of ANY value the class accepts (also one with fields the encoder drops): the result is the
     normalised value -- dropped fields come back as their defaults *)
  Theorem field_reencode c o : cls_ok V c = true -> semi_wf V c o = true ->
    from_json V c (Some (to_json c o))
    = Ok (if nothing_kept c o && jc_json_blank c then None else Some (norm_obj c o)).
  Proof.
    intros C W.
    (* '' when nothing is kept and the class says so; otherwise the sorted dump, which for no members is "{}" *)
    assert (T : to_json c o = if nothing_kept c o && jc_json_blank c then []
                              else jdumps true (JObj (kept (jc_json_drop c) o))).
    { unfold to_json, nothing_kept. destruct (kept (jc_json_drop c) o); [destruct (jc_json_blank c)|]; reflexivity. }
    rewrite T. destruct (nothing_kept c o && jc_json_blank c); [reflexivity|].
    pose proof (kept_jsort c o C W) as SJ. pose proof (sort_kv_perm (kept (jc_json_drop c) o)) as HP.
    unfold from_json.
    replace (absent_text _) with false by (unfold jdumps; rewrite SJ; reflexivity).
    rewrite (jparse_jdumps true _ (kept_jwfb c o C W)), SJ. unfold of_jv.
    rewrite (kept_all_known c o _ C W HP), (of_dict_kept_norm c o _ C W HP). reflexivity.
  Qed.

  (* the encoded text of a constructible value decodes to that value; a value with nothing to encode is
     encoded as '' and decoded as absent *)
  Theorem field_roundtrip c o : cls_ok V c = true -> wf_obj V c o = true ->
    from_json V c (Some (to_json c o)) = Ok (if nothing_kept c o && jc_json_blank c then None else Some o).
  Proof.
    intros C W. rewrite (field_reencode c o C (wf_semi c o W)), (norm_wf_id c o W). reflexivity.
  Qed.

  (* encode . decode . encode = encode, for EVERY value the class accepts (also those with dropped fields) *)
  Theorem field_canonical_all c o y : cls_ok V c = true -> norm_stable c = true -> semi_wf V c o = true ->
    from_json V c (Some (to_json c o)) = Ok (Some y) -> to_json c y = to_json c o.
  Proof.
    intros C N W H. rewrite (field_reencode c o C W) in H.
    destruct (nothing_kept c o && jc_json_blank c); [discriminate|]. injection H as <-. unfold to_json. rewrite (kept_norm c o N). reflexivity.
  Qed.

  Definition some_res (r : res obj) : res (option obj) := match r with Ok o => Ok (Some o) | Err e => Err e end.

  (* a text decodes exactly as its known part: unknown keys, whatever their values, are ignored, nothing is
     raised because of them and no known key is dropped *)
  Theorem field_forward_compat c t d : jparse t = Some (JObj d) -> absent_text t = false ->
    from_json V c (Some t) = some_res (of_dict V c (filter (known_key c) d)).
  Proof. intros P A. unfold from_json. rewrite A, P. reflexivity. Qed.

  Theorem field_forward_compat_same c t t' d d' : jparse t = Some (JObj d) -> jparse t' = Some (JObj d') ->
    absent_text t = false -> absent_text t' = false ->
    filter (known_key c) d' = filter (known_key c) d -> from_json V c (Some t') = from_json V c (Some t).
  Proof.
    intros P P' A A' E. rewrite (field_forward_compat c t d P A), (field_forward_compat c t' d' P' A'), E. reflexivity.
  Qed.

  (* the encoding of a constructible value with unknown keys spliced in anywhere decodes to that value *)
  Theorem field_forward_compat_value c o t d : cls_ok V c = true -> wf_obj V c o = true ->
    jparse t = Some (JObj d) -> absent_text t = false ->
    Permutation (filter (known_key c) d) (kept (jc_json_drop c) o) ->
    from_json V c (Some t) = Ok (Some o).
  Proof.
    intros C W P A HP. rewrite (field_forward_compat c t d P A).
    rewrite (of_dict_kept_norm c o _ C (wf_semi c o W) HP), (norm_wf_id c o W). reflexivity.
  Qed.

  (* EXACTLY the texts that decode to a value: not absent, a JSON object (any whitespace, any key order; a repeated key
     counts with its last value, as json.loads has it; unknown keys ignored), whose known members all carry a value the
     class accepts.  The decoded value is the defaults overwritten, in text order, by the known members. *)
  Theorem field_decode_iff c t y :
    from_json V c (Some t) = Ok (Some y) <->
    absent_text t = false /\ exists d, jparse t = Some (JObj d)
      /\ (forall k v, In (k, v) (filter (known_key c) d) -> elem_ok V c k v = true)
      /\ y = aset_all (filter (known_key c) d) (jc_fields c).
  Proof.
    assert (KN : forall d k v, In (k, v) (filter (known_key c) d) -> ahas k (jc_fields c) = true).
    { intros d k v Hin. apply filter_In in Hin as [_ Hk]. exact Hk. }
    unfold from_json. split.
    - destruct (absent_text t); [discriminate|]. destruct (jparse t) as [j|]; [|discriminate].
      unfold of_jv. destruct j; try discriminate. unfold of_dict, defaults.
      destruct (set_fields V c true (filter (known_key c) m) (jc_fields c)) as [o|] eqn:E; [|discriminate].
      intros [= <-]. split; [reflexivity|]. exists m. split; [reflexivity|].
      apply (set_fields_known c true _ _ _ (KN m)) in E as [E1 E2]. split; [exact E2|exact E1].
    - intros (A & d & P & EO & ->). rewrite A, P. unfold of_jv, of_dict, defaults.
      rewrite (proj2 (set_fields_known c true _ _ _ (KN d)) (conj eq_refl EO)). reflexivity.
  Qed.

  (* everything decodable (from a text whose strings are well formed and whose member values hold no dict) is in the
     domain of the re-encode theorem *)
  Theorem field_decode_closed c t j y : cls_ok V c = true -> jparse t = Some j -> jwfb j = true -> flat_obj j = true ->
    from_json V c (Some t) = Ok (Some y) -> semi_wf V c y = true.
  Proof.
    intros C P J F H. apply field_decode_iff in H as (_ & d & P' & EO & ->). rewrite P in P'. injection P' as ->.
    cbn [jwfb] in J. apply andb_true_iff in J as [J ND]. cbn [flat_obj] in F.
    set (kd := filter (known_key c) d).
    assert (KNk : forall kv, In kv kd -> ahas (fst kv) (jc_fields c) = true).
    { intros kv Hin. apply filter_In in Hin as [_ Hk]. exact Hk. }
    assert (NDk : NoDup (map fst kd)) by (apply NoDup_map_filter; apply nodup_keys_NoDup; exact ND).
    pose proof (aset_all_keys kd (jc_fields c) KNk) as K.
    pose proof (cls_nodup c C) as NDf.
    unfold semi_wf. apply andb_true_iff. split; [apply list_eqb_str_eq; exact K|].
    apply forallb_forall. intros [k v] Hin. cbn [fst snd].
    assert (G : aget k (aset_all kd (jc_fields c)) = Some v) by (apply in_aget; [rewrite K; exact NDf|exact Hin]).
    rewrite (aset_all_get kd (jc_fields c) k NDk) in G. unfold semi_ok.
    destruct (aget k kd) as [v'|] eqn:GK.
    - injection G as ->. apply aget_in in GK.
      pose proof (KNk (k, v) GK) as HK. unfold ahas in HK. cbn [fst] in HK.
      destruct (aget k (jc_fields c)); [|discriminate].
      rewrite (EO k v GK). apply filter_In in GK as [GK _].
      rewrite forallb_forall in J, F. specialize (J (k, v) GK). specialize (F (k, v) GK). cbn [fst snd] in J, F.
      apply andb_true_iff in J as [_ J]. rewrite J, F. apply orb_true_r.
    - rewrite G. rewrite json_eqb_refl. reflexivity.
  Qed.

  (* decode t = y  ==>  decode (encode y) = y where the drop rule is lossless (in general the normalised y, by
     field_reencode): the re-encoded text is a fixed point of decode . encode *)
  Theorem field_decode_reencode_lossless c t j y : cls_ok V c = true -> lossless_cls c = true ->
    jparse t = Some j -> jwfb j = true -> flat_obj j = true -> from_json V c (Some t) = Ok (Some y) ->
    from_json V c (Some (to_json c y)) = Ok (if nothing_kept c y && jc_json_blank c then None else Some y).
  Proof.
    intros C L P J F H. pose proof (field_decode_closed c t j y C P J F H) as W.
    rewrite (field_reencode c y C W), (norm_lossless_id c y L W). reflexivity.
  Qed.

  Theorem update_spec c o kw y : NoDup (map fst kw) -> update V c o kw = Ok y ->
    map fst y = map fst o
    /\ (forall k, aget k y = match aget k kw with Some v => Some v | None => aget k o end)
    /\ (forall k v, In (k, v) kw -> ahas k o = true /\ elem_ok V c k v = true).
  Proof.
    intros ND H. unfold update in H. destruct (set_fields_strict_inv c kw o y H) as [-> Q].
    split; [|split].
    - apply aset_all_keys. intros [k v] Hin. exact (proj1 (Q k v Hin)).
    - intro k. apply aset_all_get. exact ND.
    - exact Q.
  Qed.

  (* nothing done to the lists of the result reaches the original *)
  Theorem update_original_independent o kw marker : orig_after_result_lists_grow o kw marker = o.
  Proof. reflexivity. Qed.

  Theorem update_nil c o : update V c o [] = Ok o.
  Proof. reflexivity. Qed.

  Lemma fld_aset k k' v o : fld k (aset k' v o) = if str_eqb k k' then v else fld k o.
  Proof. unfold fld. rewrite aget_aset. destruct (str_eqb k k'); reflexivity. Qed.

  Definition two_of (a b : str) (l : obj) : res obj := construct V cls_Labels [(a, fld a l); (b, fld b l)].
  Definition with_mac (l o : obj) : obj := if is_null (fld k_mac l) then o else aset k_mac (fld k_mac l) o.

  Lemma gw_make_unfold l : gw_make V (Some l) =
    if negb (is_null (fld k_v4s l)) && negb (is_null (fld k_v4 l))
    then match two_of k_v4s k_v4 l with Ok o => Ok (Some (with_mac l o)) | Err e => Err e end
    else if negb (is_null (fld k_v6s l)) && negb (is_null (fld k_v6 l))
    then match two_of k_v6s k_v6 l with Ok o => Ok (Some (with_mac l o)) | Err e => Err e end
    else Err (S"GatewayException").
  Proof. reflexivity. Qed.

  (* the Labels the constructor builds from l and the address pair a, b carry l's values under a, b and mac, and the
     defaults everywhere else *)
  Lemma fld_built a b l o k : str_eqb k_mac a = false -> str_eqb k_mac b = false -> two_of a b l = Ok o ->
    fld k (with_mac l o)
    = if str_eqb k k_mac || str_eqb k b || str_eqb k a then fld k l else fld k (jc_fields cls_Labels).
  Proof.
    intros Ma Mb T. apply set_fields_strict_inv in T as [-> _]. unfold with_mac, aset_all, defaults. cbn [fold_left fst snd].
    assert (R : (if str_eqb k b then fld b l else if str_eqb k a then fld a l else fld k (jc_fields cls_Labels))
                = if str_eqb k b || str_eqb k a then fld k l else fld k (jc_fields cls_Labels)).
    { destruct (str_eqb_spec k b) as [->|_]; [reflexivity|]. destruct (str_eqb_spec k a) as [->|_]; reflexivity. }
    destruct (is_null (fld k_mac l)) eqn:M; rewrite !fld_aset, R.
    - destruct (str_eqb_spec k k_mac) as [->|N]; [|reflexivity]. rewrite Ma, Mb.
      change (fld k_mac (jc_fields cls_Labels)) with JNull. destruct (fld k_mac l); (discriminate M || reflexivity).
    - destruct (str_eqb_spec k k_mac) as [->|_]; reflexivity.
  Qed.

  (* Gateway(g.lab) rebuilds g.lab: the constructor is idempotent *)
  Theorem gw_make_idempotent l g : gw_make V (Some l) = Ok (Some g) -> gw_make V (Some g) = Ok (Some g).
  Proof.
    rewrite (gw_make_unfold l).
    destruct (negb (is_null (fld k_v4s l)) && negb (is_null (fld k_v4 l))) eqn:C4.
    - destruct (two_of k_v4s k_v4 l) as [o|] eqn:T; [|discriminate]. intros [= <-].
      pose proof (fun k => fld_built k_v4s k_v4 l o k eq_refl eq_refl T) as F. set (g := with_mac l o) in *.
      rewrite (gw_make_unfold g). unfold two_of in *. unfold with_mac.
      rewrite (F k_v4s : _ = fld k_v4s l), (F k_v4 : _ = fld k_v4 l), (F k_mac : _ = fld k_mac l), C4, T. reflexivity.
    - destruct (negb (is_null (fld k_v6s l)) && negb (is_null (fld k_v6 l))) eqn:C6; [|discriminate].
      destruct (two_of k_v6s k_v6 l) as [o|] eqn:T; [|discriminate]. intros [= <-].
      pose proof (fun k => fld_built k_v6s k_v6 l o k eq_refl eq_refl T) as F. set (g := with_mac l o) in *.
      rewrite (gw_make_unfold g). unfold two_of in *. unfold with_mac.
      rewrite (F k_v4s : _ = JNull), (F k_v6s : _ = fld k_v6s l), (F k_v6 : _ = fld k_v6 l), (F k_mac : _ = fld k_mac l), C6, T.
      reflexivity.
  Qed.

  (* the Gateway codec: encode = Labels.to_json of the kept labels, decode = Labels.from_json then Gateway() *)
  Theorem gw_roundtrip g : cls_ok V cls_Labels = true -> wf_obj V cls_Labels g = true ->
    nothing_kept cls_Labels g = false -> gw_make V (Some g) = Ok (Some g) ->
    gw_from_json V (gw_to_json (Some g)) = Ok (Some (Some g)).
  Proof.
    intros C W K I. unfold gw_from_json, gw_to_json.
    rewrite (field_roundtrip cls_Labels g C W). rewrite K. cbn [andb]. rewrite I. reflexivity.
  Qed.

  (* nothing recorded reads back as ABSENT (not as an empty Gateway object): for the None that Gateway(None).to_json()
     returns, for the empty text, and for every text the Labels decoder treats as absent *)
  Theorem gw_none_roundtrip : gw_to_json None = None /\ gw_from_json V None = Ok None /\ gw_from_json V (Some []) = Ok None.
  Proof. repeat split; reflexivity. Qed.

  Theorem gw_absent_labels_absent_gateway t : from_json V cls_Labels t = Ok None -> gw_from_json V t = Ok None.
  Proof. intro H. unfold gw_from_json. rewrite H. reflexivity. Qed.

  (* the decoder never yields an empty Gateway object *)
  Theorem gw_decoded_has_labels t g : gw_from_json V t = Ok (Some g) -> g <> None.
  Proof.
    unfold gw_from_json. destruct (from_json V cls_Labels t) as [[l|]|]; try discriminate.
    rewrite (gw_make_unfold l).
    destruct (negb (is_null (fld k_v4s l)) && negb (is_null (fld k_v4 l))).
    - destruct (two_of k_v4s k_v4 l); [|discriminate]. intros [= <-]. discriminate.
    - destruct (negb (is_null (fld k_v6s l)) && negb (is_null (fld k_v6 l))); [|discriminate].
      destruct (two_of k_v6s k_v6 l); [|discriminate]. intros [= <-]. discriminate.
  Qed.
End FieldProofs.
