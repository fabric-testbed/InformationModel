(* C09 - the rollback of NetworkService.__init__ restores the pre-state: disconnecting the interfaces
   connected so far and removing the service deletes exactly what the constructor added - including a
   ServicePort that a half-finished connect_interface left on the service ("orphan"). *)
From Coq Require Import List NArith Bool.
From FIM Require Import Base.ListFacts Model.T9Graph Model.T9Ops Proofs.T9Monad Proofs.T9Simple Proofs.T9Ext.
Import ListNotations.
Open Scope N_scope.

Lemma NoDup_mid {A} (a b : list A) x : NoDup (a ++ x :: b) -> ~ In x a /\ ~ In x b /\ NoDup (a ++ b).
Proof.
  intro H. split; [|split].
  - intro Hin. apply NoDup_remove_2 in H. apply H. apply in_app_iff; auto.
  - intro Hin. apply NoDup_remove_2 in H. apply H. apply in_app_iff; auto.
  - eapply NoDup_remove_1; eauto.
Qed.

Lemma good_tail g nsn c cs : good g nsn (c :: cs) -> good g nsn cs.
Proof.
  intros [Hnd Hc Hcp Hifs Hpeers]. constructor; auto.
  - unfold new_ids, conn_ids in *. simpl in Hnd.
    replace (ids g ++ nid nsn :: k_p c :: k_l c :: flat_map (fun c0 => [k_p c0; k_l c0]) cs)
      with ((ids g ++ [nid nsn]) ++ k_p c :: k_l c :: flat_map (fun c0 => [k_p c0; k_l c0]) cs) in Hnd
      by (rewrite <- app_assoc; reflexivity).
    apply NoDup_mid in Hnd as (_ & _ & Hnd).
    apply NoDup_mid in Hnd as (_ & _ & Hnd). rewrite <- app_assoc in Hnd. exact Hnd.
  - intros; apply Hcp; right; auto.
  - simpl in Hifs. inversion Hifs; auto.
  - intros; apply Hpeers; right; auto.
Qed.

Section Head.
  Variables (g : graph) (nsn : node) (c : conn) (RN : list node) (RE : list edge).
  Let ns := nid nsn.
  Let p := k_p c.
  Let l := k_l c.
  Let i := k_i c.
  Let E := mkGraph (gnodes g ++ nsn :: conn_nodes c ++ RN) (gedges g ++ conn_edges ns c ++ RE).
  Hypothesis Hclosed : closed g.
  Hypothesis Hnd : NoDup (ids g ++ ns :: p :: l :: map nid RN).
  Hypothesis Hcls : ncls nsn = cNS.
  Hypothesis Hcp : has_cls g cCP i = true.
  Hypothesis Hpeers : peer_cps g i = Ok [].
  Hypothesis Hup : untouched p RE.
  Hypothesis Hul : untouched l RE.
  Hypothesis Hui : untouched i RE.
  Hypothesis Hulinks : forall l0, In l0 (ids g) -> has_cls g cLink l0 = true -> untouched l0 RE.

  Local Lemma hd_facts : ~ In ns (ids g) /\ ~ In p (ids g) /\ ~ In l (ids g) /\ ns <> p /\ ns <> l /\ p <> l /\
                   (forall n, In n RN -> nid n <> ns /\ nid n <> p /\ nid n <> l).
  Proof.
    assert (H := Hnd). apply NoDup_mid in H as (A1 & A2 & H).
    assert (H' : NoDup (ids g ++ p :: l :: map nid RN)) by exact H.
    apply NoDup_mid in H' as (B1 & B2 & H').
    apply NoDup_mid in H' as (C1 & C2 & H').
    repeat split; auto.
    - intro X. apply A2. rewrite X. left; auto.
    - intro X. apply A2. rewrite X. right; left; auto.
    - intro X. apply B2. rewrite X. left; auto.
    - intro X. apply A2. rewrite <- X. right; right. apply in_map; auto.
    - intro X. apply B2. rewrite <- X. right. apply in_map; auto.
    - intro X. apply C2. rewrite <- X. apply in_map; auto.
  Qed.
  Local Lemma i_old : In i (ids g). Proof. eapply has_cls_In; eauto. Qed.
  (* the four ids an edge of the connection can mention are pairwise distinct *)
  Local Lemma hd_neq : i <> ns /\ i <> p /\ i <> l /\ ns <> p /\ ns <> l /\ p <> l.
  Proof.
    destruct hd_facts as (A1 & A2 & A3 & B1 & B2 & B3 & _). assert (Hi := i_old).
    repeat split; auto; intro X; rewrite X in Hi; auto.
  Qed.

  Local Lemma g_untouched_p : untouched p (gedges g).
  Proof. apply closed_untouched; auto. destruct hd_facts as (_&H&_). exact H. Qed.
  Local Lemma g_untouched_l : untouched l (gedges g).
  Proof. apply closed_untouched; auto. destruct hd_facts as (_&_&H&_). exact H. Qed.

  Local Lemma adj_rel_E x r : adj_rel E x r = adj_es (gedges g) x r ++ adj_es (conn_edges ns c) x r ++ adj_es RE x r.
  Proof. unfold adj_rel, adj_es, E. cbn [gedges]. rewrite !flat_map_app. reflexivity. Qed.
  Local Lemma adj_any_E x : adj_any E x = adj_any_es (gedges g) x ++ adj_any_es (conn_edges ns c) x ++ adj_any_es RE x.
  Proof. unfold adj_any, adj_any_es, E. cbn [gedges]. rewrite !flat_map_app. reflexivity. Qed.

  (* evaluate the comparisons among i, ns, p, l *)
  Ltac eqbs :=
    destruct hd_neq as (? & ? & ? & ? & ? & ?);
    repeat first [ rewrite N.eqb_refl
                 | rewrite neqb_of_neq by (assumption || (apply not_eq_sym; assumption)) ].

  Local Lemma adj_p : adj_rel E p rConnects = [ns; l].
  Proof.
    rewrite adj_rel_E. rewrite (adj_es_untouched _ _ _ g_untouched_p), (adj_es_untouched _ _ _ Hup).
    unfold adj_es, conn_edges, other_end; simpl. fold ns p l i. eqbs. reflexivity.
  Qed.
  Local Lemma adj_l : adj_rel E l rConnects = [i; p].
  Proof.
    rewrite adj_rel_E. rewrite (adj_es_untouched _ _ _ g_untouched_l), (adj_es_untouched _ _ _ Hul).
    unfold adj_es, conn_edges, other_end; simpl. fold ns p l i. eqbs. reflexivity.
  Qed.
  Local Lemma adj_any_l : adj_any E l = [i; p].
  Proof.
    rewrite adj_any_E. rewrite (adj_any_es_untouched _ _ g_untouched_l), (adj_any_es_untouched _ _ Hul).
    unfold adj_any_es, conn_edges, other_end; simpl. fold ns p l i. eqbs. reflexivity.
  Qed.
  Local Lemma adj_i : adj_rel E i rConnects = adj_rel g i rConnects ++ [l].
  Proof.
    rewrite adj_rel_E. rewrite (adj_es_untouched _ _ _ Hui).
    unfold adj_es at 2. unfold conn_edges, other_end; simpl. fold ns p l i. eqbs. rewrite app_nil_r. reflexivity.
  Qed.

  Let pnode := mkNode (k_p c) cCP (k_pname c) tServicePort 0.
  Let lnode := mkNode (k_l c) cLink (k_pname c ++ suffix_link) (k_lty c) 0.

  Local Lemma head_nodup : NoDup (ids E).
  Proof. unfold ids, E; simpl. rewrite map_app. simpl. exact Hnd. Qed.

  Local Lemma find_in_E n : In n (gnodes E) -> find_nodes E (nid n) = [n].
  Proof. intro H. unfold find_nodes. apply find_nodes_unique; auto. apply head_nodup. Qed.
  Local Lemma In_E_ns : In nsn (gnodes E). Proof. unfold E; simpl. apply in_app_iff. right. left. auto. Qed.
  Local Lemma In_E_pn : In pnode (gnodes E). Proof. unfold E; simpl. apply in_app_iff. right. right. left. auto. Qed.
  Local Lemma In_E_ln : In lnode (gnodes E). Proof. unfold E; simpl. apply in_app_iff. right. right. right. left. auto. Qed.

  Local Lemma cls_ns : cls_of E ns = Some cNS.
  Proof. unfold cls_of, ns. rewrite (find_in_E nsn In_E_ns). rewrite Hcls. reflexivity. Qed.
  Local Lemma cls_p : cls_of E p = Some cCP.
  Proof. unfold cls_of. assert (H := find_in_E pnode In_E_pn). simpl in H. fold p in H. rewrite H. reflexivity. Qed.
  Local Lemma cls_l : cls_of E l = Some cLink.
  Proof. unfold cls_of. assert (H := find_in_E lnode In_E_ln). simpl in H. fold l in H. rewrite H. reflexivity. Qed.
  Local Lemma cls_i : has_cls E cCP i = true.
  Proof. unfold E. rewrite has_cls_app_old by apply i_old. exact Hcp. Qed.

  Local Lemma find_E x : In x (ids E) -> exists n, find_node E x = Ok n.
  Proof. intro H. destruct (In_ids_find E x head_nodup H) as [n [Hn _]]; eauto. Qed.
  Local Lemma In_E_p : In p (ids E). Proof. apply in_map_iff. exists pnode. split; auto. apply In_E_pn. Qed.
  Local Lemma In_E_l : In l (ids E). Proof. apply in_map_iff. exists lnode. split; auto. apply In_E_ln. Qed.
  Local Lemma In_E_i : In i (ids E).
  Proof. unfold ids, E; simpl. rewrite map_app. apply in_app_iff. left. apply i_old. Qed.

  (* the peers of the first connected interface are exactly its ServicePort *)
  Local Lemma peers_head : peer_cps E i = Ok [p].
  Proof.
    unfold peer_cps. destruct (find_E i In_E_i) as [n ->].
    rewrite adj_i. rewrite filter_app. simpl.
    assert (Hl : has_cls E cLink l = true) by (unfold has_cls; rewrite cls_l; reflexivity).
    rewrite Hl. rewrite flat_map_app. simpl. rewrite app_nil_r.
    rewrite adj_any_l. simpl. rewrite cls_i.
    assert (Hp : has_cls E cCP p = true) by (unfold has_cls; rewrite cls_p; reflexivity).
    rewrite Hp. simpl. fold ns p l i. eqbs.
    assert (Hold : flat_map (fun l0 => remove_N i (filter (has_cls E cCP) (adj_any E l0)))
                     (filter (has_cls E cLink) (adj_rel g i rConnects)) = []).
    { assert (Hg := Hpeers).
      unfold peer_cps in Hg. destruct (find_node g i); [|discriminate]. injection Hg as Hg'.
      etransitivity; [|exact Hg']. apply (old_links_same g _ _ i Hclosed).
      intros l0 Hin0 Hcl0. apply untouched_app; [|auto].
      destruct hd_facts as (A1 & A2 & A3 & _).
      assert (N1 : ns <> l0) by (intros <-; auto).
      assert (N2 : p <> l0) by (intros <-; auto).
      assert (N3 : l <> l0) by (intros <-; auto).
      assert (N4 : i <> l0) by (apply (cp_not_link g); auto).
      intros e He. simpl in He. unfold touches.
      destruct He as [<-|[<-|[<-|[]]]]; simpl; fold ns p l i; apply orb_false_iff; split; apply N.eqb_neq; auto. }
    rewrite Hold. reflexivity.
  Qed.

  Local Lemma fn_p_cp : first_neighbor E p rConnects cCP = Ok [].
  Proof.
    unfold first_neighbor. destruct (find_E p In_E_p) as [n ->]. rewrite adj_p. simpl.
    unfold has_cls. rewrite cls_ns, cls_l. reflexivity.
  Qed.
  Local Lemma fn_p_link : first_neighbor E p rConnects cLink = Ok [l].
  Proof.
    unfold first_neighbor. destruct (find_E p In_E_p) as [n ->]. rewrite adj_p. simpl.
    unfold has_cls. rewrite cls_ns, cls_l. reflexivity.
  Qed.
  Local Lemma fn_l_cp : first_neighbor E l rConnects cCP = Ok [i; p].
  Proof.
    unfold first_neighbor. destruct (find_E l In_E_l) as [n ->]. rewrite adj_l. simpl.
    rewrite cls_i. unfold has_cls. rewrite cls_p. reflexivity.
  Qed.

  Let E1 := mkGraph (gnodes g ++ nsn :: lnode :: RN) (gedges g ++ mkEdge l i rConnects :: RE).
  Let E2 := mkGraph (gnodes g ++ nsn :: RN) (gedges g ++ RE).

  Local Lemma E_minus_p : remove_node_raw p E = E1.
  Proof.
    unfold remove_node_raw, E, E1. simpl. f_equal.
    - rewrite filter_app. simpl. fold ns p l i. eqbs. simpl.
      rewrite filter_nodes_notin
        by (intros n Hn X; apply (proj1 (proj2 hd_facts)); rewrite <- X; apply in_map; auto).
      f_equal. f_equal. f_equal.
      apply filter_nodes_notin. intros n Hn. apply (proj2 (proj2 (proj2 (proj2 (proj2 (proj2 hd_facts))))) n Hn).
    - rewrite filter_app. rewrite (filter_untouched _ _ g_untouched_p). f_equal.
      simpl. unfold touches; simpl. fold ns p l i. eqbs. simpl.
      f_equal. apply (filter_untouched _ _ Hup).
  Qed.

  Local Lemma E1_minus_l : remove_node_raw l E1 = E2.
  Proof.
    unfold remove_node_raw, E2, E1. simpl. f_equal.
    - rewrite filter_app. simpl. fold ns p l i. eqbs. simpl.
      rewrite filter_nodes_notin
        by (intros n Hn X; apply (proj1 (proj2 (proj2 hd_facts))); rewrite <- X; apply in_map; auto).
      f_equal. f_equal.
      apply filter_nodes_notin. intros n Hn. apply (proj2 (proj2 (proj2 (proj2 (proj2 (proj2 hd_facts))))) n Hn).
    - rewrite filter_app. rewrite (filter_untouched _ _ g_untouched_l). f_equal.
      simpl. unfold touches; simpl. fold ns p l i. eqbs. simpl.
      apply (filter_untouched _ _ Hul).
  Qed.

  Local Lemma find_E1_l : exists n, find_node E1 l = Ok n.
  Proof.
    exists lnode. apply (find_node_unique E1 lnode).
    - unfold ids, E1; simpl. rewrite map_app. simpl.
      assert (H := Hnd).
      replace (ids g ++ ns :: p :: l :: map nid RN) with ((ids g ++ [ns]) ++ p :: l :: map nid RN) in H
        by (rewrite <- app_assoc; reflexivity).
      apply NoDup_mid in H as (_ & _ & H). rewrite <- app_assoc in H. exact H.
    - unfold E1; simpl. apply in_app_iff. right. right. left. reflexivity.
  Qed.

  Local Lemma remove_cp_head fr : remove_cp_and_links p (mkSt E fr) = (mkSt E2 fr, Ok tt).
  Proof.
    unfold remove_cp_and_links, bind, ask. simpl sg.
    rewrite fn_p_cp. simpl. rewrite fn_p_link. rewrite fn_l_cp. simpl.
    fold p l. eqbs. simpl.
    unfold bind, m_delete_node, mutate. simpl sg. unfold g_delete_node.
    destruct (find_E p In_E_p) as [n ->]. rewrite E_minus_p. simpl sg.
    destruct find_E1_l as [n' ->]. rewrite E1_minus_l. reflexivity.
  Qed.

  Local Lemma p_is_service_port : is_service_port E p = true.
  Proof.
    unfold is_service_port. assert (H := find_in_E pnode In_E_pn). simpl in H. fold p in H. rewrite H. reflexivity.
  Qed.

  Lemma disconnect_head fr : disconnect_interface (k_if c) (mkSt E fr) = (mkSt E2 fr, Ok tt).
  Proof.
    unfold disconnect_interface, bind, ask. simpl sg. fold (k_i c). fold i. rewrite peers_head.
    unfold filter.
    replace (is_service_port (sg {| sg := E; sfresh := fr |}) p) with true by (symmetry; exact p_is_service_port).
    apply remove_cp_head.
  Qed.
End Head.

Definition orphan_edge (ns : N) (o : node) : edge := mkEdge ns (nid o) rConnects.
Definition tail_nodes (cs : list conn) (os : list node) : list node := flat_map conn_nodes cs ++ os.
Definition tail_edges (ns : N) (cs : list conn) (os : list node) : list edge :=
  flat_map (conn_edges ns) cs ++ map (orphan_edge ns) os.
Definition extO (g : graph) (nsn : node) (cs : list conn) (os : list node) : graph :=
  mkGraph (gnodes g ++ nsn :: tail_nodes cs os) (gedges g ++ tail_edges (nid nsn) cs os).

Lemma extO_nil g nsn cs : extO g nsn cs [] = ext g nsn cs.
Proof. unfold extO, ext, tail_nodes, tail_edges. simpl. rewrite !app_nil_r. reflexivity. Qed.

Record goodO (g : graph) (nsn : node) (cs : list conn) (os : list node) : Prop := mkGoodO {
  go_good : good g nsn cs;
  go_nodup : NoDup (ids g ++ new_ids nsn cs ++ map nid os);
  go_cls : forall o, In o os -> ncls o = cCP }.

Lemma goodO_tail g nsn c cs os : goodO g nsn (c :: cs) os -> goodO g nsn cs os.
Proof.
  intros [G Hnd Hc]. constructor; auto; [eapply good_tail; eauto|].
  unfold new_ids, conn_ids in *. simpl in Hnd.
  replace (ids g ++ nid nsn :: k_p c :: k_l c :: flat_map (fun c0 => [k_p c0; k_l c0]) cs ++ map nid os)
    with ((ids g ++ [nid nsn]) ++ k_p c :: k_l c :: flat_map (fun c0 => [k_p c0; k_l c0]) cs ++ map nid os) in Hnd
    by (rewrite <- app_assoc; reflexivity).
  apply NoDup_mid in Hnd as (_ & _ & Hnd).
  apply NoDup_mid in Hnd as (_ & _ & Hnd). rewrite <- app_assoc in Hnd. exact Hnd.
Qed.

Lemma map_nid_conn_nodes cs : map nid (flat_map conn_nodes cs) = conn_ids cs.
Proof. unfold conn_ids. induction cs as [|c cs IH]; simpl; auto. f_equal. f_equal. auto. Qed.

Lemma orphans_untouched x ns os : x <> ns -> ~ In x (map nid os) -> untouched x (map (orphan_edge ns) os).
Proof.
  intros Hns Hx e He. apply in_map_iff in He as [o [<- Ho]]. unfold touches, orphan_edge; simpl.
  apply orb_false_iff; split; apply N.eqb_neq; auto. intro X. apply Hx. rewrite <- X. apply in_map; auto.
Qed.

(* the head connection of a good extended graph can be disconnected *)
Lemma disconnect_headO g nsn c cs os fr : closed g -> goodO g nsn (c :: cs) os ->
  disconnect_interface (k_if c) (mkSt (extO g nsn (c :: cs) os) fr) = (mkSt (extO g nsn cs os) fr, Ok tt).
Proof.
  intros Hcl GO. destruct GO as [G Hnd Hcls].
  assert (E1 : extO g nsn (c :: cs) os =
               mkGraph (gnodes g ++ nsn :: conn_nodes c ++ tail_nodes cs os)
                       (gedges g ++ conn_edges (nid nsn) c ++ tail_edges (nid nsn) cs os)).
  { unfold extO, tail_nodes, tail_edges. cbn [flat_map]. rewrite <- !app_assoc. reflexivity. }
  rewrite E1.
  assert (Hnd' : NoDup (ids g ++ nid nsn :: k_p c :: k_l c :: map nid (tail_nodes cs os))).
  { unfold tail_nodes. rewrite map_app, map_nid_conn_nodes.
    unfold new_ids, conn_ids in Hnd. simpl in Hnd. exact Hnd. }
  assert (Hall : forall x, In x (nid nsn :: k_p c :: k_l c :: conn_ids cs ++ map nid os) -> ~ In x (ids g)).
  { intros x Hx Ho. eapply (NoDup_app_disj (ids g)); [exact Hnd| exact Ho|].
    unfold new_ids, conn_ids. simpl. exact Hx. }
  assert (Hsplit := Hnd'). apply NoDup_mid in Hsplit as (_ & A2 & Hs1).
  assert (Hs1' : NoDup (ids g ++ k_p c :: k_l c :: map nid (tail_nodes cs os))) by exact Hs1.
  apply NoDup_mid in Hs1' as (_ & B2 & Hs2). apply NoDup_mid in Hs2 as (_ & C2 & _).
  unfold tail_nodes in A2, B2, C2. rewrite map_app, map_nid_conn_nodes in A2, B2, C2.
  assert (Hi : In (k_i c) (ids g)) by (eapply good_i_old; eauto; left; auto).
  (* untouched facts for x in {p, l, i} and for old Link nodes *)
  assert (Hunt : forall x, x <> nid nsn -> ~ In x (conn_ids cs ++ map nid os) ->
                           (forall c', In c' cs -> k_i c' <> x) ->
                           untouched x (tail_edges (nid nsn) cs os)).
  { intros x Hns Hx Hxi. unfold tail_edges. apply untouched_app.
    - apply conns_untouched; auto. intros c' Hc'. repeat split.
      + intro X. apply Hx. apply in_app_iff. left. rewrite <- X. apply conn_ids_In_p; auto.
      + intro X. apply Hx. apply in_app_iff. left. rewrite <- X. apply conn_ids_In_l; auto.
      + auto.
    - apply orphans_untouched; auto. intro X. apply Hx. apply in_app_iff. right; auto. }
  assert (Hold : forall x, In x (ids g) -> (forall c', In c' cs -> k_i c' <> x) ->
                           untouched x (tail_edges (nid nsn) cs os)).
  { intros x Hx. apply Hunt; intro X.
    - apply (Hall (nid nsn)); [left; auto|]. rewrite <- X. exact Hx.
    - apply (Hall x); [right; right; right; exact X|exact Hx]. }
  apply (disconnect_head g nsn c (tail_nodes cs os) (tail_edges (nid nsn) cs os)); auto.
  - apply (gd_cls _ _ _ G).
  - apply (gd_cp _ _ _ G). left; auto.
  - apply (gd_peers _ _ _ G). left; auto.
  - apply Hunt.
    + intro X. apply A2. rewrite <- X. left; auto.
    + intro X. apply B2. right. exact X.
    + intros c' Hc' X. apply (Hall (k_p c)); [right; left; auto|]. rewrite <- X. apply (good_i_old g nsn (c :: cs)); auto. right; auto.
  - apply Hunt.
    + intro X. apply A2. rewrite <- X. right; left; auto.
    + exact C2.
    + intros c' Hc' X. apply (Hall (k_l c)); [right; right; left; auto|]. rewrite <- X. apply (good_i_old g nsn (c :: cs)); auto. right; auto.
  - apply Hold; [exact Hi|].
    intros c' Hc' X. assert (Hifs := gd_ifs _ _ _ G). simpl in Hifs. inversion Hifs; subst.
    apply H1. rewrite <- X. apply in_map; auto.
  - intros l0 Hl0 Hcl0. apply Hold; [exact Hl0|].
    intros c' Hc'. apply (cp_not_link g); auto. apply (gd_cp _ _ _ G). right; auto.
Qed.

(* a port none of whose neighbours over `connects` is a ConnectionPoint or a Link is deleted alone *)
Lemma remove_plain_port G p n fr :
  find_node G p = Ok n ->
  (forall y, In y (adj_rel G p rConnects) -> has_cls G cCP y = false /\ has_cls G cLink y = false) ->
  remove_cp_and_links p (mkSt G fr) = (mkSt (remove_node_raw p G) fr, Ok tt).
Proof.
  intros Hf Hadj.
  assert (Hfn : forall k, k = cCP \/ k = cLink -> first_neighbor G p rConnects k = Ok []).
  { intros k Hk. unfold first_neighbor. rewrite Hf. f_equal. apply filter_none.
    intros y Hy. destruct (Hadj y Hy), Hk; subst; auto. }
  unfold remove_cp_and_links, bind, ask. simpl sg. rewrite (Hfn cCP) by auto. simpl.
  rewrite (Hfn cLink) by auto. simpl.
  unfold bind, m_delete_node, mutate, g_delete_node. simpl sg. rewrite Hf. reflexivity.
Qed.

Lemma remove_isolated g : closed g -> forall (os : list node) fr,
  NoDup (ids g ++ map nid os) ->
  for_each (map nid os) remove_cp_and_links (mkSt (mkGraph (gnodes g ++ os) (gedges g)) fr) = (mkSt g fr, Ok tt).
Proof.
  intros Hcl. induction os as [|o os IH]; intros fr Hnd.
  - simpl. rewrite app_nil_r. destruct g; reflexivity.
  - simpl map. simpl for_each. unfold bind at 1.
    set (G := mkGraph (gnodes g ++ o :: os) (gedges g)).
    assert (HndG : NoDup (ids G)) by (unfold ids, G; simpl; rewrite map_app; exact Hnd).
    assert (Hfind : find_node G (nid o) = Ok o).
    { apply find_node_unique; auto. unfold G; simpl. apply in_app_iff. right. left. auto. }
    apply NoDup_mid in Hnd as (Hnew & Hos & Hnd).
    assert (Hunt : untouched (nid o) (gedges g)) by (apply closed_untouched; auto).
    rewrite (remove_plain_port G (nid o) o fr Hfind).
    + unfold remove_node_raw, G; simpl. rewrite filter_old_nodes by exact Hnew. simpl. rewrite N.eqb_refl. simpl.
      rewrite (filter_untouched _ _ Hunt).
      rewrite filter_nodes_notin by (intros n Hn X; apply Hos; rewrite <- X; apply in_map; auto).
      apply IH. exact Hnd.
    + intros y Hy. change (In y (adj_es (gedges g) (nid o) rConnects)) in Hy.
      rewrite (adj_es_untouched _ _ _ Hunt) in Hy. contradiction.
Qed.

(* the service with no connection left, only orphan ports: removing it restores g *)
Lemma remove_ns_orphans g nsn os fr : closed g -> goodO g nsn [] os ->
  remove_ns_with_cps_and_links (nid nsn) (mkSt (extO g nsn [] os) fr) = (mkSt g fr, Ok tt).
Proof.
  intros Hcl [G Hnd Hcls].
  set (E := extO g nsn [] os).
  assert (HE : E = mkGraph (gnodes g ++ nsn :: os) (gedges g ++ map (orphan_edge (nid nsn)) os)) by reflexivity.
  unfold new_ids, conn_ids in Hnd. simpl in Hnd.
  assert (HndE : NoDup (ids E)).
  { rewrite HE. unfold ids; simpl. rewrite map_app. simpl. exact Hnd. }
  assert (Hns : ~ In (nid nsn) (ids g)) by (apply NoDup_mid in Hnd as (A & _ & _); exact A).
  assert (Hns_os : ~ In (nid nsn) (map nid os)) by (apply NoDup_mid in Hnd as (_ & B & _); exact B).
  assert (Hfind : find_node E (nid nsn) = Ok nsn).
  { apply find_node_unique; auto. rewrite HE; simpl. apply in_app_iff. right. left. reflexivity. }
  assert (Hadj : adj_rel E (nid nsn) rConnects = map nid os).
  { unfold adj_rel. rewrite HE. simpl gedges. rewrite flat_map_app.
    fold (adj_es (gedges g) (nid nsn) rConnects).
    rewrite (adj_es_untouched _ _ _ (closed_untouched g _ Hcl Hns)). simpl.
    clear -Hns_os. induction os as [|o os IH]; simpl; auto.
    unfold other_end; simpl. rewrite N.eqb_refl. simpl. f_equal. apply IH.
    intro X. apply Hns_os. right; auto. }
  assert (Hflt : filter (has_cls E cCP) (map nid os) = map nid os).
  { apply filter_all. intros x Hx. apply in_map_iff in Hx as [o [<- Ho]].
    unfold has_cls, cls_of. assert (Hin : In o (gnodes E)) by (rewrite HE; simpl; apply in_app_iff; right; right; auto).
    unfold find_nodes. rewrite (find_nodes_unique (gnodes E) o HndE Hin). rewrite (Hcls o Ho). reflexivity. }
  unfold remove_ns_with_cps_and_links, bind, ask. simpl sg. fold E.
  unfold node_cls. rewrite Hfind. rewrite (gd_cls _ _ _ G). simpl.
  unfold first_neighbor. rewrite Hfind. rewrite Hadj, Hflt.
  unfold m_delete_node, mutate, g_delete_node. simpl sg. rewrite Hfind.
  assert (Hraw : remove_node_raw (nid nsn) E = mkGraph (gnodes g ++ os) (gedges g)).
  { unfold remove_node_raw. rewrite HE. simpl. rewrite filter_old_nodes, filter_old_edges by auto. simpl.
    rewrite N.eqb_refl. simpl. f_equal.
    - f_equal. apply filter_nodes_notin. intros n Hn X. apply Hns_os. rewrite <- X. apply in_map; auto.
    - rewrite filter_none; [apply app_nil_r|].
      intros e He. apply in_map_iff in He as [o [<- Ho]]. unfold touches, orphan_edge; simpl.
      rewrite N.eqb_refl. reflexivity. }
  rewrite Hraw. apply remove_isolated; auto.
  apply NoDup_mid in Hnd as (_ & _ & H). exact H.
Qed.

Lemma rollback_restores g nsn cs os fr e : closed g -> goodO g nsn cs os ->
  rollback_service (nid nsn) (map k_if cs) e (mkSt (extO g nsn cs os) fr) = (mkSt g fr, Err e).
Proof.
  intros Hc. unfold rollback_service. induction cs as [|c cs IH]; intro G.
  - simpl. unfold bind at 1. unfold ret at 1. unfold bind. rewrite remove_ns_orphans; auto.
  - simpl map. simpl for_each. unfold bind at 1. unfold bind at 1.
    rewrite (disconnect_headO g nsn c cs os fr Hc G).
    specialize (IH (goodO_tail _ _ _ _ _ G)). unfold bind at 1 in IH. exact IH.
Qed.
