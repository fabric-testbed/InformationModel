(* C07 - the composite calls with a rollback, and the claim about calls and histories.
   add_network_service with interfaces (and the port mirror service): the service, then one connect_interface per
   interface; a failure rolls everything back (16ce105): the interfaces connected so far are disconnected and the
   service is removed.  The service made by the call owns service ports only, each peered with the interface it was made
   for -- so its removal strands nothing.
   add_facility / add_switch, every outcome: the construct is built element by element, each with its owner edge;
   a rejected later step removes the node again (2982a89, bf534cb).  Nothing but this call has touched the new node, so
   its interfaces carry no link: the removal strands nothing.
   Every building call keeps the rules under its precondition op_pre (run_op_preserves; the calls whose precondition is
   op_pre_basic are dispatched by T7Api2.run_op_preserves_basic), hence every history of such calls does. *)
From Coq Require Import List Bool.
From FIM Require Import Base.Str Model.T7Graph Model.T7Ops Model.T7WF Model.T7Steps Model.T7Rel Proofs.T7Tables Proofs.T7WFRefl
     Proofs.T7Frame Proofs.T7Units Proofs.T7Api Proofs.T7Api2 Proofs.T7Api3 Proofs.T7RelUnits Proofs.T7RelRun
     Proofs.T7Api4 Proofs.T7RelAdd Proofs.T7Api5 Proofs.T7Api6 Proofs.T7Rem Proofs.T7Rem2 Proofs.T7Rem3
     Proofs.T7Rem5.
Import ListNotations.

(* the interfaces of s are service ports none of which has a service-port peer *)
Definition SPfree (g : graph) (s : str) : Prop :=
  forall x, In x (first_nb g s Connects KCP) ->
    typ_is g x sServicePort = true /\ forall z, In z (peers g x) -> typ_is g z sServicePort = false.

Lemma SPfree_remove g d s : SPfree g s -> d s = false -> SPfree (remove_set g d) s.
Proof.
  intros H Ds x Hx. rewrite (first_nb_remove g d s _ _ Ds) in Hx. apply filter_In in Hx as [Hx Dx]. apply negb_true_iff in Dx.
  destruct (H x Hx) as [T P]. split; [rewrite (rs_typ g d _ _ Dx); exact T|].
  intros z Hz. apply (peers_remove_sub g d x z Dx) in Hz as [Hz Dz]. rewrite (rs_typ g d _ _ Dz). apply P. exact Hz.
Qed.

Section AddPeeringFrame.
Variables (g : graph) (s i : str) (sp l : node).
Hypothesis W : WF g.
Hypothesis OK : peering_ok g s i sp l = true.
Local Notation g4 := (add_link_edge (add_link_edge (g_add_node (add_owned g sp s Connects) l) (nid l) i) (nid l) (nid sp)).

Lemma apf_old y : has_id g y = true -> y <> nid sp /\ y <> nid l.
Proof.
  intro H. destruct (pk_parts g s i sp l OK) as [F1 [F2 _]]. split; intro E; subst y; congruence.
Qed.
Lemma apf_cls y k : has_id g y = true -> cls_is g4 y k = cls_is g y k.
Proof. intro H. destruct (apf_old y H). apply (pk_cls4_old g s i sp l); assumption. Qed.
Lemma apf_typ y t : has_id g y = true -> typ_is g4 y t = typ_is g y t.
Proof. intro H. destruct (apf_old y H). apply (pk_typ4_old g s i sp l); assumption. Qed.

Lemma apf_X1 : subs_under_dedicated g = true -> subs_under_dedicated g4 = true.
Proof.
  intro X. destruct (pk_parts g s i sp l OK) as [F1 [F2 [_ [_ [_ [C1 [_ [C2 [Cs [Ci _]]]]]]]]]].
  unfold subs_under_dedicated in *. rewrite forallb_forall in *. intros e He.
  assert (Cl : cls_is g4 (nid l) KCP = false).
  { rewrite (pk_cls4_l g s i sp l W OK), C2. reflexivity. }
  assert (Csg : cls_is g4 s KCP = false).
  { rewrite (apf_cls s KCP (cls_is_has_id _ _ _ Cs)). apply (cls_is_unique _ _ _ _ Cs). discriminate. }
  assert (Old : In e (gedges g) -> negb (cls_is g4 (ea e) KCP && cls_is g4 (eb e) KCP) || typ_is g4 (ea e) sDedicatedPort || typ_is g4 (eb e) sDedicatedPort = true).
  { intro Hin. destruct (wf_edge_ends _ W e Hin) as [A B]. apply has_id_In in A. apply has_id_In in B.
    rewrite !(apf_cls _ _ A), !(apf_cls _ _ B), (apf_typ _ _ A), (apf_typ _ _ B). apply X. exact Hin. }
  unfold add_link_edge, add_owned, g_add_edge, g_add_node in He. simpl in He.
  repeat (apply in_app_or in He as [He|He]; [apply filter_In in He as [He _] | destruct He as [<-|[]]; simpl; rewrite ?Cl, ?Csg; reflexivity]).
  apply Old. exact He.
Qed.

Lemma apf_ports x : In x (first_nb g4 s Connects KCP) -> x = nid sp \/ In x (first_nb g s Connects KCP).
Proof.
  intro H. apply In_first_nb in H as [H C].
  rewrite (pk_nbrs4_s g s i sp l W OK) in H. apply in_app_or in H as [H|H]; [|left; destruct H as [H|[]]; congruence].
  right. apply In_first_nb. split; [exact H|].
  assert (Hx : has_id g x = true) by (apply (nbrs_has_id _ _ _ _ (wf_edge_ends _ W)) in H; tauto).
  rewrite <- (apf_cls x KCP Hx). exact C.
Qed.

Lemma apf_peers_old x z : has_id g x = true -> x <> s -> x <> i -> cls_is g x KCP = true -> In z (peers g4 x) -> In z (peers g x) /\ has_id g z = true.
Proof.
  intros Hx Nxs Nxi Cx H. destruct (apf_old x Hx) as [N1 N2].
  apply In_peers_inv in H as [l' [Hl [Hz Hne]]].
  apply In_first_nb in Hl as [Hl Cl]. apply In_first_nb in Hz as [Hz Cz].
  rewrite (pk_nbrs4_other g s i sp l W OK x Nxs N1 N2 Nxi) in Hl.
  assert (Hl0 : has_id g l' = true) by (apply (nbrs_has_id _ _ _ _ (wf_edge_ends _ W)) in Hl; tauto).
  rewrite (apf_cls l' KLink Hl0) in Cl. destruct (apf_old l' Hl0) as [M1 M2].
  destruct (pk_parts g s i sp l OK) as [_ [_ [_ [_ [_ [_ [_ [_ [Cs [Ci _]]]]]]]]]].
  assert (Nls : l' <> s) by (intro E; subst l'; rewrite (cls_is_unique _ _ _ KLink Cs) in Cl; discriminate).
  assert (Nli : l' <> i) by (intro E; subst l'; rewrite (cls_is_unique _ _ _ KLink Ci) in Cl; discriminate).
  rewrite (pk_nbrs4_other g s i sp l W OK l' Nls M1 M2 Nli) in Hz.
  assert (Hz0 : has_id g z = true) by (apply (nbrs_has_id _ _ _ _ (wf_edge_ends _ W)) in Hz; tauto).
  rewrite (apf_cls z KCP Hz0) in Cz. split; [|exact Hz0].
  eapply In_peers; [apply In_first_nb; split; [exact Hl | exact Cl] | apply In_first_nb; split; [exact Hz | exact Cz] | exact Hne].
Qed.

Lemma apf_SPfree : SPfree g s -> SPfree g4 s.
Proof.
  intros H x Hx. destruct (pk_parts g s i sp l OK) as [F1 [F2 [_ [_ [_ [C1 [T1 [C2 [Cs [Ci [Ti _]]]]]]]]]]].
  destruct (apf_ports x Hx) as [->|Hx0].
  - split.
    + rewrite (pk_typ4_ps g s i sp l OK). exact T1.
    + intros z Hz.
      rewrite (pk_peers4 g s i sp l W OK) in Hz. destruct Hz as [<-|[]].
      rewrite (apf_typ i _ (cls_is_has_id _ _ _ Ci)). exact Ti.
  - destruct (H x Hx0) as [T P]. assert (Cx : cls_is g x KCP = true) by (apply In_first_nb in Hx0; tauto).
    pose proof (cls_is_has_id _ _ _ Cx) as Hx1.
    split; [rewrite (apf_typ x _ Hx1); exact T|]. intros z Hz.
    assert (Nxs : x <> s) by (intro E; subst x; rewrite (cls_is_unique _ _ _ KCP Cs) in Cx; discriminate).
    assert (Nxi : x <> i) by (intro E; subst x; congruence).
    destruct (apf_peers_old x z Hx1 Nxs Nxi Cx Hz) as [Hz0 Hzi]. rewrite (apf_typ z _ Hzi). apply P. exact Hz0.
Qed.
End AddPeeringFrame.

Lemma remove_fresh_service g s0 st st' r :
  sg st = g -> WF g -> subs_under_dedicated g = true -> cls_is g s0 KNS = true -> SPfree g s0 ->
  remove_ns_with_cps_and_links s0 st = (st', r) -> WF (sg st').
Proof.
  intros G W X Cs SF H.
  apply (remove_ns_finish g (fun _ => false) st s0 st' r W (InvD_init g W _ st G) eq_refl Cs); [|exact H].
  intros x Hx _ c z Hc Hz Tz. exfalso. rewrite G in Hc, Hz. destruct (SF x Hx) as [Tx Px].
  assert (Cx : cls_is g x KCP = true) by (apply In_first_nb in Hx; tauto).
  rewrite (sp_no_children g x W X Cx Tx) in Hc. destruct Hc as [->|[]]. rewrite (Px z Hz) in Tz. discriminate.
Qed.

Lemma rollback_ns s0 e : forall done st st' (r : res unit),
  WF (sg st) -> subs_under_dedicated (sg st) = true -> cls_is (sg st) s0 KNS = true -> SPfree (sg st) s0 ->
  (forall j, In j done -> cls_is (sg st) j KCP = true /\ typ_is (sg st) j sServicePort = false) ->
  (for_each done disconnect_interface ;;; (remove_ns_with_cps_and_links s0 ;;; raise e)) st = (st', r) -> WF (sg st').
Proof.
  induction done as [|j done IH]; intros st st' r W X Cs SF HD H.
  - simpl in H. unfold bind at 1 in H. unfold ret at 1 in H.
    apply bind_inv in H as [[s1 [[] [H1 H2]]]|[e' [H1 _]]].
    + apply raise_inv in H2 as [-> _]. eapply remove_fresh_service; eauto.
    + eapply remove_fresh_service; eauto.
  - simpl in H. rewrite <- bind_assoc in H.
    destruct (HD j (or_introl eq_refl)) as [Cj Tj].
    apply bind_inv in H as [[s1 [[] [H1 H2]]]|[e' [H1 _]]]; [|eapply api_disconnect; eauto].
    pose proof (api_disconnect j st s1 (Ok tt) W X Cj Tj H1) as W1.
    pose proof W as Wr. apply WF_WFr in Wr.
    destruct (disconnect_run j st s1 (Ok tt) (WFr_sane _ _ _ Wr) H1) as [[G _]|[p [Esp [G _]]]].
    + rewrite <- G in *. eapply IH; eauto. intros k Hk. apply HD. right. exact Hk.
    + (* the service port p, peer of j, and its link are gone *)
      assert (Hp : In p (sp_peers (sg st) j)) by (rewrite Esp; left; reflexivity).
      unfold sp_peers in Hp. apply filter_In in Hp as [Hraw Tp]. simpl in Tp. pose proof (raw_peers_cls _ _ _ Hraw) as Cp.
      set (d := fun y => mem_str y (D_cp (sg st) p true)) in *.
      assert (NC : first_nb (sg st) p Connects KCP = []) by (apply sp_no_children; assumption).
      pose proof (fun y => D_cp_alone (sg st) p true y (cp_extra_nochild _ _ _ NC)) as Dinv.
      assert (Keep : forall y k, cls_is (sg st) y k = true -> k <> KLink -> (k = KCP -> typ_is (sg st) y sServicePort = false) -> d y = false).
      { intros y k Cy N1 N2. destruct (d y) eqn:Dy; [|reflexivity]. exfalso. destruct (Dinv y Dy) as [->|C].
        - destruct (cls_eqb k KCP) eqn:Ek; [apply cls_eqb_eq in Ek; rewrite (N2 Ek) in Tp; discriminate|].
          rewrite (cls_is_unique _ _ _ k Cp) in Cy; [discriminate | intro Q; subst k; discriminate Ek].
        - rewrite (cls_is_unique _ _ _ KLink Cy) in C; [discriminate | exact N1]. }
      assert (Ds : d s0 = false) by (apply (Keep s0 KNS Cs); [discriminate | discriminate]).
      apply (IH s1 st' r W1); [rewrite G | rewrite G | rewrite G | rewrite G |].
      * apply x1_remove_set. exact X.
      * rewrite (rs_cls _ d _ _ Ds). exact Cs.
      * apply SPfree_remove; assumption.
      * intros k Hk. destruct (HD k (or_intror Hk)) as [Ck Tk].
        assert (Dk : d k = false) by (apply (Keep k KCP Ck); [discriminate | intros _; exact Tk]).
        rewrite (rs_cls _ d _ _ Dk), (rs_typ _ d _ _ Dk). auto.
      * exact H2.
Qed.

Lemma new_service_top_post name sid nstype s s' id :
  new_service name sid nstype None s = (s', Ok id) ->
  has_id (sg s) id = false /\ sg s' = g_add_node (sg s) (mk id KNS (Some nstype) name false).
Proof.
  intro H. unfold new_service in H.
  peelok H. peelok H.
  apply bind_reads in H; [| solve [auto 8 with reads]].
  destruct H as [[s1 [a1 [_ [Hg1 H]]]] | [e [Hr _]]]; [| discriminate Hr].
  apply bind_inv in H as [[s6 [[] [H1 H2]]]|[e [_ Hr]]]; [|discriminate Hr].
  apply add_node_inv in H1 as [[_ [Hf Hg']]|[e [He _]]]; [|discriminate].
  apply bind_inv in H2 as [[s7 [[] [H2 H3]]]|[e [_ Hr]]]; [|discriminate Hr].
  apply ret_inv in H2 as [-> _]. apply ret_inv in H3 as [-> H3]. inversion H3; subst id.
  rewrite Hg1 in Hf, Hg'. simpl in Hf. split; [exact Hf | exact Hg'].
Qed.

Section FreshService.
Variables (g : graph) (n : node).
Hypothesis W : WF g.
Hypothesis Hf : has_id g (nid n) = false.
Hypothesis Kn : ncls n = KNS.
Let g' := g_add_node g n.

Lemma fs_old_find y : has_id g y = true -> find_nodes g' y = find_nodes g y.
Proof. intro H. apply find_nodes_add_node_other. intro E. subst y. congruence. Qed.
Lemma fs_cls y k : has_id g y = true -> cls_is g' y k = cls_is g y k.
Proof. intro H. apply cls_is_ext. apply fs_old_find. exact H. Qed.
Lemma fs_typ y t : has_id g y = true -> typ_is g' y t = typ_is g y t.
Proof. intro H. apply typ_is_ext. apply fs_old_find. exact H. Qed.
Lemma fs_cls_new : cls_is g' (nid n) KNS = true.
Proof. unfold g', cls_is, cls_of. rewrite (find_nodes_add_node_same _ _ Hf), Kn. reflexivity. Qed.
Lemma fs_SPfree : SPfree g' (nid n).
Proof.
  intros x Hx. exfalso. apply In_first_nb in Hx as [Hx _]. unfold g' in Hx. rewrite nbrs_add_node in Hx.
  rewrite (nbrs_fresh_nil _ _ (wf_edge_ends _ W) Hf) in Hx. destruct Hx.
Qed.
Lemma fs_X1 : subs_under_dedicated g = true -> subs_under_dedicated g' = true.
Proof.
  intro X. unfold subs_under_dedicated in *. rewrite forallb_forall in *. intros e He. unfold g' in He. simpl in He.
  destruct (wf_edge_ends _ W e He) as [A B]. apply has_id_In in A. apply has_id_In in B.
  rewrite !(fs_cls _ _ A), !(fs_cls _ _ B), (fs_typ _ _ A), (fs_typ _ _ B). apply X. exact He.
Qed.
End FreshService.

Lemma connect_all_preserves fl sub s0 nstype : forall todo done st st' r,
  fl_connect_names fl = true -> fl_connect_undo fl = true ->
  WF (sg st) -> subs_under_dedicated (sg st) = true -> cls_is (sg st) s0 KNS = true -> SPfree (sg st) s0 ->
  (forall j, In j (todo ++ done) -> cls_is (sg st) j KCP = true /\ typ_is (sg st) j sServicePort = false) ->
  connect_all fl sub s0 nstype todo done st = (st', r) -> WF (sg st').
Proof.
  induction todo as [|i todo IH]; intros done st st' r FN FU W X Cs SF HI H; simpl in H.
  - apply ret_inv in H as [-> _]. exact W.
  - destruct (HI i (or_introl eq_refl)) as [Ci Ti].
    apply bind_inv in H as [[s1 [[] [H1 H2]]]|[e [H1 _]]].
    + (* this interface was connected *)
      apply try_any_inv in H1 as [[[] [E1 _]]|[sX [e [_ Q]]]].
      2:{ exfalso. apply bind_inv in Q as [[? [? [_ Q]]]|[? [_ Q]]]; [|discriminate Q].
          apply bind_inv in Q as [[? [? [_ Q]]]|[? [_ Q]]]; [|discriminate Q]. apply raise_inv in Q as [_ Q]. discriminate Q. }
      apply bind_reads in E1; [| auto with reads]. destruct E1 as [[sa [sh [_ [Ga E1]]]]|[e [Q _]]]; [|discriminate Q].
      apply bind_reads in E1; [| auto with reads]. destruct E1 as [[sb [[] [_ [Gb E1]]]]|[e [Q _]]]; [|discriminate Q].
      assert (Gab : sg sb = sg st) by congruence. rewrite <- Gab in W, X, Cs, SF, HI, Ci, Ti.
      destruct (api_connect_shape fl sub s0 i sb s1 (Ok tt) W FN Cs Ci Ti E1) as [[_ [sp [l [OK G]]]]|[e [Q _]]]; [|discriminate Q].
      rewrite add_peering_eq in G. apply (IH (done ++ [i]) s1 st' r FN FU); rewrite ?G.
      * apply WF_add_peering; assumption.
      * apply apf_X1; assumption.
      * rewrite (apf_cls _ s0 i sp l OK s0 KNS (cls_is_has_id _ _ _ Cs)). exact Cs.
      * apply apf_SPfree; assumption.
      * intros j Hj. assert (Hj' : In j ((i :: todo) ++ done)).
        { apply in_app_or in Hj as [Hj|Hj]; [apply in_or_app; left; right; exact Hj|].
          apply in_app_or in Hj as [Hj|[<-|[]]]; [apply in_or_app; right; exact Hj | left; reflexivity]. }
        destruct (HI j Hj') as [Cj Tj]. pose proof (cls_is_has_id _ _ _ Cj) as Hjh.
        rewrite (apf_cls _ s0 i sp l OK j KCP Hjh), (apf_typ _ s0 i sp l OK j _ Hjh). auto.
      * exact H2.
    + (* it was refused: roll back *)
      apply try_any_inv in H1 as [[v [_ Q]]|[sX [e1 [E1 H1]]]]; [discriminate Q|].
      assert (GX : sg sX = sg st).
      { apply bind_reads in E1; [| auto with reads]. destruct E1 as [[sa [sh [_ [Ga E1]]]]|[e2 [_ Q]]]; [|exact Q].
        apply bind_reads in E1; [| auto with reads]. destruct E1 as [[sb [[] [_ [Gb E1]]]]|[e2 [_ Q]]]; [|congruence].
        assert (Gab : sg sb = sg st) by congruence. rewrite <- Gab in W, Cs, Ci, Ti.
        destruct (api_connect_shape fl sub s0 i sb sX (Err e1) W FN Cs Ci Ti E1) as [[Q _]|[e2 [_ [Q|[Q _]]]]]; [discriminate Q | congruence | congruence]. }
      rewrite <- GX in W, X, Cs, SF, HI.
      eapply (rollback_ns s0 e1 done sX st' (Err e)); eauto.
      intros j Hj. apply HI. apply in_or_app. right. exact Hj.
Qed.

(* Topology.add_network_service with any list of interfaces *)
Theorem api_add_ns fl sub name sid nstype ifs s s' r :
  WF (sg s) -> subs_under_dedicated (sg s) = true -> type_allowed KNS nstype = true ->
  fl_connect_names fl = true -> fl_connect_undo fl = true ->
  (forall j, In j ifs -> cls_is (sg s) j KCP = true /\ typ_is (sg s) j sServicePort = false) ->
  t_add_ns fl sub name sid nstype ifs s = (s', r) -> WF (sg s').
Proof.
  intros W X T FN FU HI H. unfold t_add_ns in H.
  apply bind_inv in H as [[s1 [id [H1 H2]]]|[e [H1 _]]]; [|eapply api_new_service_top; eauto].
  pose proof (api_new_service_top _ _ _ _ _ _ W T H1) as W1.
  destruct (new_service_top_post _ _ _ _ _ _ H1) as [Hf G].
  set (n := mk id KNS (Some nstype) name false) in *.
  apply (connect_all_preserves fl sub id nstype ifs [] s1 s' r FN FU W1); rewrite ?G.
  - apply (fs_X1 (sg s) n W Hf X).
  - apply (fs_cls_new (sg s) n Hf eq_refl).
  - apply (fs_SPfree (sg s) n W Hf).
  - intros j Hj. rewrite app_nil_r in Hj. destruct (HI j Hj) as [Cj Tj]. pose proof (cls_is_has_id _ _ _ Cj) as Hj'.
    rewrite (fs_cls (sg s) n Hf j KCP Hj'), (fs_typ (sg s) n Hf j _ Hj'). auto.
  - exact H2.
Qed.

Lemma port_mirror_type_ok : type_allowed KNS sPortMirror = true.
Proof. reflexivity. Qed.

(* the node n has no components, and the interfaces of its services hang off their service by one edge and nothing else *)
Definition Lonely (g : graph) (n : str) : Prop :=
  first_nb g n Has KComp = [] /\
  forall sv x, In sv (first_nb g n Has KNS) -> In x (first_nb g sv Connects KCP) -> nbrs g x = [(sv, Connects)].

Section OwnedFrame.
Variables (g : graph) (nd : node) (a : str) (r : rel).
Hypothesis W : WF g.
Hypothesis Hf : has_id g (nid nd) = false.
Let g' := add_owned g nd a r.

Lemma of_nbrs y : nbrs g' y = nbrs g y ++ nb_of y {| ea := a; eb := nid nd; erel := r |}.
Proof.
  unfold g', add_owned. rewrite nbrs_add_edge; [rewrite nbrs_add_node; reflexivity|].
  rewrite no_edge_add_node. apply no_edge_fresh; [apply (wf_edge_ends _ W) | exact Hf].
Qed.
Lemma of_nbrs_other y : y <> a -> y <> nid nd -> nbrs g' y = nbrs g y.
Proof.
  intros H1 H2. rewrite of_nbrs. unfold nb_of. simpl.
  assert (E1 : str_eqb a y = false) by (apply str_eqb_neq; congruence).
  assert (E2 : str_eqb (nid nd) y = false) by (apply str_eqb_neq; congruence). rewrite E1, E2. apply app_nil_r.
Qed.
Lemma of_nbrs_a : nbrs g' a = nbrs g a ++ [(nid nd, r)].
Proof. rewrite of_nbrs. unfold nb_of. simpl. rewrite str_eqb_refl. reflexivity. Qed.
Lemma of_nbrs_new : has_id g a = true -> nbrs g' (nid nd) = [(a, r)].
Proof.
  intro Ha. rewrite of_nbrs, (nbrs_fresh_nil _ _ (wf_edge_ends _ W) Hf). unfold nb_of. simpl.
  assert (E : str_eqb a (nid nd) = false) by (apply str_eqb_neq; intro E; rewrite E in Ha; congruence).
  rewrite E, str_eqb_refl. reflexivity.
Qed.
Lemma of_cls_old y k : has_id g y = true -> cls_is g' y k = cls_is g y k.
Proof. intro H. apply ao_cls_old. intro E. subst y. congruence. Qed.
Lemma of_cls_new k : cls_is g' (nid nd) k = cls_eqb (ncls nd) k.
Proof.
  unfold g', add_owned, cls_is, cls_of.
  assert (F : find_nodes (g_add_edge (g_add_node g nd) a r (nid nd)) (nid nd) = find_nodes (g_add_node g nd) (nid nd)) by reflexivity.
  rewrite F, (find_nodes_add_node_same _ _ Hf). reflexivity.
Qed.
Lemma of_first_nb_old y r' k : y <> a -> y <> nid nd -> first_nb g' y r' k = first_nb g y r' k.
Proof.
  intros H1 H2. unfold first_nb. rewrite (of_nbrs_other y H1 H2). f_equal. apply filter_ext_in. intros [j rj] Hj. simpl.
  rewrite (of_cls_old j k); [reflexivity|]. apply (nbrs_has_id _ _ _ _ (wf_edge_ends _ W)) in Hj. tauto.
Qed.
Lemma of_first_nb_a r' k : has_id g a = true ->
  first_nb g' a r' k = first_nb g a r' k ++ (if rel_eqb r r' && cls_eqb (ncls nd) k then [nid nd] else []).
Proof.
  intro Ha. unfold first_nb. rewrite of_nbrs_a, filter_app, map_app. f_equal.
  - f_equal. apply filter_ext_in. intros [j rj] Hj. simpl.
    rewrite (of_cls_old j k); [reflexivity|]. apply (nbrs_has_id _ _ _ _ (wf_edge_ends _ W)) in Hj. tauto.
  - simpl. rewrite of_cls_new. destruct (rel_eqb r r' && cls_eqb (ncls nd) k); reflexivity.
Qed.
End OwnedFrame.

Lemma lonely_add_service g n nsn : WF g -> has_id g (nid nsn) = false -> cls_is g n KNode = true -> ncls nsn = KNS ->
  Lonely g n -> Lonely (add_owned g nsn n Has) n.
Proof.
  intros W Hf Cn Kn [L1 L2]. pose proof (cls_is_has_id _ _ _ Cn) as Hn. split.
  - rewrite (of_first_nb_a g nsn n Has W Hf Has KComp Hn), L1, Kn. reflexivity.
  - intros sv x Hsv Hx. rewrite (of_first_nb_a g nsn n Has W Hf Has KNS Hn), Kn in Hsv. simpl in Hsv.
    apply in_app_or in Hsv as [Hsv|[<-|[]]].
    + assert (Csv : cls_is g sv KNS = true) by (apply In_first_nb in Hsv; tauto).
      assert (N1 : sv <> n) by (intro E; subst sv; rewrite (cls_is_unique _ _ _ KNS Cn) in Csv; discriminate).
      assert (N2 : sv <> nid nsn) by (intro E; subst sv; rewrite (cls_is_has_id _ _ _ Csv) in Hf; discriminate).
      rewrite (of_first_nb_old g nsn n Has W Hf sv _ _ N1 N2) in Hx.
      assert (Cx : cls_is g x KCP = true) by (apply In_first_nb in Hx; tauto).
      assert (M1 : x <> n) by (intro E; subst x; rewrite (cls_is_unique _ _ _ KCP Cn) in Cx; discriminate).
      assert (M2 : x <> nid nsn) by (intro E; subst x; rewrite (cls_is_has_id _ _ _ Cx) in Hf; discriminate).
      rewrite (of_nbrs_other g nsn n Has W Hf x M1 M2). apply L2; assumption.
    + exfalso. apply In_first_nb in Hx as [Hx Cx]. rewrite (of_nbrs_new g nsn n Has W Hf Hn) in Hx. destruct Hx as [Hx|[]].
      inversion Hx.
Qed.

Lemma lonely_add_iface g n sv0 nd : WF g -> has_id g (nid nd) = false -> cls_is g n KNode = true -> cls_is g sv0 KNS = true ->
  ncls nd = KCP -> Lonely g n -> Lonely (add_owned g nd sv0 Connects) n.
Proof.
  intros W Hf Cn Cs0 Kn [L1 L2]. pose proof (cls_is_has_id _ _ _ Cn) as Hn. pose proof (cls_is_has_id _ _ _ Cs0) as Hs0.
  assert (Nn1 : n <> sv0) by (intro E; subst sv0; rewrite (cls_is_unique _ _ _ KNS Cn) in Cs0; discriminate).
  assert (Nn2 : n <> nid nd) by (intro E; rewrite <- E in Hf; congruence).
  split.
  - rewrite (of_first_nb_old g nd sv0 Connects W Hf n _ _ Nn1 Nn2). exact L1.
  - intros sv x Hsv Hx. rewrite (of_first_nb_old g nd sv0 Connects W Hf n _ _ Nn1 Nn2) in Hsv.
    assert (Csv : cls_is g sv KNS = true) by (apply In_first_nb in Hsv; tauto).
    assert (N2 : sv <> nid nd) by (intro E; subst sv; rewrite (cls_is_has_id _ _ _ Csv) in Hf; discriminate).
    assert (Old : In x (first_nb g sv Connects KCP) -> nbrs (add_owned g nd sv0 Connects) x = [(sv, Connects)]).
    { intro Hx0. assert (Cx : cls_is g x KCP = true) by (apply In_first_nb in Hx0; tauto).
      assert (M1 : x <> sv0) by (intro E; subst x; rewrite (cls_is_unique _ _ _ KCP Cs0) in Cx; discriminate).
      assert (M2 : x <> nid nd) by (intro E; subst x; rewrite (cls_is_has_id _ _ _ Cx) in Hf; discriminate).
      rewrite (of_nbrs_other g nd sv0 Connects W Hf x M1 M2). apply L2; assumption. }
    destruct (str_eq_dec sv sv0) as [->|Ne].
    + rewrite (of_first_nb_a g nd sv0 Connects W Hf Connects KCP Hs0), Kn in Hx. simpl in Hx.
      apply in_app_or in Hx as [Hx|[<-|[]]]; [apply Old; exact Hx|]. apply (of_nbrs_new g nd sv0 Connects W Hf Hs0).
    + rewrite (of_first_nb_old g nd sv0 Connects W Hf sv _ _ Ne N2) in Hx. apply Old. exact Hx.
Qed.

Lemma remove_lonely_node g n st st' r :
  sg st = g -> WF g -> cls_is g n KNode = true -> Lonely g n -> remove_network_node n st = (st', r) -> WF (sg st').
Proof.
  intros G W Cn [L1 L2] H.
  set (NSS := first_nb g n Has KNS).
  set (PORTS := flat_map (fun sv => first_nb g sv Connects KCP) NSS).
  set (E := fun y => str_eqb y n || mem_str y NSS || mem_str y PORTS).
  pose proof (InvD_init g W E st G) as I0.
  destruct (remove_node_run g W E (fun _ => false) st n I0 (cls_is_has_id _ _ _ Cn) eq_refl Cn) as [d2 [R2 [I2 [_ [D2n [_ [D2s PG2]]]]]]].
  - intros c Hc. rewrite L1 in Hc. destruct Hc.
  - intros sv Hsv. split; [unfold E; apply mem_str_In in Hsv; fold NSS in Hsv; rewrite Hsv, orb_true_r; reflexivity|]. split.
    + intros x Hx. unfold E. apply orb_true_iff. right. apply mem_str_In. unfold PORTS. apply in_flat_map. exists sv. auto.
    + intros x Hx _ c z Hc Hz _. exfalso. rewrite remove_set_none in Hc, Hz. pose proof (L2 sv x Hsv Hx) as Nx.
      assert (Csv : cls_is g sv KNS = true) by (apply In_first_nb in Hsv; tauto).
      assert (F1 : forall k, k <> KNS -> first_nb g x Connects k = []).
      { intros k Hk. unfold first_nb. rewrite Nx. simpl. rewrite (cls_is_unique _ _ _ k Csv (fun Q => Hk (eq_sym Q))). reflexivity. }
      rewrite (F1 KCP) in Hc by discriminate. destruct Hc as [->|[]].
      unfold peers in Hz. rewrite (F1 KLink) in Hz by discriminate. destruct Hz.
  - rewrite R2 in H. inversion H; subst st' r. simpl. apply (finish g E d2 _ I2).
    intros y Hy _. unfold E in Hy. repeat (apply orb_true_iff in Hy as [Hy|Hy]).
    + apply str_eqb_eq in Hy. subst y. exact D2n.
    + apply mem_str_In in Hy. apply D2s. exact Hy.
    + apply mem_str_In in Hy. unfold PORTS in Hy. apply in_flat_map in Hy as [sv [Hsv Hy]].
      assert (Csv : cls_is g sv KNS = true) by (apply In_first_nb in Hsv; tauto).
      apply (PG2 (fun sv' x _ D _ => ltac:(discriminate D)) sv y Csv (D2s sv Hsv) Hy).
Qed.

Lemma node_add_ns_shape n name sid nstype s s' r :
  NoDup (map nid (gnodes (sg s))) -> has_id (sg s) n = true ->
  node_add_ns n name sid nstype s = (s', r) ->
  (exists id, r = Ok id /\ has_id (sg s) id = false /\ sg s' = add_owned (sg s) (mk id KNS (Some nstype) name false) n Has) \/
  (exists e, r = Err e /\ sg s' = sg s).
Proof.
  intros ND Hn H. unfold node_add_ns in H.
  peelu H. peelu H. peelu H. unfold new_service in H. peelu H. peelu H. peelu H.
  rewrite bind_assoc in H.
  apply bind_inv in H as [[s7 [[] [H1 H2]]]|[e [H1 Hr]]]; (apply add_owned_run in H1; [| exact ND | exact Hn]).
  - apply ret_inv in H2 as [-> ->]. destruct H1 as [[_ [Hf Hq]]|[e [He _]]]; [|discriminate]. left. eexists. eauto.
  - destruct H1 as [[H1 _]|[e' [_ Hq]]]; [discriminate|]. right. eauto.
Qed.

(* the interfaces of the new node's service, every outcome *)
Lemma add_ifaces_lonely sub n sv : forall l cache s s' r,
  WF (sg s) -> cls_is (sg s) n KNode = true -> cls_is (sg s) sv KNS = true -> Forall iface_spec_ok l ->
  (forall y, In y (first_nb (sg s) sv Connects KCP) -> In (name_of (sg s) y) cache) ->
  Lonely (sg s) n ->
  add_ifaces sub sv cache l s = (s', r) -> WF (sg s') /\ cls_is (sg s') n KNode = true /\ Lonely (sg s') n.
Proof.
  induction l as [|[[name iid] itype] l IH]; intros cache s s' r W Cn Cs Hl Hc Lo H.
  - simpl in H. apply ret_inv in H as [-> _]. auto.
  - simpl in H. inversion Hl as [|? ? Hspec Hl']; subst.
    apply bind_run in H as [s1 [r1 [H1 H2]]].
    destruct (ns_add_iface_run _ _ _ _ _ _ _ _ _ _ (wf_ids _ W) (cls_is_has_id _ _ _ Cs) H1) as [[id [-> [_ [Hf [_ G1]]]]]|[e [-> G]]].
    + (* this interface was added *)
      assert (W1 : WF (sg s1)).
      { apply (add_ifaces_loop sub sv [(name, iid, itype)] cache s s1 (Ok tt) W Cs); [constructor; [exact Hspec | constructor] | exact Hc|].
        simpl. unfold bind at 1. rewrite H1. reflexivity. }
      set (nd := mk id KCP (Some itype) name true) in *.
      change (has_id (sg s) (nid nd) = false) in Hf.
      pose proof (cls_is_has_id _ _ _ Cn) as Hn. pose proof (cls_is_has_id _ _ _ Cs) as Hs.
      apply (IH (cache ++ [Some name]) s1 s' r W1); [| | exact Hl' | | | exact H2]; rewrite G1.
      * rewrite (of_cls_old (sg s) nd sv Connects Hf n KNode Hn). exact Cn.
      * rewrite (of_cls_old (sg s) nd sv Connects Hf sv KNS Hs). exact Cs.
      * intros y Hy. rewrite (of_first_nb_a (sg s) nd sv Connects W Hf Connects KCP Hs) in Hy. simpl in Hy.
        apply in_app_or in Hy as [Hy|[<-|[]]].
        -- assert (Hyn : y <> nid nd) by (intro E; subst y; rewrite (first_nb_has_id _ _ _ _ _ (wf_edge_ends _ W) Hy) in Hf; discriminate).
           rewrite (ao_name_old (sg s) nd sv Connects y Hyn). apply in_or_app. left. apply Hc. exact Hy.
        -- change id with (nid nd). rewrite (name_of_add_owned_new (sg s) nd sv Connects Hf). apply in_or_app. right. left. reflexivity.
      * apply lonely_add_iface; auto.
    + (* it was refused: nothing changed *)
      destruct H2 as [-> ->]. rewrite G. auto.
Qed.

(* the inner part of add_facility / add_switch: the service, then the interfaces *)
Lemma node_service_and_ifaces sub n sname ssid nstype (specs : list (str * option str * str)) s s' r :
  WF (sg s) -> type_allowed KNS nstype = true -> cls_is (sg s) n KNode = true -> Lonely (sg s) n ->
  Forall iface_spec_ok specs ->
  (sv <- node_add_ns n sname ssid nstype ;; add_ifaces sub sv [] specs) s = (s', r) ->
  WF (sg s') /\ cls_is (sg s') n KNode = true /\ Lonely (sg s') n.
Proof.
  intros W T Cn Lo Hl H. pose proof (cls_is_has_id _ _ _ Cn) as Hn.
  apply bind_run in H as [s1 [r1 [H1 H2]]].
  destruct (node_add_ns_shape _ _ _ _ _ _ _ (wf_ids _ W) Hn H1) as [[sv [-> [Hf G1]]]|[e [-> G]]].
  - destruct (api_node_add_ns_post _ _ _ _ _ _ _ W T Cn H1) as [W1 [Cs Es]].
    set (nsn := mk sv KNS (Some nstype) sname false) in *.
    change (has_id (sg s) (nid nsn) = false) in Hf.
    apply (add_ifaces_lonely sub n sv specs [] s1 s' r W1); [| exact Cs | exact Hl | | | exact H2].
    + rewrite G1, (of_cls_old (sg s) nsn n Has Hf n KNode Hn). exact Cn.
    + rewrite Es. intros y [].
    + rewrite G1. apply lonely_add_service; auto.
  - destruct H2 as [-> ->]. rewrite G. auto.
Qed.

Lemma lonely_new_node g n : nbrs g n = [] -> Lonely g n.
Proof. intro H. unfold Lonely, first_nb. rewrite H. simpl. split; [reflexivity | intros sv x []]. Qed.

(* node, then `inner`, with the rollback *)
Lemma node_construct sub name nid ntype (inner : str -> M unit) s s' r :
  WF (sg s) -> type_allowed KNode ntype = true ->
  (forall n sa sb rr, WF (sg sa) -> cls_is (sg sa) n KNode = true -> Lonely (sg sa) n -> inner n sa = (sb, rr) ->
                      WF (sg sb) /\ cls_is (sg sb) n KNode = true /\ Lonely (sg sb) n) ->
  (n <- t_add_node sub name nid ntype ;; try_any (inner n) (fun e => remove_network_node n ;;; raise e)) s = (s', r) ->
  WF (sg s').
Proof.
  intros W T Hin H.
  apply bind_inv in H as [[s1 [n [H1 H2]]]|[e [H1 _]]]; [|eapply api_add_node; eauto].
  destruct (api_add_node_post _ _ _ _ _ _ _ W T H1) as [W1 [Cn Nn]].
  apply try_any_inv in H2 as [[v [E ->]]|[sX [e [E H2]]]].
  - destruct (Hin n s1 s' (Ok v) W1 Cn (lonely_new_node _ _ Nn) E) as [X _]. exact X.
  - destruct (Hin n s1 sX (Err e) W1 Cn (lonely_new_node _ _ Nn) E) as [WX [CX LX]].
    apply bind_inv in H2 as [[s2 [[] [H3 H4]]]|[e' [H3 _]]].
    + apply raise_inv in H4 as [-> _]. eapply remove_lonely_node; eauto.
    + eapply remove_lonely_node; eauto.
Qed.

(* Topology.add_facility, every outcome *)
Theorem api_add_facility sub name nid ifnames s s' r :
  WF (sg s) -> t_add_facility sub name nid ifnames s = (s', r) -> WF (sg s').
Proof.
  intros W H. destruct facility_types_ok as [T1 [_ [T3 [_ [[I1 [I2 I3]] _]]]]]. unfold t_add_facility in H.
  eapply (node_construct sub name nid sFacility _ s s' r W T1); [|exact H].
  intros n sa sb rr Wa Ca La Hi. cbv beta in Hi.
  destruct ifnames as [[|x l]|]; (eapply node_service_and_ifaces; [exact Wa | exact T3 | exact Ca | exact La | | exact Hi]).
  - constructor; [repeat split; assumption | constructor].
  - apply Forall_forall. intros z Hz. apply in_map_iff in Hz as [kx [E _]]. subst z. repeat split; assumption.
  - constructor; [repeat split; assumption | constructor].
Qed.

(* Topology.add_switch, every outcome *)
Theorem api_add_switch sub name nid nports s s' r :
  WF (sg s) -> t_add_switch sub name nid nports s = (s', r) -> WF (sg s').
Proof.
  intros W H. destruct facility_types_ok as [_ [T2 [_ [T4 [_ [I1 [I2 I3]]]]]]]. unfold t_add_switch in H.
  eapply (node_construct sub name nid sSwitch _ s s' r W T2); [|exact H].
  intros n sa sb rr Wa Ca La Hi. cbv beta in Hi.
  eapply node_service_and_ifaces; [exact Wa | exact T4 | exact Ca | exact La | | exact Hi].
  apply Forall_forall. intros z Hz. apply in_map_iff in Hz as [k [E _]]. subst z. repeat split; assumption.
Qed.

Lemma resolve_cls g k x : resolve g k x = true -> cls_is g x k = true.
Proof.
  unfold resolve, get_node, cls_is, cls_of. destruct (find_nodes g x) as [|n [|m l]]; try discriminate.
  intro H. apply andb_true_iff in H as [H _]. exact H.
Qed.

(* the public disconnect_interface: of an interface that is not a service port; or, by a library that refuses peering
   ports (f52e05e), of any interface *)
Lemma api_public_disconnect fl i s s' r :
  WF (sg s) -> subs_under_dedicated (sg s) = true -> cls_is (sg s) i KCP = true ->
  fl_disc_peering fl || negb (typ_is (sg s) i sServicePort) = true ->
  public_disconnect fl i s = (s', r) -> WF (sg s').
Proof.
  intros W X Ci P H. unfold public_disconnect in H.
  apply bind_reads in H; [| destruct (fl_disc_peering fl); solve [auto 8 with reads]].
  destruct H as [[s1 [[] [Hm [Hg H]]]] | [e [Hr Hg]]]; [| rewrite Hg; exact W].
  destruct (typ_is (sg s) i sServicePort) eqn:Ti.
  - (* a service port: the library has checked that it has no service-port peer, the call changes nothing *)
    rewrite orb_false_r in P. rewrite P in Hm.
    apply bind_inv in Hm as [[s2 [t [H1 Hm]]]|[e [_ Q]]]; [|discriminate Q]. apply type_is_val in H1 as [-> ->].
    apply bind_inv in Hm as [[s2 [ps [H2 Hm]]]|[e [_ Q]]]; [|discriminate Q]. apply get_peers_val in H2 as [-> Hps].
    apply guard_ok_val in Hm as [_ G]. rewrite Ti in G. simpl in G.
    assert (Sn : sane (sg s1)) by (rewrite Hg; apply WF_WFr in W; apply (WFr_sane _ _ _ W)).
    destruct (disconnect_run i s1 s' r Sn H) as [[G' _]|[p [Esp _]]]; [rewrite G', Hg; exact W|].
    exfalso. rewrite Hg in Esp. unfold sp_peers in Esp.
    destruct (raw_peers (sg s) i) as [|x l] eqn:Er; [discriminate Esp|]. rewrite Esp in Hps. subst ps. discriminate G.
  - rewrite <- Hg in W, X, Ci, Ti. eapply api_disconnect; eauto.
Qed.

Lemma need_all_cls k : forall l s s' (u : unit), for_each l (need k) s = (s', Ok u) -> forall j, In j l -> cls_is (sg s) j k = true.
Proof.
  induction l as [|x l IH]; intros s s' u H j Hj; [destruct Hj|]. simpl in H.
  apply bind_inv in H as [[s1 [[] [H1 H2]]]|[e [_ Q]]]; [|discriminate Q].
  apply need_val in H1 as [-> H1]. destruct Hj as [<-|Hj]; [apply resolve_cls; exact H1 | eapply IH; eauto].
Qed.

Lemma rem_pre_parts fl g : rem_pre fl g = true ->
  fl_skip_gone fl = true /\ subs_under_dedicated g = true /\ ns_cp_connects g = true /\ one_sp_peer g = true.
Proof. unfold rem_pre. intro P. repeat (apply andb_true_iff in P as [P ?]). auto. Qed.
Lemma conn_pre_parts fl g i ifs : conn_pre fl g (i :: ifs) = true ->
  fl_connect_names fl = true /\ fl_connect_undo fl = true /\ subs_under_dedicated g = true /\
  forall j, In j (i :: ifs) -> typ_is g j sServicePort = false.
Proof.
  unfold conn_pre. intro P. repeat (apply andb_true_iff in P as [P ?]). repeat split; auto.
  intros j Hj. apply negb_true_iff. revert j Hj. apply forallb_forall. assumption.
Qed.

(* one case per constructor of `op`, in the order of its declaration; the calls whose precondition is op_pre_basic are
   closed by run_op_preserves_basic (T7Api2.v) before the bullets *)
Lemma run_op_preserves sub fl hint o s s' r :
  WF (sg s) -> op_pre fl (sg s) o = true -> run_op sub fl hint o s = (s', r) -> WF (sg s').
Proof.
  intros W P R. destruct o; cbv beta iota delta [op_pre] in P; try (eapply run_op_preserves_basic; eassumption); unfold run_op in R.
  - (* ORemoveNode *) destruct (rem_pre_parts _ _ P) as [FL [X1 [X2 X3]]]. eapply api_t_remove_node; eauto.
  - (* ORemoveComponent *) destruct (rem_pre_parts _ _ P) as [FL [X1 [X2 X3]]]. peelw R W. eapply api_node_remove_component; eauto.
  - (* OAddFacility *) eapply api_add_facility; eauto.
  - (* ORemoveFacility *) destruct (rem_pre_parts _ _ P) as [FL [X1 [X2 X3]]]. eapply api_t_remove_facility; eauto.
  - (* OAddSwitch *) eapply api_add_switch; eauto.
  - (* ORemoveSwitch *) destruct (rem_pre_parts _ _ P) as [FL [X1 [X2 X3]]]. eapply api_t_remove_switch; eauto.
  - (* OAddNS *)
    apply andb_true_iff in P as [T C].
    apply bind_reads in R; [| apply (reads_for_each_need ifs) ].
    destruct R as [[s1 [u [Hm [Hg R]]]] | [e [Hr Hg]]]; [| rewrite Hg; exact W].
    destruct ifs as [|i0 ifs'].
    { rewrite <- Hg in W. eapply (api_add_ns_nil fl); [exact W | apply service_type_ok; exact T | exact R]. }
    destruct (conn_pre_parts _ _ _ _ C) as [FN [FU [X1 NSP]]].
    assert (HI : forall j, In j (i0 :: ifs') -> cls_is (sg s) j KCP = true /\ typ_is (sg s) j sServicePort = false)
      by (intros j Hj; split; [apply (need_all_cls _ _ _ _ _ Hm j Hj) | apply NSP; exact Hj]).
    rewrite <- Hg in W, X1, HI.
    eapply api_add_ns; [exact W | exact X1 | apply service_type_ok; exact T | exact FN | exact FU | exact HI | exact R].
  - (* OAddPM *)
    destruct (conn_pre_parts _ _ _ _ P) as [FN [FU [X1 NSP]]].
    peelw R W. peelw R W. apply resolve_cls in Hm.
    eapply api_add_ns; [exact W | exact X1 | apply port_mirror_type_ok | exact FN | exact FU | | exact R].
    intros j [<-|[]]. split; [exact Hm | apply NSP; left; reflexivity].
  - (* ORemoveNS *) destruct (rem_pre_parts _ _ P) as [FL [X1 [X2 X3]]]. eapply api_t_remove_ns; eauto.
  - (* ONodeRemoveNS *) destruct (rem_pre_parts _ _ P) as [FL [X1 [X2 X3]]]. peelw R W. eapply api_node_remove_ns; eauto.
  - (* OConnect *)
    apply andb_true_iff in P as [P P3]. apply andb_true_iff in P as [P1 P2]. apply negb_true_iff in P3.
    peelw R W. peelw R W. apply resolve_cls in Hm. apply resolve_cls in Hm0.
    destruct (api_connect fl sub s0 i _ _ _ W P1 Hm Hm0 P3 R) as [X|[X _]]; [exact X | congruence].
  - (* ODisconnect *)
    apply andb_true_iff in P as [P1 P2].
    peelw R W. peelw R W. apply resolve_cls in Hm0.
    eapply api_public_disconnect; eauto.
  - (* OPeer *)
    peelw R W. peelw R W. apply resolve_cls in Hm. apply resolve_cls in Hm0.
    eapply api_peer; [exact W | exact Hm | exact Hm0 | | exact R].
    intro FP. rewrite FP in P. simpl in P. apply andb_true_iff in P as [P1 P2]. apply negb_true_iff in P1. apply str_eqb_neq in P1.
    split; [exact P1|]. intros an bn Ea Eb. unfold peer_link_free in P2. rewrite Ea, Eb in P2. exact P2.
  - (* OUnpeer *) peelw R W. peelw R W. eapply api_unpeer; eauto.
  - (* ORemoveSub *) peelw R W. eapply api_remove_child; eauto.
Qed.

Theorem step_preserves sub fl g o drawn hint g' out :
  WF g -> op_pre fl g o = true -> step sub fl g o drawn hint = (g', out) -> WF g'.
Proof.
  intros W P H. unfold step in H.
  destruct (run_op sub fl hint o (mkSt g drawn)) as [s' [u|e]] eqn:R; inversion H; subst;
    eapply (run_op_preserves sub fl hint o (mkSt g drawn)); eauto.
Qed.

Theorem histories sub fl h : forall g, WF g -> pre_along sub fl g h = true -> WF (run_hist sub fl g h).
Proof.
  induction h as [|[[o dr] hi] h IH]; intros g W P; simpl in *; [exact W|].
  apply andb_true_iff in P as [P1 P2]. apply IH; [|exact P2].
  destruct (step sub fl g o dr hi) as [g' out] eqn:E. simpl. eapply step_preserves; eauto.
Qed.

Lemma WF_empty : WF empty_graph.
Proof. apply wf_b_reflect. reflexivity. Qed.
