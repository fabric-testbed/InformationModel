(* C02: after any history of writes and removals a graph is well-formed, so writing a sliver into it
   leaves everything that was in it unchanged (frame); and the store level: with the counter allocators
   of the two in-memory stores the internal id handed to a new node is never in use, also after
   removals, so the store refines the graph view. *)
From Coq Require Import List String NArith Bool Lia.
From FIM Require Import Base.ListFacts Base.Str Model.Sliver2Kinds Model.Sliver2Deep Model.Sliver2Graph
  Model.Sliver2GraphWF Model.Sliver2Store Proofs.Sliver2GraphW Proofs.Sliver2GraphRT Proofs.Sliver2Tables.
Import ListNotations.

Lemma delete_good g id g' : good g -> delete_node g id = Ok g' -> good g'.
Proof.
  intros [ND EC] H. unfold delete_node in H. destruct (find_node g id); [|discriminate H].
  inversion H; subst g'. clear H. split.
  - unfold gids. cbn [g_nodes]. apply NoDup_map_filter. exact ND.
  - intros a r b Hin. cbn [g_edges] in Hin. apply filter_In in Hin as [Hin Ht].
    destruct (EC a r b Hin) as [Ha Hb]. unfold touches in Ht. apply negb_true_iff in Ht.
    apply orb_false_iff in Ht as [Hta Htb].
    assert (Hkeep : forall x, In x (gids g) -> str_eqb x id = false ->
              In x (gids {| g_nodes := filter (fun n => negb (str_eqb (g_id n) id)) (g_nodes g);
                            g_edges := filter (fun e => negb (touches id e)) (g_edges g) |})).
    { intros x Hx Hne. unfold gids in *. cbn [g_nodes]. apply in_map_iff in Hx as [n [E Hn]]. subst x.
      apply in_map. apply filter_In. split; [exact Hn|]. rewrite Hne. reflexivity. }
    split; apply Hkeep; assumption.
Qed.

Theorem history_good : forall h g, good_graph g = true -> good_graph (run_history g h) = true.
Proof.
  induction h as [|o h IH]; intros g Hg; [exact Hg|].
  simpl. destruct (hop_ok g o) eqn:Hok; [|apply IH; exact Hg].
  destruct o as [parent t|id]; simpl.
  - unfold hop_ok in Hok. repeat rewrite andb_true_iff in Hok. destruct Hok as [[Hw Hf] Hp].
    destruct (graph_under g parent t Hg Hw Hf Hp) as [g' [HW [_ [Hg' _]]]]. rewrite HW. apply IH. exact Hg'.
  - destruct (delete_node g id) as [g'|] eqn:Ed; [|apply IH; exact Hg].
    apply IH. apply good_graph_good. apply (delete_good g id g'); [apply good_graph_good; exact Hg | exact Ed].
Qed.

(* FRAME AFTER ANY HISTORY: whatever was written and removed before (starting from the empty graph),
   a sliver with fresh ids written next comes back identical and every node that was in the graph
   keeps its properties (find_node) and - except the parent, which gains the new root - its links
   (get_first_neighbor for every relation and class) *)
Theorem history_frame h parent t :
  let g := run_history empty_graph h in
  graph_wf_sub t = true -> fresh_in g t = true -> parent_ok g parent t = true ->
  exists g', add_under g parent t = Ok g' /\
    build_deep g' (t_kind t) (id_of t) = Ok t /\
    (forall x, In x (gids g) -> find_node g' x = find_node g x) /\
    (forall x rel L, In x (gids g) -> parent <> Some x ->
                     get_first_neighbor g' x rel L = get_first_neighbor g x rel L).
Proof.
  intros g Hw Hf Hp.
  assert (Hg : good_graph g = true) by (apply history_good; reflexivity).
  destruct (graph_under g parent t Hg Hw Hf Hp) as [g' [H1 [H2 [_ [_ [H3 H4]]]]]].
  exists g'. auto.
Qed.

Lemma store_ok_parts s : store_ok s = true ->
  n_nodup (s_ids s) = true /\ (forall k, In k (s_ids s) -> (k < s_ctr s)%N) /\
  strs_nodup (map (fun kn => g_id (snd kn)) (s_nodes s)) = true.
Proof.
  unfold store_ok. intro H. repeat rewrite andb_true_iff in H. destruct H as [[[H1 H2] H3] _].
  split; [exact H1|]. split; [|exact H3]. intros k Hk. rewrite forallb_forall in H2. apply N.ltb_lt. apply H2. exact Hk.
Qed.

(* the counter allocators never hand out an id in use - whatever was removed before *)
Lemma counter_fresh s : store_ok s = true -> ~ In (alloc_counter s) (s_ids s).
Proof.
  intros H Hin. destruct (store_ok_parts s H) as [_ [Hlt _]]. specialize (Hlt _ Hin). unfold alloc_counter in Hlt. lia.
Qed.

Lemma nx_add_fresh k n l : ~ In k (map fst l) -> nx_add_node k n l = l ++ [(k, n)].
Proof.
  induction l as [|[k' n'] l IH]; simpl; intro H; [reflexivity|].
  destruct (N.eqb k k') eqn:E; [apply N.eqb_eq in E; subst; exfalso; apply H; left; reflexivity|].
  f_equal. apply IH. intro Hc. apply H. right. exact Hc.
Qed.

Lemma s_find_view s id : find_node (view s) id = match s_find s id with
                                                   | Some k => find (fun n => str_eqb (g_id n) id) (map snd (s_nodes s))
                                                   | None => None end.
Proof.
  unfold find_node, view, s_find. cbn [g_nodes].
  induction (s_nodes s) as [|[k n] l IH]; simpl; [reflexivity|].
  destruct (str_eqb (g_id n) id) eqn:E; [reflexivity|]. exact IH.
Qed.

Lemma nid_of_app s k n0 k0 : In k (s_ids s) ->
  nid_of {| s_nodes := s_nodes s ++ [(k0, n0)]; s_edges := s_edges s; s_ctr := N.succ (N.max (s_ctr s) k0) |} k = nid_of s k.
Proof.
  unfold nid_of, s_ids. cbn [s_nodes]. induction (s_nodes s) as [|[k' n'] l IH]; simpl; intro H; [contradiction|].
  destruct (N.eqb k' k) eqn:E; [reflexivity|]. apply IH.
  destruct H as [H|H]; [subst; rewrite N.eqb_refl in E; discriminate E | exact H].
Qed.

(* adding a node: the store, with a fresh internal id, does what the graph view does *)
Theorem store_add_node_refines s id label p s' :
  store_ok s = true -> s_add_node alloc_counter s id label p = Ok s' ->
  add_node (view s) id label p = Ok (view s').
Proof.
  intros Hok H. unfold s_add_node in H. destruct (s_find s id) as [k|] eqn:Ef; [discriminate H|].
  inversion H; subst s'. clear H.
  unfold add_node. rewrite s_find_view, Ef.
  rewrite (nx_add_fresh _ _ _ (counter_fresh s Hok)).
  unfold view. cbn [s_nodes s_edges g_nodes g_edges]. rewrite map_app. cbn [map snd]. f_equal. f_equal.
  apply map_ext_in. intros [[x r] y] He.
  unfold store_ok in Hok. repeat rewrite andb_true_iff in Hok. destruct Hok as [_ Hed].
  rewrite forallb_forall in Hed. specialize (Hed _ He). cbn in Hed. apply andb_true_iff in Hed as [Hx Hy].
  assert (In x (s_ids s)) by (apply existsb_exists in Hx as [z [Hz E]]; apply N.eqb_eq in E; subst; exact Hz).
  assert (In y (s_ids s)) by (apply existsb_exists in Hy as [z [Hz E]]; apply N.eqb_eq in E; subst; exact Hz).
  symmetry. f_equal; [f_equal|]; apply (nid_of_app s _ _ (alloc_counter s)); assumption.
Qed.

Lemma n_nodup_NoDup l : n_nodup l = true -> NoDup l.
Proof.
  induction l as [|x l IH]; simpl; intro H; [constructor|]. apply andb_true_iff in H as [H1 H2].
  constructor; [|apply IH; exact H2]. intro Hin. apply negb_true_iff in H1.
  assert (existsb (N.eqb x) l = true) by (apply existsb_exists; exists x; split; [exact Hin | apply N.eqb_refl]). congruence.
Qed.

(* removal keeps the counter above every id still in use (it is not moved back): allocation stays fresh *)
Theorem store_delete_keeps_fresh s id s' :
  store_ok s = true -> s_delete_node s id = Ok s' ->
  (forall k, In k (s_ids s') -> (k < s_ctr s')%N) /\ ~ In (alloc_counter s') (s_ids s').
Proof.
  intros Hok H. destruct (store_ok_parts s Hok) as [_ [Hlt _]].
  unfold s_delete_node in H. destruct (s_find s id) as [k|]; [|discriminate H]. inversion H; subst s'. clear H.
  assert (Hsub : forall k0, In k0 (s_ids {| s_nodes := filter (fun kn => negb (N.eqb (fst kn) k)) (s_nodes s);
                                           s_edges := filter (fun e => match e with (x, _, y) => negb (N.eqb x k || N.eqb y k) end) (s_edges s);
                                           s_ctr := s_ctr s |}) -> In k0 (s_ids s)).
  { intros k0 Hk0. unfold s_ids in *. cbn [s_nodes] in Hk0. apply in_map_iff in Hk0 as [kn [E Hkn]].
    apply filter_In in Hkn as [Hkn _]. subst k0. apply in_map. exact Hkn. }
  split.
  - intros k0 Hk0. cbn [s_ctr]. apply Hlt. apply Hsub. exact Hk0.
  - intro Hin. apply Hsub in Hin. unfold alloc_counter in Hin. cbn [s_ctr] in Hin. specialize (Hlt _ Hin). lia.
Qed.

(* the allocator of seeded change C02-9 (number of nodes + 1) is NOT fresh after a removal: the node
   written next takes over the internal node of another one, and the graph view loses that node *)
Definition sn (id : string) : str := of_string id.
Definition s_after_removal : sgraph :=
  match s_add_node alloc_size empty_sgraph (sn "A") "NetworkNode" [] with
  | Ok s1 => match s_add_node alloc_size s1 (sn "B") "NetworkNode" [] with
             | Ok s2 => match s_add_node alloc_size s2 (sn "C") "Component" [] with
                        | Ok s3 => match s_delete_node s3 (sn "A") with Ok s4 => s4 | Err _ => s3 end
                        | Err _ => s2 end
             | Err _ => s1 end
  | Err _ => empty_sgraph end.

Lemma size_allocator_refuted :
  store_ok s_after_removal = true /\
  In (alloc_size s_after_removal) (s_ids s_after_removal) /\
  exists s', s_add_node alloc_size s_after_removal (sn "D") "NetworkNode" [] = Ok s' /\
             find_node (view s') (sn "C") = None /\
             find_node (view s_after_removal) (sn "C") <> None /\
             add_node (view s_after_removal) (sn "D") "NetworkNode" [] <> Ok (view s').
Proof.
  split; [vm_compute; reflexivity|]. split; [vm_compute; right; left; reflexivity|].
  eexists. split; [vm_compute; reflexivity|]. split; [vm_compute; reflexivity|].
  split; [vm_compute; discriminate|]. vm_compute. intro H. inversion H.
Qed.

(* with the counter allocator the same history keeps node C *)
Definition s_after_removal_ctr : sgraph :=
  match s_add_node alloc_counter empty_sgraph (sn "A") "NetworkNode" [] with
  | Ok s1 => match s_add_node alloc_counter s1 (sn "B") "NetworkNode" [] with
             | Ok s2 => match s_add_node alloc_counter s2 (sn "C") "Component" [] with
                        | Ok s3 => match s_delete_node s3 (sn "A") with Ok s4 => s4 | Err _ => s3 end
                        | Err _ => s2 end
             | Err _ => s1 end
  | Err _ => empty_sgraph end.

Lemma counter_allocator_example :
  store_ok s_after_removal_ctr = true /\
  exists s', s_add_node alloc_counter s_after_removal_ctr (sn "D") "NetworkNode" [] = Ok s' /\
             find_node (view s') (sn "C") = find_node (view s_after_removal_ctr) (sn "C") /\
             find_node (view s') (sn "C") <> None.
Proof.
  split; [vm_compute; reflexivity|]. eexists. split; [vm_compute; reflexivity|].
  split; [vm_compute; reflexivity | vm_compute; discriminate].
Qed.

(* non-vacuity: a 5-sliver tree is written, one of its nodes (not the newest) is removed, then a
   component with a service and a port is written under the node: the hypotheses of history_frame hold *)
Definition w_history : list hop := [HAdd None w_tree; HDel (S"i2")].

Lemma history_example :
  let g := run_history empty_graph w_history in
  List.length (g_nodes g) = 4%nat /\ graph_wf_sub w_comp2 = true /\ fresh_in g w_comp2 = true /\
  parent_ok g (Some (S"n1")) w_comp2 = true.
Proof. vm_compute. repeat split; reflexivity. Qed.
