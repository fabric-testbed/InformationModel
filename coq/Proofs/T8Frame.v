(* C08: the frame.  Every program of Model/T8Ops.v mutates the graph through
   m_delete only; hence, whatever the operation, the graph, and the outcome (also after an
   exception with partial effects), the final graph is the subgraph of the initial graph induced by
   the nodes that are not in the trace of deleted ids. *)
From Coq Require Import List NArith Bool.
From FIM Require Import Base.ListFacts Model.T8Graph Model.T8Ops.
Import ListNotations.

Lemma memN_In x l : memN x l = true <-> In x l.
Proof. apply (existsb_eqb_In N.eqb N.eqb_eq). Qed.

Lemma memN_false x l : memN x l = false <-> ~ In x l.
Proof. apply (existsb_eqb_notIn N.eqb N.eqb_eq). Qed.

Lemma memN_cons x y l : memN x (y :: l) = N.eqb x y || memN x l.
Proof. reflexivity. Qed.

Lemma memN_app x a b : memN x (a ++ b) = memN x a || memN x b.
Proof. unfold memN. apply existsb_app. Qed.

Lemma restrict_nil g : restrict g [] = g.
Proof. destruct g as [ns es]. unfold restrict. simpl. rewrite !filter_true. reflexivity. Qed.

Lemma delete_restrict g d n : delete (restrict g d) n = restrict g (n :: d).
Proof.
  unfold delete, restrict. simpl. rewrite !filter_filter. f_equal.
  - apply filter_ext. intros x. rewrite N.eqb_sym. destruct (N.eqb n (nid x)), (memN (nid x) d); reflexivity.
  - apply filter_ext. intros e. rewrite (N.eqb_sym (ea e) n), (N.eqb_sym (eb e) n).
    destruct (N.eqb n (ea e)), (N.eqb n (eb e)), (memN (ea e) d), (memN (eb e) d); reflexivity.
Qed.

(* ---- the invariant: the state graph is the restriction of g0 by the trace; the trace only grows ---- *)
Definition Inv {A} (m : M A) : Prop :=
  forall g0 s, fst s = restrict g0 (snd s) ->
    fst (snd (m s)) = restrict g0 (snd (snd (m s))) /\ exists d, snd (snd (m s)) = d ++ snd s.

(* the steps that only look at the state: whatever is proved about the trace holds of them *)
Definition Pure {A} (m : M A) : Prop := forall s, snd (m s) = s.

Lemma Pure_ret {A} (x : A) : Pure (ret x).
Proof. intros s. reflexivity. Qed.
Lemma Pure_fail {A} e : Pure (@fail A e).
Proof. intros s. reflexivity. Qed.
Lemma Pure_read {A} (f : graph -> A + exn) : Pure (m_read f).
Proof. intros s. reflexivity. Qed.
Lemma Pure_get {A} (f : graph -> A) : Pure (m_get f).
Proof. intros s. reflexivity. Qed.
Lemma Pure_guard b e : Pure (guard b e).
Proof. intros s. destruct b; reflexivity. Qed.
Lemma Pure_uniq l e1 e2 : Pure (uniq l e1 e2).
Proof. intros s. destruct l as [|x [|y r]]; reflexivity. Qed.
Lemma Pure_need_node n : Pure (need_node n).
Proof. apply Pure_read. Qed.
Lemma Pure_nonempty : Pure m_nonempty.
Proof. apply Pure_read. Qed.
Lemma Pure_exists_as c n : Pure (exists_as c n).
Proof. apply Pure_get. Qed.
Lemma Pure_need_class n c : Pure (need_class n c).
Proof. intros s. unfold need_class, bind. rewrite (surjective_pairing (need_node n s)), (Pure_need_node n s).
  destruct (fst (need_node n s)); [apply Pure_guard | reflexivity]. Qed.

Create HintDb pure discriminated.
#[export] Hint Constants Opaque : pure.
#[export] Hint Resolve Pure_ret Pure_fail Pure_read Pure_get Pure_guard Pure_uniq Pure_need_node Pure_nonempty
  Pure_exists_as Pure_need_class : pure.

Lemma Inv_pure {A} (m : M A) : Pure m -> Inv m.
Proof. intros H g0 s C. split; [|exists []]; rewrite H; [exact C | reflexivity]. Qed.

Lemma Inv_ret {A} (x : A) : Inv (ret x).
Proof. apply Inv_pure, Pure_ret. Qed.

Lemma Inv_get {A} (f : graph -> A) : Inv (m_get f).
Proof. apply Inv_pure, Pure_get. Qed.

Lemma Inv_exists_as c n : Inv (exists_as c n).
Proof. apply Inv_get. Qed.

Lemma Inv_bind {A B} (m : M A) (f : A -> M B) : Inv m -> (forall x, Inv (f x)) -> Inv (bind m f).
Proof.
  intros Hm Hf g0 s H. unfold bind. specialize (Hm g0 s H).
  destruct (m s) as [[x|e] s'] eqn:E; simpl in *.
  - destruct Hm as [H1 [d Hd]]. specialize (Hf x g0 s' H1). destruct Hf as [H2 [d' Hd']].
    split; [exact H2|]. exists (d' ++ d). rewrite Hd', Hd, app_assoc. reflexivity.
  - exact Hm.
Qed.

Lemma Inv_delete n : Inv (m_delete n).
Proof.
  intros g0 s H. unfold m_delete. destruct (has_node (fst s) n); simpl.
  - split; [rewrite H; apply delete_restrict | exists [n]; reflexivity].
  - split; [exact H | exists []; reflexivity].
Qed.

Lemma Inv_for_each {A} (f : A -> M unit) l : (forall x, Inv (f x)) -> Inv (for_each f l).
Proof.
  intros Hf. induction l as [|x l IH]; simpl; [apply Inv_ret|].
  apply Inv_bind; [apply Hf | intros _; exact IH].
Qed.

Lemma Inv_for_each_set {A} (f : A -> M unit) l : (forall x, Inv (f x)) -> Inv (for_each_set f l).
Proof.
  intros Hf g0 s H. unfold for_each_set.
  pose proof (Inv_for_each f l Hf g0 s H) as P.
  destruct (for_each f l s) as [[u|e] s'] eqn:E; simpl in *; exact P.
Qed.

(* Inv of a program follows its syntax.  The rules are matched syntactically (no constant is unfolded), a program
   that branches on a value it has read is handled by cases on that value, and each program proved below is added. *)
Create HintDb inv discriminated.
#[export] Hint Constants Opaque : inv.
#[export] Hint Resolve Inv_delete Inv_bind Inv_for_each_set Inv_for_each : inv.
#[export] Hint Extern 0 (Inv _) => (apply Inv_pure; solve [auto with pure]) : inv.
#[export] Hint Extern 3 (Inv _) => match goal with |- Inv (match ?x with _ => _ end) => destruct x end : inv.

Lemma Inv_remove_cp n dp : Inv (remove_cp_and_links n dp).
Proof. unfold remove_cp_and_links. auto 10 with inv. Qed.
#[export] Hint Resolve Inv_remove_cp : inv.

Lemma Inv_remove_ns n : Inv (remove_ns n).
Proof. unfold remove_ns. auto 10 with inv. Qed.
#[export] Hint Resolve Inv_remove_ns : inv.

Lemma Inv_remove_component n : Inv (remove_component n).
Proof. unfold remove_component. auto 10 with inv. Qed.
#[export] Hint Resolve Inv_remove_component : inv.

Lemma Inv_remove_node_graph n : Inv (remove_node_graph n).
Proof. unfold remove_node_graph. auto 10 with inv. Qed.

#[export] Hint Resolve Inv_remove_node_graph : inv.

Lemma Inv_disconnect_interface i : Inv (disconnect_interface i).
Proof. unfold disconnect_interface. auto 10 with inv. Qed.
#[export] Hint Resolve Inv_disconnect_interface : inv.

Lemma Inv_disconnect_peers_of i : Inv (disconnect_peers_of i).
Proof. unfold disconnect_peers_of. auto 10 with inv. Qed.
#[export] Hint Resolve Inv_disconnect_peers_of : inv.

Lemma Inv_disconnect_step i : Inv (disconnect_step i).
Proof. unfold disconnect_step. auto with inv. Qed.
#[export] Hint Resolve Inv_disconnect_step : inv.

Lemma Inv_api_remove_node nm : Inv (api_remove_node nm).
Proof. unfold api_remove_node. auto 10 with inv. Qed.

Lemma Inv_api_remove_facility nm : Inv (api_remove_facility nm).
Proof. unfold api_remove_facility. auto 12 with inv. Qed.
#[export] Hint Resolve Inv_api_remove_node Inv_api_remove_facility : inv.

Lemma Inv_remove_ns_disconnecting s : Inv (remove_ns_disconnecting s).
Proof. unfold remove_ns_disconnecting. auto with inv. Qed.
#[export] Hint Resolve Inv_remove_ns_disconnecting : inv.

Lemma Inv_api_remove_component n c : Inv (api_remove_component n c).
Proof. unfold api_remove_component. auto 10 with inv. Qed.
#[export] Hint Resolve Inv_api_remove_component : inv.

Lemma Inv_remove_if_there c : Inv (remove_if_there c).
Proof. unfold remove_if_there. auto with inv. Qed.
#[export] Hint Resolve Inv_remove_if_there : inv.

Lemma Inv_prune_node7 nn : Inv (prune_node7 nn).
Proof. unfold prune_node7. auto with inv. Qed.
Lemma Inv_prune_node9 nn : Inv (prune_node9 nn).
Proof. unfold prune_node9. auto 10 with inv. Qed.
Lemma Inv_prune_comp7 cn : Inv (prune_comp7 cn).
Proof. unfold prune_comp7. auto with inv. Qed.
Lemma Inv_prune_ns7 s : Inv (prune_ns7 s).
Proof. unfold prune_ns7. auto with inv. Qed.
Lemma Inv_prune_if7 i : Inv (prune_if7 i).
Proof. unfold prune_if7. auto 10 with inv. Qed.
Lemma Inv_prune_if8 i : Inv (prune_if8 i).
Proof. unfold prune_if8. auto 10 with inv. Qed.
#[export] Hint Resolve Inv_prune_node7 Inv_prune_node9 Inv_prune_comp7 Inv_prune_ns7 Inv_prune_if7 Inv_prune_if8 : inv.

Lemma Inv_exec ex o cs : Inv (exec ex o cs).
Proof.
  destruct o; cbn [exec];
    unfold api_remove_switch, api_remove_link, remove_link_graph, api_remove_ns_topo, api_node_remove_ns, api_disconnect,
      api_remove_interface, api_remove_child, api_unpeer, api_unpeer_checked, api_unpeer_with, api_unpeer6,
      api_prune, api_prune7, api_prune8, api_prune9;
    auto 16 with inv.
Qed.

Theorem frame_run {A} (m : M A) g r g' tr : Inv m -> run m g = (r, (g', tr)) -> g' = restrict g tr.
Proof.
  intros Hm E. unfold run in E. specialize (Hm g (g, []) (eq_sym (restrict_nil g))).
  rewrite E in Hm. simpl in Hm. destruct Hm as [H _]. exact H.
Qed.

Theorem frame_exec ex o cs g r g' tr :
  run (exec ex o cs) g = (r, (g', tr)) -> g' = restrict g tr.
Proof. apply frame_run, Inv_exec. Qed.

Lemma restrict_nodes g d x : In x (gnodes (restrict g d)) <-> In x (gnodes g) /\ ~ In (nid x) d.
Proof.
  unfold restrict. simpl. rewrite filter_In. rewrite negb_true_iff, memN_false. tauto.
Qed.

Lemma restrict_edges g d e :
  In e (gedges (restrict g d)) <-> In e (gedges g) /\ ~ In (ea e) d /\ ~ In (eb e) d.
Proof.
  unfold restrict. simpl. rewrite filter_In, andb_true_iff, !negb_true_iff, !memN_false. tauto.
Qed.

(* survivors keep their whole record (class, type, name, every other property); every edge between two
   survivors survives with its class; nothing appears *)
Theorem frame_nodes ex o cs g r g' tr :
  run (exec ex o cs) g = (r, (g', tr)) ->
  forall x, In x (gnodes g') <-> In x (gnodes g) /\ ~ In (nid x) tr.
Proof. intros E x. rewrite (frame_exec _ _ _ _ _ _ _ E). apply restrict_nodes. Qed.

Theorem frame_edges ex o cs g r g' tr :
  run (exec ex o cs) g = (r, (g', tr)) ->
  forall e, In e (gedges g') <-> In e (gedges g) /\ ~ In (ea e) tr /\ ~ In (eb e) tr.
Proof. intros E e. rewrite (frame_exec _ _ _ _ _ _ _ E). apply restrict_edges. Qed.

(* the relative order of the survivors is kept as well: the result is literally a filtered copy *)
Theorem frame_order ex o cs g r g' tr :
  run (exec ex o cs) g = (r, (g', tr)) ->
  gnodes g' = filter (fun x => negb (memN (nid x) tr)) (gnodes g).
Proof. intros E. rewrite (frame_exec _ _ _ _ _ _ _ E). reflexivity. Qed.
