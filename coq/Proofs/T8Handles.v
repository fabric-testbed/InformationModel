(* C08: two-ended links for every operation; handle caches vs a fresh look-up.  The handle theorems reason
   on the initial graph: what is deleted is bounded by sound_exec and contains the targets by target_exec. *)
From Coq Require Import List NArith Bool.
From FIM Require Import Model.T8Graph Model.T8Ops Proofs.T8Frame Proofs.T8Query Proofs.T8Hoare Proofs.T8Sound
     Proofs.T8SoundTop Proofs.T8Complete Proofs.T8Closed Proofs.T8Top Proofs.T8Inv.
Import ListNotations.

Lemma J1_init g : J1 g (g, []).
Proof. split; [apply cons_init | intros l i j _ []]. Qed.

(* LI is kept by the two kinds of step, in the shape lift_exec asks for *)
Lemma LI_del g D n : LI g D -> ~ In n D ->
  class_of g n = CNS \/ class_of g n = CComp \/ class_of g n = CNode -> LI g (n :: D).
Proof.
  intros H _ Hc l i j Hl [<-|Hi]; [|right; apply (H l i j Hl Hi)].
  exfalso. destruct Hl as [_ [_ Hm]]. assert (class_of g n = CCP) by (apply (cpn_class g l); apply Hm; auto).
  destruct Hc as [A|[A|A]]; congruence.
Qed.

Lemma LI_cp g s s' n dp : cons g s -> LI g (snd s) -> class_of g n = CCP ->
  remove_cp_and_links n dp s = (inl tt, s') -> LI g (snd s').
Proof. intros C L _ E. destruct (remove_cp_LI g n dp s s' (conj C L) E) as [_ H]. exact H. Qed.

(* a returning path-based unpeer: one candidate pair, both ends ServicePorts, both removed *)
Lemma api_unpeer_ok a b ca cb s r s' :
  api_unpeer a b ca cb s = (inl r, s') ->
  exists x y s1, unpeer_ends (fst s) a b = Some [(x, y)] /\ remove_cp_and_links x true s = (inl tt, s1) /\
                 remove_cp_and_links y true s1 = (inl tt, s') /\ r = (removeN x ca, removeN y cb).
Proof.
  intros E. apply bind_need_node_ok in E. destruct E as [_ [_ E]]. apply bind_need_node_ok in E. destruct E as [_ [_ E]].
  apply bind_get_ok in E. destruct (unpeer_ends (fst s) a b) as [[|[x y] [|xy' l]]|]; try discriminate;
    [| apply bind_get_ok in E; destruct (existsb (both_sp (fst s)) _); discriminate].
  apply bind_get_ok, bind_guard_ok in E. destruct E as [_ E].
  apply bind_ok in E. destruct E as [[] [s1 [E1 E]]]. apply bind_ok in E. destruct E as [[] [s2 [E2 E]]].
  apply ret_ok in E. destruct E as [-> ->]. exists x, y, s1. auto.
Qed.

(* LI through every operation: by the generic lifting, except remove_link (closure) and the path-based unpeer *)
Theorem links2_exec ex o cs g r g' tr :
  run (exec ex o cs) g = (inl r, (g', tr)) -> LI g tr.
Proof.
  intros E. destruct (liftable o) eqn:Hl.
  - exact (lift_exec g (LI g) (LI_del g) (LI_cp g) (fun l i j _ H => match H with end) ex o cs r g' tr Hl E).
  - destruct o; try discriminate.
    + exact (proj1 (closed_exec ex (ORemoveLink name) cs g r g' tr eq_refl E)).
    + apply bind_ret_ok in E. destruct E as [cc E].
      destruct (api_unpeer_ok _ _ _ _ _ _ _ E) as [x [y [s1 [_ [E1 [E2 _]]]]]].
      exact (proj2 (remove_cp_LI g _ _ _ _ (remove_cp_LI g _ _ _ _ (J1_init g) E1) E2)).
Qed.

(* a fresh look-up of a surviving service / port handle after the operation: the old interfaces that survive *)
Lemma fresh_after g tr s y :
  ~ In s tr -> (In y (cpn (restrict g tr) s) <-> In y (cpn g s) /\ ~ In y tr).
Proof. intros Hs. unfold cpn. rewrite first_neighbor_restrict; [tauto | discriminate]. Qed.

Definition same (a b : list N) : Prop := forall y, In y a <-> In y b.

(* the handle's list without x is what a fresh look-up reports, when the handle survives and of its interfaces
   exactly x was deleted *)
Lemma same_removeN g tr s c x :
  same c (cpn g s) -> ~ In s tr -> (forall y, In y (cpn g s) -> (In y tr <-> y = x)) ->
  same (removeN x c) (cpn (restrict g tr) s).
Proof.
  intros Hc Hs H y. rewrite (fresh_after g tr s y Hs), removeN_In, (Hc y).
  split; intros [Hy A]; (split; [exact Hy|]); [rewrite (H y Hy) | rewrite <- (H y Hy)]; exact A.
Qed.

(* what remove_cp_and_links n dp may delete: n, with dp the connection points next to n, and links *)
Lemma U_cp_cases g n dp z : U_cp g n dp z -> z = n \/ (dp = true /\ In z (cpn g n)) \/ class_of g z = CLink.
Proof.
  intros [[->|H]|[i [_ Hl]]]; auto. right. right. apply first_neighbor_In in Hl. tauto.
Qed.

Lemma U_cp_alone g n z : cpn g n = [] -> U_cp g n true z -> z = n \/ class_of g z = CLink.
Proof. intros Hn H. destruct (U_cp_cases g n true z H) as [A|[[_ A]|A]]; auto. rewrite Hn in A. destruct A. Qed.

Lemma child_by_name_In g (cands : list N) nm x : In x (child_by_name g cands nm) <-> In x cands /\ name_of g x = nm.
Proof. unfold child_by_name. rewrite filter_In, N.eqb_eq. tauto. Qed.

(* a typed peer of i is in the list get_peers_typed reports, so there is none when it reports None or [] *)
Lemma get_peers_typed_all g i t l sp :
  match get_peers_typed g i t with Some l' => l' = l | None => l = [] end ->
  In sp (peer_cps g i) -> type_of g sp = t -> In sp l.
Proof.
  unfold get_peers_typed, get_peers. destruct (peer_cps g i) as [|a rr] eqn:Ep; [intros _ []|].
  intros <- Hsp Ht. apply filter_In. split; [exact Hsp | apply N.eqb_eq; exact Ht].
Qed.

(* the list disconnect_interface hands back: without the one ServicePort peer, or unchanged with nothing deleted *)
Lemma api_disconnect_ret i c s c' s' :
  api_disconnect i c s = (inl c', s') ->
  match get_peers_typed (fst s) i T_ServicePort with Some [x] => c' = removeN x c | _ => c' = c /\ s' = s end.
Proof.
  intros E. apply bind_ok in E. destruct E as [r [s1 [E E2]]]. apply bind_need_node_ok in E. destruct E as [_ [_ E]].
  apply bind_get_ok in E. destruct (get_peers_typed (fst s) i T_ServicePort) as [[|x [|x' l]]|]; try discriminate.
  2: apply bind_ret_ok in E as E'; apply bind_ok in E; destruct E as [[] [s2 [_ E]]]; apply ret_ok in E;
     destruct E as [-> _]; apply ret_ok in E2; tauto.
  all: apply ret_ok in E; destruct E as [-> ->]; apply ret_ok in E2; tauto.
Qed.

(* NetworkService.disconnect_interface: the handle's list afterwards is what a fresh look-up reports *)
Theorem handles_disconnect ex s i c g cs' g' tr :
  run (exec ex (ODisconnect s i) [c]) g = (inl cs', (g', tr)) ->
  class_of g s = CNS ->
  same c (cpn g s) ->
  (forall x, get_peers_typed g i T_ServicePort = Some [x] -> cpn g x = []) ->
  exists c', cs' = [c'] /\ same c' (cpn g' s).
Proof.
  intros E Hs Hc Hp. pose proof (frame_exec _ _ _ _ _ _ _ E) as ->.
  pose proof (sound_exec _ _ _ _ _ _ _ E) as HS. pose proof (target_exec _ _ _ _ _ _ _ E) as HT. simpl in HS, HT.
  apply bind_ok in E. destruct E as [c' [s0 [E E2]]]. apply ret_ok in E2. destruct E2 as [-> <-].
  exists c'. split; [reflexivity|]. apply api_disconnect_ret in E. simpl in E.
  pose proof (get_peers_typed_all g i T_ServicePort) as Hall.
  destruct (get_peers_typed g i T_ServicePort) as [[|x [|x' l]]|] eqn:Hg;
    try (destruct E as [-> [= _ ->]]; rewrite restrict_nil; exact Hc).
  subst c'. pose proof (Hp x eq_refl) as Hx0.
  assert (Hxc : class_of g x = CCP).
  { apply (peer_cps_class g (g, []) i x (cons_init g)), (get_peers_typed_In g i T_ServicePort [x] x Hg). left. reflexivity. }
  assert (HU : forall z, In z tr -> z = x \/ class_of g z = CLink).
  { intros z Hz. destruct (HS z Hz) as [p [Hpp [Ht HU]]]. destruct (Hall [x] p eq_refl Hpp Ht) as [<-|[]].
    apply (U_cp_alone g x z Hx0 HU). }
  apply same_removeN; [exact Hc | intros Hin; destruct (HU s Hin) as [->|Hl]; congruence |].
  intros y Hy. apply (cpn_class g s) in Hy. split; [|intros ->; apply HT; reflexivity].
  intros Hin. destruct (HU y Hin) as [->|Hl]; [reflexivity | congruence].
Qed.

(* NetworkService.unpeer: both handles' lists afterwards are what fresh look-ups report *)
Theorem handles_unpeer ex a b ca cb g cs' g' tr :
  run (exec ex (OUnpeer a b) [ca; cb]) g = (inl cs', (g', tr)) ->
  class_of g a = CNS -> class_of g b = CNS ->
  same ca (cpn g a) -> same cb (cpn g b) ->
  (forall xy, unpeer_ends g a b = Some [xy] ->
     cpn g (fst xy) = [] /\ cpn g (snd xy) = [] /\
     class_of g (fst xy) = CCP /\ class_of g (snd xy) = CCP /\
     ~ In (snd xy) (cpn g a) /\ ~ In (fst xy) (cpn g b)) ->
  exists ca' cb', cs' = [ca'; cb'] /\ same ca' (cpn g' a) /\ same cb' (cpn g' b).
Proof.
  intros E Ha Hb Hca Hcb Hp. pose proof (frame_exec _ _ _ _ _ _ _ E) as ->.
  pose proof (sound_exec _ _ _ _ _ _ _ E) as HS. pose proof (target_exec _ _ _ _ _ _ _ E) as HT. simpl in HS, HT.
  apply bind_ok in E. destruct E as [cc [s0 [E E2]]]. apply ret_ok in E2. destruct E2 as [-> <-].
  destruct (api_unpeer_ok _ _ _ _ _ _ _ E) as [x [y [s1 [Hu [_ [_ ->]]]]]]. simpl in Hu.
  exists (removeN x ca), (removeN y cb). split; [reflexivity|].
  destruct (Hp (x, y) Hu) as [Hx0 [Hy0 [Hxc [Hyc [Hya Hxb]]]]]. simpl in *.
  assert (HU : forall z, In z tr -> z = x \/ z = y \/ class_of g z = CLink).
  { intros z Hz. destruct (HS z Hz) as [xy [Hxy HU]]. rewrite Hu in Hxy. injection Hxy as <-. simpl in HU.
    destruct HU as [HU|HU]; [destruct (U_cp_alone g x z Hx0 HU) | destruct (U_cp_alone g y z Hy0 HU)]; auto. }
  assert (HX : In x tr /\ In y tr) by (split; apply HT; exists (x, y); auto).
  split; (apply same_removeN; [assumption | intros Hin; destruct (HU _ Hin) as [->|[->|Hl]]; congruence |]);
    intros z Hz; pose proof (cpn_class g _ z Hz) as Hzc; (split; [|intros ->; tauto]); intros Hin;
    destruct (HU z Hin) as [->|[->|Hl]]; try reflexivity; try contradiction; congruence.
Qed.

(* the list remove_interface hands back *)
Lemma api_remove_interface_ret ex s nm c st c' st' :
  api_remove_interface ex s nm c st = (inl c', st') ->
  exists i, child_by_name (fst st) (cpn (fst st) s) nm = [i] /\ c' = removeN i c.
Proof.
  intros E. apply bind_guard_ok in E. destruct E as [_ E]. apply bind_need_node_ok in E. destruct E as [x0 [_ E]].
  apply bind_guard_ok in E. destruct E as [_ E]. apply get_uniq_ok in E. destruct E as [i [Hi E]].
  apply bind_ok in E. destruct E as [[] [s1 [_ E]]]. apply ret_ok in E. destruct E as [-> _]. exists i. auto.
Qed.

(* NetworkService.remove_interface: the handle's list afterwards is what a fresh look-up reports.
   Hypothesis: no two ports of the service are next to each other. *)
Theorem handles_remove_interface ex s nm c g cs' g' tr :
  run (exec ex (ORemoveInterface s nm) [c]) g = (inl cs', (g', tr)) ->
  class_of g s = CNS ->
  same c (cpn g s) ->
  (forall i y, In i (cpn g s) -> In y (cpn g s) -> ~ In y (cpn g i)) ->
  exists c', cs' = [c'] /\ same c' (cpn g' s).
Proof.
  intros E Hs Hc Hp. pose proof (frame_exec _ _ _ _ _ _ _ E) as ->.
  pose proof (sound_exec _ _ _ _ _ _ _ E) as HS. pose proof (target_exec _ _ _ _ _ _ _ E) as HT. simpl in HS, HT.
  apply bind_ok in E. destruct E as [c' [s0 [E E2]]]. apply ret_ok in E2. destruct E2 as [-> <-].
  exists c'. split; [reflexivity|]. destruct (api_remove_interface_ret _ _ _ _ _ _ _ E) as [i [Hi ->]]. simpl in Hi.
  assert (Hii : forall j, In j (cpn g s) /\ name_of g j = nm <-> j = i).
  { intros j. rewrite <- child_by_name_In, Hi. simpl. intuition. }
  pose proof (proj1 (proj2 (Hii i) eq_refl)) as Hic.
  assert (HU : forall z, In z tr -> z = i \/ In z (cpn g i) \/ class_of g z = CLink).
  { intros z Hz. destruct (HS z Hz) as [j [Hj [Hn HU]]]. rewrite (proj1 (Hii j) (conj Hj Hn)) in HU.
    destruct (U_cp_cases g i true z HU) as [A|[[_ A]|A]]; auto. }
  apply same_removeN; [exact Hc | |].
  - intros Hin. destruct (HU s Hin) as [->|[Hn|Hl]]; [apply (cpn_class g i) in Hic | apply (cpn_class g i) in Hn |]; congruence.
  - intros y Hy. split; [|intros ->; apply HT, Hii; reflexivity].
    intros Hin. destruct (HU y Hin) as [->|[Hn|Hl]]; [reflexivity | destruct (Hp i y Hic Hy Hn) |].
    apply (cpn_class g s) in Hy. congruence.
Qed.

(* a returning remove_child_interface: the port is a connection point, the name addresses one child, the child is
   disconnected, then removed without the port *)
Lemma api_remove_child_ok p nm c s r s' :
  api_remove_child p nm c s = (inl r, s') ->
  class_of (fst s) p = CCP /\
  exists i s1, child_by_name (fst s) (cpn (fst s) p) nm = [i] /\ disconnect_peers_of i s = (inl tt, s1) /\
               remove_cp_and_links i false s1 = (inl tt, s') /\ r = removeN i c.
Proof.
  intros E. apply bind_need_node_ok in E. destruct E as [x [F E]]. apply bind_guard_ok in E. destruct E as [_ E].
  apply bind_guard_ok in E. destruct E as [Hc E]. apply get_uniq_ok in E. destruct E as [i [Hi E]].
  apply bind_ok in E. destruct E as [[] [s1 [E0 E]]]. apply bind_ok in E. destruct E as [[] [s2 [E1 E]]].
  apply ret_ok in E. destruct E as [-> ->]. split.
  - unfold class_of. rewrite F. destruct (ncls x); simpl in Hc; try discriminate; reflexivity.
  - exists i, s1. auto.
Qed.

(* Interface.remove_child_interface: the port handle's list afterwards is what a fresh look-up reports.
   Hypotheses: the port is not next to itself; a peer of one of its sub-interfaces has no neighbouring
   connection point and is neither the port nor one of its sub-interfaces (true of service ports). *)
Theorem handles_remove_child ex p nm c g cs' g' tr :
  run (exec ex (ORemoveChild p nm) [c]) g = (inl cs', (g', tr)) ->
  same c (cpn g p) ->
  ~ In p (cpn g p) ->
  (forall i x, In i (cpn g p) -> In x (peer_cps g i) -> cpn g x = [] /\ x <> p /\ ~ In x (cpn g p)) ->
  exists c', cs' = [c'] /\ same c' (cpn g' p).
Proof.
  intros E Hc Hpp Hp. pose proof (frame_exec _ _ _ _ _ _ _ E) as ->.
  pose proof (sound_exec _ _ _ _ _ _ _ E) as HS. pose proof (target_exec _ _ _ _ _ _ _ E) as HT. simpl in HS, HT.
  apply bind_ok in E. destruct E as [c' [s0 [E E2]]]. apply ret_ok in E2. destruct E2 as [-> <-].
  exists c'. split; [reflexivity|].
  destruct (api_remove_child_ok _ _ _ _ _ _ E) as [Hpc [i [s1 [Hi [_ [_ ->]]]]]]. simpl in Hpc, Hi.
  assert (Hii : forall j, In j (cpn g p) /\ name_of g j = nm <-> j = i).
  { intros j. rewrite <- child_by_name_In, Hi. simpl. intuition. }
  pose proof (proj1 (proj2 (Hii i) eq_refl)) as Hic.
  assert (HU : forall z, In z tr -> class_of g z = CCP -> z = i \/ In z (peer_cps g i)).
  { intros z Hz Hzc. destruct (HS z Hz) as [j [Hj [Hn HU]]]. rewrite (proj1 (Hii j) (conj Hj Hn)) in HU.
    destruct HU as [HU|[x [Hx [_ HU]]]].
    - destruct (U_cp_cases g i false z HU) as [A|[[A _]|A]]; [auto | discriminate | congruence].
    - destruct (U_cp_alone g x z (proj1 (Hp i x Hic Hx)) HU) as [->|A]; [auto | congruence]. }
  apply same_removeN; [exact Hc | |].
  - intros Hin. destruct (HU p Hin Hpc) as [->|Hx]; [exact (Hpp Hic) | destruct (Hp i p Hic Hx) as [_ [A _]]; exact (A eq_refl)].
  - intros y Hy. split; [|intros ->; apply HT, Hii; reflexivity].
    intros Hin. destruct (HU y Hin (cpn_class g p y Hy)) as [->|Hx]; [reflexivity|].
    destruct (Hp i y Hic Hx) as [_ [_ A]]. destruct (A Hy).
Qed.

(* handle lists after unpeer (C08-6) = fresh look-ups; hypotheses: the ends have no neighbouring connection point, and
   an end on b's side is not a port of a and vice versa *)
Theorem handles_unpeer6 ex a b ca cb g cs' g' tr :
  run (exec ex (OUnpeer6 a b) [ca; cb]) g = (inl cs', (g', tr)) ->
  class_of g a = CNS -> class_of g b = CNS ->
  same ca (cpn g a) -> same cb (cpn g b) ->
  (forall xy, In xy (unpeer_pairs g a b) ->
     cpn g (fst xy) = [] /\ cpn g (snd xy) = [] /\ ~ In (snd xy) (cpn g a) /\ ~ In (fst xy) (cpn g b)) ->
  exists ca' cb', cs' = [ca'; cb'] /\ same ca' (cpn g' a) /\ same cb' (cpn g' b).
Proof.
  intros E Ha Hb Hca Hcb Hp. pose proof (frame_exec _ _ _ _ _ _ _ E) as ->.
  pose proof (sound_exec _ _ _ _ _ _ _ E) as HS. pose proof (target_exec _ _ _ _ _ _ _ E) as HT. simpl in HS, HT.
  assert (HU : forall z, In z tr -> class_of g z = CLink \/ exists xy, In xy (unpeer_pairs g a b) /\ (z = fst xy \/ z = snd xy)).
  { intros z Hz. destruct (HS z Hz) as [xy [Hxy HU]]. destruct (Hp xy Hxy) as [H1 [H2 _]].
    destruct HU as [HU|HU]; [destruct (U_cp_alone g _ z H1 HU) | destruct (U_cp_alone g _ z H2 HU)]; eauto. }
  assert (Hns : forall s, class_of g s = CNS -> ~ In s tr).
  { intros s Hs Hin. destruct (HU s Hin) as [Hl|[xy [Hxy Hz]]]; [congruence|].
    destruct (unpeer_pairs_class g a b xy Hxy). destruct Hz; congruence. }
  apply bind_ok in E. destruct E as [cc [s0 [E E2]]]. apply ret_ok in E2. destruct E2 as [-> <-].
  exists (fst cc), (snd cc). split; [reflexivity|].
  apply bind_need_node_ok in E. destruct E as [x0 [_ E]]. apply bind_guard_ok in E. destruct E as [_ E].
  apply bind_get_ok in E. simpl in E. destruct (unpeer_pairs g a b) as [|p0 ps'] eqn:U; [discriminate|].
  apply bind_ok in E. destruct E as [[] [s1 [_ E]]]. apply ret_ok in E. destruct E as [-> _]. cbn [fst snd].
  split; intros z; rewrite filter_In, negb_true_iff, memN_false, in_map_iff;
    [rewrite (fresh_after g tr a z (Hns a Ha)), (Hca z) | rewrite (fresh_after g tr b z (Hns b Hb)), (Hcb z)];
    (split; intros [Hz A]; (split; [exact Hz|])).
  - intros Hin. pose proof (cpn_class g a z Hz). destruct (HU z Hin) as [Hl|[xy [Hxy [->| ->]]]]; [congruence | eauto |].
    destruct (Hp xy Hxy) as [_ [_ [H3 _]]]. exact (H3 Hz).
  - intros [xy [<- Hxy]]. apply A, HT. exists xy. auto.
  - intros Hin. pose proof (cpn_class g b z Hz). destruct (HU z Hin) as [Hl|[xy [Hxy [->| ->]]]]; [congruence | | eauto].
    destruct (Hp xy Hxy) as [_ [_ [_ H4]]]. exact (H4 Hz).
  - intros [xy [<- Hxy]]. apply A, HT. exists xy. auto.
Qed.

(* every operation: a surviving handle's fresh list is its old list filtered by the survivors *)
Theorem fresh_is_filtered ex o cs g r g' tr s :
  run (exec ex o cs) g = (r, (g', tr)) -> ~ In s tr ->
  forall y, In y (cpn g' s) <-> In y (cpn g s) /\ ~ In y tr.
Proof. intros E Hs y. rewrite (frame_exec _ _ _ _ _ _ _ E). apply fresh_after. exact Hs. Qed.
