(* C07 - disconnect_interface and remove_child_interface keep WF (through the unit remove_cp_and_links and the relaxed
   invariant: the service port's peer is the disconnected interface itself, which is not a service port); bind_run and
   try_any_inv, the two inversions of the monad the later files add to those of T7Api.v.  Rests on T7RelUnits. *)
From Coq Require Import List Bool Lia.
From FIM Require Import Base.Str Model.T7Graph Model.T7Ops Model.T7WF Model.T7Steps Model.T7Rel Proofs.T7Frame Proofs.T7Units
     Proofs.T7Api Proofs.T7RelUnits Proofs.T7RelRun.
Import ListNotations.

Lemma reads_get_peers i itype : reads (get_peers i itype).
Proof.
  unfold get_peers, find_peers, q_second_nb. apply reads_bind; [auto 10 with reads|]. intros [l|]; [|apply reads_ret].
  apply reads_bind; [|intro; apply reads_ret]. unfold filterM.
  induction l as [|p l IH]; [apply reads_ret|]. apply reads_bind; [unfold props; auto 10 with reads|]. intro.
  apply reads_bind; [exact IH | intro; apply reads_ret].
Qed.
#[export] Hint Resolve reads_get_peers : reads.

(* a step and the rest of the program, whatever the step returned *)
Lemma bind_run {A B} (m : M A) (f : A -> M B) s s' r :
  bind m f s = (s', r) ->
  exists s1 r1, m s = (s1, r1) /\ match r1 with Ok a => f a s1 = (s', r) | Err e => s' = s1 /\ r = Err e end.
Proof.
  unfold bind. destruct (m s) as [s1 [a|e]]; intro H; exists s1; [exists (Ok a) | exists (Err e)]; split; auto. inversion H; auto.
Qed.
Lemma try_any_inv {A} (m : M A) h s s' r :
  try_any m h s = (s', r) -> (exists v, m s = (s', Ok v) /\ r = Ok v) \/ (exists sX e, m s = (sX, Err e) /\ h e sX = (s', r)).
Proof. unfold try_any. destruct (m s) as [sX [v|e]]; intro H; [left; inversion H; eauto | right; eauto]. Qed.

(* raw peers (over any edge class at the link, as the backend walks them) vs. peers *)
Lemma peers_in_raw g i z : In z (peers g i) -> In z (raw_peers g i).
Proof.
  intro H. apply In_peers_inv in H as [l [Hl [Hz Hne]]]. unfold raw_peers, second_nb. apply in_map_iff.
  exists (l, z). split; [reflexivity|]. apply in_flat_map. exists l. split; [exact Hl|]. apply in_map.
  apply filter_In. split.
  - unfold any_nb. apply In_first_nb in Hz as [Hz Hc]. apply in_map_iff. exists (z, Connects). split; [reflexivity|].
    apply filter_In. split; [exact Hz | exact Hc].
  - apply negb_true_iff. apply str_eqb_neq. exact Hne.
Qed.
Lemma raw_in_peers eo ep g i p :
  WFr eo ep g -> (forall l, In l (first_nb g i Connects KLink) -> eo l = false) -> cls_is g p KCP = true ->
  In p (raw_peers g i) -> In p (peers g i).
Proof.
  intros W He Cp H. unfold raw_peers, second_nb in H. apply in_map_iff in H as [[l p'] [E H]]. simpl in E. subst p'.
  apply in_flat_map in H as [l' [Hl H]]. apply in_map_iff in H as [k [E H]]. inversion E; subst l' k. clear E.
  apply filter_In in H as [H Hne]. apply negb_true_iff in Hne. apply str_eqb_neq in Hne.
  unfold any_nb in H. apply in_map_iff in H as [[p' r] [E H]]. simpl in E. subst p'. apply filter_In in H as [H _]. simpl in H.
  (* l obeys the link rule: the edge to p is `connects` *)
  assert (Cl : cls_is g l KLink = true) by (apply In_first_nb in Hl; tauto).
  destruct (link_structR _ _ _ _ W Cl (He l Hl) _ _ H) as [Er _]. subst r.
  eapply In_peers; [exact Hl | apply In_first_nb; split; [exact H | exact Cp] | exact Hne].
Qed.

Lemma peers_sym g i p : In p (peers g i) -> cls_is g i KCP = true -> In i (peers g p).
Proof.
  intros H Ci. apply In_peers_inv in H as [l [Hl [Hp Hne]]].
  assert (Cl : cls_is g l KLink = true) by (apply In_first_nb in Hl; tauto).
  eapply In_peers; [eapply first_nb_sym; eauto | eapply first_nb_sym; eauto | congruence].
Qed.

Lemma raw_peers_cls g i p : In p (raw_peers g i) -> cls_is g p KCP = true.
Proof.
  unfold raw_peers, second_nb. intro H. apply in_map_iff in H as [[l p'] [E H]]. simpl in E. subst p'.
  apply in_flat_map in H as [l' [_ H]]. apply in_map_iff in H as [k [E H]]. inversion E; subst. apply filter_In in H as [H _].
  unfold any_nb in H. apply in_map_iff in H as [[p' r] [E' H]]. simpl in E'. subst p'. apply filter_In in H as [_ H]. exact H.
Qed.

(* under "sub-interfaces hang off DedicatedPorts" a service port has no interface neighbour *)
Lemma cp_edge_dedicated g x c :
  subs_under_dedicated g = true -> In c (first_nb g x Connects KCP) -> cls_is g x KCP = true ->
  typ_is g x sDedicatedPort || typ_is g c sDedicatedPort = true.
Proof.
  intros X Hc Cx. apply In_first_nb in Hc as [Hadj Cc]. apply In_nbrs in Hadj as [e [He [_ Hends]]].
  unfold subs_under_dedicated in X. rewrite forallb_forall in X. specialize (X e He).
  destruct Hends as [[E1 E2]|[E1 E2]]; rewrite E1, E2, Cx, Cc in X; simpl in X; [exact X | rewrite orb_comm; exact X].
Qed.

Lemma x1_serviceport_no_children eo ep g p :
  WFr eo ep g -> subs_under_dedicated g = true -> cls_is g p KCP = true -> eo p = false ->
  typ_is g p sServicePort = true -> first_nb g p Connects KCP = [].
Proof.
  intros W X Cp Eo Ht. destruct (first_nb g p Connects KCP) as [|j l] eqn:E; [reflexivity|]. exfalso.
  assert (Hj : In j (first_nb g p Connects KCP)) by (rewrite E; left; reflexivity).
  destruct (cp_structR _ _ _ _ W Cp Eo) as [_ [Sh _]]. specialize (Sh j Hj).
  rewrite (typ_is_excl _ _ _ sSubInterface Ht) in Sh by reflexivity.
  assert (Tj : typ_is g j sSubInterface = true) by (destruct (typ_is g j sSubInterface); [reflexivity | congruence]).
  pose proof (cp_edge_dedicated g p j X Hj Cp) as D.
  rewrite (typ_is_excl _ _ _ sDedicatedPort Ht), (typ_is_excl _ _ _ sDedicatedPort Tj) in D by reflexivity. discriminate D.
Qed.

Lemma In_remove_set_nodes g d n : In n (gnodes (remove_set g d)) -> In n (gnodes g) /\ d (nid n) = false.
Proof. unfold remove_set. simpl. intro H. apply filter_In in H as [A B]. apply negb_true_iff in B. auto. Qed.

(* disconnecting interface i from the service that owns its (single) service-port peer p *)
Lemma disconnect_peer_unit g i p :
  WF g -> subs_under_dedicated g = true -> cls_is g i KCP = true -> typ_is g i sServicePort = false ->
  In p (peers g i) -> typ_is g p sServicePort = true ->
  WF (remove_set g (fun y => mem_str y (D_cp g p true))).
Proof.
  intros W X Ci Ti Hp Tp. apply WF_WFr. apply WF_WFr in W.
  assert (Cp : cls_is g p KCP = true).
  { apply In_peers_inv in Hp as [l [_ [Hp _]]]. apply In_first_nb in Hp. tauto. }
  pose proof (WFr_remove_cp g no_exempt no_exempt p true W Cp (or_introl eq_refl)) as W1.
  apply (WFr_discharge_ep _ _ _ W1). intros n Hn _ Hst Hc Ht. exfalso. simpl in Hst.
  apply In_remove_set_nodes in Hn as [Hn _].
  assert (NC : first_nb g p Connects KCP = []) by (eapply x1_serviceport_no_children; eauto).
  apply (cp_stranded_alone _ _ _ _ (cp_extra_nochild _ _ _ NC)) in Hst.
  (* p is a service port: exactly one peer, and i is one *)
  destruct (cp_structR _ _ _ _ W Cp eq_refl) as [_ [_ S3]]. specialize (S3 Tp eq_refl).
  assert (Hi : In i (peers g p)) by (apply peers_sym; assumption).
  assert (E : nid n = i) by (eapply len1_same; [| exact Hst | exact Hi]; lia).
  rewrite <- E in Ti. rewrite (typ_is_node g n _ (r_ids _ _ _ W) Hn), Ht in Ti. vm_compute in Ti. discriminate Ti.
Qed.

(* NetworkService.disconnect_interface *)
Lemma api_disconnect i s s' r :
  WF (sg s) -> subs_under_dedicated (sg s) = true -> cls_is (sg s) i KCP = true -> typ_is (sg s) i sServicePort = false ->
  disconnect_interface i s = (s', r) -> WF (sg s').
Proof.
  intros W X Ci Ti H. unfold disconnect_interface in H.
  peelw H W. rename a into ps, Hm into Hps.
  destruct ps as [[|p [|q l]]|]; try (apply ret_inv in H as [-> _]; exact W); [| apply raise_inv in H as [-> _]; exact W].
  destruct (raw_peers (sg s) i) as [|x l] eqn:E; [discriminate Hps|].
  assert (Hf : [p] = filter (peer_filter (sg s) (Some sServicePort)) (x :: l)) by congruence. clear Hps.
  assert (Hin : In p (filter (peer_filter (sg s) (Some sServicePort)) (x :: l))) by (rewrite <- Hf; left; reflexivity).
  apply filter_In in Hin as [Hraw Tp]. simpl in Tp. rewrite <- E in Hraw.
  pose proof (raw_peers_cls _ _ _ Hraw) as Cp.
  assert (Hp : In p (peers (sg s) i)).
  { apply WF_WFr in W. eapply raw_in_peers; eauto. }
  rewrite (cp_unit_run p true s) in H; [| eapply WFr_sane; apply WF_WFr; exact W | eapply cls_is_has_id; eauto].
  inversion H; subst. simpl. apply (disconnect_peer_unit (sg s) i p); assumption.
Qed.

Lemma reads_get_parent x r k : reads (get_parent x r k).
Proof.
  unfold get_parent. apply reads_bind; [auto with reads|]. intros [|p [|q l]]; try apply reads_ret.
  unfold props. auto 8 with reads.
Qed.
#[export] Hint Resolve reads_get_parent : reads.
Lemma reads_parent_of_iface i : reads (parent_of_iface i).
Proof.
  unfold parent_of_iface. apply reads_bind; [auto with reads|]. intros [|];
    (apply reads_bind; [auto with reads|]; intros [[nm id]|]; auto with reads).
Qed.
#[export] Hint Resolve reads_parent_of_iface : reads.

Lemma reads_find_by_name_lazy name l : reads (find_by_name_lazy l name).
Proof.
  induction l as [|x l IH]; simpl; [apply reads_raise|].
  apply reads_bind; [unfold props; auto with reads|]. intro n. apply reads_bind; [auto with reads|]. intro nm.
  destruct (str_eqb nm name); [apply reads_ret | exact IH].
Qed.
#[export] Hint Resolve reads_find_by_name_lazy : reads.

Lemma peers_remove_sub g d c z : d c = false -> In z (peers (remove_set g d) c) -> In z (peers g c) /\ d z = false.
Proof.
  intros Hc H. apply In_peers_inv in H as [l [Hl [Hz Hne]]].
  apply (rs_first_sub g d c Connects KLink l Hc) in Hl as [Hl Dl].
  apply (rs_first_sub g d l Connects KCP z Dl) in Hz as [Hz Dz].
  split; [eapply In_peers; eauto | exact Dz].
Qed.

(* what disconnect_interface does, as a function of the graph *)
Definition sp_peers (g : graph) (c : str) : list str := filter (peer_filter g (Some sServicePort)) (raw_peers g c).

Lemma disconnect_run c s s' r :
  sane (sg s) -> disconnect_interface c s = (s', r) ->
  (sg s' = sg s /\ (r = Ok tt -> sp_peers (sg s) c = [])) \/
  (exists p, sp_peers (sg s) c = [p] /\ sg s' = remove_set (sg s) (fun y => mem_str y (D_cp (sg s) p true)) /\ r = Ok tt).
Proof.
  intros Hs H. unfold disconnect_interface in H.
  peel_by H ltac:(fun e Hr Hg => left; split; [exact Hg | intro; congruence]). rename a into ps, Hm into Hps. unfold sp_peers.
  destruct (raw_peers (sg s) c) as [|x l] eqn:E.
  - subst ps. apply ret_inv in H as [-> _]. left. auto.
  - subst ps. rewrite <- E in *. destruct (filter (peer_filter (sg s) (Some sServicePort)) (raw_peers (sg s) c)) as [|p [|q l']] eqn:F.
    + apply ret_inv in H as [-> _]. left. auto.
    + right. exists p. split; [reflexivity|].
      assert (Hin : In p (filter (peer_filter (sg s) (Some sServicePort)) (raw_peers (sg s) c))) by (rewrite F; left; reflexivity).
      apply filter_In in Hin as [Hraw _].
      rewrite (cp_unit_run p true s Hs) in H; [| eapply cls_is_has_id; eapply raw_peers_cls; eauto].
      inversion H. auto.
    + apply raise_inv in H as [-> Hr]. left. split; [reflexivity | intro; congruence].
Qed.

(* disconnect_one does what disconnect_interface does, or nothing *)
Lemma disconnect_one_run c s s' r :
  sane (sg s) -> disconnect_one c s = (s', r) ->
  (sg s' = sg s /\ (r = Ok tt -> sp_peers (sg s) c = [])) \/
  (exists p, sp_peers (sg s) c = [p] /\ sg s' = remove_set (sg s) (fun y => mem_str y (D_cp (sg s) p true)) /\ r = Ok tt).
Proof.
  intros Hs H. unfold disconnect_one in H.
  peel_by H ltac:(fun e Hr Hg => left; split; [exact Hg | intro; congruence]). rename a into ps, Hm into Hps.
  assert (NIL : ps = None \/ ps = Some [] -> sp_peers (sg s) c = []).
  { unfold sp_peers. destruct (raw_peers (sg s) c); intros [Q|Q]; subst ps; first [reflexivity | congruence]. }
  destruct ps as [[|p [|q l]]|]; try (apply ret_inv in H as [-> _]; left; auto).
  - apply bind_reads in H; [| auto with reads].
    destruct H as [[s2 [h [_ [Hg H]]]] | [e [Hr Hg]]]; [| left; split; [exact Hg | intro; congruence]].
    destruct h; try (apply raise_inv in H as [-> Hr]; left; split; [exact Hg | intro; congruence]).
    rewrite <- Hg in *. exact (disconnect_run c s2 s' r Hs H).
  - apply raise_inv in H as [-> Hr]. left. split; [reflexivity | intro; congruence].
Qed.

(* taking away the single service-port peer p of the interface i leaves i, and no service-port peer on it *)
Lemma sp_peer_removed g i p :
  cls_is g i KCP = true -> In p (peers g i) -> first_nb g p Connects KCP = [] -> sp_peers g i = [p] ->
  mem_str i (D_cp g p true) = false /\
  forall z, In z (peers (remove_set g (fun y => mem_str y (D_cp g p true))) i) -> In z (peers g i) /\ typ_is g z sServicePort = false.
Proof.
  intros Ci Hp NC Esp.
  assert (Di : mem_str i (D_cp g p true) = false).
  { destruct (mem_str i (D_cp g p true)) eqn:E; [|reflexivity]. exfalso.
    destruct (D_cp_alone _ _ _ _ (cp_extra_nochild _ _ _ NC) E) as [->|C].
    - apply In_peers_inv in Hp as [_ [_ [_ Hne]]]. congruence.
    - rewrite (cls_is_unique _ _ _ KLink Ci) in C; discriminate. }
  split; [exact Di|]. intros z Hz. apply (peers_remove_sub g _ i z Di) in Hz as [Hz Dz]. split; [exact Hz|].
  destruct (typ_is g z sServicePort) eqn:Tz; [|reflexivity]. exfalso.
  assert (Hzs : In z (sp_peers g i)) by (apply filter_In; split; [apply peers_in_raw; exact Hz | exact Tz]).
  rewrite Esp in Hzs. destruct Hzs as [<-|[]]. rewrite x_in_D_cp in Dz. discriminate.
Qed.

(* the disconnection step of the removal calls, for one interface c that is not a service port *)
Lemma disconnect_one_post c s s' r :
  WF (sg s) -> subs_under_dedicated (sg s) = true -> cls_is (sg s) c KCP = true -> typ_is (sg s) c sServicePort = false ->
  disconnect_one c s = (s', r) ->
  WF (sg s') /\ (exists d, sg s' = remove_set (sg s) d /\ d c = false) /\
  (r = Ok tt -> forall z, In z (peers (sg s') c) -> typ_is (sg s') z sServicePort = false).
Proof.
  intros W X Cc Tc H. pose proof (proj1 (WF_WFr _) W) as Wr.
  destruct (disconnect_one_run c s s' r (WFr_sane _ _ _ Wr) H) as [[G R]|[p [Esp [G R]]]]; rewrite G.
  - split; [exact W|]. split; [exists (fun _ => false); split; [symmetry; apply remove_set_none | reflexivity]|].
    intros Hr z Hz. destruct (typ_is (sg s) z sServicePort) eqn:Tz; [|reflexivity]. exfalso.
    assert (Hzs : In z (sp_peers (sg s) c)) by (apply filter_In; split; [apply peers_in_raw; exact Hz | exact Tz]).
    rewrite (R Hr) in Hzs. destruct Hzs.
  - assert (Hin : In p (sp_peers (sg s) c)) by (rewrite Esp; left; reflexivity).
    apply filter_In in Hin as [Hraw Tp]. simpl in Tp. pose proof (raw_peers_cls _ _ _ Hraw) as Cp.
    assert (Hp : In p (peers (sg s) c)) by (eapply raw_in_peers; eauto).
    assert (NC : first_nb (sg s) p Connects KCP = []) by (eapply x1_serviceport_no_children; eauto).
    destruct (sp_peer_removed (sg s) c p Cc Hp NC Esp) as [Dc Gone].
    split; [apply (disconnect_peer_unit (sg s) c p); assumption|]. split; [eexists; split; [reflexivity | exact Dc]|].
    intros _ z Hz. pose proof (peers_remove_sub _ _ c z Dc Hz) as [_ Dz]. rewrite (rs_typ (sg s) _ z _ Dz). apply Gone. exact Hz.
Qed.

Lemma reads_child_cps i : reads (child_cps i).
Proof. unfold child_cps. auto 8 with reads. Qed.
#[export] Hint Resolve reads_child_cps : reads.

(* removing sub-interface c (not a service port, no service-port peer left) on its own *)
Lemma remove_sub_unit g c :
  WF g -> cls_is g c KCP = true -> typ_is g c sSubInterface = true ->
  (forall z, In z (peers g c) -> typ_is g z sServicePort = false) ->
  WF (remove_set g (fun y => mem_str y (D_cp g c false))).
Proof.
  intros W Cc Tc NP. apply WF_WFr. apply WF_WFr in W.
  pose proof (WFr_remove_cp g no_exempt no_exempt c false W Cc (or_intror Tc)) as W1.
  apply (WFr_discharge_ep _ _ _ W1). intros n Hn _ Hst Hc Ht. exfalso. simpl in Hst.
  apply In_remove_set_nodes in Hn as [Hn _].
  apply (cp_stranded_alone _ _ _ _ (cp_extra_keep _ _)) in Hst.
  specialize (NP _ Hst). rewrite (typ_is_node g n _ (r_ids _ _ _ W) Hn), Ht in NP. vm_compute in NP. discriminate NP.
Qed.

(* Interface.remove_child_interface *)
Lemma api_remove_child i name s s' r :
  WF (sg s) -> subs_under_dedicated (sg s) = true ->
  iface_remove_child i name s = (s', r) -> WF (sg s').
Proof.
  intros W X H. unfold iface_remove_child in H.
  peelw H W. peelw H W. rename Hm into Td.
  peelw H W. rename Hm into Ci.
  peelw H W. rename a0 into c, Hm into Hc.
  (* c is a sub-interface of the dedicated port i *)
  pose proof W as Wr. apply WF_WFr in Wr.
  assert (Cc : cls_is (sg s) c KCP = true) by (apply In_first_nb in Hc; tauto).
  assert (Tc : typ_is (sg s) c sSubInterface = true).
  { destruct (cp_structR _ _ _ _ Wr Ci eq_refl) as [_ [Sh _]]. specialize (Sh c Hc). rewrite (typ_is_excl _ _ _ sSubInterface Td) in Sh by reflexivity.
    destruct (typ_is (sg s) c sSubInterface); [reflexivity | congruence]. }
  assert (Tsp : typ_is (sg s) c sServicePort = false) by (apply (typ_is_excl _ _ _ _ Tc); reflexivity).
  apply bind_inv in H as [[s4 [[] [H1 H2]]]|[e [H1 _]]].
  - destruct (disconnect_one_post c s s4 (Ok tt) W X Cc Tsp H1) as [W1 [[d [G Dc]] NP]]. specialize (NP eq_refl).
    rewrite (cp_unit_run c false s4) in H2;
      [| eapply WFr_sane; apply WF_WFr; exact W1 | rewrite G; apply has_id_remove_keep; [eapply cls_is_has_id; eauto | exact Dc]].
    inversion H2; subst. simpl. apply remove_sub_unit; [exact W1 | | | exact NP].
    + rewrite G, (rs_cls (sg s) d c _ Dc). exact Cc.
    + rewrite G, (rs_typ (sg s) d c _ Dc). exact Tc.
  - exact (proj1 (disconnect_one_post c s s' (Err e) W X Cc Tsp H1)).
Qed.
