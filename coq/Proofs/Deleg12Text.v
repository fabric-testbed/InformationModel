(* C12, Model/Deleg12T.v: on what the encoder writes the decoder on raw JSON values is the typed decoder (text_value_agree), hence
   the round trip through the printed text (jparse_jprint of Base/JsonRT.v); what the decoder accepts on ANY text satisfies the API
   invariants (decode closure); the null-capacity divergence.  Rests on Deleg12Enc.v and Base/JsonRT.v. *)
From Coq Require Import List ZArith Bool String.
From FIM Require Import Base.Str Base.Json Base.JsonRT Gen.DelegGen Model.Deleg12 Model.Deleg12T
     Proofs.Deleg12Enc.
Import ListNotations.

Lemma aget_lookup {A} k (m : list (str * A)) : aget k m = lookup k m.
Proof.
  induction m as [|[k' v] r IH]; simpl; [reflexivity|]. rewrite (str_eqb_sym k k'), IH. reflexivity.
Qed.

Lemma all_strs_map l : all_strs (map JStr l) = Some l.
Proof. induction l as [|s r IH]; simpl; [reflexivity|]. rewrite IH. reflexivity. Qed.

Section WithValidators.
Variable lc : str -> dval -> option exn.

Lemma check_xitem_dval ty k v :
  check_xitem lc ty k (json_of_dval v) = match check_item lc ty (k, v) with Some e => Err e | None => Ok (Some v) end.
Proof.
  unfold check_xitem, check_item. cbn [fst snd]. destruct ty, v as [z|s|l]; cbn [json_of_dval]; try reflexivity.
  - destruct (z <? 0)%Z; [reflexivity|]. destruct (is_field TCap k); reflexivity.
  - destruct (is_field TLab k); [|reflexivity]. destruct (lc k (DStr s)); reflexivity.
  - rewrite all_strs_map. destruct (is_field TLab k); [|reflexivity]. destruct (lc k (DList l)); reflexivity.
Qed.

Lemma first_xerror_ddict ty dd :
  first_xerror lc ty (map (fun kv => (fst kv, json_of_dval (snd kv))) dd) = first_error lc ty dd.
Proof.
  induction dd as [|[k v] r IH]; [reflexivity|]. cbn [map first_xerror first_error fst snd].
  rewrite check_xitem_dval. destruct (check_item lc ty (k, v)); [reflexivity|exact IH].
Qed.

Lemma aget_map_dval f dd :
  aget f (map (fun kv : str * dval => (fst kv, json_of_dval (snd kv))) dd) = option_map json_of_dval (lookup f dd).
Proof.
  induction dd as [|[k v] r IH]; [reflexivity|]. cbn [map aget lookup fst snd].
  rewrite (str_eqb_sym f k). destruct (str_eqb k f); [reflexivity|exact IH].
Qed.

Lemma xobj_of_ddict ty dd : xobj_of_json lc ty (json_of_ddict dd) = obj_of_dict lc ty dd.
Proof.
  unfold xobj_of_json, json_of_ddict, obj_of_dict. rewrite first_xerror_ddict.
  destruct (first_error lc ty dd) eqn:FE; [reflexivity|]. f_equal. f_equal.
  apply map_ext. intro f. rewrite aget_map_dval. destruct (lookup f dd) as [x|] eqn:L; [|reflexivity].
  cbn [option_map]. rewrite check_xitem_dval.
  rewrite (first_error_In lc ty dd FE (f, x) (lookup_In f dd x L)). reflexivity.
Qed.

(* the members of an inner dictionary as the encoder writes them; the four wire names are pairwise different
   (wire_names_ok), so each key finds its own member *)
Definition entry_members (j : jentry) : list (str * json) :=
  opt_member field_pool_id (option_map JStr (j_pool_id j)) ++
  opt_member field_pool (option_map JStr (j_pool j)) ++
  opt_member field_capacities (option_map json_of_ddict (j_caps j)) ++
  opt_member field_labels (option_map json_of_ddict (j_labs j)).

Lemma aget_entry_members j :
  aget field_pool_id (entry_members j) = option_map JStr (j_pool_id j) /\
  aget field_pool (entry_members j) = option_map JStr (j_pool j) /\
  aget field_capacities (entry_members j) = option_map json_of_ddict (j_caps j) /\
  aget field_labels (entry_members j) = option_map json_of_ddict (j_labs j).
Proof. destruct j as [[?|] [?|] [?|] [?|]]; repeat split. Qed.

Lemma xentry_of_entry ty id j : xentry_of_json lc ty id (json_of_entry j) = entry_of_json lc ty id j.
Proof.
  change (json_of_entry j) with (JObj (entry_members j)).
  destruct (aget_entry_members j) as (A1 & A2 & A3 & A4).
  unfold xentry_of_json, entry_of_json, ahas. destruct ty; rewrite A1, A2, A3, A4.
  all: destruct j as [[pi|] [p|] [c|] [l|]]; cbn [option_map j_pool_id j_pool j_caps j_labs pool_name bind orb];
    rewrite ?xobj_of_ddict; try reflexivity; destruct (str_eqb pi single_pool_name); reflexivity.
Qed.

Lemma xfrom_items_decode ty m : forall ds, xfrom_items lc ty m ds = decode_items (xentry_of_json lc ty) m ds.
Proof.
  induction m as [|[k j] r IH]; intro ds; [reflexivity|]. cbn [xfrom_items decode_items].
  apply bind_ext. intro d. apply bind_ext. exact IH.
Qed.

Lemma xfrom_items_doc ty doc ds :
  xfrom_items lc ty (map (fun kj => (fst kj, json_of_entry (snd kj))) doc) ds = from_json_items lc ty doc ds.
Proof. rewrite xfrom_items_decode, from_json_items_decode. apply decode_items_map, xentry_of_entry. Qed.

(* on the documents the encoder writes, the JSON-level decoder is the typed decoder *)
Lemma text_value_agree ty doc : from_json_value lc ty (json_of_doc doc) = from_json lc ty doc.
Proof. unfold from_json_value, json_of_doc, from_json. apply xfrom_items_doc. Qed.

(* text round trip: the printed document parses back (Base/JsonRT.v) and decodes as the typed document does *)
Lemma text_decodes_printed ty doc : jwfb (json_of_doc doc) = true ->
  from_json_text lc ty (Some (jprint (json_of_doc doc))) = bind (from_json lc ty doc) (fun ds => Ok (Some ds)).
Proof.
  intro W. unfold from_json_text. rewrite (jparse_jprint _ W), text_value_agree.
  unfold json_of_doc at 1. cbn [jprint]. reflexivity.
Qed.

Lemma text_roundtrip ds : ds_wf lc ds = true ->
  exists doc, to_json ds = Ok doc /\ to_json_text ds = Ok (jprint (json_of_doc doc)) /\
              (jwfb (json_of_doc doc) = true ->
               from_json_text lc (ds_type ds) (Some (jprint (json_of_doc doc))) = Ok (Some ds)).
Proof.
  intro W. destruct (delegations_roundtrip lc ds W) as (doc & TJ & _ & FJ).
  exists doc. split; [exact TJ|]. split; [unfold to_json_text; rewrite TJ; reflexivity|].
  intro JW. rewrite (text_decodes_printed _ _ JW), FJ. reflexivity.
Qed.

Lemma special_inputs ty : from_json_text lc ty None = Ok None /\ from_json_text lc ty (Some []) = Ok None /\
  from_json_text lc ty (Some neo4j_none) = Ok None /\ from_json_text lc ty (Some (S"{}")) = Ok (Some (mkDs ty [])).
Proof. repeat split; vm_compute; reflexivity. Qed.

(* a top level or an entry that is not an object has no .items() / .keys(); details that are not one cannot be passed
   as keyword arguments *)
Lemma decode_rejects_non_objects ty :
  (forall v, (forall m, v <> JObj m) -> from_json_value lc ty v = Err e_attribute) /\
  (forall id v, (forall m, v <> JObj m) -> xentry_of_json lc ty id v = Err e_attribute) /\
  (forall v, (forall m, v <> JObj m) -> xobj_of_json lc ty v = Err EType).
Proof. repeat split; (intros id v N || intros v N); destruct v; try reflexivity; destruct (N _ eq_refl). Qed.

Lemma xentry_inv ty id v d : xentry_of_json lc ty id v = Ok d -> d_type d = ty /\ d_id d = id /\ d_inv d.
Proof.
  unfold xentry_of_json. destruct v as [| | | | | |im]; try discriminate.
  destruct (aget field_pool_id im) as [pv|].
  - destruct (pool_name pv) as [po|]; [|discriminate]. cbn [bind].
    destruct (ahas _ im); [discriminate|].
    destruct (aget _ im) as [dv|]; [|discriminate].
    destruct (xobj_of_json lc ty dv) as [x|]; [|discriminate]. apply new_set_inv.
  - destruct (aget field_pool im) as [pv|]; [|discriminate].
    destruct (ahas field_capacities im || ahas field_labels im); [discriminate|].
    destruct (pool_name pv) as [po|]; [|discriminate]. cbn [bind]. intro N.
    apply new_deleg_inv in N. tauto.
Qed.

(* whatever text / value from_json accepts, the result satisfies the API invariants (ids distinct and those of
   the document, all of the requested type, no details on a reference, details of the right class, pool names as
   the constructor leaves them) *)
Lemma decode_closure_value ty v d : from_json_value lc ty v = Ok d ->
  ds_type d = ty /\ ds_inv d /\ Forall d_inv (ds_items d).
Proof.
  unfold from_json_value. destruct v as [| | | | | |m]; try discriminate. rewrite xfrom_items_decode. intro H.
  apply (decode_items_inv _ ty (xentry_inv ty)) in H; [tauto|reflexivity|apply ds_inv_empty|constructor].
Qed.

Lemma decode_closure_text ty t d : from_json_text lc ty t = Ok (Some d) ->
  ds_type d = ty /\ ds_inv d /\ Forall d_inv (ds_items d).
Proof.
  unfold from_json_text. destruct t as [[|c s]|]; try discriminate.
  destruct (str_eqb (c :: s) neo4j_none); [discriminate|]. destruct (jparse (c :: s)) as [v|]; [|discriminate].
  destruct (from_json_value lc ty v) as [ds|] eqn:E; [|discriminate]. cbn [bind]. intro H. injection H as <-.
  eapply decode_closure_value. exact E.
Qed.

(* decode (encode d') = d' for the decoded d', and hence encode . decode . encode = encode, whenever the decoded
   details are objects the constructor builds with values (not None) in every capacity field *)
Lemma decode_encode_decoded ty t d doc : from_json_text lc ty t = Ok (Some d) ->
  Forall (fun x => forall y, d_details x = Some y -> det_ok lc y = true) (ds_items d) ->
  to_json d = Ok doc ->
  from_json lc ty doc = Ok d /\ (forall ds2, from_json lc ty doc = Ok ds2 -> to_json ds2 = Ok doc).
Proof.
  intros DT DO TJ. destruct (decode_closure_text ty t d DT) as (T & I & DI).
  destruct (api_roundtrip lc d doc I DI DO TJ) as [_ FJ]. rewrite T in FJ.
  split; [exact FJ|]. intros ds2 H. rewrite FJ in H. injection H as <-. exact TJ.
Qed.

Lemma first_xerror_In ty m : first_xerror lc ty m = None ->
  forall k jv, In (k, jv) m -> exists o, check_xitem lc ty k jv = Ok o.
Proof.
  induction m as [|[k0 v0] r IH]; intros FE k jv HI; [contradiction|]. cbn [first_xerror] in FE.
  destruct (check_xitem lc ty k0 v0) as [o|e] eqn:C; [|discriminate].
  destruct HI as [HI|HI]; [injection HI as <- <-; exists o; exact C|apply IH; assumption].
Qed.

(* a value other than null that the loop of _set_fields lets through is one val_ok accepts *)
Lemma check_xitem_val_ok ty f jv o : check_xitem lc ty f jv = Ok o -> jv <> JNull -> val_ok lc ty f o = true.
Proof.
  unfold check_xitem. intros C NN. destruct ty, jv; try discriminate; try contradiction.
  - destruct (z <? 0)%Z eqn:Hz; [discriminate|]. destruct (is_field TCap f); [|discriminate]. injection C as <-.
    cbn. rewrite Z.leb_antisym, Hz. reflexivity.
  - destruct (is_field TLab f); [|discriminate]. destruct (lc f (DStr s)) eqn:LC; [discriminate|]. injection C as <-.
    cbn. rewrite LC. reflexivity.
  - destruct (all_strs l) as [t|]; [|discriminate]. destruct (is_field TLab f); [|discriminate].
    destruct (lc f (DList t)) eqn:LC; [discriminate|]. injection C as <-. cbn. rewrite LC. reflexivity.
Qed.

(* the details object decoded from a JSON object without null values is one the constructor builds *)
Lemma decoded_details_ok ty v x : xobj_of_json lc ty v = Ok x -> no_null_values v = true -> det_ok lc x = true.
Proof.
  unfold xobj_of_json. destruct v as [| | | | | |m]; try discriminate.
  destruct (first_xerror lc ty m) eqn:FE; [discriminate|]. intros H NN. injection H as <-. cbn [no_null_values] in NN.
  unfold det_ok. cbn [det_kind det_vals]. apply vals_ok_map. intros f _.
  rewrite aget_lookup. destruct (lookup f m) as [jv|] eqn:L; [|apply val_ok_default]. apply lookup_In in L.
  destruct (first_xerror_In ty m FE f jv L) as [o C]. rewrite C. apply (check_xitem_val_ok ty f jv o C).
  intros ->. exact (diff_false_true (proj1 (forallb_forall _ _) NN _ L)).
Qed.

End WithValidators.

(* the divergence: a null capacity value is accepted, decodes to a None field, is dropped by the encoding and read
   back as 0: decode (encode d') <> d' *)
Definition null_cap_text : str := S"{""d1"": {""pool_id"": ""_"", ""capacities"": {""cpu"": null, ""ram"": 1}}}".

Lemma decode_null_capacity_refuted :
  exists d t2 d2, from_json_text accept_all TCap (Some null_cap_text) = Ok (Some d) /\
                  to_json_text d = Ok t2 /\ from_json_text accept_all TCap (Some t2) = Ok (Some d2) /\ d2 <> d.
Proof.
  eexists. eexists. eexists. split; [vm_compute; reflexivity|]. split; [vm_compute; reflexivity|].
  split; [vm_compute; reflexivity|]. intro H; discriminate H.
Qed.
