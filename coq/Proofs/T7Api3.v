(* C07 - add_facility / add_switch: the construct they build (node, its service, the interfaces -- every element with
   its owner edge) is well-formed whenever the call returns normally; and so is every partial structure the building
   steps leave.  (The state after the rollback of a rejected later step, i.e. after the removal program: api_add_facility and
   api_add_switch in Proofs/T7Hist.v.) *)
From Coq Require Import String List Bool.
From FIM Require Import Base.Str Gen.Rules Model.T7Graph Model.T7Ops Model.T7WF Model.T7Steps
     Proofs.T7Tables Proofs.T7WFRefl Proofs.T7Frame Proofs.T7Units Proofs.T7Api Proofs.T7Api2.
Import ListNotations.

(* as `peel`, for hypotheses about a NORMAL return: the failing branch is contradictory *)
Ltac peelok H := peel_by H ltac:(fun e Hr Hg => discriminate Hr).

(* Interface(NEW), normal return: the graph is the unit add_owned *)
Lemma api_new_interface_post sub name iid parent itype lab s s' id :
  WF (sg s) -> type_allowed KCP itype = true -> str_eqb itype sServicePort = false -> str_eqb itype sSubInterface = false ->
  cls_is (sg s) parent KNS = true -> sibling_free (sg s) parent Connects KCP (Some name) = true ->
  new_interface sub name iid parent itype lab s = (s', Ok id) ->
  owned_ok (sg s) (mk id KCP (Some itype) name lab) parent Connects = true /\
  sg s' = add_owned (sg s) (mk id KCP (Some itype) name lab) parent Connects.
Proof.
  intros W T NSP NSUB Hp SF H. unfold new_interface in H. peelok H. peelok H. peelok H.
  apply bind_inv in H as [[s4 [[] [H1 H2]]]|[e [_ Hr]]]; [|discriminate Hr].
  apply ret_inv in H2 as [-> H2]. inversion H2; subst id.
  apply add_owned_inv in H1 as [[_ H1]|[e [He _]]]; [exact H1 | discriminate He | exact W |].
  intro Hf. apply owned_ok_mk; auto. unfold owner_shape_ok, is_type. simpl. rewrite NSP, NSUB. exact Hp.
Qed.

(* the loop of add_facility / add_switch over one service handle whose cached names grow with every interface *)
Definition iface_spec_ok (x : str * option str * str) : Prop :=
  type_allowed KCP (snd x) = true /\ str_eqb (snd x) sServicePort = false /\ str_eqb (snd x) sSubInterface = false.

Lemma add_ifaces_loop sub sid : forall l cache s s' r,
  WF (sg s) -> cls_is (sg s) sid KNS = true -> Forall iface_spec_ok l ->
  (forall y, In y (first_nb (sg s) sid Connects KCP) -> In (name_of (sg s) y) cache) ->
  add_ifaces sub sid cache l s = (s', r) -> WF (sg s').
Proof.
  induction l as [|[[name iid] itype] l IH]; intros cache s s' r W Hs Hl Hc H; simpl in H.
  - apply ret_inv in H as [-> _]. exact W.
  - inversion Hl as [|? ? [T [NSP NSUB]] Hl']; subst. simpl in T, NSP, NSUB.
    unfold ns_add_interface in H. rewrite <- bind_assoc in H. peelw H W. apply negb_true_iff in Hm.
    (* the name is not in the cache, and the cache holds the names of all interfaces of the service *)
    assert (SF : sibling_free (sg s) sid Connects KCP (Some name) = true).
    { unfold sibling_free. apply forallb_forall. intros y Hy. apply negb_true_iff.
      destruct (ostr_eqb (name_of (sg s) y) (Some name)) eqn:E; [|reflexivity].
      apply ostr_eqb_eq in E. specialize (Hc y Hy). rewrite E in Hc.
      assert (X : existsb (fun o => ostr_eqb o (Some name)) cache = true)
        by (apply existsb_exists; exists (Some name); split; [exact Hc | apply ostr_eqb_eq; reflexivity]).
      congruence. }
    apply bind_inv in H as [[s1 [id [H1 H2]]]|[e [H1 _]]];
      [| eapply api_new_interface; [exact W | exact T | exact NSP | rewrite NSUB; exact Hs | exact SF | exact H1]].
    destruct (api_new_interface_post _ _ _ _ _ _ _ _ _ W T NSP NSUB Hs SF H1) as [OK G1].
    destruct (iface_step _ _ _ W OK eq_refl Hs) as [W1 [Hs1 Nb]]. rewrite <- G1 in W1, Hs1, Nb.
    apply (IH (cache ++ [Some name]) s1 s' r W1 Hs1 Hl'); [|exact H2].
    intros y Hy. apply in_or_app. destruct (Nb y Hy) as [[Hy' ->]|[-> ->]]; [left; auto | right; left; reflexivity].
Qed.

(* Node.add_network_service, normal return *)
Lemma api_node_add_ns_post n name sid nstype s s' id :
  WF (sg s) -> type_allowed KNS nstype = true -> cls_is (sg s) n KNode = true ->
  node_add_ns n name sid nstype s = (s', Ok id) ->
  WF (sg s') /\ cls_is (sg s') id KNS = true /\ first_nb (sg s') id Connects KCP = [].
Proof. intros W T _ H. destruct (api_node_add_ns_run _ _ _ _ _ _ _ W T H) as [W' P]. exact (conj W' (P id eq_refl)). Qed.

(* Topology.add_node, normal return *)
Lemma api_add_node_post sub name nid ntype s s' id :
  WF (sg s) -> type_allowed KNode ntype = true ->
  t_add_node sub name nid ntype s = (s', Ok id) ->
  WF (sg s') /\ cls_is (sg s') id KNode = true /\ nbrs (sg s') id = [].
Proof. intros W T H. destruct (api_add_node_run _ _ _ _ _ _ _ W T H) as [W' P]. exact (conj W' (P id eq_refl)). Qed.

Lemma try_any_ok {A} (m : M A) h s s' a : try_any m h s = (s', Ok a) -> (forall e sx sy b, h e sx = (sy, Ok b) -> False) -> m s = (s', Ok a).
Proof.
  unfold try_any. destruct (m s) as [s1 [x|e]]; intros H Hh; [exact H|]. exfalso. eapply Hh; eauto.
Qed.
Lemma rollback_never_ok n e sx sy (b : unit) : (remove_network_node n ;;; raise e) sx = (sy, Ok b) -> False.
Proof.
  intro H. apply bind_inv in H as [[s1 [u [_ H]]]|[e' [_ H]]]; [|discriminate H].
  apply raise_inv in H as [_ H]. discriminate H.
Qed.

Lemma facility_types_ok : type_allowed KNode sFacility = true /\ type_allowed KNode sSwitch = true /\
  type_allowed KNS sVLAN = true /\ type_allowed KNS sP4 = true /\
  iface_spec_ok (S "", None, sFacilityPort) /\ iface_spec_ok (S "", None, sDedicatedPort).
Proof. vm_compute. repeat split; reflexivity. Qed.

(* the construct of add_facility / add_switch: a node, its service, the interfaces of the service; normal return *)
Lemma node_service_ifaces_returns sub name nid ntype sname ssid nstype ifs s s' :
  WF (sg s) -> type_allowed KNode ntype = true -> type_allowed KNS nstype = true -> Forall iface_spec_ok ifs ->
  (n <- t_add_node sub name nid ntype ;;
   try_any (sv <- node_add_ns n sname ssid nstype ;; add_ifaces sub sv [] ifs) (fun e => remove_network_node n ;;; raise e)) s
    = (s', Ok tt) -> WF (sg s').
Proof.
  intros W T1 T2 Hl H.
  apply bind_inv in H as [[s1 [n [H1 H2]]]|[e [_ Hr]]]; [|discriminate Hr].
  destruct (api_add_node_post _ _ _ _ _ _ _ W T1 H1) as [W1 [Cn _]].
  apply try_any_ok in H2; [| intros; eapply rollback_never_ok; eauto].
  apply bind_inv in H2 as [[s2 [sv [H3 H4]]]|[e [_ Hr]]]; [|discriminate Hr].
  destruct (api_node_add_ns_post _ _ _ _ _ _ _ W1 T2 Cn H3) as [W2 [Cs Es]].
  apply (add_ifaces_loop sub sv _ _ _ _ _ W2 Cs Hl) in H4; [exact H4|]. rewrite Es. intros y [].
Qed.

(* Topology.add_facility: when it returns normally (and when its first step, add_node, is refused) *)
Theorem api_add_facility_returns sub name nid ifnames s s' :
  WF (sg s) -> t_add_facility sub name nid ifnames s = (s', Ok tt) -> WF (sg s').
Proof.
  intros W H. destruct facility_types_ok as [T1 [_ [T3 [_ [[I1 [I2 I3]] _]]]]]. unfold t_add_facility in H.
  assert (SP : forall x : str * option str, iface_spec_ok (fst x, snd x, sFacilityPort)) by (intro; repeat split; assumption).
  destruct ifnames as [[|x l]|];
    apply (node_service_ifaces_returns _ _ _ _ _ _ _ _ _ _ W T1 T3) in H; auto.
  - constructor; [apply (SP (_, _)) | constructor].
  - apply Forall_forall. intros z Hz. apply in_map_iff in Hz as [kx [<- _]]. apply (SP (_, _)).
  - constructor; [apply (SP (_, _)) | constructor].
Qed.

Theorem api_add_switch_returns sub name nid nports s s' :
  WF (sg s) -> t_add_switch sub name nid nports s = (s', Ok tt) -> WF (sg s').
Proof.
  intros W H. destruct facility_types_ok as [_ [T2 [_ [T4 [_ [I1 [I2 I3]]]]]]]. unfold t_add_switch in H.
  apply (node_service_ifaces_returns _ _ _ _ _ _ _ _ _ _ W T2 T4) in H; auto.
  apply Forall_forall. intros z Hz. apply in_map_iff in Hz as [k [<- _]]. repeat split; assumption.
Qed.

(* ... and a refusal of the first step leaves the model as it was *)
Theorem api_add_facility_switch_first_step sub name nid ntype s s' e :
  WF (sg s) -> type_allowed KNode ntype = true -> t_add_node sub name nid ntype s = (s', Err e) -> WF (sg s').
Proof. intros W T H. eapply api_add_node; eauto. Qed.

Theorem step_facility_switch_returns sub fl g o drawn hint g' :
  WF g -> (match o with OAddFacility _ _ _ | OAddSwitch _ _ _ => True | _ => False end) ->
  step sub fl g o drawn hint = (g', None) -> WF g'.
Proof.
  intros W Ho H. unfold step in H.
  destruct (run_op sub fl hint o (mkSt g drawn)) as [s' [u|e]] eqn:R; [|discriminate H].
  destruct u. assert (G : g' = sg s') by (destruct (sdr s'); inversion H; reflexivity). subst g'.
  destruct o; try contradiction; simpl in R.
  - eapply (api_add_facility_returns sub name nid ifnames (mkSt g drawn)); eauto.
  - eapply (api_add_switch_returns sub name nid nports (mkSt g drawn)); eauto.
Qed.
