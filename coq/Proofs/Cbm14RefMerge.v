(* C14 - refinement: merge_adm on the store model does to the combined graph exactly what smerge does to the
   abstract combined model: to its nodes, to its connections ("an existing connection wins"), and it leaves the
   connections of every other graph alone. *)
From Coq Require Import List NArith Bool Lia.
From FIM Require Import Base.ListFacts Model.Cbm14Store Model.Cbm14Spec Model.Cbm14Abs Proofs.Cbm14Merge
     Proofs.Cbm14Frame Proofs.Cbm14RefBase Proofs.Cbm14RefEdge Proofs.Cbm14RefPrep Proofs.Cbm14RefFold.
Import ListNotations.
Open Scope N_scope.

Definition rehomed (cbm tmp : N) (n : node) : node := if n_gid n =? tmp then set_gid cbm n else n.

Lemma rehomed_at_cbm_keep cbm tmp k ns : cbm <> tmp -> at_ tmp k ns = None -> at_ cbm k (map (rehomed cbm tmp) ns) = at_ cbm k ns.
Proof.
  intro NE. unfold at_, rehomed. induction ns as [|m r IH]; simpl; auto.
  destruct (n_gid m =? tmp) eqn:T; simpl.
  - apply N.eqb_eq in T. rewrite N.eqb_refl.
    assert (n_gid m =? cbm = false) as -> by (apply N.eqb_neq; congruence). simpl.
    destruct (n_nid m =? k); simpl; [discriminate|auto].
  - destruct ((n_gid m =? cbm) && (n_nid m =? k)); auto.
Qed.

Lemma rehomed_at_cbm_new cbm tmp k ns : cbm <> tmp -> at_ cbm k ns = None ->
  at_ cbm k (map (rehomed cbm tmp) ns) = option_map (set_gid cbm) (at_ tmp k ns).
Proof.
  intro NE. unfold at_, rehomed. induction ns as [|m r IH]; simpl; auto.
  destruct (n_gid m =? tmp) eqn:T; simpl.
  - apply N.eqb_eq in T. rewrite N.eqb_refl.
    assert (n_gid m =? cbm = false) as -> by (apply N.eqb_neq; congruence). simpl.
    destruct (n_nid m =? k); simpl; auto.
  - destruct (n_gid m =? cbm); simpl; auto. destruct (n_nid m =? k); simpl; [discriminate|auto].
Qed.

Lemma rehomed_at_other cbm tmp g k ns : g <> cbm -> g <> tmp -> at_ g k (map (rehomed cbm tmp) ns) = at_ g k ns.
Proof.
  intros G1 G2. unfold at_, rehomed. induction ns as [|m r IH]; simpl; auto.
  destruct (n_gid m =? tmp) eqn:T; simpl.
  - apply N.eqb_eq in T. assert (cbm =? g = false) as -> by (apply N.eqb_neq; congruence).
    assert (n_gid m =? g = false) as -> by (apply N.eqb_neq; congruence). simpl. exact IH.
  - destruct ((n_gid m =? g) && (n_nid m =? k)); auto.
Qed.

Lemma rehomed_at_tmp cbm tmp k ns : cbm <> tmp -> at_ tmp k (map (rehomed cbm tmp) ns) = None.
Proof.
  intro NE. apply at_none. intros n Hn G _. apply in_map_iff in Hn as (m & E & _). subst n. unfold rehomed in G.
  destruct (n_gid m =? tmp) eqn:T; simpl in G; [congruence|]. apply N.eqb_neq in T. contradiction.
Qed.

Lemma rehomed_id cbm tmp ns : (forall n, In n ns -> n_gid n <> tmp) -> map (rehomed cbm tmp) ns = ns.
Proof.
  intro H. rewrite <- (map_id ns) at 2. apply map_ext_in. intros n Hn. unfold rehomed.
  assert (n_gid n =? tmp = false) as -> by (apply N.eqb_neq; auto). reflexivity.
Qed.

Lemma rehomed_J nx cbm tmp ns :
  cbm <> tmp -> J nx ns -> (forall k, at_ cbm k ns = None \/ at_ tmp k ns = None) -> J nx (map (rehomed cbm tmp) ns).
Proof.
  intros NE (U & B & K) EX.
  assert (forall m, n_int (rehomed cbm tmp m) = n_int m) as RI by (intro m; unfold rehomed; destruct (n_gid m =? tmp); reflexivity).
  split; [|split].
  - unfold uniq. rewrite map_map. rewrite (map_ext _ n_int RI). exact U.
  - intros n Hn. apply in_map_iff in Hn as (m & E & Hm). subst. rewrite RI. auto.
  - unfold ukeys. rewrite map_map. apply NoDup_map_inj_in; [|apply (NoDup_map_inv n_int); exact U].
    intros x y Hx Hy E. unfold rehomed, key in E.
    destruct (n_gid x =? tmp) eqn:Tx, (n_gid y =? tmp) eqn:Ty; simpl in E.
    + apply N.eqb_eq in Tx, Ty. apply (ukeys_inj ns x y K Hx Hy). unfold key. inversion E. congruence.
    + apply N.eqb_eq in Tx. inversion E as [[E1 E2]]. exfalso.
      destruct (EX (n_nid x)) as [X|X].
      * eapply (at_none_inv cbm (n_nid x) ns y X Hy); congruence.
      * eapply (at_none_inv tmp (n_nid x) ns x X Hx); congruence.
    + apply N.eqb_eq in Ty. inversion E as [[E1 E2]]. exfalso.
      destruct (EX (n_nid y)) as [X|X].
      * eapply (at_none_inv cbm (n_nid y) ns x X Hx); congruence.
      * eapply (at_none_inv tmp (n_nid y) ns y X Hy); congruence.
    + apply (ukeys_inj ns x y K Hx Hy). exact E.
Qed.

Lemma speaks_abs d : wf_del d = true -> speaks d = is_some (abs_del d).
Proof. destruct d as [| |[|[g c] [|? ?]]]; simpl; auto; discriminate. Qed.

Lemma speaks_rw adm da dt : rw_d adm da = inl dt -> speaks dt = is_some (src_del da) /\ wf_del dt = true.
Proof.
  destruct da as [| |[|[g c] [|? ?]]]; simpl; intro H; inversion H; subst; simpl; auto.
Qed.

Lemma del_join adm dc da dt :
  wf_del dc = true -> rw_d adm da = inl dt -> abs_del (upd_d dc dt) = join_d adm (abs_del dc) (src_del da).
Proof.
  intros W R. unfold upd_d.
  destruct dc as [| |[|[g c] [|? ?]]]; simpl in *; try discriminate; auto;
  destruct da as [| |[|[g' c'] [|? ?]]]; simpl in *; inversion R; subst; simpl; auto.
Qed.

Lemma del_stamp adm da dt : rw_d adm da = inl dt -> abs_del dt = option_map (pair adm) (src_del da).
Proof. destruct da as [| |[|[g' c'] [|? ?]]]; simpl; intro R; inversion R; subst; simpl; auto. Qed.

Lemma wf_upd_d dc dt : wf_del dc = true -> wf_del dt = true -> wf_del (upd_d dc dt) = true.
Proof. intros. unfold upd_d. destruct (speaks dc); auto. destruct (speaks dt); auto. Qed.

Lemma absn_mrg adm tmp m c a t :
  wf_cnode c = true -> img adm tmp m a t ->
  absn (mrg adm c t (abs_con (n_si c))) = upd adm (absa a) (absn c) /\ wf_cnode (mrg adm c t (abs_con (n_si c))) = true.
Proof.
  intros W [_ _ _ _ _ RL RC _]. unfold wf_cnode in W.
  apply andb_true_iff in W as [W WC]. apply andb_true_iff in W as [S W]. destruct (n_si c) as [| |l] eqn:Si; try discriminate.
  split.
  - unfold absn, mrg, upd; simpl. rewrite Si. simpl. f_equal; apply del_join; auto.
  - unfold wf_cnode, mrg; simpl.
    rewrite !wf_upd_d; auto; [apply (speaks_rw _ _ _ RC) | apply (speaks_rw _ _ _ RL)].
Qed.

Lemma absn_rehomed adm tmp m cbm a t :
  img adm tmp m a t -> absn (set_gid cbm t) = stamp adm (absa a) /\ wf_cnode (set_gid cbm t) = true.
Proof.
  intros [_ _ C O S RL RC _]. split.
  - unfold absn, stamp; simpl. rewrite C, O, S. simpl. f_equal; apply del_stamp; auto.
  - unfold wf_cnode; simpl. rewrite S. simpl.
    rewrite (proj2 (speaks_rw _ _ _ RL)), (proj2 (speaks_rw _ _ _ RC)). reflexivity.
Qed.

Lemma clash_double adm tmp m c a t :
  wf_cnode c = true -> img adm tmp m a t -> clash (absn c) (absa a) = double_speaker c t.
Proof.
  intros W [_ _ _ _ _ RL RC _]. unfold wf_cnode in W.
  apply andb_true_iff in W as [W WC]. apply andb_true_iff in W as [_ WL].
  unfold clash, double_speaker, absn, absa; simpl.
  rewrite (speaks_abs _ WL), (speaks_abs _ WC), (proj1 (speaks_rw _ _ _ RL)), (proj1 (speaks_rw _ _ _ RC)). reflexivity.
Qed.

(* merge_adm, when it returns normally: the prepared store, the loop over the common NodeIDs (none when
   there is no combined graph yet), the final re-homing *)
Lemma merge_adm_eq cbm adm tmp st :
  merge_adm cbm adm tmp st =
  if negb (gexists adm st) then OErr EAssert st else
  match rw_nodes adm tmp (s_nodes (clone adm tmp st)) with
  | inr e => OErr e (clone adm tmp st)
  | inl ns =>
    let st2 := prep_store adm tmp st ns in
    if negb (gexists cbm st2) then rehome tmp cbm st2 else
    let common := filter (fun x => existsb (fun c => n_nid c =? x) (of_gid cbm st2)) (map n_nid (of_gid tmp st2)) in
    if existsb (fun x => match find_node cbm x st2, find_node tmp x st2 with
                         | Some c, Some t => double_speaker c t | _, _ => false end) common
    then OErrU EPGQ else
    match fold_left (merge_one cbm tmp adm) common (Some st2) with
    | None => OErrU EAttr
    | Some st3 => if gexists tmp st3 then rehome tmp cbm st3 else OOk st3
    end
  end.
Proof. reflexivity. Qed.


Lemma merge_shape cbm adm tmp st st' :
  merge_adm cbm adm tmp st = OOk st' ->
  exists ns2 common st3,
    rw_nodes adm tmp (s_nodes (clone adm tmp st)) = inl ns2 /\
    let st2 := prep_store adm tmp st ns2 in
    (forall k, In k common <-> (exists c, at_ cbm k (s_nodes st2) = Some c) /\ (exists t, at_ tmp k (s_nodes st2) = Some t)) /\
    (forall k c t, In k common -> at_ cbm k (s_nodes st2) = Some c -> at_ tmp k (s_nodes st2) = Some t ->
                   double_speaker c t = false) /\
    fold_left (merge_one cbm tmp adm) common (Some st2) = Some st3 /\
    s_nodes st' = map (rehomed cbm tmp) (s_nodes st3) /\ s_edges st' = s_edges st3 /\ s_next st' = s_next st2.
Proof.
  intro H. rewrite merge_adm_eq in H.
  destruct (negb (gexists adm st)); [discriminate|].
  destruct (rw_nodes adm tmp (s_nodes (clone adm tmp st))) as [ns2|] eqn:R; [|discriminate].
  exists ns2. set (st2 := prep_store adm tmp st ns2) in *. cbv zeta in H.
  destruct (negb (gexists cbm st2)) eqn:GC.
  - apply negb_true_iff in GC. unfold rehome in H. destruct (gexists tmp st2); [|discriminate].
    inversion H; subst st'; clear H. exists [], st2. repeat split; try contradiction.
    intros [[c X] _]. rewrite (no_gid_at cbm st2 GC) in X. discriminate.
  - set (common := filter (fun x => existsb (fun c => n_nid c =? x) (of_gid cbm st2)) (map n_nid (of_gid tmp st2))) in *.
    destruct (existsb _ common) eqn:DS; [discriminate|].
    destruct (fold_left (merge_one cbm tmp adm) common (Some st2)) as [st3|] eqn:F; [|discriminate].
    exists common, st3. split; [reflexivity|]. split; [|split; [|split; [exact F|]]].
    + intro k. unfold common. rewrite filter_In, existsb_nid. unfold of_gid.
      fold (gnodes tmp (s_nodes st2)) (gnodes cbm (s_nodes st2)). rewrite !in_nids. tauto.
    + intros k c t KC Hc Ht. pose proof (proj1 (existsb_false _ _) DS k KC) as X. cbv beta in X.
      rewrite !find_node_at, Hc, Ht in X. exact X.
    + rewrite <- (fold_merge_one_next _ _ _ _ _ _ F). destruct (gexists tmp st3) eqn:G3.
      * unfold rehome in H. rewrite G3 in H. inversion H; subst. auto.
      * inversion H; subst. split; auto. symmetry. apply rehomed_id. apply notmp_of_fresh. exact G3.
Qed.

(* what the node list looks like just before the final re-homing *)
Definition table (cbm adm tmp : N) (m : list (N * N)) (ns ns3 : list node) : Prop :=
  forall k,
    match at_ cbm k ns, at_ adm k ns with
    | Some c, Some a => exists t, img adm tmp m a t /\ double_speaker c t = false /\
                                  at_ cbm k ns3 = Some (mrg adm c t (abs_con (n_si c))) /\ at_ tmp k ns3 = None
    | Some c, None => at_ cbm k ns3 = Some c /\ at_ tmp k ns3 = None
    | None, Some a => exists t, img adm tmp m a t /\ at_ cbm k ns3 = None /\ at_ tmp k ns3 = Some t
    | None, None => at_ cbm k ns3 = None /\ at_ tmp k ns3 = None
    end.

Lemma merge_table cbm adm tmp st st' :
  J (s_next st) (s_nodes st) -> cbm <> tmp -> gexists tmp st = false ->
  merge_adm cbm adm tmp st = OOk st' ->
  exists m ns3, s_nodes st' = map (rehomed cbm tmp) ns3 /\ J (s_next st') ns3 /\ table cbm adm tmp m (s_nodes st) ns3 /\
                (forall g k, g <> cbm -> g <> tmp -> at_ g k ns3 = at_ g k (s_nodes st)).
Proof.
  intros Jst NE FR H.
  destruct (merge_shape cbm adm tmp st st' H) as (ns2 & common & st3 & R & INC & DS & F & ES & _ & EN).
  destruct (prep_spec adm tmp st ns2 Jst FR R) as (tn & m & _ & _ & _ & _ & J2 & _ & OT2 & IA).
  set (st2 := prep_store adm tmp st ns2) in *. cbv zeta in *.
  destruct (fold_spec cbm tmp adm (s_next st2) (s_nodes st2) NE common st2 st3 eq_refl J2 F) as [J3 GN DN TD OT].
  exists m, (s_nodes st3). split; [exact ES|]. split; [rewrite EN; exact J3|]. split.
  - intro k. specialize (IA k). pose proof (INC k) as IK. rewrite in_rev, (OT2 cbm k NE) in IK.
    destruct (at_ cbm k (s_nodes st)) as [c|] eqn:Hc, (at_ adm k (s_nodes st)) as [a|].
    + destruct IA as (t & At & I). assert (In k (rev common)) as KC by (apply IK; eauto).
      exists t. split; [exact I|]. split; [|split; [|exact (GN k KC)]].
      * apply (DS k c t); auto; [apply in_rev; exact KC|rewrite OT2; auto].
      * apply DN; auto. rewrite OT2; auto.
    + assert (~ In k (rev common)) as KC by (intro X; apply IK in X as [_ [t X]]; congruence).
      destruct (TD k KC) as [B1 B2]. rewrite B1, B2, OT2, Hc; auto.
    + destruct IA as (t & At & I).
      assert (~ In k (rev common)) as KC by (intro X; apply IK in X as [[c X] _]; congruence).
      destruct (TD k KC) as [B1 B2]. exists t. rewrite B1, B2, OT2, Hc; auto.
    + assert (~ In k (rev common)) as KC by (intro X; apply IK in X as [[c X] _]; congruence).
      destruct (TD k KC) as [B1 B2]. rewrite B1, B2, OT2, Hc; auto.
  - intros g k G1 G2. rewrite OT; auto.
Qed.

(* where a node of the combined graph comes from, after the re-homing *)
Lemma table_fin cbm adm tmp m ns ns3 n :
  ukeys ns3 -> table cbm adm tmp m ns ns3 -> In n (map (rehomed cbm tmp) ns3) -> n_gid n = cbm ->
  (exists a t, img adm tmp m a t /\ n = set_gid cbm t) \/
  (exists c a t, at_ cbm (n_nid n) ns = Some c /\ img adm tmp m a t /\ n = mrg adm c t (abs_con (n_si c))) \/
  at_ cbm (n_nid n) ns = Some n.
Proof.
  intros K3 T Hn Gn. apply in_map_iff in Hn as (n0 & E & Hm). subst n. specialize (T (n_nid n0)).
  unfold rehomed in *. destruct (n_gid n0 =? tmp) eqn:Tm.
  - apply N.eqb_eq in Tm. rewrite (at_uniq tmp (n_nid n0) ns3 n0 K3 Hm Tm eq_refl) in T.
    destruct (at_ cbm (n_nid n0) ns), (at_ adm (n_nid n0) ns) as [a|].
    + destruct T as (t & _ & _ & _ & X). discriminate.
    + destruct T; discriminate.
    + destruct T as (t & IM & _ & X). inversion X; subst t. left. eauto.
    + destruct T; discriminate.
  - rewrite (at_uniq cbm (n_nid n0) ns3 n0 K3 Hm Gn eq_refl) in T. right.
    destruct (at_ cbm (n_nid n0) ns) as [c|], (at_ adm (n_nid n0) ns) as [a|].
    + destruct T as (t & IM & _ & X & _). inversion X. left. exists c, a, t. rewrite <- H0. auto.
    + destruct T as [X _]. right. symmetry. exact X.
    + destruct T as (t & _ & X & _). discriminate.
    + destruct T; discriminate.
Qed.

Lemma table_refines nx cbm adm tmp m st ns3 :
  J (s_next st) (s_nodes st) -> cbm_wf cbm (s_nodes st) -> cbm <> tmp ->
  J nx ns3 -> table cbm adm tmp m (s_nodes st) ns3 ->
  (forall g k, g <> cbm -> g <> tmp -> at_ g k ns3 = at_ g k (s_nodes st)) ->
  let fin := map (rehomed cbm tmp) ns3 in
  conflict (abs_cbm cbm st) (abs_adm adm st) = false /\
  (forall k, option_map absn (at_ cbm k fin) =
             getn k (merge_nodes adm (abs_nodes cbm st) (abs_adm_nodes adm st))) /\
  J nx fin /\ cbm_wf cbm fin /\
  (forall g k, g <> cbm -> g <> tmp -> at_ g k fin = at_ g k (s_nodes st)) /\
  (forall k, at_ tmp k fin = None).
Proof.
  intros Jst W NE J3 T OT fin. pose proof Jst as (U & B & K).
  assert (forall k c, at_ cbm k (s_nodes st) = Some c -> wf_cnode c = true) as WA.
  { intros k c Hc. apply at_In in Hc as (Hc & Gc & _). exact (W c Hc Gc). }
  assert (forall k, at_ cbm k ns3 = None \/ at_ tmp k ns3 = None) as EX.
  { intro k. specialize (T k). destruct (at_ cbm k (s_nodes st)), (at_ adm k (s_nodes st)).
    - destruct T as (t & _ & _ & _ & X). auto.
    - destruct T; auto.
    - destruct T as (t & _ & X & _). auto.
    - destruct T; auto. }
  split; [|split; [|split; [|split; [|split]]]].
  - destruct (conflict (abs_cbm cbm st) (abs_adm adm st)) eqn:CF; auto. exfalso.
    unfold conflict in CF. apply existsb_exists in CF as ([k a'] & Hin & X). simpl in *.
    unfold abs_adm_nodes in Hin. apply in_map_iff in Hin as (a & E & Ha). inversion E; subst; clear E.
    unfold of_gid in Ha. apply filter_In in Ha as [Ha Ga]. apply N.eqb_eq in Ga.
    rewrite getn_abs in X. destruct (at_ cbm (n_nid a) (s_nodes st)) as [c|] eqn:Hc; simpl in X; [|discriminate].
    specialize (T (n_nid a)). rewrite Hc, (at_uniq adm (n_nid a) _ a K Ha Ga eq_refl) in T.
    destruct T as (t & IM & DS & _).
    rewrite (clash_double adm tmp m c a t (WA _ c Hc) IM) in X. congruence.
  - intro k. rewrite get_merge_nodes, getn_abs, getn_abs_adm. specialize (T k).
    destruct (at_ cbm k (s_nodes st)) as [c|] eqn:Hc, (at_ adm k (s_nodes st)) as [a|] eqn:Ha; simpl.
    + destruct T as (t & IM & _ & A1 & A2).
      unfold fin. rewrite (rehomed_at_cbm_keep cbm tmp k ns3 NE A2), A1. simpl.
      rewrite (proj1 (absn_mrg adm tmp m c a t (WA k c Hc) IM)). reflexivity.
    + destruct T as [A1 A2]. unfold fin. rewrite (rehomed_at_cbm_keep cbm tmp k ns3 NE A2), A1. reflexivity.
    + destruct T as (t & IM & A1 & A2). unfold fin. rewrite (rehomed_at_cbm_new cbm tmp k ns3 NE A1), A2. simpl.
      rewrite (proj1 (absn_rehomed adm tmp m cbm a t IM)). reflexivity.
    + destruct T as [A1 A2]. unfold fin. rewrite (rehomed_at_cbm_keep cbm tmp k ns3 NE A2), A1. reflexivity.
  - apply rehomed_J; auto.
  - intros n Hn Gn.
    destruct (table_fin cbm adm tmp m _ ns3 n (J_ukeys _ _ J3) T Hn Gn) as [(a & t & IM & ->)|[(c & a & t & Hc & IM & ->)|Hc]].
    + apply (absn_rehomed adm tmp m cbm a t IM).
    + apply (absn_mrg adm tmp m c a t (WA _ c Hc) IM).
    + apply (WA _ n Hc).
  - intros g k G1 G2. unfold fin. rewrite rehomed_at_other; auto.
  - intro k. apply rehomed_at_tmp; auto.
Qed.

Theorem merge_refines_nodes cbm adm tmp st st' :
  J (s_next st) (s_nodes st) -> cbm_wf cbm (s_nodes st) -> cbm <> tmp -> gexists tmp st = false ->
  merge_adm cbm adm tmp st = OOk st' ->
  conflict (abs_cbm cbm st) (abs_adm adm st) = false /\
  (forall k, getn k (abs_nodes cbm st') = getn k (merge_nodes adm (abs_nodes cbm st) (abs_adm_nodes adm st))) /\
  J (s_next st') (s_nodes st') /\ cbm_wf cbm (s_nodes st') /\
  (forall g k, g <> cbm -> g <> tmp -> at_ g k (s_nodes st') = at_ g k (s_nodes st)) /\
  (forall k, at_ tmp k (s_nodes st') = None).
Proof.
  intros Jst W NE FR H.
  destruct (merge_table cbm adm tmp st st' Jst NE FR H) as (m & ns3 & ES & J3 & T & OT).
  destruct (table_refines (s_next st') cbm adm tmp m st ns3 Jst W NE J3 T OT) as (C1 & C2 & C3 & C4 & C5 & C6).
  rewrite ES. repeat split; auto; try apply C3.
  intro k. rewrite getn_abs, ES. apply C2.
Qed.

Lemma match_ints {A} g a b ns (f : N -> N -> option A) :
  match at_ g a ns, at_ g b ns with Some na, Some nb => f (n_int na) (n_int nb) | _, _ => None end =
  match ids_of g ns a, ids_of g ns b with Some i, Some j => f i j | _, _ => None end.
Proof. unfold ids_of. destruct (at_ g a ns), (at_ g b ns); reflexivity. Qed.

(* the prepared store, before the loop: internal ids of the combined graph are old, those of the images are the
   renamed ids of the source's nodes; the images are connected as the source's nodes are, and to nothing else *)
Lemma prep_edges cbm adm tmp st ns2 :
  J (s_next st) (s_nodes st) -> ebelow (s_next st) (s_edges st) -> cbm <> tmp -> gexists tmp st = false ->
  (forall n, In n (of_gid adm st) -> edat (s_edges st) (n_int n) (n_int n) = None) ->
  rw_nodes adm tmp (s_nodes (clone adm tmp st)) = inl ns2 ->
  let st2 := prep_store adm tmp st ns2 in
  let ci := ids_of cbm (s_nodes st2) in let ti := ids_of tmp (s_nodes st2) in let e0 := edat (s_edges st2) in
  (forall k, ci k = ids_of cbm (s_nodes st) k) /\
  (forall a i j, ci a = Some i -> e0 i j = edat (s_edges st) i j) /\
  (forall a b, img_conn ti e0 a b = conn_at adm st a b) /\
  (forall k, img_conn ti e0 k k = None) /\
  MergedEdges ci ti e0 [] (s_edges st2).
Proof.
  intros Jst EB NE FR NS R st2 ci ti e0. pose proof Jst as (_ & B & _).
  destruct (prep_spec adm tmp st ns2 Jst FR R) as (tn & m & _ & EE & _ & RN & _ & _ & OT2 & IA). fold st2 in EE, OT2, IA.
  set (es := s_edges st) in *.
  assert (forall k, ci k = ids_of cbm (s_nodes st) k) as CI by (intro k; unfold ci, ids_of; rewrite OT2; auto).
  assert (forall a i j, ci a = Some i -> e0 i j = edat es i j) as E0O.
  { intros a i j X. rewrite CI in X. apply ids_of_some in X as (n & I1 & _ & _ & <-).
    unfold e0. rewrite EE, edat_app. destruct (edat es (n_int n) j); auto. apply (clone_edges_old (s_next st)); auto. }
  assert (forall k, match at_ adm k (s_nodes st) with
                    | Some a => exists i, ti k = Some i /\ lookup m (n_int a) = Some i
                    | None => ti k = None end) as TI.
  { intro k. specialize (IA k). unfold ti, ids_of. destruct (at_ adm k (s_nodes st)) as [a|].
    - destruct IA as (t & -> & I). exists (n_int t). split; auto. apply (im_int _ _ _ _ _ I).
    - rewrite IA. reflexivity. }
  assert (forall a b, img_conn ti e0 a b = conn_at adm st a b) as TTA.
  { intros a b. unfold img_conn, conn_at. pose proof (TI a) as Ia. pose proof (TI b) as Ib.
    destruct (at_ adm a (s_nodes st)) as [sa|]; [destruct Ia as (i & -> & La)|rewrite Ia; reflexivity].
    destruct (at_ adm b (s_nodes st)) as [sb|]; [destruct Ib as (j & -> & Lb)|rewrite Ib; reflexivity].
    unfold e0. rewrite EE, edat_app, (edat_below _ _ i j EB (proj1 RN _ _ La)).
    apply (clone_edges_edat (s_next st) m es _ _ _ _ RN La Lb). }
  split; [exact CI|]. split; [exact E0O|]. split; [exact TTA|]. split.
  - intro k. rewrite TTA. unfold conn_at. destruct (at_ adm k (s_nodes st)) as [a|] eqn:A; auto.
    apply NS. apply at_In in A as (A & G & _). unfold of_gid. apply filter_In. split; auto. apply N.eqb_eq. exact G.
  - apply MergedEdges_init; try reflexivity. intros a b i j X Y. fold (e0 i j). rewrite (E0O a i j X).
    pose proof (TI b) as Tb. destruct (at_ adm b (s_nodes st)); [|congruence]. destruct Tb as (j0 & Tj & L).
    rewrite Y in Tj. inversion Tj; subst j0. rewrite edat_sym. apply (edat_below _ _ j i EB). apply (proj1 RN _ _ L).
Qed.

(* under which internal id each NodeID of the combined graph is found after merge_adm *)
Lemma merged_ids cbm adm tmp st st' ns2 common st3 :
  let st2 := prep_store adm tmp st ns2 in
  let ci := ids_of cbm (s_nodes st2) in let ti := ids_of tmp (s_nodes st2) in
  cbm <> tmp ->
  (forall k, In k common <-> (exists c, at_ cbm k (s_nodes st2) = Some c) /\ (exists t, at_ tmp k (s_nodes st2) = Some t)) ->
  MergedNodes cbm tmp adm (s_next st2) (s_nodes st2) (rev common) (s_nodes st3) ->
  s_nodes st' = map (rehomed cbm tmp) (s_nodes st3) ->
  (forall k, memN k (rev common) = is_some (ci k) && is_some (ti k)) /\
  (forall k, ids_of cbm (s_nodes st') k = match ci k with Some i => Some i | None => ti k end).
Proof.
  intros st2 ci ti NE INC [_ GN DN TD _] ES.
  assert (forall k, memN k (rev common) = is_some (ci k) && is_some (ti k)) as MB.
  { intro k. unfold ci, ti, ids_of. destruct (memN k (rev common)) eqn:M.
    - apply memN_In, in_rev, INC in M as [[c ->] [t ->]]. reflexivity.
    - destruct (at_ cbm k (s_nodes st2)) as [c|] eqn:A1, (at_ tmp k (s_nodes st2)) as [t|] eqn:A2; simpl; auto.
      apply memN_false in M. exfalso. apply M. apply -> in_rev. apply INC. eauto. }
  split; [exact MB|].
  intro k. unfold ids_of at 1. rewrite ES. pose proof (MB k) as M. unfold ci, ti, ids_of in *.
  destruct (memN k (rev common)) eqn:MK.
  - apply memN_In in MK. destruct (at_ cbm k (s_nodes st2)) as [c|] eqn:Hc; [|discriminate].
    destruct (at_ tmp k (s_nodes st2)) as [t|] eqn:Ht; [|discriminate].
    rewrite (rehomed_at_cbm_keep cbm tmp k _ NE (GN k MK)), (DN k c t MK Hc Ht). reflexivity.
  - apply memN_false in MK. destruct (TD k MK) as [Q1 Q2].
    destruct (at_ cbm k (s_nodes st2)) as [c|] eqn:Hc.
    + destruct (at_ tmp k (s_nodes st2)) as [t|] eqn:Ht; [discriminate|].
      rewrite (rehomed_at_cbm_keep cbm tmp k _ NE Q2), Q1. reflexivity.
    + rewrite (rehomed_at_cbm_new cbm tmp k _ NE Q1), Q2. destruct (at_ tmp k (s_nodes st2)); reflexivity.
Qed.

Theorem merge_refines_edges cbm adm tmp st st' :
  J (s_next st) (s_nodes st) -> ebelow (s_next st) (s_edges st) -> cbm_wf cbm (s_nodes st) ->
  cbm <> tmp -> gexists tmp st = false ->
  (forall n, In n (of_gid adm st) -> edat (s_edges st) (n_int n) (n_int n) = None) ->
  merge_adm cbm adm tmp st = OOk st' ->
  (forall e, gete e (abs_edges cbm st') = gete e (merge_edges (abs_edges cbm st) (abs_edges adm st))) /\
  ebelow (s_next st') (s_edges st').
Proof.
  intros Jst EB W NE FR NS H.
  destruct (merge_refines_nodes cbm adm tmp st st' Jst W NE FR H) as (_ & _ & J' & _).
  destruct (merge_shape cbm adm tmp st st' H) as (ns2 & common & st3 & R & INC & _ & F & ES & EE' & EN).
  destruct (prep_spec adm tmp st ns2 Jst FR R) as (_ & _ & _ & _ & _ & _ & J2 & EB2 & _).
  destruct (prep_edges cbm adm tmp st ns2 Jst EB NE FR NS R) as (CI & E0O & TTA & SL & E0).
  set (st2 := prep_store adm tmp st ns2) in *. cbv zeta in *.
  set (ci := ids_of cbm (s_nodes st2)) in *. set (ti := ids_of tmp (s_nodes st2)) in *. set (e0 := edat (s_edges st2)) in *.
  destruct (loop_edges cbm tmp adm (s_next st2) e0 common st2 st3 NE (edat_sym _) J2 (EB2 EB) SL E0 F) as (MN3 & [I1 I2 I3] & EBf).
  destruct (merged_ids cbm adm tmp st st' ns2 common st3 NE INC MN3 ES) as [MB REP]. fold st2 ci ti in I1, I2, I3, MB, REP.
  split; [|rewrite EE', EN; exact EBf].
  intros [x y]. rewrite get_merge_edges, (abs_edges_at _ cbm st' _ J'), !(abs_edges_at _ _ st _ Jst). cbn [fst snd].
  destruct (y <? x); [reflexivity|]. rewrite <- TTA. unfold conn_at. rewrite !match_ints, !REP, <- !CI, EE'.
  assert (forall o : option edata, match o with Some d => Some d | None => None end = o) as OID by (intros [d|]; reflexivity).
  (* x, y each in the combined graph or only an image: the three clauses of MergedEdges (me_cbm_img twice, by symmetry) *)
  destruct (ci x) as [i|] eqn:Cx, (ci y) as [j|] eqn:Cy.
  - rewrite (I1 x y i j Cx Cy), (E0O x i j Cx), !MB, Cx, Cy. simpl.
    destruct (edat (s_edges st) i j); auto. rewrite OID.
    unfold img_conn. destruct (ti x), (ti y); reflexivity.
  - rewrite OID. destruct (ti y) as [j'|] eqn:Ty.
    + rewrite (I2 x y i j' Cx Ty); [|rewrite MB, Cy; reflexivity]. rewrite MB, Cx. simpl.
      unfold img_conn. rewrite Ty. destruct (ti x); reflexivity.
    + unfold img_conn. rewrite Ty. destruct (ti x); reflexivity.
  - rewrite OID. destruct (ti x) as [i'|] eqn:Tx.
    + rewrite edat_sym, (I2 y x j i' Cy Tx); [|rewrite MB, Cx; reflexivity]. rewrite MB, Cy, (img_conn_sym ti e0 (edat_sym _)). simpl.
      unfold img_conn. rewrite Tx. destruct (ti y); reflexivity.
    + unfold img_conn. rewrite Tx. reflexivity.
  - rewrite OID. destruct (ti x) as [i'|] eqn:Tx, (ti y) as [j'|] eqn:Ty; unfold img_conn; rewrite ?Tx, ?Ty; auto.
    apply (I3 x y i' j' Tx Ty); rewrite MB, ?Cx, ?Cy; reflexivity.
Qed.

Theorem merge_other_edges cbm adm tmp st st' h :
  J (s_next st) (s_nodes st) -> ebelow (s_next st) (s_edges st) -> cbm_wf cbm (s_nodes st) ->
  cbm <> tmp -> gexists tmp st = false ->
  merge_adm cbm adm tmp st = OOk st' -> h <> cbm -> h <> tmp ->
  forall e, gete e (abs_edges h st') = gete e (abs_edges h st).
Proof.
  intros Jst EB W NE FR H H1 H2. pose proof Jst as (U & B & K).
  destruct (merge_refines_nodes cbm adm tmp st st' Jst W NE FR H) as (_ & _ & J' & _ & OT & _).
  destruct (merge_shape cbm adm tmp st st' H) as (ns2 & common & st3 & R & _ & _ & F & _ & EE' & _).
  destruct (prep_spec adm tmp st ns2 Jst FR R) as (tn & m & E2 & EE & IM & RN & _). cbv zeta in *.
  apply (abs_edges_kept _ _ h st st' Jst J'); [intro k; apply OT; auto|].
  intros a b Hx Hy Gx Gy.
  (* the two internal ids are old and belong to neither of the graphs being merged *)
  rewrite EE'. rewrite (fold_other cbm tmp adm (n_int a) (n_int b) common (prep_store adm tmp st ns2) st3); [| |exact F].
  - rewrite EE, edat_app. destruct (edat (s_edges st) (n_int a) (n_int b)); auto.
    apply (clone_edges_old (s_next st)); auto.
  - intros n Hn Gn. rewrite E2 in Hn. apply in_app_iff in Hn as [Hn|Hn].
    + destruct Gn as [Gn|Gn]; [|exfalso; apply (notmp_of_fresh tmp st FR n Hn Gn)].
      split; intro X; [assert (n = a)|assert (n = b)]; try (apply (uniq_inj (s_nodes st)); auto); congruence.
    + destruct (Forall2_in_r _ _ _ _ IM Hn) as (a0 & _ & I). assert (s_next st <= n_int n) by (apply (proj1 RN (n_int a0)); apply (im_int _ _ _ _ _ I)).
      pose proof (B a Hx). pose proof (B b Hy). lia.
Qed.

Lemma eqv_of_gets C C' :
  (forall k, getn k (nodes C) = getn k (nodes C')) -> (forall e, gete e (edges C) = gete e (edges C')) -> eqv C C'.
Proof.
  intros H1 H2. split; auto. intro k. rewrite H1. destruct (getn k (nodes C')); simpl; auto using eqv_node_refl.
Qed.

Theorem merge_refines cbm adm tmp st st' :
  J (s_next st) (s_nodes st) -> ebelow (s_next st) (s_edges st) -> cbm_wf cbm (s_nodes st) ->
  cbm <> tmp -> gexists tmp st = false ->
  (forall n, In n (of_gid adm st) -> edat (s_edges st) (n_int n) (n_int n) = None) ->
  merge_adm cbm adm tmp st = OOk st' ->
  exists C', smerge (abs_cbm cbm st) (abs_adm adm st) = Some C' /\
             (forall k, getn k (nodes (abs_cbm cbm st')) = getn k (nodes C')) /\
             (forall e, gete e (edges (abs_cbm cbm st')) = gete e (edges C')) /\
             eqv (abs_cbm cbm st') C'.
Proof.
  intros Jst EB W NE FR NS H.
  destruct (merge_refines_nodes cbm adm tmp st st' Jst W NE FR H) as (CF & MG & _).
  destruct (merge_refines_edges cbm adm tmp st st' Jst EB W NE FR NS H) as (ME & _).
  destruct (smerge_defined _ _ CF) as [C' SM]. exists C'. split; auto.
  apply smerge_Some in SM as (_ & EN & EE).
  assert (forall k, getn k (nodes (abs_cbm cbm st')) = getn k (nodes C')) as G1 by (intro k; rewrite EN; apply MG).
  assert (forall e, gete e (edges (abs_cbm cbm st')) = gete e (edges C')) as G2 by (intro e; rewrite EE; apply ME).
  split; auto. split; auto. apply eqv_of_gets; auto.
Qed.
