(* C20, over Gen/Locks.v: the obligations about the REGENERATED method tables (finite: one boolean per method,
   decided by vm_compute) and the programs of the non-vacuity witnesses. *)
From Coq Require Import List NArith String.
From FIM Require Import Model.Locks20 Gen.Locks Model.Conc20 Proofs.Locks20Sound Proofs.Conc20Inv.
Import ListNotations.
Open Scope N_scope.

Lemma gen_ok_true : gen_ok = true.
Proof. reflexivity. Qed.

(* a table regenerated empty would make the obligations below hold of nothing *)
Lemma tables_nonempty : (List.length shared_methods >= 6)%nat /\ (List.length disjoint_methods >= 6)%nat.
Proof. vm_compute. split; repeat constructor. Qed.

Lemma all_lock_ok : forallb (fun m => lock_ok (snd m)) (shared_methods ++ disjoint_methods) = true.
Proof. vm_compute. reflexivity. Qed.

Lemma all_data_ok : table_ok CGlobal shared_methods = true /\ table_ok CArg disjoint_methods = true.
Proof. split; vm_compute; reflexivity. Qed.

Lemma singletons_ok : singleton_ok shared_singleton = true /\ singleton_ok disjoint_singleton = true.
Proof. split; reflexivity. Qed.

Lemma store_identity n : replaces shared_singleton (Some n) = false /\ replaces disjoint_singleton (Some n) = false.
Proof. destruct singletons_ok as [A B]. split; apply singleton_identity; assumption. Qed.

Lemma method_lock_ok m : In m (map snd (shared_methods ++ disjoint_methods)) -> lock_ok m = true.
Proof.
  intro H. apply in_map_iff in H as [[name m'] [<- Hin]].
  exact (proj1 (forallb_forall _ _) all_lock_ok _ Hin).
Qed.

(* ---------------- non-vacuity ---------------- *)
(* the disjoint add_graph as it was BEFORE fix 74c0984: explicit release in the duplicate-id branch AND in
   finally.  The checker rejects it and the path "graph present" releases twice. *)
Definition old_disjoint_add_graph : stmt :=
  SSeq (SAcq 100)
    (STry 101
       (SSeq (SIf 102 XRead FDecl CFree
                (SSeq (SIf 104 XLocal FDecl CFree (SAct 105 XLocal FDecl) SSkip)
                   (SSeq (SRel 107) (SReturn 108 XLocal FDecl)))
                SSkip)
          (SAct 110 XBase1 FDecl))
       (Some 121) (SRaise 122) (SRel 124)).

Lemma old_code_rejected :
  lock_ok old_disjoint_add_graph = false /\
  exists p, balanced (evs_of (run AllFaults old_disjoint_add_graph p)) = false.
Proof. split; [vm_compute; reflexivity|]. exists [false; true]. vm_compute. reflexivity. Qed.

Definition lookup_m (ms : list (string * stmt)) (n : string) : stmt :=
  match find (fun m => String.eqb (fst m) n) ms with Some m => snd m | None => SSkip end.

(* two threads creating a node each in the shared store, interleaved: ids 1 and 2 *)
Definition blank_call : call := mkCall (lookup_m shared_methods "add_blank_node_to_graph") 1 0 [].

(* the hypothesis of the interleaving theorem matters: the same two updates WITHOUT the lock are not accepted
   by the data automaton, and a schedule exists under which both threads insert node id 1 *)
Definition unlocked_blank : list instr :=
  [ICall 1 0; IEv (KAct (XInsCtr CGlobal)); IEv (KAct (XBump CGlobal AOne)); IEv (KAct (XRetCtrM1 CGlobal))].
Lemma unlocked_loses_a_node :
  accepti (dataA CGlobal) 0 unlocked_blank = None /\
  let S := run_sched (init [unlocked_blank; unlocked_blank]) [0;1;0;1;0;1;0;1]%nat in
  map nkey (nodes (sh S)) = [(0, 1); (0, 1)] /\ ~ NoDup (map nkey (nodes (sh S))).
Proof.
  split; [vm_compute; reflexivity|]. split; [vm_compute; reflexivity|].
  vm_compute. intro H. inversion H as [|x l Hn Hd]; subst. apply Hn. left. reflexivity.
Qed.

(* thread 1 is waiting for the lock held by thread 0 (its acquire step changes nothing); thread 0 can go on *)
Lemma waiting_example :
  let S := run_sched (init (map (flatten DeclFaults) [[blank_call]; [blank_call]])) [0;0;1]%nat in
  holder S = Some 0%nat /\ step S 1%nat = S /\ unfinished S /\ step S 0%nat <> S.
Proof.
  vm_compute. split; [reflexivity|]. split; [reflexivity|]. split.
  - exists 0%nat. eexists. eexists. eexists. reflexivity.
  - intro H. discriminate H.
Qed.

(* `with self.lock:` -- the context-manager form of acquire / try / finally release -- passes both checkers and
   is balanced also when its body raises; the same method re-running the constructor (which creates a new
   Lock()) is rejected: the lock object changes along its only path *)
Definition with_del_all : stmt := SWith 830 (SAct 831 XDelAll FDecl).
Definition reinit_del_all : stmt := SWith 830 (SAct 831 XNewLock FDecl).

(* ids must come from the counter, never from the size of the graph: the disjoint add_blank_node_to_graph rewritten
   to use len(nodes)+1 is rejected by the counter discipline (witness: its only fault-free path), and on the
   history "import 2 nodes; a caller deletes node 1; create a node" it hands out id 2 again (duplicate live key =
   the existing node is overwritten), where the regenerated method hands out 3 *)
Definition len_blank : stmt :=
  SSeq (SAcq 1) (SSeq (STry 2 (SSeq (SAct 3 (XBaseLen CArg) FDecl) (SSeq (SAct 4 (XSetCtrBase1 CArg) FWeak) (SAct 5 (XInsBase CArg) FDecl)))
                 (Some 6) (SRaise 7) (SRel 8)) (SReturn 9 XRetBase FNever)).
Definition imp2 : call :=
  mkCall (lookup_m disjoint_methods "add_graph") 1 2
         [false;false;false; true;false;false;false; true;false;false;false; false; false;false].
Definition rm1 : call := mkCall (SAct 0 (XRemove CArg) FNever) 1 1 [].

(* acquire(timeout=..): ignoring the result is rejected (on the timed-out path the critical section runs without
   the lock and the finally releases a lock the caller does not hold); checking it (`if not ..: raise`) is fine *)
Definition acq_ignored : stmt :=
  SSeq (SAcqT 1 SSkip) (STry 2 (SAct 3 (XInsCtr CGlobal) FDecl) None SSkip (SRel 4)).
Definition acq_checked : stmt :=
  SSeq (SAcqT 1 (SRaise 2))
       (STry 3 (SSeq (SAct 4 (XInsCtr CGlobal) FDecl) (SAct 5 (XBump CGlobal AOne) FWeak)) None SSkip (SRel 6)).

(* a statement known to raise (del d[k] of a possibly absent key) is a fault point also OUTSIDE try/finally:
   acquire; if ..: pop graph; del counter entry; release  -- the checker finds the path that raises with the lock held *)
Definition tidy_del_graph : stmt :=
  SSeq (SAcq 1)
    (SSeq (SIf 2 XRead FNever CFree (SSeq (SAct 3 (XDel CArg) FNever) (SAct 4 (XDelCtr CArg) FMay)) SSkip)
          (SRel 5)).
