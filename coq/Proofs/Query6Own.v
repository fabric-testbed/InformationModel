(* C06: every NodeID a query returns is the NodeID of a node OF THE QUERIED GRAPH - for ANY store
   (no well-formedness hypothesis), in particular for stores that hold edges crossing graph boundaries
   (the stitching window after merge_nodes).  The code achieves it by working on extract_graph's copy.
   Rests on Query6Nbr.v (on_node_Ok, guard_nil) and Query6Api.v (the path theorems). *)
From Coq Require Import List NArith Bool.
From FIM Require Import Model.Query6 Proofs.Query6Nbr Proofs.Query6Path Proofs.Query6Api.
Import ListNotations.
Open Scope N_scope.

Definition owned (s : store) (gid x : N) : Prop := exists m, in_graph s gid m /\ n_id m = x.

Lemma extracted_owned s gid m : In m (g_nodes (extracted s gid)) -> owned s gid (n_id m).
Proof. intros H. exists m. split; auto. apply graph_nodes_In, H. Qed.

(* the neighbour helpers only ever select among the nodes of the graph they are given *)
Lemma difference_incl l d : incl (difference l d) l.
Proof. apply incl_filter. Qed.

Lemma neighbors_incl G a : incl (neighbors G a) (g_nodes G).
Proof. apply incl_filter. Qed.

Lemma filter_by_label_incl l cls : incl (filter_by_label l cls) l.
Proof. apply incl_filter. Qed.

Lemma first_neighbor_owned s gid id rel cls r x :
  first_neighbor s gid id rel cls = Ok r -> In x r -> owned s gid x.
Proof.
  intros H Hx. apply on_node_Ok in H as (n & _ & [= <-]). apply in_map_iff in Hx as (m & <- & Hm).
  apply extracted_owned. apply filter_by_label_incl, difference_incl, neighbors_incl in Hm. exact Hm.
Qed.

Lemma second_of_incl G a n rel2 c2 : incl (second_of G a n rel2 c2) (g_nodes G).
Proof.
  unfold second_of. rewrite guard_nil by (intros ->; reflexivity).
  intros k H. apply incl_filter, filter_by_label_incl, difference_incl, neighbors_incl in H. exact H.
Qed.

Lemma fsn_nodes_incl G a rel1 c1 rel2 c2 m k :
  In (m, k) (fsn_nodes G a rel1 c1 rel2 c2) -> In m (g_nodes G) /\ In k (g_nodes G).
Proof.
  unfold fsn_nodes. rewrite guard_nil by (intros ->; reflexivity). intros H.
  apply in_flat_map in H as (n & Hn & H). apply in_map_iff in H as (k0 & [= -> ->] & Hk). split.
  - apply filter_by_label_incl, difference_incl, neighbors_incl in Hn. exact Hn.
  - eapply second_of_incl; eauto.
Qed.

Lemma second_neighbor_owned s gid id rel1 c1 rel2 c2 r b c :
  first_and_second_neighbor s gid id rel1 c1 rel2 c2 = Ok r -> In (b, c) r -> owned s gid b /\ owned s gid c.
Proof.
  intros H Hx. apply on_node_Ok in H as (n & _ & [= <-]).
  apply in_map_iff in Hx as ([m k] & [= <- <-] & Hin).
  apply fsn_nodes_incl in Hin as [Hm Hk]. split; apply extracted_owned; auto.
Qed.

Lemma path_ids_owned s gid rel G p a z x :
  graph_for s gid rel = Ok G -> is_path G p a z = true -> In x (ids_of G p) -> owned s gid x.
Proof.
  intros HG IP Hx. apply in_map_iff in Hx as (y & <- & Hy).
  apply graph_for_Ok in HG as [E _]. apply is_path_iff in IP as (r & -> & Ha & W).
  assert (Hn : In y (ints G)) by (destruct Hy as [<-|Hy]; auto; apply (walk_nodes G _ _ _ W), Hy).
  unfold id_of, ints in *. rewrite E in *. apply in_map_iff in Hn as (m0 & Hi & Hm0).
  destruct (find _ _) as [m|] eqn:F.
  - apply find_some in F as [Hm _]. exists m. split; auto. apply graph_nodes_In; auto.
  - apply (find_none _ _ F) in Hm0. rewrite Hi, N.eqb_refl in Hm0. discriminate.
Qed.

Lemma shortest_path_owned s gid a z rel ids x :
  shortest_path s gid a z rel = Ok ids -> In x ids -> owned s gid x.
Proof.
  intros H Hx.
  destruct (shortest_path_sound_min _ _ _ _ _ _ H) as (G & na & nz & p & HG & _ & _ & -> & IP & _).
  { intros ->. destruct Hx. }
  eapply path_ids_owned; eauto.
Qed.

Lemma path_with_hops_owned s gid a z hops cutoff ids x :
  path_with_hops s gid a z hops cutoff = Ok ids -> In x ids -> owned s gid x.
Proof.
  intros H Hx.
  destruct (path_with_hops_spec _ _ _ _ _ _ _ H) as (G & na & nz & p & HG & _ & _ & -> & _ & S2).
  destruct S2 as [(IP & _) _]. { intros E. rewrite E in Hx. destruct Hx. }
  eapply path_ids_owned; eauto.
Qed.

Lemma get_parent_owned s gid id rel parent p :
  get_parent s gid id rel parent = Ok (Some p) -> owned s gid p.
Proof.
  intros H. apply bind_Ok in H as (l & E & H). destruct l as [|q [|q' l]]; inversion H; subst.
  eapply first_neighbor_owned; eauto. left; auto.
Qed.

Lemma peers_owned V s gid id l c :
  find_peer_connection_points V s gid id = Ok (Some l) -> In c l -> owned s gid c.
Proof.
  intros H Hc. apply bind_Ok in H as (r & E & H). destruct r as [|q r]; [discriminate|]. injection H as <-.
  apply (in_map_snd (q :: r)) in Hc as [b Hin]. eapply second_neighbor_owned in Hin; eauto. tauto.
Qed.

Lemma node_cps_owned V s gid id l c :
  get_all_node_or_component_connection_points V s gid id = Ok l -> In c l -> owned s gid c.
Proof.
  intros H Hc. apply bind_Ok in H as (n & _ & H). destruct (_ || _ || _); [|discriminate].
  apply bind_Ok in H as (r & E & [= <-]).
  apply in_map_snd in Hc as [b Hin]. eapply second_neighbor_owned in Hin; eauto. tauto.
Qed.
