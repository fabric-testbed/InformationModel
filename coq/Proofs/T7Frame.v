(* C07 - how the queries of the model (node lookup, neighbours, owners, peers, scopes) change under the
   primitive graph mutations.  General lemmas over arbitrary graphs. *)
From Coq Require Import List Bool.
From FIM Require Import Base.Str Gen.Rules Model.T7Graph Model.T7Ops Model.T7WF Model.T7Steps
     Proofs.T7Tables Proofs.T7WFRefl.
Import ListNotations.

Lemma find_nodes_app l1 l2 x :
  filter (fun n => str_eqb (nid n) x) (l1 ++ l2) = filter (fun n => str_eqb (nid n) x) l1 ++ filter (fun n => str_eqb (nid n) x) l2.
Proof. apply filter_app. Qed.

Lemma find_nodes_In g x n : In n (find_nodes g x) <-> In n (gnodes g) /\ nid n = x.
Proof. unfold find_nodes. rewrite filter_In, str_eqb_eq. reflexivity. Qed.

Lemma find_nodes_has_id g x n l : find_nodes g x = n :: l -> has_id g x = true.
Proof. intro E. apply has_id_In. exists n. apply find_nodes_In. rewrite E. left. reflexivity. Qed.

Lemma find_nodes_none g x : has_id g x = false -> find_nodes g x = [].
Proof.
  intro H. destruct (find_nodes g x) as [|n l] eqn:E; [reflexivity|]. rewrite (find_nodes_has_id _ _ _ _ E) in H. discriminate.
Qed.

Lemma find_nodes_add_node_other g n y : y <> nid n -> find_nodes (g_add_node g n) y = find_nodes g y.
Proof.
  intro H. unfold find_nodes, g_add_node. simpl. rewrite filter_app. simpl.
  assert (E : str_eqb (nid n) y = false) by (apply str_eqb_neq; congruence). rewrite E. apply app_nil_r.
Qed.
Lemma find_nodes_add_node_old g n y : has_id g (nid n) = false -> has_id g y = true -> find_nodes (g_add_node g n) y = find_nodes g y.
Proof. intros Hf Hy. apply find_nodes_add_node_other. intro E. subst. congruence. Qed.
Lemma find_nodes_add_node_same g n : has_id g (nid n) = false -> find_nodes (g_add_node g n) (nid n) = [n].
Proof.
  intro H. unfold find_nodes, g_add_node. simpl. rewrite filter_app. simpl. rewrite str_eqb_refl.
  fold (find_nodes g (nid n)). rewrite (find_nodes_none _ _ H). reflexivity.
Qed.
Lemma find_nodes_add_edge g a r b y : find_nodes (g_add_edge g a r b) y = find_nodes g y.
Proof. reflexivity. Qed.

Lemma has_id_add_node g n y : has_id (g_add_node g n) y = has_id g y || str_eqb (nid n) y.
Proof. unfold has_id, g_add_node. simpl. rewrite existsb_app. simpl. rewrite orb_false_r. reflexivity. Qed.
Lemma has_id_add_edge g a r b y : has_id (g_add_edge g a r b) y = has_id g y.
Proof. reflexivity. Qed.

(* every query on node data goes through find_nodes *)
Lemma cls_of_ext g g' y : find_nodes g' y = find_nodes g y -> cls_of g' y = cls_of g y.
Proof. unfold cls_of. intros ->. reflexivity. Qed.
Lemma cls_is_ext g g' y k : find_nodes g' y = find_nodes g y -> cls_is g' y k = cls_is g y k.
Proof. unfold cls_is. intro H. rewrite (cls_of_ext _ _ _ H). reflexivity. Qed.
Lemma typ_is_ext g g' y t : find_nodes g' y = find_nodes g y -> typ_is g' y t = typ_is g y t.
Proof. unfold typ_is, typ_of. intros ->. reflexivity. Qed.
Lemma name_of_ext g g' y : find_nodes g' y = find_nodes g y -> name_of g' y = name_of g y.
Proof. unfold name_of. intros ->. reflexivity. Qed.

Definition nb_of (x : str) (e : edge) : list (str * rel) :=
  if str_eqb (ea e) x then [(eb e, erel e)] else if str_eqb (eb e) x then [(ea e, erel e)] else [].
Lemma nbrs_def g x : nbrs g x = flat_map (nb_of x) (gedges g).
Proof. reflexivity. Qed.

Lemma nbrs_add_node g n x : nbrs (g_add_node g n) x = nbrs g x.
Proof. reflexivity. Qed.

Lemma filter_id {A} (f : A -> bool) l : (forall x, In x l -> f x = true) -> filter f l = l.
Proof.
  induction l as [|a l IH]; simpl; intro H; [reflexivity|].
  rewrite (H a (or_introl eq_refl)). f_equal. apply IH. intros; apply H; right; assumption.
Qed.

Lemma no_edge_In g a b : no_edge g a b = true <-> forall e, In e (gedges g) -> same_ends e a b = false.
Proof. unfold no_edge. rewrite negb_true_iff. apply existsb_false. Qed.

Lemma same_ends_sym e a b : same_ends e a b = same_ends e b a.
Proof. apply orb_comm. Qed.

Lemma same_ends_mk e a b r : same_ends (mkEdge a b r) (ea e) (eb e) = same_ends e a b.
Proof.
  unfold same_ends. simpl. rewrite (str_eqb_sym a), (str_eqb_sym b), (str_eqb_sym a (eb e)), (str_eqb_sym b (ea e)).
  f_equal. apply andb_comm.
Qed.

(* adding an edge between a and b when no edge joins them yet *)
Lemma gedges_add_edge g a r b : no_edge g a b = true -> gedges (g_add_edge g a r b) = gedges g ++ [mkEdge a b r].
Proof.
  intro H. simpl. f_equal. apply filter_id. intros e He. rewrite (proj1 (no_edge_In _ _ _) H e He). reflexivity.
Qed.
Lemma nbrs_add_edge g a r b x :
  no_edge g a b = true ->
  nbrs (g_add_edge g a r b) x = nbrs g x ++ nb_of x (mkEdge a b r).
Proof. intro H. unfold nbrs. rewrite (gedges_add_edge _ _ _ _ H), flat_map_app. simpl. apply f_equal, app_nil_r. Qed.

Lemma In_nbrs g x j r :
  In (j, r) (nbrs g x) <-> exists e, In e (gedges g) /\ erel e = r /\ ((ea e = x /\ eb e = j) \/ (eb e = x /\ ea e = j)).
Proof.
  unfold nbrs. rewrite in_flat_map. split.
  - intros [e [Hin H]]. exists e. split; [exact Hin|].
    destruct (str_eqb (ea e) x) eqn:E1.
    + apply str_eqb_eq in E1. destruct H as [H|[]]. inversion H; subst. auto.
    + destruct (str_eqb (eb e) x) eqn:E2; [|destruct H].
      apply str_eqb_eq in E2. destruct H as [H|[]]. inversion H; subst. auto.
  - intros [e [Hin [Hr H]]]. exists e. split; [exact Hin|].
    destruct H as [[H1 H2]|[H1 H2]].
    + rewrite H1, str_eqb_refl. left. subst. reflexivity.
    + destruct (str_eqb (ea e) x) eqn:E1.
      * apply str_eqb_eq in E1. left. subst. congruence.
      * rewrite H1, str_eqb_refl. left. subst. reflexivity.
Qed.

Lemma nbrs_sym g x j r : In (j, r) (nbrs g x) -> In (x, r) (nbrs g j).
Proof.
  intro H. apply In_nbrs in H as [e [Hin [Hr H]]]. apply In_nbrs. exists e. split; [exact Hin|]. split; [exact Hr|].
  destruct H as [[H1 H2]|[H1 H2]]; [right|left]; auto.
Qed.

(* under WF the endpoints of edges exist *)
Lemma nbrs_has_id g x j r : (forall e, In e (gedges g) -> edge_ends_P g e) -> In (j, r) (nbrs g x) -> has_id g j = true /\ has_id g x = true.
Proof.
  intros HE H. apply In_nbrs in H as [e [Hin [Hr H]]]. destruct (HE _ Hin) as [Ha Hb].
  destruct H as [[H1 H2]|[H1 H2]]; subst; split; apply has_id_In; assumption.
Qed.

Lemma nbrs_fresh_nil g x : (forall e, In e (gedges g) -> edge_ends_P g e) -> has_id g x = false -> nbrs g x = [].
Proof.
  intros HE Hx. destruct (nbrs g x) as [|[j r] l] eqn:E; [reflexivity|].
  assert (In (j, r) (nbrs g x)) by (rewrite E; left; reflexivity).
  apply (nbrs_has_id _ _ _ _ HE) in H as [_ H]. congruence.
Qed.

Lemma no_edge_fresh g a x : (forall e, In e (gedges g) -> edge_ends_P g e) -> has_id g x = false -> no_edge g a x = true.
Proof.
  intros HE Hx. apply no_edge_In. intros e Hin. destruct (HE _ Hin) as [Ha Hb]. apply has_id_In in Ha, Hb.
  unfold same_ends. destruct (str_eqb (eb e) x) eqn:E1; [apply str_eqb_eq in E1; congruence|].
  destruct (str_eqb (ea e) x) eqn:E2; [apply str_eqb_eq in E2; congruence|]. rewrite !andb_false_r. reflexivity.
Qed.

(* a node just added is there with its class and has no neighbour *)
Lemma add_node_new g n :
  (forall e, In e (gedges g) -> edge_ends_P g e) -> has_id g (nid n) = false ->
  cls_is (g_add_node g n) (nid n) (ncls n) = true /\ nbrs (g_add_node g n) (nid n) = [].
Proof.
  intros HE Hf. split; [|rewrite nbrs_add_node; exact (nbrs_fresh_nil _ _ HE Hf)].
  unfold cls_is, cls_of. rewrite (find_nodes_add_node_same _ _ Hf). apply cls_eqb_refl.
Qed.

Lemma no_edge_fresh_l g x b : (forall e, In e (gedges g) -> edge_ends_P g e) -> has_id g x = false -> no_edge g x b = true.
Proof.
  intros HE Hx. apply no_edge_In. intros e He. rewrite same_ends_sym. exact (proj1 (no_edge_In _ _ _) (no_edge_fresh _ b _ HE Hx) e He).
Qed.

Lemma nb_where_ext g g' y (P P' : str -> rel -> bool) :
  nbrs g' y = nbrs g y -> (forall j r, In (j, r) (nbrs g y) -> P' j r = P j r) ->
  nb_where g' y P' = nb_where g y P.
Proof.
  intros Hn HP. unfold nb_where. rewrite Hn. f_equal. apply filter_ext_in. intros [j r] Hin. simpl. auto.
Qed.
Lemma nb_where_app g g' y (P P' : str -> rel -> bool) extra :
  nbrs g' y = nbrs g y ++ extra -> (forall j r, In (j, r) (nbrs g y) -> P' j r = P j r) ->
  nb_where g' y P' = nb_where g y P ++ map fst (filter (fun p => P' (fst p) (snd p)) extra).
Proof.
  intros Hn HP. unfold nb_where. rewrite Hn, filter_app, map_app. f_equal. f_equal.
  apply filter_ext_in. intros [j r] Hin. simpl. auto.
Qed.

Lemma first_nb_as_where g x r k : first_nb g x r k = nb_where g x (fun j r' => rel_eqb r' r && cls_is g j k).
Proof. reflexivity. Qed.

Lemma In_first_nb g x r k j : In j (first_nb g x r k) <-> In (j, r) (nbrs g x) /\ cls_is g j k = true.
Proof.
  unfold first_nb. rewrite in_map_iff. split.
  - intros [[j' r'] [E H]]. simpl in E. subst j'. apply filter_In in H as [H1 H2]. simpl in H2.
    apply andb_true_iff in H2 as [H2 H3]. apply rel_eqb_eq in H2. subst. auto.
  - intros [H1 H2]. exists (j, r). split; [reflexivity|]. apply filter_In. split; [exact H1|]. simpl.
    rewrite H2. destruct r; reflexivity.
Qed.

Lemma In_nb_where g x P j : In j (nb_where g x P) <-> exists r, In (j, r) (nbrs g x) /\ P j r = true.
Proof.
  unfold nb_where. rewrite in_map_iff. split.
  - intros [[j' r'] [E H]]. simpl in E. subst j'. apply filter_In in H as [H1 H2]. eauto.
  - intros [r [H1 H2]]. exists (j, r). split; [reflexivity|]. apply filter_In. auto.
Qed.
