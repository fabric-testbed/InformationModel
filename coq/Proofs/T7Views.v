(* C07 - the read-only views: a name-keyed view of a well-formed model lists exactly the elements of its class. *)
From Coq Require Import String List Bool.
From FIM Require Import Base.Str Gen.Rules Model.T7Graph Model.T7Ops Model.T7WF Model.T7Steps
     Proofs.T7Tables Proofs.T7WFRefl Proofs.T7Frame Proofs.T7Units.
Import ListNotations.

Lemma dict_set_fresh k v d : ~ In k (map fst d) -> dict_set k v d = d ++ [(k, v)].
Proof.
  induction d as [|[k' v'] d IH]; simpl; intro H; [reflexivity|].
  destruct (ostr_eqb k k') eqn:E.
  - apply ostr_eqb_eq in E. exfalso. apply H. left. congruence.
  - f_equal. apply IH. intro; apply H; right; assumption.
Qed.

Lemma dict_fold_distinct l : forall d,
  NoDup (map fst d ++ map nname l) ->
  fold_left (fun d n => dict_set (nname n) (nid n) d) l d = d ++ map (fun n => (nname n, nid n)) l.
Proof.
  induction l as [|n l IH]; intros d ND; simpl; [symmetry; apply app_nil_r|].
  rewrite dict_set_fresh.
  - rewrite IH.
    + rewrite <- app_assoc. reflexivity.
    + rewrite map_app. simpl. rewrite <- app_assoc. simpl. exact ND.
  - intro Hin. simpl in ND. apply NoDup_remove_2 in ND. apply ND. apply in_or_app. left. exact Hin.
Qed.

Lemma dict_view_distinct l : NoDup (map nname l) -> dict_view l = map nid l.
Proof.
  intro ND. unfold dict_view. rewrite (dict_fold_distinct l []); [|exact ND]. simpl. rewrite map_map. reflexivity.
Qed.

(* nodes and links are named in the whole topology (their scope is empty): distinct names in a well-formed model *)
Lemma names_distinct_top g (f : node -> bool) k :
  WF g -> k = KNode \/ k = KLink -> (forall n, f n = true -> ncls n = k) ->
  NoDup (map nname (filter f (gnodes g))).
Proof.
  intros W Hk' Hk. pose proof (wf_names _ W) as N. pose proof (wf_fields _ W) as F. unfold names_P in N.
  assert (Hs : forall n, ncls n = k -> scope_of g n = []) by (intros n E; unfold scope_of; rewrite E; destruct Hk' as [->| ->]; reflexivity).
  assert (FO : ForallOrdPairs (fun a b => name_clash g a b = false) (filter f (gnodes g))) by (apply ForallOrdPairs_filter; exact N).
  assert (Fl : forall n, In n (filter f (gnodes g)) -> f n = true /\ fields_P n).
  { intros n Hn. apply filter_In in Hn as [A B]. split; [exact B | apply F; exact A]. }
  clear N F. induction (filter f (gnodes g)) as [|a l IH]; simpl; [constructor|].
  inversion FO as [|? ? Ha FO']; subst. constructor.
  - intro Hin. apply in_map_iff in Hin as [b [E Hb]]. rewrite Forall_forall in Ha. specialize (Ha _ Hb).
    destruct (Fl a (or_introl eq_refl)) as [fa [ta [na [_ Ena]]]]. destruct (Fl b (or_intror Hb)) as [fb _].
    unfold name_clash in Ha. rewrite (Hk _ fa), (Hk _ fb), cls_eqb_refl in Ha.
    rewrite (Hs _ (Hk _ fa)), (Hs _ (Hk _ fb)) in Ha. rewrite E, Ena in Ha. simpl in Ha. rewrite str_eqb_refl in Ha. discriminate.
  - apply IH; [exact FO'|]. intros; apply Fl; right; assumption.
Qed.

Theorem view_nodes_exact g : WF g -> view_nodes g = map nid (nodes_view g).
Proof.
  intro W. apply dict_view_distinct, (names_distinct_top g _ KNode W); auto.
  intros n H. apply andb_true_iff in H as [H _]. apply cls_eqb_eq, H.
Qed.
Theorem view_facilities_exact g : WF g -> view_facilities g = map nid (facilities_view g).
Proof.
  intro W. apply dict_view_distinct, (names_distinct_top g _ KNode W); auto.
  intros n H. apply andb_true_iff in H as [H _]. apply cls_eqb_eq, H.
Qed.
Theorem view_links_exact g : WF g -> view_links g = map nid (of_class KLink g).
Proof.
  intro W. apply dict_view_distinct, (names_distinct_top g _ KLink W); auto. intros n H. apply cls_eqb_eq, H.
Qed.
(* services: the view is keyed by name over ALL services, whose names are unique per owner only *)
Theorem view_services_exact_partial g :
  NoDup (map nname (of_class KNS g)) -> view_services g = map nid (of_class KNS g).
Proof. intro ND. unfold view_services. apply dict_view_distinct. exact ND. Qed.
Theorem view_interface_list_exact g : WF g -> view_interface_list g = flat_map (node_ifs g) (map nid (nodes_view g)).
Proof. intro W. unfold view_interface_list. rewrite (view_nodes_exact g W). reflexivity. Qed.

(* FULL STATEMENT (false): forall g, WF g -> view_services g = map nid (of_class KNS g) *)
Definition w_services_hist : list hstep :=
  [(OAddNode (S "n1") (Some (S "a")) (S "VM"), [], []); (OAddNode (S "n2") (Some (S "b")) (S "VM"), [], []);
   (ONodeAddNS (S "a") (S "sv") (Some (S "s1")) (S "OVS"), [], []); (ONodeAddNS (S "b") (S "sv") (Some (S "s2")) (S "OVS"), [], [])].
Lemma view_services_refuted :
  let g := run_hist false flags_off empty_graph w_services_hist in
  WF g /\ length (view_services g) <> length (of_class KNS g).
Proof. split; [apply wf_b_reflect; vm_compute; reflexivity | vm_compute; discriminate]. Qed.
