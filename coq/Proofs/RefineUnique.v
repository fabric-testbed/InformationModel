(* C05: a NodeID is unique within its graph whatever the node's class - invariant over all histories
   (both storage flavours) that do not rewrite GraphID / NodeID and import graphs whose own NodeIDs
   are unique. *)
From Coq Require Import List NArith Bool Lia.
From FIM Require Import Base.ListFacts Base.Assoc Model.Store Model.StoreDisjoint.
From FIM Require Import Proofs.IsolationBase Proofs.IsolationShared Proofs.IsolationFrame Proofs.IsolationDisjoint Proofs.RefineBase.
Import ListNotations.
Open Scope N_scope.

(* the test _find_node applies *)
Definition P (g n : N) (nd : node) : bool := has_val (snd nd) k_nodeid n && has_val (snd nd) k_graphid g.
Definition cnt (g n : N) (l : list node) : nat := length (filter (P g n) l).

Definition NUniq (G : nxg) : Prop := forall g n, (cnt g n (gn G) <= 1)%nat.
Definition cnt_le (G' G : nxg) : Prop := forall g n, (cnt g n (gn G') <= cnt g n (gn G))%nat.

Lemma cnt_le_refl G : cnt_le G G.
Proof. intros g n. lia. Qed.
Lemma cnt_le_trans A B C : cnt_le A B -> cnt_le B C -> cnt_le A C.
Proof. intros H1 H2 g n. specialize (H1 g n). specialize (H2 g n). lia. Qed.
Lemma NUniq_cnt_le G' G : cnt_le G' G -> NUniq G -> NUniq G'.
Proof. intros H1 H2 g n. specialize (H1 g n). specialize (H2 g n). lia. Qed.
Lemma cnt_le_same_gn G' G : gn G' = gn G -> cnt_le G' G.
Proof. intros E g n. rewrite E. lia. Qed.

Lemma search_nid_gid_length G g n : length (search G [(k_nodeid, n); (k_graphid, g)]) = cnt g n (gn G).
Proof.
  unfold search, cnt. rewrite map_length. f_equal. apply filter_ext. intros [i ps].
  unfold matches, P. simpl. now rewrite andb_true_r.
Qed.

Lemma search_gid_nid_length G g n : length (search G [(k_graphid, g); (k_nodeid, n)]) = cnt g n (gn G).
Proof.
  unfold search, cnt. rewrite map_length. f_equal. apply filter_ext. intros [i ps].
  unfold matches, P. simpl. rewrite andb_true_r. apply andb_comm.
Qed.

Lemma cnt_app g n a b : cnt g n (a ++ b) = (cnt g n a + cnt g n b)%nat.
Proof. unfold cnt. now rewrite filter_app, app_length. Qed.

Lemma cnt_set_node g n id ps ps' l :
  aget id l = Some ps -> P g n (id, ps') = P g n (id, ps) -> cnt g n (set_node id ps' l) = cnt g n l.
Proof.
  unfold cnt. induction l as [|[i q] r IH]; [reflexivity|].
  intros Hget Hf. cbn [aget] in Hget. cbn [set_node]. rewrite N.eqb_sym in Hget. destruct (N.eqb i id) eqn:E.
  - apply N.eqb_eq in E; subst i. inversion Hget; subst q. cbn [filter]. rewrite Hf. destruct (P g n (id, ps)); reflexivity.
  - cbn [filter]. destruct (P g n (i, q)); cbn [length]; rewrite IH; auto.
Qed.

Lemma cnt_filter_le g n (h : node -> bool) l : (cnt g n (filter h l) <= cnt g n l)%nat.
Proof.
  unfold cnt. induction l as [|x r IH]; simpl; [lia|].
  destruct (h x); simpl; destruct (P g n x); simpl; lia.
Qed.

Lemma cnt_map_same g n (F : node -> node) l :
  (forall x, In x l -> P g n (F x) = P g n x) -> cnt g n (map F l) = cnt g n l.
Proof.
  unfold cnt. induction l as [|x r IH]; simpl; intro H; [reflexivity|].
  rewrite (H x (or_introl eq_refl)). destruct (P g n x); simpl; rewrite IH; auto.
Qed.

(* a property update that leaves the NodeID and GraphID bindings alone *)
Definition keeps_identity (ps ps' : props) : Prop :=
  aget k_nodeid ps' = aget k_nodeid ps /\ aget k_graphid ps' = aget k_graphid ps.

Lemma P_keeps g n id ps ps' : keeps_identity ps ps' -> P g n (id, ps') = P g n (id, ps).
Proof. intros [H1 H2]. unfold P, has_val. cbn [snd]. now rewrite H1, H2. Qed.

Lemma in_g_keeps g id ps ps' : keeps_identity ps ps' -> in_g g (id, ps') = in_g g (id, ps).
Proof. intros [_ H]. unfold in_g, has_val. cbn [snd]. now rewrite H. Qed.

Lemma keeps_identity_aset ps p v : N.eqb p k_graphid = false -> N.eqb p k_nodeid = false -> keeps_identity ps (aset p v ps).
Proof. intros H1 H2. apply N.eqb_neq in H1, H2. split; apply aget_aset_other; congruence. Qed.
Lemma keeps_identity_aremove ps p : memN p no_unset = false -> keeps_identity ps (aremove p ps).
Proof. intros H. split; apply aget_aremove_other; intro E; subst p; discriminate H. Qed.
Lemma keeps_identity_aupdate ps u : ahas k_graphid u = false -> ahas k_nodeid u = false -> keeps_identity ps (aupdate u ps).
Proof. intros H1 H2. split; apply aget_aupdate_notin; now apply ahas_false. Qed.

Lemma cnt_le_set_node G id ps ps' : nx_node G id = Some ps -> keeps_identity ps ps' -> cnt_le (nx_set_node G id ps') G.
Proof.
  intros Hn Hk g n. unfold nx_set_node. cbn [gn]. rewrite (cnt_set_node g n id ps ps'); [apply le_n | exact Hn | now apply P_keeps].
Qed.

Lemma cnt_set_node_nil g n id l : (cnt g n (set_node id [] l) <= cnt g n l)%nat.
Proof.
  unfold cnt. induction l as [|[i q] r IH]; [apply le_n|].
  cbn [set_node]. destruct (N.eqb i id); cbn [filter].
  - change (P g n (i, [])) with false. cbv iota. destruct (P g n (i, q)); cbn [length]; lia.
  - destruct (P g n (i, q)); cbn [length]; lia.
Qed.

Definition ident_key (p : N) : bool := N.eqb p k_graphid || N.eqb p k_nodeid.
Definition ident_free (ps : props) : bool := negb (ahas k_graphid ps) && negb (ahas k_nodeid ps).

Fixpoint pv_nodeids (l : list node) : list N :=
  match l with
  | [] => []
  | n :: r => match aget k_nodeid (snd n) with Some (PV x) => x :: pv_nodeids r | _ => pv_nodeids r end
  end.
Fixpoint nodupb (l : list N) : bool :=
  match l with [] => true | x :: r => negb (memN x r) && nodupb r end.
Definition import_unique (ig : igraph) : bool := nodupb (pv_nodeids (inodes ig)).

Definition nid_scope (o : op) : bool :=
  match o with
  | OUpdNode _ _ p _ | OUpdNodes _ p _ => negb (ident_key p)
  | OUpdNodeProps _ _ ps => ident_free ps
  | OAddNode _ _ _ (Some ps) => ident_free ps
  | OImport _ ig => import_unique ig
  | OImportDirect g ig => import_unique ig && forallb (fun n => has_val (snd n) k_graphid g) (inodes ig)
  | OMerge _ _ _ (Some pol) => negb (ahas k_graphid pol) && negb (ahas k_nodeid pol)
  | _ => true
  end.

Lemma cnt_le_remove_node G id : cnt_le (nx_remove_node G id) G.
Proof. intros g n. unfold nx_remove_node. simpl. apply cnt_filter_le. Qed.

Lemma cnt_le_remove_nodes G l : cnt_le (nx_remove_nodes G l) G.
Proof. intros g n. unfold nx_remove_nodes. simpl. apply cnt_filter_le. Qed.

(* one primitive write that leaves the NodeID / GraphID bindings alone *)
Lemma write_cnt_le g G G' : pg_write keeps_identity g G G' -> cnt_le G' G.
Proof.
  destruct 1 as [|n id ps ps' _ Hn Hq|l p v _ Hq| | |n id _].
  - apply cnt_le_refl.
  - eapply cnt_le_set_node; eauto.
  - intros g0 n0. cbn [gn]. unfold upd_nodes. rewrite cnt_map_same; [apply le_n|].
    intros [i ps] _. cbn [fst snd]. destruct (memN i l); [now apply P_keeps | reflexivity].
  - now apply cnt_le_same_gn.
  - apply cnt_le_same_gn, gn_add_edge.
  - apply cnt_le_remove_node.
Qed.

Lemma scope_rewrites o : nid_scope o = true -> rewrites keeps_identity o.
Proof.
  destruct o; cbn; auto; intro H.
  - intro ps0. apply negb_true_iff, orb_false_iff in H as [H1 H2]. now apply keeps_identity_aset.
  - intros Hm ps0. now apply keeps_identity_aremove.
  - intro ps0. apply negb_true_iff, orb_false_iff in H as [H1 H2]. now apply keeps_identity_aset.
  - intro ps0. apply andb_true_iff in H as [H1 H2]. apply negb_true_iff in H1, H2. now apply keeps_identity_aupdate.
Qed.

(* merge: the other graph's node goes away, the surviving node keeps NodeID and GraphID *)
Lemma cnt_le_merge G g n g2 pol :
  NoDup (ids G) ->
  match pol with Some p => ahas k_graphid p = false /\ ahas k_nodeid p = false | None => True end ->
  cnt_le (fst (s_merge G g n g2 pol)) G.
Proof.
  intros Hnd Hpol.
  destruct (s_merge_result G g n g2 pol) as [[e E]|[u [v [mine [other [np [Hg [Eu [Ev [Hu [_ [Hnp E]]]]]]]]]]]]; rewrite E;
    [apply cnt_le_refl|]. cbn [fst]. pose proof (find_nodes_differ G g g2 n u v Hnd Hg Eu Ev) as Huv.
  apply (cnt_le_trans _ (strip_contraction u (contract G u v))); [|intros g0 n0; rewrite gn_merged; apply cnt_filter_le].
  apply (cnt_le_set_node _ u mine); [rewrite nx_node_merged; apply N.eqb_neq in Huv; now rewrite Huv|].
  destruct pol as [p|]; [|subst np; now split]. destruct Hpol as [Hp1 Hp2].
  split; eapply merge_props_unnamed; eauto; now apply ahas_false.
Qed.

Lemma added_keeps g n c ps :
  match ps with Some u => ident_free u = true | None => True end ->
  keeps_identity (blank_attrs g n c) (added_props g n c ps).
Proof.
  destruct ps as [u|]; [|now split]. intro H. apply andb_true_iff in H as [H1 H2]. apply negb_true_iff in H1, H2.
  now apply keeps_identity_aupdate.
Qed.

Lemma added_in_g g n c ps i :
  match ps with Some u => ident_free u = true | None => True end -> in_g g (i, added_props g n c ps) = true.
Proof. intro H. rewrite (in_g_keeps g i _ _ (added_keeps g n c ps H)). apply blank_in_g. Qed.

Lemma cnt_added g n c ps i g0 n0 :
  match ps with Some u => ident_free u = true | None => True end ->
  cnt g0 n0 [(i, added_props g n c ps)] = if N.eqb n0 n && N.eqb g0 g then 1%nat else 0%nat.
Proof.
  intro H. unfold cnt. cbn [filter]. rewrite (P_keeps g0 n0 i _ _ (added_keeps g n c ps H)).
  unfold P, blank_attrs, has_val. simpl. rewrite (N.eqb_sym n n0), (N.eqb_sym g g0).
  destruct (N.eqb n0 n && N.eqb g0 g); reflexivity.
Qed.

Lemma NUniq_add_node G g newid n c ps G' :
  nx_node G newid = None ->
  match ps with Some u => ident_free u = true | None => True end ->
  NUniq G -> pg_add_node G g newid n c ps = Some G' -> NUniq G'.
Proof.
  intros Hfresh Hps HU Hadd. destruct (pg_add_node_result G g newid n c ps G' Hfresh Hadd) as [Es ->].
  assert (H0 : cnt g n (gn G) = 0%nat) by (rewrite <- search_gid_nid_length, Es; reflexivity).
  intros g0 n0. cbn [gn]. rewrite cnt_app, cnt_added by exact Hps.
  destruct (N.eqb n0 n && N.eqb g0 g) eqn:E.
  - apply andb_true_iff in E as [Ea Eb]. apply N.eqb_eq in Ea, Eb. subst. lia.
  - specialize (HU g0 n0). lia.
Qed.

Lemma cnt_le_pv g n l : (cnt g n l <= length (filter (N.eqb n) (pv_nodeids l)))%nat.
Proof.
  unfold cnt. induction l as [|[i ps] r IH]; simpl; [lia|].
  unfold P at 1. simpl. unfold has_val at 1.
  destruct (aget k_nodeid ps) as [[x| |l0|l0]|]; simpl; try exact IH.
  rewrite (N.eqb_sym x n). destruct (N.eqb n x); simpl; [|exact IH].
  destruct (has_val ps k_graphid g); simpl; lia.
Qed.

Lemma nodupb_count n l : nodupb l = true -> (length (filter (N.eqb n) l) <= 1)%nat.
Proof.
  induction l as [|x r IH]; simpl; [lia|]. intro H. apply andb_true_iff in H as [H1 H2].
  specialize (IH H2). destruct (N.eqb n x) eqn:E; simpl; [|exact IH].
  apply N.eqb_eq in E; subst x. apply negb_true_iff in H1.
  assert (filter (N.eqb n) r = []).
  { clear -H1. induction r as [|y r IH]; simpl in *; [reflexivity|].
    apply orb_false_iff in H1 as [Ha Hb]. rewrite Ha. now apply IH. }
  rewrite H. simpl. lia.
Qed.

Lemma pv_nodeids_relabel l f : pv_nodeids (relabel_nodes l f) = pv_nodeids l.
Proof. revert f; induction l as [|[k ps] r IH]; intro f; simpl; [reflexivity|]. now rewrite IH. Qed.

Lemma pv_nodeids_stamp g l : pv_nodeids (stamp g l) = pv_nodeids l.
Proof.
  induction l as [|[k ps] r IH]; simpl; [reflexivity|].
  rewrite aget_aset_other by discriminate. now rewrite IH.
Qed.

Lemma cnt_other_graph g g0 n0 l :
  (forall nd, In nd l -> has_val (snd nd) k_graphid g = true) -> g0 <> g -> cnt g0 n0 l = 0%nat.
Proof.
  intros H Hne. unfold cnt. induction l as [|x r IH]; simpl; [reflexivity|].
  assert (E : has_val (snd x) k_graphid g0 = false).
  { destruct (has_val (snd x) k_graphid g0) eqn:E; [|reflexivity]. exfalso. apply Hne.
    eapply has_val_inj; [exact E | apply H; now left]. }
  unfold P at 1. rewrite E, andb_false_r. apply IH. intros; apply H; now right.
Qed.

Lemma cnt_del_graph G g n : cnt g n (gn (nx_remove_nodes G (search G [(k_graphid, g)]))) = 0%nat.
Proof.
  unfold cnt. replace (filter (P g n) _) with (filter (P g n) (filter (in_g g) (gn (nx_remove_nodes G (search G [(k_graphid, g)]))))).
  - now rewrite remove_graph_no_nodes.
  - apply filter_filter_irrelevant. intros x _ Hx. unfold P. unfold in_g in Hx. now rewrite Hx, andb_false_r.
Qed.

Lemma NUniq_import G g ns es :
  NoDup (map fst ns) -> (forall i, In i (map fst ns) -> ~ In i (ids (nx_remove_nodes G (search G [(k_graphid, g)])))) ->
  (forall nd, In nd ns -> has_val (snd nd) k_graphid g = true) -> nodupb (pv_nodeids ns) = true ->
  NUniq G -> NUniq (nx_add_all (nx_remove_nodes G (search G [(k_graphid, g)])) ns es).
Proof.
  intros Hnd Hfresh Hg Hu HU g0 n0.
  unfold nx_add_all. rewrite fold_add_edges_gn. rewrite add_nodes_fresh by assumption. cbn [gn].
  rewrite cnt_app. destruct (N.eq_dec g0 g) as [E|E].
  - subst g0. rewrite cnt_del_graph. pose proof (cnt_le_pv g n0 ns). pose proof (nodupb_count n0 _ Hu). lia.
  - rewrite (cnt_other_graph g g0 n0 ns Hg E). pose proof (cnt_le_remove_nodes G (search G [(k_graphid, g)]) g0 n0).
    specialize (HU g0 n0). lia.
Qed.

(* a direct import stores the nodes it was handed, which carry the graph id *)
Lemma direct_in_g g ig f nd :
  forallb (fun n => has_val (snd n) k_graphid g) (inodes ig) = true -> In nd (inodes (relabel ig f)) ->
  has_val (snd nd) k_graphid g = true.
Proof.
  intros Hd Hn. apply relabel_nodes_snd in Hn as [k Hk]. rewrite forallb_forall in Hd. apply (Hd _ Hk).
Qed.

Lemma pv_nodeids_import g ig f : pv_nodeids (stamp g (inodes (relabel ig f))) = pv_nodeids (inodes ig).
Proof. rewrite pv_nodeids_stamp. apply pv_nodeids_relabel. Qed.

Lemma NUniq_add_graph s g ig :
  SInv s -> import_unique ig = true -> NUniq (sg s) -> NUniq (sg (fst (s_add_graph s g ig))).
Proof.
  intros HI Hu HU. unfold s_add_graph.
  pose proof (SInv_del_graph s g HI) as [H1 H2].
  destruct (existsb node_id_missing (inodes (relabel ig (snext (s_del_graph s g))))); cbn [fst sg].
  - eapply NUniq_cnt_le; [apply cnt_le_remove_nodes | exact HU].
  - unfold s_del_graph. cbn [sg snext]. apply NUniq_import.
    + rewrite stamp_relabel_fst. apply seqN_NoDup.
    + intros i Hi Hin. rewrite stamp_relabel_fst in Hi. apply seqN_In in Hi. apply H2 in Hin. simpl in Hin. lia.
    + apply in_g_stamp.
    + now rewrite pv_nodeids_import.
    + exact HU.
Qed.

Lemma NUniq_add_graph_direct s g ig :
  SInv s -> import_unique ig = true -> forallb (fun n => has_val (snd n) k_graphid g) (inodes ig) = true ->
  NUniq (sg s) -> NUniq (sg (fst (s_add_graph_direct s g ig))).
Proof.
  intros HI Hu Hd HU. unfold s_add_graph_direct. cbn [fst sg].
  pose proof (SInv_del_graph s g HI) as [H1 H2].
  unfold s_del_graph. cbn [sg snext]. apply NUniq_import.
  - rewrite relabel_inodes_fst. apply seqN_NoDup.
  - intros i Hi Hin. rewrite relabel_inodes_fst in Hi. apply seqN_In in Hi. apply H2 in Hin. simpl in Hin. lia.
  - intros nd. now apply direct_in_g.
  - unfold relabel. simpl. rewrite pv_nodeids_relabel. exact Hu.
  - exact HU.
Qed.

(* clone: the extracted nodes of g have unique NodeIDs because g has *)
Lemma pv_count_cnt g l n :
  (forall nd, In nd l -> has_val (snd nd) k_graphid g = true) ->
  length (filter (N.eqb n) (pv_nodeids l)) = cnt g n l.
Proof.
  intro H. unfold cnt. induction l as [|[i ps] r IH]; simpl; [reflexivity|].
  assert (Hg : has_val ps k_graphid g = true) by (apply (H (i, ps)); now left).
  assert (IH' : length (filter (N.eqb n) (pv_nodeids r)) = length (filter (P g n) r))
    by (apply IH; intros; apply H; now right).
  unfold P at 1. simpl. rewrite Hg, andb_true_r. unfold has_val.
  destruct (aget k_nodeid ps) as [[x| |l0|l0]|]; simpl; try exact IH'.
  rewrite (N.eqb_sym x n). destruct (N.eqb n x); simpl; now rewrite IH'.
Qed.

Lemma count_le1_nodupb l : (forall n, (length (filter (N.eqb n) l) <= 1)%nat) -> nodupb l = true.
Proof.
  induction l as [|x r IH]; simpl; intro H; [reflexivity|].
  apply andb_true_iff. split.
  - apply negb_true_iff. apply memN_false. intro Hin. specialize (H x). rewrite N.eqb_refl in H. simpl in H.
    assert (length (filter (N.eqb x) r) >= 1)%nat; [|lia].
    clear -Hin. induction r as [|y r IH]; simpl in *; [contradiction|].
    destruct Hin as [E|Hin]; [subst y; rewrite N.eqb_refl; simpl; lia|].
    destruct (N.eqb x y); simpl; [lia | now apply IH].
  - apply IH. intro n. specialize (H n). destruct (N.eqb n x); simpl in H; lia.
Qed.

(* nodes all stored under graph id g whose NodeIDs are unique there: fit for import *)
Lemma unique_nodes_import g (l : list node) :
  (forall nd, In nd l -> has_val (snd nd) k_graphid g = true) -> (forall n, (cnt g n l <= 1)%nat) ->
  nodupb (pv_nodeids l) = true.
Proof. intros Hg HU. apply count_le1_nodupb. intro n. rewrite (pv_count_cnt g) by exact Hg. apply HU. Qed.

Lemma extract_unique G g ig : NoDup (ids G) -> NUniq G -> s_extract G g = Some ig -> import_unique ig = true.
Proof.
  intros Hnd HU H. unfold s_extract in H. rewrite search_graphid_ids_in in H.
  assert (E : inodes ig = filter (fun n => memN (fst n) (ids_in G g)) (gn G))
    by (destruct (ids_in G g); [discriminate | now injection H as <-]).
  unfold import_unique. rewrite E, (filter_memN_ids_in G g Hnd). apply (unique_nodes_import g).
  - intros nd Hin. apply filter_In in Hin as [_ Hin]. exact Hin.
  - intro n. pose proof (cnt_filter_le g n (in_g g) (gn G)). specialize (HU g n). lia.
Qed.

Lemma NUniq_pg_step G newid o :
  nx_node G newid = None -> nid_scope o = true -> NUniq G -> NUniq (fst (pg_step G newid o)).
Proof.
  intros Hf Hsc HU. destruct (mutator o G) as [x|] eqn:Em.
  - rewrite (pg_step_mutator G newid o x Em). eapply NUniq_cnt_le; [|exact HU].
    exact (write_cnt_le _ _ _ (mutator_write _ o G x Em (scope_rewrites o Hsc))).
  - destruct o; try discriminate; cbn [pg_step fst]; try exact HU.
    destruct (pg_add_node G g newid n c ps) as [G'|] eqn:E; [|exact HU].
    eapply NUniq_add_node; eauto. destruct ps; [exact Hsc | exact I].
Qed.

Theorem NUniq_step s o : SInv s -> nid_scope o = true -> NUniq (sg s) -> NUniq (sg (fst (sstep s o))).
Proof.
  intros HI Hsc HU.
  destruct (pg_op o) eqn:Ep; [rewrite (proj1 (sstep_pg s o Ep)); apply NUniq_pg_step; auto; now apply SInv_next_fresh|].
  destruct o; try discriminate; cbn in Hsc; cbn [sstep lift fst sg]; try exact HU.
  - now apply NUniq_add_graph.
  - apply andb_true_iff in Hsc as [H1 H2]. now apply NUniq_add_graph_direct.
  - eapply NUniq_cnt_le; [apply cnt_le_remove_nodes | exact HU].
  - unfold s_clone. destruct (s_extract (sg s) g) as [ig|] eqn:E; [|exact HU].
    apply NUniq_add_graph; auto. eapply extract_unique; eauto. apply SInv_NoDup, HI.
  - eapply NUniq_cnt_le; [|exact HU]. apply cnt_le_merge; [apply SInv_NoDup, HI|]. destruct pol as [p|]; [|exact I].
    apply andb_true_iff in Hsc as [H1 H2]. apply negb_true_iff in H1, H2. now split.
Qed.

Lemma NUniq_empty : NUniq empty_nxg.
Proof. intros g n. unfold cnt. simpl. lia. Qed.

Theorem NUniq_run ops s :
  SInv s -> (forall o, In o ops -> nid_scope o = true) -> NUniq (sg s) -> NUniq (sg (srun ops s)).
Proof.
  intros HI Hsc HU. apply (fold_left_inv (fun s => SInv s /\ NUniq (sg s)) (fun s o => fst (sstep s o)) ops); [|now split].
  intros s' o Ho [HI' HU']. split; [now apply SInv_step | apply NUniq_step; auto].
Qed.

Theorem nodeid_unique_all ops :
  (forall o, In o ops -> nid_scope o = true) ->
  forall g n, (length (search (sg (srun ops init_store)) [(k_nodeid, n); (k_graphid, g)]) <= 1)%nat.
Proof.
  intros H g n. rewrite search_nid_gid_length. apply (NUniq_run ops init_store SInv_init H NUniq_empty).
Qed.

(* ---------- one nx.Graph per id: every node stored under graph id g carries GraphID = g ---------- *)
Definition homed (g : N) (G : nxg) : Prop := forallb (in_g g) (gn G) = true.
Definition DHome (d : dstore) : Prop := forall g, homed g (dget d g).

Lemma homed_same_gn g G' G : gn G' = gn G -> homed g G -> homed g G'.
Proof. unfold homed. intros E H. now rewrite E. Qed.

Lemma homed_set_node g G id ps ps' :
  nx_node G id = Some ps -> keeps_identity ps ps' -> homed g G -> homed g (nx_set_node G id ps').
Proof.
  unfold homed, nx_node, nx_set_node. simpl. intros Hn Hk H.
  induction (gn G) as [|[i q] r IH]; simpl in *; [reflexivity|].
  apply andb_true_iff in H as [H1 H2]. rewrite N.eqb_sym in Hn. destruct (N.eqb i id) eqn:E; simpl.
  - inversion Hn; subst q. now rewrite H2, andb_true_r, (in_g_keeps g i ps ps' Hk).
  - rewrite H1. simpl. now apply IH.
Qed.

Lemma homed_filter g G (h : node -> bool) es : homed g G -> homed g (mkG (filter h (gn G)) es).
Proof.
  unfold homed. simpl. intro H. rewrite forallb_forall in *. intros x Hx. apply filter_In in Hx as [Hx _]. now apply H.
Qed.

Lemma write_homed g0 g G G' : pg_write keeps_identity g G G' -> homed g0 G -> homed g0 G'.
Proof.
  intros W H. destruct W as [|n id ps ps' _ Hn Hq|l p v _ Hq| | |n id _].
  - exact H.
  - eapply homed_set_node; eauto.
  - unfold homed in *. cbn [gn]. unfold upd_nodes. rewrite forallb_forall in *. intros x Hx.
    apply in_map_iff in Hx as [[i ps] [<- Hin]]. specialize (H _ Hin). cbn [fst snd].
    destruct (memN i l); [|exact H]. exact (eq_trans (in_g_keeps g0 i ps _ (Hq ps)) H).
  - exact H.
  - now apply (homed_same_gn g0 _ G (gn_add_edge _ _ _ _)).
  - now apply homed_filter.
Qed.

Lemma homed_pg_step g G newid o :
  target o = g -> nx_node G newid = None -> nid_scope o = true -> homed g G -> homed g (fst (pg_step G newid o)).
Proof.
  intros <- Hf Hsc H. destruct (mutator o G) as [x|] eqn:Em.
  - rewrite (pg_step_mutator G newid o x Em).
    exact (write_homed _ _ _ _ (mutator_write _ o G x Em (scope_rewrites o Hsc)) H).
  - destruct o; try discriminate; cbn [pg_step target fst] in *; try exact H.
    destruct (pg_add_node G g newid n c ps) as [G'|] eqn:E; [|exact H].
    destruct (pg_add_node_result G g newid n c ps G' Hf E) as [_ ->]. unfold homed in *. cbn [fst gn].
    rewrite forallb_app, H. cbn [forallb]. rewrite added_in_g; [reflexivity | destruct ps; [exact Hsc | exact I]].
Qed.

Lemma homed_fresh_graph g ns es :
  NoDup (map fst ns) -> (forall nd, In nd ns -> has_val (snd nd) k_graphid g = true) ->
  homed g (nx_add_all empty_nxg ns es).
Proof.
  intros Hnd Hg. unfold homed, nx_add_all. rewrite fold_add_edges_gn.
  rewrite add_nodes_fresh; [|exact Hnd | intros i _ []]. simpl. apply forallb_forall. intros x Hx. now apply Hg.
Qed.

Lemma DHome_put d g G : DHome d -> homed g G -> DHome (dput d g G).
Proof.
  intros H HG g'. rewrite dget_dput. destruct (N.eqb g' g) eqn:E; [apply N.eqb_eq in E; now subst | apply H].
Qed.

Lemma DInv_fresh d g : DInv d -> nx_node (dget d g) (dcounter d g) = None.
Proof. intro HI. apply (SInv_next_fresh _ (HI g)). Qed.

(* what "every node stored under g carries GraphID = g" needs of an operation *)
Definition home_scope (o : op) : bool :=
  match o with
  | OImport _ _ | OMerge _ _ _ _ => true
  | OImportDirect g ig => forallb (fun n => has_val (snd n) k_graphid g) (inodes ig)
  | _ => nid_scope o
  end.

Lemma nid_home_scope o : nid_scope o = true -> home_scope o = true.
Proof.
  destruct o; cbn; auto. intro H. now apply andb_true_iff in H as [_ H].
Qed.

Theorem DHome_step d o : DInv d -> home_scope o = true -> DHome d -> DHome (fst (dstep d o)).
Proof.
  intros HI Hsc H.
  assert (Hadd : forall g ig, DHome (fst (d_add_graph d g ig))).
  { intros g ig. unfold d_add_graph. destruct (gn (dget d g)); [|exact H].
    destruct (existsb node_id_missing (inodes (relabel ig 1))); cbn [fst]; [exact H|].
    intro g'. rewrite dget_dput_ctr. apply DHome_put; [exact H|]. apply homed_fresh_graph.
    - rewrite stamp_relabel_fst. apply seqN_NoDup.
    - apply in_g_stamp. }
  destruct (pg_op o) eqn:Ep.
  - intro g'. rewrite (proj1 (dstep_pg d o Ep)). destruct (N.eqb_spec g' (target o)) as [->|_]; [|apply H].
    apply homed_pg_step; auto; [now apply DInv_fresh | destruct o; try discriminate; exact Hsc].
  - destruct o; try discriminate; cbn in Hsc; cbn [dstep fst]; try exact H.
    + apply Hadd.
    + unfold d_add_graph_direct. cbn [fst]. intro g'. rewrite dget_dput_ctr. apply DHome_put; [exact H|].
      apply homed_fresh_graph; [rewrite relabel_inodes_fst; apply seqN_NoDup | intro nd; now apply direct_in_g].
    + unfold d_del_graph. destruct (gn (dget d g)); [exact H|]. apply DHome_put; [exact H | reflexivity].
    + destruct (d_clone_cases d g g2) as [[_ E]|[_ E]]; rewrite E; [exact H | apply Hadd].
Qed.

Definition DUniq (d : dstore) : Prop := forall g, NUniq (dget d g).

Lemma DUniq_put d g G : DUniq d -> NUniq G -> DUniq (dput d g G).
Proof. intros H HG g'. rewrite dget_dput. destruct (N.eqb g' g); [exact HG | apply H]. Qed.

Lemma NUniq_fresh_graph g ns es :
  map fst ns = seqN 1 (length ns) -> (forall nd, In nd ns -> has_val (snd nd) k_graphid g = true) ->
  nodupb (pv_nodeids ns) = true -> NUniq (nx_add_all empty_nxg ns es).
Proof.
  intros Hfst Hg Hu.
  (* a fresh nx.Graph is the empty one after a delete_graph: the import lemma applies *)
  change empty_nxg with (nx_remove_nodes empty_nxg (search empty_nxg [(k_graphid, g)])).
  apply NUniq_import; [rewrite Hfst; apply seqN_NoDup | intros i _ [] | exact Hg | exact Hu | exact NUniq_empty].
Qed.

Lemma DUniq_add_graph d g ig : import_unique ig = true -> DUniq d -> DUniq (fst (d_add_graph d g ig)).
Proof.
  intros Hu H. unfold d_add_graph. destruct (gn (dget d g)); [|exact H].
  destruct (existsb node_id_missing (inodes (relabel ig 1))); cbn [fst]; [exact H|].
  intro g'. rewrite dget_dput_ctr. apply DUniq_put; [exact H|].
  apply (NUniq_fresh_graph g); [apply stamp_relabel_fst | apply in_g_stamp | now rewrite pv_nodeids_import].
Qed.

Theorem DUniq_step d o : DInv d -> nid_scope o = true -> DHome d -> DUniq d -> DUniq (fst (dstep d o)).
Proof.
  intros HI Hsc Hhome HU.
  destruct (pg_op o) eqn:Ep.
  - intro g'. rewrite (proj1 (dstep_pg d o Ep)). destruct (N.eqb g' (target o)); [|apply HU].
    apply NUniq_pg_step; auto. now apply DInv_fresh.
  - destruct o; try discriminate; cbn in Hsc; cbn [dstep fst]; try exact HU.
    + now apply DUniq_add_graph.
    + apply andb_true_iff in Hsc as [H1 H2]. unfold d_add_graph_direct. cbn [fst].
      intro g'. rewrite dget_dput_ctr. apply DUniq_put; [exact HU|]. apply (NUniq_fresh_graph g).
      * apply relabel_inodes_fst.
      * intro nd. now apply direct_in_g.
      * unfold relabel. simpl. rewrite pv_nodeids_relabel. exact H1.
    + unfold d_del_graph. destruct (gn (dget d g)); [exact HU|]. apply DUniq_put; [exact HU | exact NUniq_empty].
    + destruct (d_clone_cases d g g2) as [[_ E]|[_ E]]; rewrite E; [exact HU|]. apply DUniq_add_graph; [|exact HU].
      apply (unique_nodes_import g); [|apply HU].
      intros nd Hin. specialize (Hhome g). unfold homed in Hhome. rewrite forallb_forall in Hhome. apply (Hhome nd Hin).
Qed.

Theorem disjoint_invariants_run ops d :
  (forall o, In o ops -> nid_scope o = true) -> DInv d -> DHome d -> DUniq d ->
  DInv (drun ops d) /\ DHome (drun ops d) /\ DUniq (drun ops d).
Proof.
  intros Hsc HI HH HU.
  apply (fold_left_inv (fun d => DInv d /\ DHome d /\ DUniq d) (fun d o => fst (dstep d o)) ops); [|exact (conj HI (conj HH HU))].
  intros d' o Ho [HI' [HH' HU']]. specialize (Hsc o Ho). split; [|split].
  - now apply DInv_step.
  - apply DHome_step; auto. now apply nid_home_scope.
  - now apply DUniq_step.
Qed.

Theorem nodeid_unique_all_disjoint ops :
  (forall o, In o ops -> nid_scope o = true) ->
  forall g n, (length (search (dget (drun ops init_dstore) g) [(k_nodeid, n); (k_graphid, g)]) <= 1)%nat.
Proof.
  intros H g n. rewrite search_nid_gid_length.
  destruct (disjoint_invariants_run ops init_dstore H DInv_init) as [_ [_ HU]].
  - intro g0. reflexivity.
  - intro g0. apply NUniq_empty.
  - apply HU.
Qed.
