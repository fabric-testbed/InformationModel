(* C09 - reasoning principles for the state-and-exception monad of Model/T9Graph.v:
   bind_ok, bind_err_cases, ask_ok, ... : what a finished run went through, one step at a time
   check m, bind_check : a check or query leaves the whole state alone; walking a prefix of checks costs one line a step
   no_mut m    : the program never changes the graph (checks, queries, id draws)
   raises R m  : every exception the program can raise satisfies R
   clean Q P m : if the program, started on a graph satisfying P, raises an exception satisfying Q, the graph is
                 what it was;  atomic m : the same for every start and every exception;  topo_atomic m : for
                 TopologyException
   yields m Post : what a successful run did to the graph
   catch_undo  : try m except e: u; raise e  restores g when u undoes every state in which m can fail *)
From Coq Require Import List NArith Bool.
From FIM Require Import Model.T9Graph.
Import ListNotations.
Open Scope N_scope.

Lemma bind_ok {A B} (m : M A) (k : A -> M B) s s' b :
  bind m k s = (s', Ok b) -> exists s1 a, m s = (s1, Ok a) /\ k a s1 = (s', Ok b).
Proof. unfold bind. destruct (m s) as [s1 [a|e]]; intro H; [eauto|discriminate]. Qed.
Lemma bind_err_cases {A B} (m : M A) (k : A -> M B) s s' e :
  bind m k s = (s', Err e) ->
  m s = (s', Err e) \/ exists s1 a, m s = (s1, Ok a) /\ k a s1 = (s', Err e).
Proof. unfold bind. destruct (m s) as [s1 [a|e1]]; intro H; [right; eauto|left; inversion H; reflexivity]. Qed.
Lemma ret_ok {A} (a b : A) s s1 : ret a s = (s1, Ok b) -> s1 = s /\ b = a.
Proof. unfold ret. intro H; inversion H; auto. Qed.
Lemma guard_ok b e s s1 u : guard b e s = (s1, Ok u) -> s1 = s /\ b = true.
Proof. destruct b; simpl; unfold ret, raise; intro H; inversion H; auto. Qed.
Lemma ask_ok {A} (q : graph -> res A) s0 s1 a : ask q s0 = (s1, Ok a) -> s1 = s0 /\ q (sg s0) = Ok a.
Proof. unfold ask. destruct (q (sg s0)); intro H; inversion H; auto. Qed.
Lemma opt_raise_ok o s s1 u : opt_raise o s = (s1, Ok u) -> s1 = s.
Proof. destruct o; simpl; unfold raise, ret; intro H; inversion H; reflexivity. Qed.
Lemma draw_ok s s1 x : draw s = (s1, Ok x) -> exists r, sfresh s = x :: r /\ s1 = mkSt (sg s) r.
Proof. unfold draw. destruct (sfresh s); intro H; inversion H; eauto. Qed.
Lemma id_or_draw_ok o s s1 x : id_or_draw o s = (s1, Ok x) ->
  sg s1 = sg s /\ incl (sfresh s1) (sfresh s) /\ (o = Some x \/ In x (sfresh s)).
Proof.
  destruct o as [y|]; simpl.
  - unfold ret. intro H; inversion H; subst. split; auto. split; [apply incl_refl|left; reflexivity].
  - intro H. apply draw_ok in H as (r & Hr & ->). simpl. rewrite Hr. split; auto.
    split; [intros z Hz; right; auto|right; left; auto].
Qed.
Lemma mutate_ok f s s1 u : mutate f s = (s1, Ok u) -> exists g', f (sg s) = Ok g' /\ s1 = mkSt g' (sfresh s).
Proof. unfold mutate. destruct (f (sg s)); intro H; inversion H; eauto. Qed.
Lemma catch_any_err {A} (m : M A) (h : exn -> M A) s s' e :
  catch_any m h s = (s', Err e) -> exists s2 e2, m s = (s2, Err e2) /\ h e2 s2 = (s', Err e).
Proof. unfold catch_any. destruct (m s) as [s2 [a|e2]]; intro H; [discriminate|eauto]. Qed.

Lemma bind_ret_err {A B} (m : M A) (b : B) s s' e : (_ <- m ;; ret b) s = (s', Err e) -> m s = (s', Err e).
Proof. intro H. apply bind_err_cases in H as [H|(s1 & a & _ & H)]; [exact H|discriminate]. Qed.

Definition check {A} (m : M A) : Prop := forall s s' r, m s = (s', r) -> s' = s.

Lemma check_ret {A} (a : A) : check (ret a).
Proof. intros s s' r H; inversion H; reflexivity. Qed.
Lemma check_guard b e : check (guard b e).
Proof. intros s s' r H; destruct b; inversion H; reflexivity. Qed.
Lemma check_opt_raise o : check (opt_raise o).
Proof. intros s s' r H; destruct o; inversion H; reflexivity. Qed.
Lemma check_ask {A} (q : graph -> res A) : check (ask q).
Proof. intros s s' r H; unfold ask in H; destruct (q (sg s)); inversion H; reflexivity. Qed.
Lemma check_bind {A B} (m : M A) (k : A -> M B) : check m -> (forall a, check (k a)) -> check (bind m k).
Proof.
  intros Hm Hk s s' r H. unfold bind in H. destruct (m s) as [s1 [a|e]] eqn:E; apply Hm in E; subst.
  - eapply Hk; eauto.
  - inversion H; reflexivity.
Qed.
(* a check in front either fails, and nothing has happened, or the rest runs from the same state *)
Lemma bind_check {A B} {m : M A} {k : A -> M B} {s s' r} : check m -> bind m k s = (s', r) ->
  (s' = s /\ exists e, r = Err e) \/ exists a, m s = (s, Ok a) /\ k a s = (s', r).
Proof.
  intros Hm H. unfold bind in H. destruct (m s) as [s1 [a|e]] eqn:E; rewrite (Hm _ _ _ E) in *.
  - right; eauto.
  - left. inversion H; eauto.
Qed.

Definition no_mut {A} (m : M A) : Prop := forall s s' r, m s = (s', r) -> sg s' = sg s.

Lemma no_mut_ret {A} (a : A) : no_mut (ret a).
Proof. intros s s' r H; inversion H; reflexivity. Qed.
Lemma no_mut_raise {A} e : no_mut (@raise A e).
Proof. intros s s' r H; inversion H; reflexivity. Qed.
Lemma no_mut_guard b e : no_mut (guard b e).
Proof. destruct b; [apply no_mut_ret | apply no_mut_raise]. Qed.
Lemma no_mut_ask {A} (q : graph -> res A) : no_mut (ask q).
Proof. intros s s' r H; unfold ask in H; destruct (q (sg s)); inversion H; reflexivity. Qed.
Lemma no_mut_draw : no_mut draw.
Proof. intros s s' r H; unfold draw in H; destruct (sfresh s); inversion H; reflexivity. Qed.
Lemma no_mut_id_or_draw o : no_mut (id_or_draw o).
Proof. destruct o; [apply no_mut_ret | apply no_mut_draw]. Qed.
Lemma no_mut_opt_raise o : no_mut (opt_raise o).
Proof. destruct o; [apply no_mut_raise | apply no_mut_ret]. Qed.
Lemma no_mut_bind {A B} (m : M A) (k : A -> M B) :
  no_mut m -> (forall a, no_mut (k a)) -> no_mut (bind m k).
Proof.
  intros Hm Hk s s' r H. unfold bind in H.
  destruct (m s) as [s1 [a|e]] eqn:E.
  - apply Hk in H. apply Hm in E. congruence.
  - inversion H; subst. eapply Hm; eauto.
Qed.
Lemma no_mut_for_each {A} (l : list A) f : (forall x, no_mut (f x)) -> no_mut (for_each l f).
Proof. intro H; induction l; simpl; [apply no_mut_ret|]. apply no_mut_bind; auto. Qed.

Ltac nm := repeat first [ apply no_mut_ret | apply no_mut_raise | apply no_mut_guard | apply no_mut_ask
                        | apply no_mut_draw | apply no_mut_id_or_draw | apply no_mut_opt_raise
                        | (apply no_mut_bind; [|intro]) ].

Definition raises {A} (R : exn -> Prop) (m : M A) : Prop := forall s s' e, m s = (s', Err e) -> R e.

Lemma raises_ret {A} R (a : A) : raises R (ret a).
Proof. intros s s' e H; inversion H. Qed.
Lemma raises_raise {A} (R : exn -> Prop) e : R e -> raises R (@raise A e).
Proof. intros He s s' e' H; inversion H; subst; exact He. Qed.
Lemma raises_guard (R : exn -> Prop) b e : R e -> raises R (guard b e).
Proof. intro; destruct b; [apply raises_ret | apply raises_raise; auto]. Qed.
Lemma raises_draw (R : exn -> Prop) : R EOther -> raises R draw.
Proof. intros He s s' e H; unfold draw in H; destruct (sfresh s); inversion H; subst; exact He. Qed.
Lemma raises_ask {A} (R : exn -> Prop) (q : graph -> res A) : (forall g e, q g = Err e -> R e) -> raises R (ask q).
Proof. intros Hq s s' e H. unfold ask in H. destruct (q (sg s)) eqn:E; inversion H; subst. eapply Hq; eauto. Qed.
Lemma raises_mutate (R : exn -> Prop) f : (forall g e, f g = Err e -> R e) -> raises R (mutate f).
Proof. intros Hf s s' e H. unfold mutate in H. destruct (f (sg s)) eqn:E; inversion H; subst. eapply Hf; eauto. Qed.
Lemma raises_bind {A B} R (m : M A) (k : A -> M B) :
  raises R m -> (forall a, raises R (k a)) -> raises R (bind m k).
Proof.
  intros Hm Hk s s' e H. apply bind_err_cases in H as [H|(s1 & a & _ & H)]; [eapply Hm|eapply Hk]; eauto.
Qed.
Lemma raises_for_each {A} R (l : list A) f : (forall x, raises R (f x)) -> raises R (for_each l f).
Proof. intro H; induction l; simpl; [apply raises_ret|]. apply raises_bind; auto. Qed.
(* a handler that re-raises what it caught *)
Lemma raises_catch {A} (R : exn -> Prop) (m : M A) h :
  raises R m -> (forall e, R e -> raises R (h e)) -> raises R (catch_any m h).
Proof. intros Hm Hh s s' e H. apply catch_any_err in H as (s2 & e2 & H2 & H). eapply Hh; eauto. Qed.

(* primitive look-ups and mutations only ever raise PropertyGraphQueryException *)
Lemma find_node_err g x e : find_node g x = Err e -> e = EQuery.
Proof. unfold find_node; destruct (find_nodes g x) as [|? [|? ?]]; intro H; inversion H; reflexivity. Qed.
Lemma node_type_err g x e : node_type g x = Err e -> e = EQuery.
Proof. unfold node_type. destruct (find_node g x) eqn:E; intro H; inversion H; subst. eapply find_node_err; eauto. Qed.
Lemma first_neighbor_err g x r c e : first_neighbor g x r c = Err e -> e = EQuery.
Proof. unfold first_neighbor. destruct (find_node g x) eqn:E; intro H; inversion H; subst. eapply find_node_err; eauto. Qed.
Lemma g_add_node_err n g e : g_add_node n g = Err e -> e = EQuery.
Proof. unfold g_add_node; destruct (has_node g (nid n)); intro H; inversion H; reflexivity. Qed.
Lemma g_add_edge_err a r b g e : g_add_edge a r b g = Err e -> e = EQuery.
Proof.
  unfold g_add_edge. destruct (find_node g a) eqn:Ea; [|intro H; inversion H; subst; eapply find_node_err; eauto].
  destruct (find_node g b) eqn:Eb; [|intro H; inversion H; subst; eapply find_node_err; eauto].
  destruct (existsb _ _); intro H; inversion H.
Qed.
Lemma g_delete_node_err x g e : g_delete_node x g = Err e -> e = EQuery.
Proof.
  unfold g_delete_node. destruct (find_node g x) eqn:E; intro H; inversion H; subst.
  eapply find_node_err; eauto.
Qed.

Lemma raises_query {A} (R : exn -> Prop) (q : graph -> res A) :
  (forall g e, q g = Err e -> e = EQuery) -> R EQuery -> raises R (ask q).
Proof. intros Hq HR. apply raises_ask. intros g e H. apply Hq in H. subst. exact HR. Qed.
Lemma raises_add_node (R : exn -> Prop) n : R EQuery -> raises R (m_add_node n).
Proof. intro HR. apply raises_mutate. intros g e H. apply g_add_node_err in H. subst. exact HR. Qed.
Lemma raises_add_edge (R : exn -> Prop) a r b : R EQuery -> raises R (m_add_edge a r b).
Proof. intro HR. apply raises_mutate. intros g e H. apply g_add_edge_err in H. subst. exact HR. Qed.
Lemma raises_delete_node (R : exn -> Prop) x : R EQuery -> raises R (m_delete_node x).
Proof. intro HR. apply raises_mutate. intros g e H. apply g_delete_node_err in H. subst. exact HR. Qed.
Lemma raises_find (R : exn -> Prop) x : R EQuery -> raises R (ask (fun g => find_node g x)).
Proof. apply raises_query. intros g e. apply find_node_err. Qed.
Lemma raises_node_type (R : exn -> Prop) x : R EQuery -> raises R (ask (fun g => node_type g x)).
Proof. apply raises_query. intros g e. apply node_type_err. Qed.

Create HintDb raises.
#[export] Hint Resolve raises_ret raises_raise raises_guard raises_draw raises_bind raises_for_each raises_catch
  raises_add_node raises_add_edge raises_delete_node raises_find raises_node_type : raises.
Lemma not_topo e : exn_eqb e ETopology = false -> e <> ETopology.
Proof. intros H ->. discriminate. Qed.
#[export] Hint Resolve not_topo : raises.

Definition clean {A} (Q : exn -> Prop) (P : graph -> Prop) (m : M A) : Prop :=
  forall s s' e, P (sg s) -> m s = (s', Err e) -> Q e -> sg s' = sg s.
Definition atomic {A} (m : M A) : Prop := forall s s' e, m s = (s', Err e) -> sg s' = sg s.
Definition any {T} (_ : T) : Prop := True.

Definition topo_atomic {A} (m : M A) : Prop := forall s s', m s = (s', Err ETopology) -> sg s' = sg s.

Lemma clean_topo {A} (m : M A) : clean (eq ETopology) any m -> topo_atomic m.
Proof. intros H s s' E. exact (H s s' _ I E eq_refl). Qed.
Lemma clean_atomic {A} (m : M A) : clean any any m -> atomic m.
Proof. intros H s s' e E. exact (H s s' e I E I). Qed.
Lemma atomic_clean {A} Q P (m : M A) : atomic m -> clean Q P m.
Proof. intros H s s' e _ E _. eapply H; eauto. Qed.
Lemma clean_any {A} (P : graph -> Prop) (m : M A) :
  clean any P m -> forall s s' e, P (sg s) -> m s = (s', Err e) -> sg s' = sg s.
Proof. intros H s s' e HP E. exact (H s s' e HP E I). Qed.
Lemma clean_nm {A} Q P (m : M A) : no_mut m -> clean Q P m.
Proof. intros H s s' e _ E _; eapply H; eauto. Qed.
Lemma clean_weaken {A} Q (P P' : graph -> Prop) (m : M A) :
  (forall g, P' g -> P g) -> clean Q P m -> clean Q P' m.
Proof. intros HP H s s' e HP'; apply H; auto. Qed.
(* a non-mutating prefix hands the graph, hence P, on to the continuation *)
Lemma clean_bind {A B} Q P (m : M A) (k : A -> M B) :
  no_mut m -> (forall a, clean Q P (k a)) -> clean Q P (bind m k).
Proof.
  intros Hm Hk s s' e HP H HQ. apply bind_err_cases in H as [H|(s1 & a & E & H)]; [eapply Hm; eauto|].
  apply Hm in E. rewrite <- E. apply (Hk a s1 s' e); auto. rewrite E. exact HP.
Qed.
(* ... and a query also hands on what it returned *)
Lemma clean_ask {A B} Q (P : graph -> Prop) (q : graph -> res A) (k : A -> M B) :
  (forall a, clean Q (fun g => P g /\ q g = Ok a) (k a)) -> clean Q P (bind (ask q) k).
Proof.
  intros Hk s s' e HP H HQ. apply bind_err_cases in H as [H|(s1 & a & E & H)]; [eapply no_mut_ask; eauto|].
  apply ask_ok in E as [-> E]. eapply Hk; eauto.
Qed.
Lemma clean_raises {A} (Q R : exn -> Prop) P (m : M A) :
  raises R m -> (forall e, R e -> Q e -> False) -> clean Q P m.
Proof. intros Hm HRQ s s' e _ E HQ. exfalso. eapply HRQ; eauto. Qed.
Lemma clean_mutate Q P f : clean Q P (mutate f).
Proof. intros s s' e _ H _. unfold mutate in H. destruct (f (sg s)); inversion H; reflexivity. Qed.
Lemma clean_mutate_ret {A} Q P f (a : A) : clean Q P (mutate f ;;; ret a).
Proof. intros s s' e _ H _. unfold bind, mutate, ret in H. destruct (f (sg s)); inversion H; reflexivity. Qed.

(* skip the checks, queries and draws in front of the first mutation (without unfolding a called constructor) *)
Ltac checks := repeat match goal with |- clean _ _ (bind _ _) => apply clean_bind; [solve [nm]|intro] end.

Definition yields {A} (m : M A) (Post : graph -> A -> graph -> Prop) : Prop :=
  forall s s1 a, m s = (s1, Ok a) -> Post (sg s) a (sg s1).

Lemma yields_bind {A B} (m : M A) (k : A -> M B) Post :
  no_mut m -> (forall x, yields (k x) Post) -> yields (bind m k) Post.
Proof.
  intros Hm Hk s s1 b H. apply bind_ok in H as (s0 & a & E & H). apply Hm in E. rewrite <- E. eapply Hk; eauto.
Qed.
Lemma yields_mutate_ret {A} f (a : A) : yields (mutate f ;;; ret a) (fun g x g' => x = a /\ f g = Ok g').
Proof.
  intros s s1 x H. apply bind_ok in H as (s0 & u & E & H). apply mutate_ok in E as (g' & E & ->).
  apply ret_ok in H as [-> ->]. auto.
Qed.

Lemma catch_undo {A} (m : M A) (u : M unit) g s s' e :
  (forall s2 e2, m s = (s2, Err e2) -> exists fr, u s2 = (mkSt g fr, Ok tt)) ->
  catch_any m (fun e0 => u ;;; raise e0) s = (s', Err e) -> sg s' = g.
Proof.
  intros Hu H. apply catch_any_err in H as (s2 & e2 & Hm & H). destruct (Hu _ _ Hm) as [fr Hfr].
  unfold bind in H. rewrite Hfr in H. inversion H. reflexivity.
Qed.
