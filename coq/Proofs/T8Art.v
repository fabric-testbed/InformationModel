(* C08: the service-side ports of a removed element WITHOUT the hypothesis "the element's own interfaces
   are not connected to each other".  Since fix 5286851 the disconnect loop skips an interface that is already gone.
   Under the well-formedness WP (distinct ids; a connection point has at most one link; a ServicePort has no
   neighbouring connection point; the edges at links and between a service and its ports are `connects` edges) the skip
   is harmless: the skipped interface was deleted because it WAS the peering artefact of an earlier iteration, its peer
   across the two-ended link is then that earlier interface - an interface of the element itself - and goes with the
   element. *)
From Coq Require Import List NArith Bool Lia PeanoNat.
From FIM Require Import Model.T8Graph Model.T8Ops Proofs.T8Frame Proofs.T8Query Proofs.T8Hoare Proofs.T8Sound
     Proofs.T8Complete Proofs.T8Top Proofs.T8Link Proofs.T8Owned Proofs.T8Handles Proofs.T8Fixed
     Proofs.T8Prune.
Import ListNotations.

(* WP g: the shape the API gives to ports and their links, as far as the argument about the skipped interface needs it *)
Record WP (g : graph) : Prop := mkWP {
  wp_ids : ids_distinct g;
  wp_one_link : forall i l l', In l (lks g i) -> In l' (lks g i) -> l = l';
  wp_sp_alone : forall p, type_of g p = T_ServicePort -> cpn g p = [];
  wp_link_edges : forall l y r, class_of g l = CLink -> In (y, r) (nbrs g l) -> r = RConnects;
  wp_port_edges : forall s y r, class_of g s = CNS -> class_of g y = CCP -> In (y, r) (nbrs g s) -> r = RConnects
}.

Section Art.
Variable g0 : graph.
Hypothesis HW : WP g0.

Lemma by_name_class c nm n : In n (by_name g0 c nm) -> class_of g0 n = c.
Proof.
  intros Hn. unfold by_name in Hn. apply in_map_iff in Hn. destruct Hn as [x [<- Hx]].
  apply filter_In in Hx. destruct Hx as [Hx Hc]. apply andb_true_iff in Hc. destruct Hc as [Hc _].
  unfold class_of. rewrite (find_unique g0 x (wp_ids g0 HW) Hx).
  destruct (ncls x), c; simpl in Hc; try discriminate; reflexivity.
Qed.

(* one iteration, without assuming that ii is still there *)
Lemma step_art2 L ii s s' :
  JL g0 s -> DI g0 L (snd s) -> In ii L -> disconnect_step ii s = (inl tt, s') ->
  JL g0 s' /\ DI g0 L (snd s') /\ (forall x, In x (snd s) -> In x (snd s')) /\
  (forall l sp, link2 g0 l ii sp -> type_of g0 sp = T_ServicePort -> In sp (snd s') \/ In ii (snd s')).
Proof.
  intros HJ HD Hii E. unfold disconnect_step in E.
  apply bind_ok in E. destruct E as [b [s1 [E1 E]]]. apply get_ok in E1. destruct E1 as [-> ->].
  destruct (has_node (fst s) ii && cls_eqb (class_of (fst s) ii) CCP) eqn:Eb.
  - destruct (peers_step g0 ii s s' HJ E) as [A [B S']]. pose proof HJ as [C _].
    split; [exact A|]. split; [apply (peers_step_DI g0 L ii s s' C HD Hii E)|]. split; [exact S'|].
    intros l sp Hl Ht. left. exact (B l sp Hl Ht).
  - apply ret_ok in E. destruct E as [_ ->]. split; [exact HJ|]. split; [exact HD|]. split; [auto|].
    intros l sp Hl Ht. right. pose proof HJ as [C _].
    assert (Hc : class_of g0 ii = CCP).
    { destruct Hl as [_ [_ Hm]]. apply (cpn_class g0 l). apply Hm. auto. }
    apply (gone_in_D g0 s ii CCP C Hc ltac:(discriminate) Eb).
Qed.

Lemma disc_loop2 L s s' :
  JL g0 s -> DI g0 L (snd s) -> for_each_set disconnect_step L s = (inl tt, s') ->
  JL g0 s' /\ DI g0 L (snd s') /\ (forall x, In x (snd s) -> In x (snd s')) /\
  (forall ii, In ii L -> forall l sp, link2 g0 l ii sp -> type_of g0 sp = T_ServicePort -> In sp (snd s') \/ In ii (snd s')).
Proof.
  intros HJ HD E. apply for_each_set_ok in E.
  set (Jl := fun t : st => JL g0 t /\ DI g0 L (snd t) /\ forall x, In x (snd s) -> In x (snd t)).
  set (R := fun (ii : N) (t : st) =>
              forall l sp, link2 g0 l ii sp -> type_of g0 sp = T_ServicePort -> In sp (snd t) \/ In ii (snd t)).
  assert (H : Jl s' /\ forall ii, In ii L -> R ii s').
  { apply (for_each_ok_all disconnect_step Jl R L) with (s := s); [| | |exact E].
    - intros ii t1 t2 Hii [A [D B]] Et. destruct (step_art2 L ii t1 t2 A D Hii Et) as [A' [D' [S' R']]].
      split; [split; [exact A' | split; [exact D' | intros x Hx; apply S'; apply B; exact Hx]] | exact R'].
    - intros ii y t1 t2 Hy [A [D _]] HR Et. destruct (step_art2 L y t1 t2 A D Hy Et) as [_ [_ [S' _]]].
      intros l0 sp Hl Ht. destruct (HR l0 sp Hl Ht) as [H|H]; [left | right]; apply S'; exact H.
    - split; [exact HJ | split; [exact HD | auto]]. }
  destruct H as [[A [D B]] HR]. auto.
Qed.

(* WP: an interface deleted by the loop as the ServicePort peer of jj, with a two-ended link to sp: then sp = jj *)
Lemma skipped_is_artefact L ii l sp :
  (forall jj, In jj L -> class_of g0 jj = CCP) ->
  DI g0 L [] -> forall D, DI g0 L D -> In ii D -> link2 g0 l ii sp -> In sp L.
Proof.
  intros HL _ D HD Hii Hl. pose proof Hl as [Hcl [Hne Hm]].
  assert (Hic : class_of g0 ii = CCP) by (apply (cpn_class g0 l); apply Hm; auto).
  destruct (HD ii Hii Hic) as [jj [p [Hjj [Hp [Htp [->|Hn]]]]]].
  - (* ii is the ServicePort peer p of jj *)
    unfold peer_cps in Hp. apply in_flat_map in Hp. destruct Hp as [l2 [Hl2 Hp]].
    apply removeN_In in Hp. destruct Hp as [Hp Hpj].
    assert (Hl2c : class_of g0 l2 = CLink) by (apply first_neighbor_In in Hl2; tauto).
    apply nbrs_cls_In in Hp. destruct Hp as [[r Hr] _].
    assert (Hr' : r = RConnects) by (apply (wp_link_edges g0 HW l2 p r Hl2c Hr)). subst r.
    assert (A1 : In l2 (lks g0 p)).
    { unfold lks. apply first_neighbor_In. split; [apply nbrs_sym; exact Hr | exact Hl2c]. }
    assert (A2 : In l (lks g0 p)).
    { unfold lks. apply (first_neighbor_sym g0 l p RConnects CCP CLink); [apply Hm; auto | exact Hcl]. }
    assert (El : l2 = l) by (apply (wp_one_link g0 HW p l2 l A1 A2)). subst l2.
    assert (Hjl : In jj (cpn g0 l)).
    { unfold cpn. apply (first_neighbor_sym g0 jj l RConnects CLink CCP); [exact Hl2 | apply HL; exact Hjj]. }
    apply Hm in Hjl. destruct Hjl as [->| ->]; [exfalso; apply Hpj; reflexivity | exact Hjj].
  - (* ii next to a ServicePort: impossible *)
    rewrite (wp_sp_alone g0 HW p Htp) in Hn. destruct Hn.
Qed.

(* the loop from the initial state: the ServicePort across a two-ended link from ii is deleted by the loop, or it is
   itself one of the interfaces of the list *)
Lemma loop_art_wf L s' :
  (forall jj, In jj L -> class_of g0 jj = CCP) ->
  for_each_set disconnect_step L (g0, []) = (inl tt, s') ->
  cons g0 s' /\
  forall ii, In ii L -> forall l sp, link2 g0 l ii sp -> type_of g0 sp = T_ServicePort -> In sp (snd s') \/ In sp L.
Proof.
  intros HL E.
  destruct (disc_loop2 L (g0, []) s' (JL_init g0) (DI_init g0 L) E) as [[C _] [HD [_ HR]]].
  split; [exact C|]. intros ii Hii l sp Hl Ht.
  destruct (HR ii Hii l sp Hl Ht) as [H|H]; [left; exact H|]. right.
  apply (skipped_is_artefact L ii l sp HL (DI_init g0 L) (snd s') HD H Hl).
Qed.

(* a ServicePort in a disconnect list is one of the first-level interfaces (it is nobody's sub-interface) *)
Lemma disc_list_sp l0 sp :
  (forall i, In i l0 -> class_of g0 i = CCP) ->
  In sp (disc_list g0 l0) -> type_of g0 sp = T_ServicePort -> In sp l0.
Proof.
  unfold disc_list. intros HL H Ht. apply in_flat_map in H. destruct H as [i [Hi H]].
  unfold with_children in H. destruct H as [<-|H]; [exact Hi|]. exfalso.
  destruct (N.eqb (type_of g0 i) T_DedicatedPort); [|destruct H].
  assert (Hs : In i (cpn g0 sp)).
  { unfold cpn. apply (first_neighbor_sym g0 i sp RConnects CCP CCP); [exact H | apply HL; exact Hi]. }
  rewrite (wp_sp_alone g0 HW sp Ht) in Hs. destruct Hs.
Qed.

Lemma disc_list_class l0 :
  (forall i, In i l0 -> class_of g0 i = CCP) -> forall jj, In jj (disc_list g0 l0) -> class_of g0 jj = CCP.
Proof.
  intros HL jj H. unfold disc_list in H. apply in_flat_map in H. destruct H as [i [Hi H]].
  unfold with_children in H. destruct H as [<-|H]; [apply HL; exact Hi|].
  destruct (N.eqb (type_of g0 i) T_DedicatedPort); [|destruct H]. apply (cpn_class g0 i). exact H.
Qed.

Lemma owner_cps_class p i : In i (owner_cps g0 p) -> class_of g0 i = CCP.
Proof.
  unfold owner_cps. intros H. apply in_flat_map in H. destruct H as [s [_ H]].
  apply removeN_In in H. destruct H as [H _]. apply nbrs_cls_In in H. tauto.
Qed.

(* under WP the interfaces a node / component lists are ports of its services *)
Lemma owner_cps_ports p i : In i (owner_cps g0 p) -> exists s, In s (first_neighbor g0 p RHas CNS) /\ In i (cpn g0 s).
Proof.
  unfold owner_cps. intros H. apply in_flat_map in H. destruct H as [s [Hs H]].
  apply removeN_In in H. destruct H as [H _]. apply nbrs_cls_In in H. destruct H as [[r Hr] Hc].
  exists s. split; [exact Hs|].
  assert (Hsc : class_of g0 s = CNS) by (apply first_neighbor_In in Hs; tauto).
  rewrite (wp_port_edges g0 HW s i r Hsc Hc Hr) in Hr. unfold cpn. apply first_neighbor_In. auto.
Qed.

Lemma node_interface_list_class n i : In i (node_interface_list g0 n) -> class_of g0 i = CCP.
Proof.
  unfold node_interface_list, comp_interface_list. rewrite in_app_iff, in_flat_map.
  intros [H|[c [_ H]]]; apply (owner_cps_class _ i H).
Qed.

Lemma node_interface_list_owned n i : In i (node_interface_list g0 n) -> O_node g0 n i.
Proof.
  unfold node_interface_list, comp_interface_list. rewrite in_app_iff, in_flat_map. intros [H|[c [Hc H]]].
  - destruct (owner_cps_ports n i H) as [s [Hs Hi]]. right. right. exists s. split; [exact Hs|].
    right. exists i. split; [exact Hi | left; reflexivity].
  - destruct (owner_cps_ports c i H) as [s [Hs Hi]]. right. left. exists c. split; [exact Hc|].
    right. exists s. split; [exact Hs|]. right. exists i. split; [exact Hi | left; reflexivity].
Qed.

End Art.

Lemma elem_ifs_class g o e i : In i (elem_ifs g o e) -> class_of g i = CCP.
Proof.
  destruct o; simpl; first [apply node_interface_list_class | apply owner_cps_class | apply cpn_class].
Qed.

(* under WP the first-level interfaces of the addressed element are owned by it *)
Lemma elem_ifs_owned g o cands e i :
  WP g -> elem_sel g o = Some cands -> In e cands -> In i (elem_ifs g o e) -> owned g o i.
Proof.
  intros HW Hs He Hi. destruct o; simpl in Hs; try discriminate; injection Hs as <-; simpl in Hi |- *;
    try (apply child_by_name_In in He; destruct He as [He Hnm]); exists e.
  1-3: assert (Hb : In e (by_name g CNode name)) by (try (apply filter_In in He); tauto);
       split; [exact Hb|]; split; [apply (by_name_class g HW CNode name e Hb) | apply (node_interface_list_owned g HW e i Hi)].
  - split; [exact He|]. split; [apply (by_name_class g HW CNS name e He)|]. right. exists i. split; [exact Hi | left; reflexivity].
  - split; [exact He|]. split; [exact Hnm|]. destruct (owner_cps_ports g HW e i Hi) as [s [Hs Hp]].
    right. exists s. split; [exact Hs|]. right. exists i. split; [exact Hp | left; reflexivity].
  - split; [exact He|]. split; [exact Hnm|]. right. exists i. split; [exact Hi | left; reflexivity].
Qed.

(* THE ARTEFACT THEOREM under WP, without the self-peering hypothesis *)
Theorem artefact_ports_deleted_wf ex o cs g r g' tr :
  WP g -> run (exec ex o cs) g = (inl r, (g', tr)) ->
  forall ii l sp, disc_ifs g o ii -> link2 g l ii sp -> type_of g sp = T_ServicePort -> In sp tr.
Proof.
  intros HW E ii l sp Hd Hl Ht. destruct (disc_ifs_elem g o ii Hd) as [[cands [e [Hs [He Hii]]]]|Hs].
  - destruct (elem_run ex o cs g r _ cands E Hs) as [e' [s1 [-> [L1 E2]]]]. destruct He as [<-|[]].
    destruct (loop_art_wf g HW _ s1 (disc_list_class g _ (elem_ifs_class g o e')) L1) as [C1 HR].
    destruct (HR ii Hii l sp Hl Ht) as [H|H].
    + apply (ext_to g _ _ _ _ sp (Inv_elem_rest o e') C1 E2 H).
    + apply (owned_exec ex o cs g r g' tr E). apply (elem_ifs_owned g o _ e' sp HW Hs (or_introl eq_refl)).
      apply (disc_list_sp g HW _ sp (elem_ifs_class g o e') H Ht).
  - (* a single interface, no skipping *)
    destruct o; try contradiction; apply (artefact_ports_deleted _ _ _ _ _ _ _ E ii l sp Hd I Hl Ht).
Qed.

(* ---- a decidable version of WP, for concrete graphs ---- *)
Fixpoint nodupb (l : list N) : bool :=
  match l with [] => true | x :: r => negb (memN x r) && nodupb r end.
Lemma nodupb_sound l : nodupb l = true -> NoDup l.
Proof.
  induction l as [|x r IH]; simpl; intros H; [constructor|]. apply andb_true_iff in H. destruct H as [A B].
  constructor; [apply memN_false; apply negb_true_iff; exact A | apply IH; exact B].
Qed.

Definition endpoints (g : graph) : list N := map ea (gedges g) ++ map eb (gedges g).
Definition wpb (g : graph) : bool :=
  nodupb (map nid (gnodes g)) &&
  forallb (fun i => Nat.leb (length (lks g i)) 1) (endpoints g) &&
  forallb (fun x => if N.eqb (type_of g (nid x)) T_ServicePort
                    then match cpn g (nid x) with [] => true | _ => false end else true) (gnodes g) &&
  forallb (fun x => if cls_eqb (class_of g (nid x)) CLink
                    then forallb (fun p => rel_eqb (snd p) RConnects) (nbrs g (nid x)) else true) (gnodes g) &&
  forallb (fun x => if cls_eqb (class_of g (nid x)) CNS
                    then forallb (fun p => negb (cls_eqb (class_of g (fst p)) CCP) || rel_eqb (snd p) RConnects)
                                 (nbrs g (nid x)) else true) (gnodes g).

Lemma nbrs_endpoint g i y r : In (y, r) (nbrs g i) -> In i (endpoints g).
Proof.
  intros H. apply nbrs_In in H. destruct H as [e [He [_ [[A _]|[_ [A _]]]]]]; unfold endpoints; apply in_or_app.
  - left. apply in_map_iff. exists e. auto.
  - right. apply in_map_iff. exists e. auto.
Qed.

Lemma wpb_sound g : wpb g = true -> WP g.
Proof.
  unfold wpb. intros H. repeat (apply andb_true_iff in H; destruct H as [H ?]).
  rename H into H1, H3 into H2, H2 into H3, H1 into H4, H0 into H5.
  constructor.
  - unfold ids_distinct. apply nodupb_sound. exact H1.
  - intros i l l' A B. rewrite forallb_forall in H2.
    assert (Hi : In i (endpoints g)).
    { unfold lks in A. apply first_neighbor_In in A. destruct A as [A _]. apply (nbrs_endpoint g i l RConnects A). }
    specialize (H2 i Hi). apply Nat.leb_le in H2.
    destruct (lks g i) as [|a [|b r]]; simpl in *; [destruct A | | lia].
    destruct A as [<-|[]]. destruct B as [<-|[]]. reflexivity.
  - intros p Hp. rewrite forallb_forall in H3.
    assert (Hx : exists x, In x (gnodes g) /\ nid x = p).
    { unfold type_of in Hp. destruct (find_node g p) as [x|] eqn:F; [|discriminate].
      unfold find_node in F. apply find_some in F. destruct F as [A B]. apply N.eqb_eq in B. exists x. auto. }
    destruct Hx as [x [Hx <-]]. specialize (H3 x Hx). rewrite Hp in H3. simpl in H3.
    destruct (cpn g (nid x)); [reflexivity | discriminate].
  - intros l y r Hl Hy. rewrite forallb_forall in H4.
    destruct (class_node g l CLink Hl ltac:(discriminate)) as [x [Hx <-]].
    specialize (H4 x Hx). rewrite Hl in H4. simpl in H4. rewrite forallb_forall in H4. specialize (H4 (y, r) Hy).
    simpl in H4. destruct r; simpl in H4; try discriminate; reflexivity.
  - intros s y r Hs Hyc Hy. rewrite forallb_forall in H5.
    destruct (class_node g s CNS Hs ltac:(discriminate)) as [x [Hx <-]].
    specialize (H5 x Hx). rewrite Hs in H5. simpl in H5. rewrite forallb_forall in H5. specialize (H5 (y, r) Hy).
    simpl in H5. rewrite Hyc in H5. simpl in H5. destruct r; simpl in H5; try discriminate; reflexivity.
Qed.
