(* C12, Model/Deleg12H.v: ONE Delegations container under any history: the API invariants hold in every reachable
   state, the read-only operations change nothing, and to_json is a function of the CURRENT content: whenever it
   succeeds, from_json of its result is the current content.  Rests on Deleg12Enc.v only. *)
From Coq Require Import List ZArith Bool String.
From FIM Require Import Base.ListFacts Base.Str Model.Deleg12 Model.Deleg12H
     Proofs.Deleg12Enc.
Import ListNotations.

Lemma nth_error_dset_same {A} k (x : A) l y : nth_error l k = Some y -> nth_error (dset_nth k x l) k = Some x.
Proof.
  revert k. induction l as [|a r IH]; intros [|k] H; simpl in *; try discriminate; [reflexivity|apply IH; exact H].
Qed.

Lemma nth_error_dset_other {A} k j (x : A) l : j <> k -> nth_error (dset_nth k x l) j = nth_error l j.
Proof.
  revert k j. induction l as [|a r IH]; intros [|k] [|j] H; simpl; try reflexivity; try contradiction.
  apply IH. congruence.
Qed.

Lemma dset_nth_Forall {A} (P : A -> Prop) k x l : Forall P l -> P x -> Forall P (dset_nth k x l).
Proof.
  revert k. induction l as [|a r IH]; intros k F Px; [destruct k; constructor|].
  apply Forall_cons_iff in F as [Fa Fr]. destruct k; simpl; constructor; auto.
Qed.

Lemma dderef_app h a b : dderef h (a ++ b) = dderef h a ++ dderef h b.
Proof. unfold dderef. apply flat_map_app. Qed.

Lemma dderef_In h refs d : In d (dderef h refs) <-> exists k, In k refs /\ nth_error h k = Some d.
Proof.
  unfold dderef. rewrite in_flat_map. split; intros (k & Hk & H); exists k; (split; [exact Hk|]).
  - destruct (nth_error h k); [destruct H as [->|[]]; reflexivity|contradiction].
  - rewrite H. left. reflexivity.
Qed.

Lemma dderef_grow h d refs : Forall (fun k => exists x, nth_error h k = Some x) refs ->
  dderef (h ++ [d]) refs = dderef h refs.
Proof.
  induction 1 as [|k r [x Hx] Vr IH]; [reflexivity|]. unfold dderef in *. cbn [flat_map].
  rewrite IH, (nth_error_grow _ _ _ _ Hx), Hx. reflexivity.
Qed.

Lemma dderef_set_ids h k d d' refs : nth_error h k = Some d -> d_id d' = d_id d ->
  map d_id (dderef (dset_nth k d' h) refs) = map d_id (dderef h refs).
Proof.
  intros Hk Hid. induction refs as [|j r IH]; [reflexivity|].
  unfold dderef in *. cbn [flat_map]. rewrite !map_app, IH. f_equal.
  destruct (Nat.eq_dec j k) as [->|NE].
  - rewrite (nth_error_dset_same _ _ _ _ Hk), Hk. simpl. congruence.
  - rewrite nth_error_dset_other by exact NE. reflexivity.
Qed.

(* remove_by_id drops the references to objects with that id: on the content, a filter *)
Lemma dderef_remove h id refs :
  dderef h (filter (fun k => negb (has_id_at h id k)) refs) = filter (fun d => negb (str_eqb (d_id d) id)) (dderef h refs).
Proof.
  induction refs as [|k r IH]; [reflexivity|]. unfold dderef in *. cbn [filter flat_map]. rewrite filter_app, <- IH.
  unfold has_id_at. destruct (nth_error h k) as [d|] eqn:Hk; [|cbn; rewrite Hk; reflexivity].
  cbn [filter]. destruct (str_eqb (d_id d) id); cbn; [|rewrite Hk]; reflexivity.
Qed.

Section WithValidators.
Variable lc : str -> dval -> option exn.

Definition obj_ok (d : deleg) : Prop := d_inv d /\ forall x, d_details d = Some x -> det_ok lc x = true.

(* every reachable state: objects as the API builds them, references valid and of the container's type, ids distinct *)
Definition dst_inv (st : dstate) : Prop :=
  Forall obj_ok (dst_heap st) /\
  Forall (fun k => exists d, nth_error (dst_heap st) k = Some d /\ d_type d = dst_type st) (dst_refs st) /\
  NoDup (map d_id (dderef (dst_heap st) (dst_refs st))).

(* Kind(kwargs dd) followed by an accepted set_details *)
Lemma set_details_obj_ok k dd x d d' : obj_of_dict lc k dd = Ok x -> set_details d x = Ok d' -> obj_ok d ->
  obj_ok d' /\ d_id d' = d_id d /\ d_type d' = d_type d.
Proof.
  intros O SD [I _]. pose proof (set_details_d_inv _ _ _ SD I) as I'.
  apply set_details_Ok_inv in SD as (_ & _ & ->). split; [split; [exact I'|]|split; reflexivity].
  cbn. intros y Hy. injection Hy as <-. exact (constructor_builds_ok lc _ _ _ O).
Qed.

Lemma build_spec_ok s d v : build_spec lc s = (Some d, v) -> obj_ok d.
Proof.
  unfold build_spec. destruct (new_deleg (s_type s) (s_id s) (s_fmt s) (s_pool s)) as [d0|e] eqn:N; [|discriminate].
  apply new_deleg_inv in N as (I0 & _ & _ & _ & D0).
  assert (O0 : obj_ok d0) by (split; [exact I0|intros x Hx; congruence]).
  destruct (s_details s) as [[k dd]|]; [|intro H; injection H as <- _; exact O0].
  destruct (obj_of_dict lc k dd) as [x|e] eqn:O; [|intro H; injection H as <- _; exact O0].
  destruct (set_details d0 x) as [d1|e] eqn:SD; intro H; injection H as <- _; [|exact O0].
  apply (set_details_obj_ok _ _ _ _ _ O SD O0).
Qed.

Lemma dadd_inv h ty ks : forall refs,
  Forall (fun k => exists d, nth_error h k = Some d /\ d_type d = ty) refs ->
  NoDup (map d_id (dderef h refs)) ->
  Forall (fun k => exists d, nth_error h k = Some d /\ d_type d = ty) (fst (dadd h ty refs ks)) /\
  NoDup (map d_id (dderef h (fst (dadd h ty refs ks)))).
Proof.
  induction ks as [|k r IH]; intros refs V ND; [split; assumption|]. cbn [dadd].
  destruct (nth_error h k) as [d|] eqn:Hk; [|split; assumption].
  destruct (add_delegation (mkDs ty (dderef h refs)) d) as [ds'|e] eqn:A; [|split; assumption].
  apply add_ok_inv in A as (T & NI & _). cbn [ds_type ds_items] in *.
  apply IH.
  - apply Forall_app. split; [exact V|]. constructor; [exists d; tauto|constructor].
  - rewrite dderef_app, map_app. unfold dderef at 2. simpl. rewrite Hk. apply NoDup_snoc; assumption.
Qed.

Lemma dstep_inv st o : dst_inv st -> dst_inv (fst (dstep lc st o)) /\ dst_type (fst (dstep lc st o)) = dst_type st.
Proof.
  intros (OH & VR & ND). unfold dst_inv. destruct o; cbn [dstep]; try (cbn; tauto).
  - destruct (build_spec lc s) as [[d|] v] eqn:B; cbn [fst dst_heap dst_refs dst_type]; [|tauto].
    split; [|reflexivity]. split; [|split].
    + apply Forall_app. split; [exact OH|]. constructor; [eapply build_spec_ok; exact B|constructor].
    + eapply Forall_impl; [|exact VR]. intros k (x & Hx & Tx). exists x. split; [apply nth_error_grow; exact Hx|exact Tx].
    + rewrite dderef_grow; [exact ND|]. eapply Forall_impl; [|exact VR]. intros k (x & Hx & _). exists x. exact Hx.
  - destruct (nth_error (dst_heap st) k) as [d|] eqn:Hk; [|cbn; tauto].
    destruct (obj_of_dict lc kind dd) as [x|e] eqn:O; [|cbn; tauto].
    destruct (set_details d x) as [d'|e] eqn:SD; [|cbn; tauto].
    cbn [fst dst_heap dst_refs dst_type]. split; [|reflexivity].
    destruct (set_details_obj_ok _ _ _ _ _ O SD (proj1 (Forall_forall _ _) OH d (nth_error_In _ _ Hk))) as (O1 & ID & TY).
    split; [|split].
    + apply dset_nth_Forall; assumption.
    + eapply Forall_impl; [|exact VR]. intros j (y & Hy & Ty).
      destruct (Nat.eq_dec j k) as [->|NE].
      * exists d'. rewrite (nth_error_dset_same _ _ _ _ Hk). split; [reflexivity|]. congruence.
      * exists y. rewrite nth_error_dset_other by exact NE. tauto.
    + rewrite (dderef_set_ids _ _ d d' _ Hk ID). exact ND.
  - destruct (dadd_inv (dst_heap st) (dst_type st) ks (dst_refs st) VR ND) as [V' ND'].
    destruct (dadd (dst_heap st) (dst_type st) (dst_refs st) ks) as [refs oe]. cbn [fst dst_heap dst_refs dst_type] in *. tauto.
  - cbn [fst dst_heap dst_refs dst_type]. split; [|reflexivity]. split; [exact OH|]. split.
    + apply incl_Forall with (2 := VR). apply incl_filter.
    + rewrite dderef_remove. apply NoDup_map_filter. exact ND.
Qed.

Lemma drun_inv ops : forall st, dst_inv st ->
  dst_inv (dfinal lc st ops) /\ dst_type (dfinal lc st ops) = dst_type st.
Proof.
  unfold dfinal. induction ops as [|o r IH]; intros st I; [split; [exact I|reflexivity]|].
  cbn [drun]. destruct (dstep_inv st o I) as [I1 T1]. destruct (dstep lc st o) as [st1 v]. cbn [fst] in *.
  destruct (IH st1 I1) as [I2 T2]. destruct (drun lc st1 r) as [st2 vs]. cbn [fst] in *. split; [exact I2|congruence].
Qed.

Lemma dinit_inv ty : dst_inv (dinit ty).
Proof. repeat split; constructor. Qed.

Lemma dst_inv_content st : dst_inv st ->
  ds_inv (dcontent st) /\ Forall d_inv (ds_items (dcontent st)) /\
  Forall (fun d => forall x, d_details d = Some x -> det_ok lc x = true) (ds_items (dcontent st)).
Proof.
  intros (OH & VR & ND). unfold dcontent. cbn [ds_items ds_type].
  assert (A : forall d, In d (dderef (dst_heap st) (dst_refs st)) -> obj_ok d /\ d_type d = dst_type st).
  { intros d Hd. apply dderef_In in Hd as (k & Hk & Hd). split.
    - exact (proj1 (Forall_forall _ _) OH d (nth_error_In _ _ Hd)).
    - destruct (proj1 (Forall_forall _ _) VR k Hk) as (x & Hx & Tx). congruence. }
  split; [split; [exact ND|]|split]; apply Forall_forall; intros d Hd; apply A in Hd; tauto || apply Hd.
Qed.

(* to_json after ANY history: it encodes the current content (by definition of the step), and whenever it succeeds its
   result decodes to exactly the current content *)
Lemma encode_from_state st doc : dst_inv st -> to_json (dcontent st) = Ok doc ->
  map fst doc = map d_id (ds_items (dcontent st)) /\ from_json lc (dst_type st) doc = Ok (dcontent st).
Proof.
  intros I TJ. destruct (dst_inv_content st I) as (DI & II & DO).
  exact (api_roundtrip lc (dcontent st) doc DI II DO TJ).
Qed.

Lemma encode_after_any_history ty ops doc :
  let st := dfinal lc (dinit ty) ops in
  snd (dstep lc st DEncode) = v_res v_jdoc (to_json (dcontent st)) /\
  dcontent (fst (dstep lc st DEncode)) = dcontent st /\
  (to_json (dcontent st) = Ok doc ->
   map fst doc = map d_id (ds_items (dcontent st)) /\ from_json lc ty doc = Ok (dcontent st)).
Proof.
  intros st. split; [reflexivity|]. split; [reflexivity|]. intro TJ.
  destruct (drun_inv ops (dinit ty) (dinit_inv ty)) as [I T]. fold st in I, T. cbn in T. rewrite <- T.
  apply encode_from_state; assumption.
Qed.

(* the read-only operations (queries, from_json of an earlier text) change neither the container nor any object *)
Lemma readonly_changes_nothing st o : dop_readonly o = true ->
  dst_heap (fst (dstep lc st o)) = dst_heap st /\ dst_refs (fst (dstep lc st o)) = dst_refs st /\
  dcontent (fst (dstep lc st o)) = dcontent st.
Proof. destruct o; try discriminate; intros _; repeat split. Qed.

(* a refused add_delegations call: what stays behind is a prefix of its arguments, nothing else changed *)
Lemma dadd_residue h ty ks : forall refs, exists pre post, ks = pre ++ post /\ fst (dadd h ty refs ks) = refs ++ pre.
Proof.
  assert (Z : forall refs post : list nat, exists pre post', post = pre ++ post' /\ refs = refs ++ pre).
  { intros refs post. exists [], post. rewrite app_nil_r. split; reflexivity. }
  induction ks as [|k r IH]; intro refs; [apply Z|]. cbn [dadd].
  destruct (nth_error h k) as [d|]; [|apply Z]. destruct (add_delegation (mkDs ty (dderef h refs)) d); [|apply Z].
  destruct (IH (refs ++ [k])) as (pre & post & -> & R). exists (k :: pre), post. split; [reflexivity|].
  rewrite R, <- app_assoc. reflexivity.
Qed.

(* remove_by_id: afterwards the id is gone and every other delegation is still there, in order *)
Lemma remove_by_id_spec st id :
  ds_items (dcontent (fst (dstep lc st (DRemove id)))) = filter (fun d => negb (str_eqb (d_id d) id)) (ds_items (dcontent st)).
Proof. apply dderef_remove. Qed.

End WithValidators.

(* values of the non-vacuity Example: encode, remove a delegation, change the details of another through its object,
   encode again *)
Definition ex_dhistory : list dop :=
  [ DNew (mkSpec TCap (S"d1") FSingle None (Some (TCap, [(S"cpu", DInt 1)])));
    DNew (mkSpec TCap (S"d2") FDef (Some (S"p1")) (Some (TCap, [(S"ram", DInt 8)])));
    DNew (mkSpec TCap (S"d3") FRef (Some (S"p1")) None);
    DAdd [0%nat; 1%nat; 2%nat]; DEncode; DRemove (S"d1"); DSet 1 TCap [(S"ram", DInt 16)]; DGet (S"d2"); DEncode ].
