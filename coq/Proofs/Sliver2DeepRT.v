(* C02: deep dictionary and JSON round trips, for any nesting (induction on the sliver tree). *)
From Coq Require Import List String Bool.
From FIM Require Import Base.Str Model.Sliver2Kinds Gen.PropMap Model.Sliver2Map Model.Sliver2WF
  Model.Sliver2Deep Model.Sliver2DeepWF Proofs.Sliver2MapRT.
Import ListNotations.

(* the lemmas of this file must not depend on the CONTENT of the regenerated tables *)
Local Opaque enums type_enum to_base from_base to_specific from_specific setters getters init_attrs
  sliver_property_to_graph no_unset_properties child_keys node_id_prop.

Definition OForall {A} (P : A -> Prop) (o : option (list A)) : Prop :=
  match o with None => True | Some l => Forall P l end.

Section TreeInd.
  Variable P : tree -> Prop.
  Hypothesis HT : forall k nid a c n i, OForall P c -> OForall P n -> OForall P i -> P (T k nid a c n i).
  Fixpoint tree_ind' (t : tree) : P t :=
    match t with
    | T k nid a c n i =>
        let lf := fix lf (l : list tree) : Forall P l :=
                    match l with
                    | [] => Forall_nil P
                    | u :: r => Forall_cons u (tree_ind' u) (lf r)
                    end in
        let of := fun o : option (list tree) =>
                    match o return OForall P o with None => I | Some l => lf l end in
        HT k nid a c n i (of c) (of n) (of i)
    end.
End TreeInd.

Section DdInd.
  Variable P : dd -> Prop.
  Hypothesis HD : forall p kids, Forall (fun kl => Forall P (snd kl)) kids -> P (DD p kids).
  Fixpoint dd_ind' (d : dd) : P d :=
    match d with
    | DD p kids =>
        let lf := fix lf (l : list dd) : Forall P l :=
                    match l with
                    | [] => Forall_nil P
                    | u :: r => Forall_cons u (dd_ind' u) (lf r)
                    end in
        let kf := fix kf (ks : list (string * list dd)) : Forall (fun kl => Forall P (snd kl)) ks :=
                    match ks with
                    | [] => Forall_nil _
                    | kl :: r => Forall_cons kl (lf (snd kl)) (kf r)
                    end in
        HD p kids (kf kids)
    end.
End DdInd.

(* the anonymous function from_dict maps over the child entries, given a name (from_dict_eq ties the two
   by reflexivity, so it has to follow any edit of from_dict) *)
Definition conv (kl : string * list dd) : string * res (list tree) :=
  match kl with (key, l) => (key, mapM (from_dict (child_kind key)) l) end.

Lemma from_dict_eq k p kids :
  from_dict k (DD p kids) =
  bind (from_props k p) (fun a =>
  bind (if has_comps k then build_kids KComponent (alookup k_components (map conv kids)) else Ok None) (fun c =>
  bind (if has_nss k then build_kids KService (alookup k_services (map conv kids)) else Ok None) (fun n =>
  bind (if has_ifs k then build_kids KInterface (alookup k_interfaces (map conv kids)) else Ok None) (fun i =>
    Ok (T k (node_id_of p) a c n i))))).
Proof. reflexivity. Qed.

Lemma to_dict_eq k nid a c n i :
  to_dict (T k nid a c n i) =
  bind (to_props k a) (fun p =>
  bind (if has_comps k then optM (mapM to_dict) c else Ok None) (fun c' =>
  bind (if has_nss k then optM (mapM to_dict) n else Ok None) (fun n' =>
  bind (if has_ifs k then optM (mapM to_dict) i else Ok None) (fun i' =>
    Ok (DD p (kid_entry true k_components c' ++ kid_entry true k_services n'
              ++ kid_entry true k_interfaces i')))))).
Proof. reflexivity. Qed.

Definition kidsof (c' n' i' : option (list dd)) :=
  kid_entry true k_components c' ++ kid_entry true k_services n' ++ kid_entry true k_interfaces i'.

Lemma look_comps c' n' i' :
  alookup k_components (map conv (kidsof c' n' i')) = option_map (mapM (from_dict KComponent)) c'.
Proof. destruct c', n', i'; reflexivity. Qed.
Lemma look_nss c' n' i' :
  alookup k_services (map conv (kidsof c' n' i')) = option_map (mapM (from_dict KService)) n'.
Proof. destruct c', n', i'; reflexivity. Qed.
Lemma look_ifs c' n' i' :
  alookup k_interfaces (map conv (kidsof c' n' i')) = option_map (mapM (from_dict KInterface)) i'.
Proof. destruct c', n', i'; reflexivity. Qed.

Lemma t_name_forget t : t_name (forget_ids t) = t_name t.
Proof. destruct t; reflexivity. Qed.
Lemma t_attrs_forget t : t_attrs (forget_ids t) = t_attrs t.
Proof. destruct t; reflexivity. Qed.
Lemma t_kind_forget t : t_kind (forget_ids t) = t_kind t.
Proof. destruct t; reflexivity. Qed.
Lemma name_key_forget t : name_key (forget_ids t) = name_key t.
Proof. unfold name_key. rewrite t_name_forget. reflexivity. Qed.

Lemma dict_add_fresh t nm acc :
  forallb named acc = true -> existsb (str_eqb nm) (map name_key acc) = false ->
  dict_add t nm acc = acc ++ [t].
Proof.
  induction acc as [|u r IH]; simpl; intros Hn Hf; [reflexivity|].
  apply andb_true_iff in Hn as [Hu Hr]. apply orb_false_iff in Hf as [Hf1 Hf2].
  unfold named in Hu. unfold name_key in Hf1.
  destruct (t_name u) as [n'|]; [|discriminate].
  rewrite Hf1. rewrite IH by assumption. reflexivity.
Qed.

Definition child_ok (ck : kind) (u : tree) : bool :=
  named u && (if kind_eqb ck KComponent then typed u else true).

Lemma build_info_acc ck : forall l acc,
  forallb (child_ok ck) l = true -> forallb named acc = true ->
  names_nodup (map name_key (acc ++ l)) = true ->
  fold_left (add_child ck) l (Ok acc) = Ok (acc ++ l).
Proof.
  induction l as [|u l IH]; intros acc Hl Hacc Hnd; simpl.
  - rewrite app_nil_r. reflexivity.
  - apply andb_true_iff in Hl as [Hu Hl]. unfold child_ok in Hu. apply andb_true_iff in Hu as [Hnm Hty].
    assert (Hfresh : existsb (str_eqb (name_key u)) (map name_key acc) = false).
    { clear - Hnd. induction acc as [|v acc IHa]; simpl in *; [reflexivity|].
      apply andb_true_iff in Hnd as [H1 H2]. rewrite IHa by exact H2. rewrite orb_false_r.
      rewrite map_app in H1. rewrite existsb_app in H1. simpl in H1.
      apply negb_true_iff in H1. apply orb_false_iff in H1 as [_ H1]. apply orb_false_iff in H1 as [H1 _].
      destruct (str_eqb (name_key u) (name_key v)) eqn:E; [|reflexivity].
      apply str_eqb_eq in E. rewrite E in H1. rewrite str_eqb_refl in H1. discriminate. }
    unfold named in Hnm. unfold name_key in Hfresh.
    destruct (t_name u) as [nm|] eqn:En; [|discriminate].
    rewrite (dict_add_fresh u nm acc Hacc Hfresh).
    assert (Hacc' : forallb named (acc ++ [u]) = true).
    { rewrite forallb_app. rewrite Hacc. simpl. unfold named. rewrite En. reflexivity. }
    assert (Hnd' : names_nodup (map name_key ((acc ++ [u]) ++ l)) = true).
    { rewrite <- app_assoc. exact Hnd. }
    assert (Hgoal : fold_left (add_child ck) l (Ok (acc ++ [u])) = Ok (acc ++ u :: l)).
    { rewrite (IH (acc ++ [u]) Hl Hacc' Hnd'). rewrite <- app_assoc. reflexivity. }
    destruct ck; try exact Hgoal.
    simpl in Hty. unfold typed in Hty.
    destruct (alookup "resource_type" (t_attrs u)) as [[ty|]|]; try discriminate. exact Hgoal.
Qed.

Lemma build_info_ok ck l :
  forallb (child_ok ck) l = true -> names_nodup (map name_key l) = true -> build_info ck l = Ok l.
Proof. intros H1 H2. unfold build_info. apply (build_info_acc ck l [] H1 eq_refl H2). Qed.

Definition dict_rt (u : tree) : Prop :=
  tree_wf u = true -> exists d, to_dict u = Ok d /\ from_dict (t_kind u) d = Ok (forget_ids u).

Lemma kind_eqb_eq a b : kind_eqb a b = true -> a = b.
Proof. destruct a, b; simpl; intro H; try discriminate; reflexivity. Qed.

Lemma kids_list_rt ck : forall l,
  Forall dict_rt l ->
  forallb (fun u => kind_eqb (t_kind u) ck && tree_wf u && named u
                    && (if kind_eqb ck KComponent then typed u else true)) l = true ->
  exists ds, mapM to_dict l = Ok ds /\ mapM (from_dict ck) ds = Ok (map forget_ids l).
Proof.
  induction l as [|u l IH]; intros HF Hall.
  - exists []. split; reflexivity.
  - inversion HF as [|? ? Hu HFl]; subst. simpl in Hall.
    apply andb_true_iff in Hall as [Hu' Hall].
    apply andb_true_iff in Hu' as [Hu' _]. apply andb_true_iff in Hu' as [Hu' _].
    apply andb_true_iff in Hu' as [Hk Hwf]. apply kind_eqb_eq in Hk.
    destruct (Hu Hwf) as [d [Hd1 Hd2]]. destruct (IH HFl Hall) as [ds [Hds1 Hds2]].
    exists (d :: ds). split.
    + simpl. rewrite Hd1. simpl. rewrite Hds1. reflexivity.
    + simpl. rewrite <- Hk. rewrite Hd2. simpl. rewrite Hk. rewrite Hds2. reflexivity.
Qed.

Lemma slot_rt (b : bool) (ck : kind) (o : option (list tree)) :
  OForall dict_rt o -> slot_ok tree_wf b ck o = true ->
  exists o', (if b then optM (mapM to_dict) o else Ok None) = Ok o' /\
    (if b then build_kids ck (option_map (mapM (from_dict ck)) o') else Ok None)
    = Ok (option_map (map forget_ids) o).
Proof.
  intros HF Hs. destruct b; simpl in Hs.
  - destruct o as [l|]; simpl in *.
    + apply andb_true_iff in Hs as [Hs Hnd]. apply andb_true_iff in Hs as [Hne Hall].
      destruct (kids_list_rt ck l HF Hall) as [ds [H1 H2]].
      exists (Some ds). rewrite H1. split; [reflexivity|]. simpl. rewrite H2. simpl.
      destruct l as [|u l]; [discriminate|]. simpl map.
      assert (Hb : build_info ck (forget_ids u :: map forget_ids l) = Ok (forget_ids u :: map forget_ids l)).
      { change (forget_ids u :: map forget_ids l) with (map forget_ids (u :: l)).
        apply build_info_ok.
        - rewrite forallb_forall. intros x Hx. apply in_map_iff in Hx as [y [E Hy]]. subst x.
          rewrite forallb_forall in Hall. specialize (Hall y Hy).
          apply andb_true_iff in Hall as [Hall Hty]. apply andb_true_iff in Hall as [_ Hnm].
          unfold child_ok, named, typed in *. rewrite t_name_forget, t_attrs_forget.
          rewrite Hnm. exact Hty.
        - rewrite map_map. rewrite (map_ext _ name_key); [exact Hnd|]. intro; apply name_key_forget. }
      rewrite Hb. reflexivity.
    + exists None. split; reflexivity.
  - destruct o; [discriminate|]. exists None. split; reflexivity.
Qed.

Lemma in_all_kinds k : In k all_kinds.
Proof. destruct k; simpl; auto 6. Qed.

Lemma tables_ok_parts k : all_tables_ok = true ->
  tables_symmetric k = true /\ dict_tables_ok k = true /\ absent_ok k = true /\ absent_none k = true.
Proof.
  intro H. unfold all_tables_ok in H. rewrite forallb_forall in H. specialize (H k (in_all_kinds k)).
  apply andb_true_iff in H as [H H4]. apply andb_true_iff in H as [H H3]. apply andb_true_iff in H as [H1 H2]. auto.
Qed.

(* from here on the table check is a black box *)
Local Opaque all_tables_ok.

Lemma node_id_not_written k a p :
  tables_symmetric k = true -> dict_tables_ok k = true -> to_props k a = Ok p -> node_id_of p = None.
Proof.
  intros Hs Hd Hp. destruct (sym_parts k Hs) as [_ [NDg _]].
  unfold to_props in Hp. destruct (to_props_entries_spec a (to_table k) [] p NDg Hp) as [_ H2].
  unfold node_id_of, pget. rewrite H2; [reflexivity|].
  unfold dict_tables_ok in Hd. apply andb_true_iff in Hd as [Hd _]. apply andb_true_iff in Hd as [Hd _].
  rewrite forallb_forall in Hd.
  intro Hin. apply in_map_iff in Hin as [te [E Hte]]. specialize (Hd te Hte).
  apply andb_true_iff in Hd as [_ Hd]. unfold gp in E. rewrite E in Hd. rewrite String.eqb_refl in Hd. discriminate.
Qed.

Theorem dict_roundtrip_generic : all_tables_ok = true -> forall t, dict_rt t.
Proof.
  intro Hok. apply tree_ind'. intros k nid a c n i Hc Hn Hi Hwf.
  destruct (tables_ok_parts k Hok) as [Hs [Hd [_ Hnone]]].
  simpl in Hwf. repeat rewrite andb_true_iff in Hwf. destruct Hwf as [[[Ha Hsc] Hsn] Hsi].
  destruct (slot_rt _ _ c Hc Hsc) as [c' [Hc1 Hc2]].
  destruct (slot_rt _ _ n Hn Hsn) as [n' [Hn1 Hn2]].
  destruct (slot_rt _ _ i Hi Hsi) as [i' [Hi1 Hi2]].
  assert (Hrt := props_roundtrip_exact_generic k a Hs Hnone Ha).
  destruct (to_props k a) as [p|] eqn:Ep; [|discriminate]. simpl in Hrt.
  exists (DD p (kidsof c' n' i')). split.
  - rewrite to_dict_eq. rewrite Ep. cbn [bind]. rewrite Hc1, Hn1, Hi1. reflexivity.
  - cbn [t_kind]. rewrite from_dict_eq. rewrite Hrt. cbn [bind].
    rewrite look_comps, look_nss, look_ifs. rewrite Hc2, Hn2, Hi2. cbn [bind].
    rewrite (node_id_not_written k a p Hs Hd Ep). reflexivity.
Qed.

Lemma omap_map_rt (l : list dd) :
  Forall (fun d => jv_to_dd (dd_to_jv d) = Some d) l -> omap jv_to_dd (map dd_to_jv l) = Some l.
Proof.
  induction 1 as [|d l Hd HF IH]; simpl; [reflexivity|].
  rewrite Hd, IH. reflexivity.
Qed.

(* the anonymous fixpoint inside jv_to_dd, given a name (jv_to_dd_obj ties the two by reflexivity) *)
Definition jgo :=
  fix go (m : list (string * jv)) : option (props * list (string * list dd)) :=
    match m with
    | [] => Some ([], [])
    | (key, v) :: r =>
        match go r with
        | None => None
        | Some (p, kids) =>
            match v with
            | JNull => Some ((key, None) :: p, kids)
            | JStr s => Some ((key, Some s) :: p, kids)
            | JArr l => match omap jv_to_dd l with
                        | Some ds => Some (p, (key, ds) :: kids)
                        | None => None
                        end
            | JObj _ => None
            end
        end
    end.

Lemma jv_to_dd_obj m :
  jv_to_dd (JObj m) = match jgo m with Some (p, kids) => Some (DD p kids) | None => None end.
Proof. reflexivity. Qed.

Definition jprop (gv : string * pval) : string * jv :=
  (fst gv, match snd gv with Some s => JStr s | None => JNull end).
Definition jkid (kl : string * list dd) : string * jv := (fst kl, JArr (map dd_to_jv (snd kl))).

Lemma jgo_kids kids :
  Forall (fun kl => Forall (fun d => jv_to_dd (dd_to_jv d) = Some d) (snd kl)) kids ->
  jgo (map jkid kids) = Some ([], kids).
Proof.
  induction 1 as [|[key l] kids Hl HF IH]; [reflexivity|].
  simpl map. unfold jkid at 1. simpl fst. simpl snd.
  change (jgo ((key, JArr (map dd_to_jv l)) :: map jkid kids))
    with (match jgo (map jkid kids) with
          | None => None
          | Some (p, kids') => match omap jv_to_dd (map dd_to_jv l) with
                               | Some ds => Some (p, (key, ds) :: kids')
                               | None => None end
          end).
  rewrite IH. rewrite (omap_map_rt l Hl). reflexivity.
Qed.

Lemma jgo_props p m pk kids :
  jgo m = Some (pk, kids) -> jgo (map jprop p ++ m) = Some (p ++ pk, kids).
Proof.
  intro Hm. induction p as [|[g v] p IH]; [exact Hm|].
  simpl map. simpl app. unfold jprop at 1. simpl fst. simpl snd.
  destruct v as [s|].
  - change (jgo ((g, JStr s) :: map jprop p ++ m))
      with (match jgo (map jprop p ++ m) with
            | None => None | Some (p', kids') => Some ((g, Some s) :: p', kids') end).
    rewrite IH. reflexivity.
  - change (jgo ((g, JNull) :: map jprop p ++ m))
      with (match jgo (map jprop p ++ m) with
            | None => None | Some (p', kids') => Some ((g, None) :: p', kids') end).
    rewrite IH. reflexivity.
Qed.

Theorem json_value_roundtrip : forall d, jv_to_dd (dd_to_jv d) = Some d.
Proof.
  apply dd_ind'. intros p kids HF.
  change (dd_to_jv (DD p kids)) with (JObj (map jprop p ++ map jkid kids)).
  rewrite jv_to_dd_obj. rewrite (jgo_props p _ [] kids (jgo_kids kids HF)). rewrite app_nil_r. reflexivity.
Qed.

Theorem json_roundtrip_generic : all_tables_ok = true -> forall t,
  tree_wf t = true ->
  bind (sliver_to_json t) (sliver_from_json (t_kind t)) = Ok (forget_ids t).
Proof.
  intros Hok t Hwf. destruct (dict_roundtrip_generic Hok t Hwf) as [d [H1 H2]].
  unfold sliver_to_json, sliver_from_json. rewrite H1. cbn [bind].
  rewrite json_value_roundtrip. exact H2.
Qed.

Theorem dict_roundtrip_bind : all_tables_ok = true -> forall t,
  tree_wf t = true -> bind (to_dict t) (from_dict (t_kind t)) = Ok (forget_ids t).
Proof.
  intros Hok t Hwf. destruct (dict_roundtrip_generic Hok t Hwf) as [d [H1 H2]]. rewrite H1. exact H2.
Qed.
