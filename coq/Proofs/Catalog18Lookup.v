(* C18: component_details / search_catalog return exactly what the catalogue holds (any catalogue). *)
From Coq Require Import List ZArith String.
From FIM Require Import Base.Str Model.Catalog18.
Import ListNotations.

Lemma last_opt_in {A} (l : list A) x : last_opt l = Some x -> In x l.
Proof.
  unfold last_opt. destruct (rev l) as [|y r] eqn:E; intro H; [discriminate|]. inversion H; subst.
  apply in_rev. rewrite E. left. reflexivity.
Qed.
Lemma last_opt_none {A} (l : list A) : last_opt l = None -> l = [].
Proof.
  unfold last_opt. destruct (rev l) as [|y r] eqn:E; intro H; [|discriminate].
  rewrite <- (rev_involutive l), E. reflexivity.
Qed.

Theorem component_details_exact : forall cat m,
  match component_details cat m with
  | Ok d => exists e, In e cat /\ e_model e = m /\ e_details e = d
  | Err c => c = S"CatalogException" /\ forall e, In e cat -> e_model e <> m
  end.
Proof.
  intros cat m. unfold component_details.
  destruct (last_opt (filter (fun e => str_eqb m (e_model e)) cat)) as [e|] eqn:E.
  - apply last_opt_in in E. apply filter_In in E. destruct E as [He Hm]. apply str_eqb_eq in Hm.
    exists e. auto.
  - split; [reflexivity|]. apply last_opt_none in E. intros e He Hm.
    assert (Hin : In e (filter (fun e => str_eqb m (e_model e)) cat)).
    { apply filter_In. split; [exact He|]. apply str_eqb_eq. auto. }
    rewrite E in Hin. exact Hin.
Qed.

Lemma dict_set_in k v : forall d k' v', In (k', v') (dict_set_s k v d) -> (k' = k /\ v' = v) \/ In (k', v') d.
Proof.
  induction d as [|[k0 v0] d IH]; intros k' v' H; simpl in H.
  - destruct H as [H|[]]. inversion H. auto.
  - destruct (str_eqb k0 k) eqn:E.
    + apply str_eqb_eq in E. subst. destruct H as [H|H]; [inversion H; auto|right; right; exact H].
    + destruct H as [H|H]; [right; left; exact H|]. destruct (IH _ _ H) as [H1|H1]; [left; exact H1|right; right; exact H1].
Qed.
Lemma dict_set_has k v : forall d, In (k, v) (dict_set_s k v d).
Proof.
  induction d as [|[k0 v0] d IH]; simpl; [left; reflexivity|].
  destruct (str_eqb k0 k) eqn:E; [apply str_eqb_eq in E; subst; left; reflexivity|right; exact IH].
Qed.
Lemma dict_set_keeps k v : forall d k' v', In (k', v') d -> exists v'', In (k', v'') (dict_set_s k v d).
Proof.
  induction d as [|[k0 v0] d IH]; intros k' v' H; [destruct H|]. simpl.
  destruct (str_eqb k0 k) eqn:E.
  - destruct H as [H|H]; [inversion H; subst; exists v; left; apply str_eqb_eq in E; subst; reflexivity|exists v'; right; exact H].
  - destruct H as [H|H]; [exists v'; left; exact H|]. destruct (IH _ _ H) as [v'' H']. exists v''. right. exact H'.
Qed.

Lemma fold_dict_sound : forall l d m dd,
  In (m, dd) (fold_left (fun d e => dict_set_s (e_model e) (e_details e) d) l d) ->
  In (m, dd) d \/ exists e, In e l /\ e_model e = m /\ e_details e = dd.
Proof.
  induction l as [|e l IH]; intros d m dd H; simpl in H; [left; exact H|].
  destruct (IH _ _ _ H) as [H1|[e' [He' H2]]].
  - destruct (dict_set_in _ _ _ _ _ H1) as [[-> ->]|H3]; [right; exists e; simpl; auto|left; exact H3].
  - right. exists e'. simpl. auto.
Qed.
Lemma fold_dict_keeps : forall l d k v, In (k, v) d ->
  exists v', In (k, v') (fold_left (fun d e => dict_set_s (e_model e) (e_details e) d) l d).
Proof.
  induction l as [|e l IH]; intros d k v H; simpl; [exists v; exact H|].
  destruct (dict_set_keeps (e_model e) (e_details e) d k v H) as [v'' H']. apply (IH _ _ _ H').
Qed.
Lemma fold_dict_complete : forall l d e, In e l ->
  exists v', In (e_model e, v') (fold_left (fun d e => dict_set_s (e_model e) (e_details e) d) l d).
Proof.
  induction l as [|e0 l IH]; intros d e H; [destruct H|]. simpl. destruct H as [->|H].
  - apply (fold_dict_keeps l _ (e_model e) (e_details e)). apply dict_set_has.
  - apply IH. exact H.
Qed.

Theorem search_catalog_exact : forall cat t,
  match search_catalog cat t with
  | Ok d => (forall m dd, In (m, dd) d -> exists e, In e cat /\ e_type e = t /\ e_model e = m /\ e_details e = dd) /\
            (forall e, In e cat -> e_type e = t -> exists dd, In (e_model e, dd) d)
  | Err c => c = S"CatalogException" /\ forall e, In e cat -> e_type e <> t
  end.
Proof.
  intros cat t. unfold search_catalog.
  destruct (filter (fun e => str_eqb t (e_type e)) cat) as [|e0 l] eqn:E.
  - split; [reflexivity|]. intros e He Ht.
    assert (Hin : In e (filter (fun e => str_eqb t (e_type e)) cat)) by (apply filter_In; split; [exact He|apply str_eqb_eq; auto]).
    rewrite E in Hin. exact Hin.
  - rewrite <- E. split.
    + intros m dd H. destruct (fold_dict_sound _ _ _ _ H) as [[]|[e [He [Hm Hd]]]].
      apply filter_In in He. destruct He as [He Ht]. apply str_eqb_eq in Ht. exists e. auto.
    + intros e He Ht. apply fold_dict_complete. apply filter_In. split; [exact He|apply str_eqb_eq; auto].
Qed.

(* a model_type that is not a member of the combined enumeration is refused with KeyError, in any catalogue *)
Theorem foreign_model_type_refused : forall cat name nsid ids labs parent,
  gen_component cat name (ByModelType 0) nsid ids labs parent = Err (S"KeyError").
Proof. reflexivity. Qed.
