(* C01 proofs: node-link JSON at the value level; relabelling and stamping; the store: its invariant, and
   that extract finds what add_graph / add_graph_direct filed. *)
From Coq Require Import List NArith Bool Lia.
From FIM Require Import Base.ListFacts Base.Str Model.Serial1Graph Proofs.Serial1Doc.
Import ListNotations.
Open Scope N_scope.
Local Arguments N.eqb : simpl nomatch.

Lemma memN_In k l : memN k l = true <-> In k l.
Proof. apply (existsb_eqb_In N.eqb N.eqb_eq). Qed.
Lemma memN_false k l : memN k l = false <-> ~ In k l.
Proof. apply (existsb_eqb_notIn N.eqb N.eqb_eq). Qed.

Lemma nodupN_NoDup l : nodupN l = true <-> NoDup l.
Proof.
  induction l as [|x l IH]; simpl.
  - split; intro; [constructor|reflexivity].
  - rewrite andb_true_iff, negb_true_iff, memN_false, IH. split.
    + intros [H1 H2]. constructor; assumption.
    + intro H. inversion H; subst. split; assumption.
Qed.

Lemma lookup_app {V} k (a b : list (N * V)) :
  lookup k (a ++ b) = match lookup k a with Some x => Some x | None => lookup k b end.
Proof.
  induction a as [|[k' v] r IH]; [reflexivity|]. simpl. destruct (N.eqb k' k); [reflexivity|exact IH].
Qed.
Lemma lookup_none {V} k (l : list (N * V)) : ~ In k (map fst l) -> lookup k l = None.
Proof.
  induction l as [|[k' v] r IH]; intro H; [reflexivity|]. simpl.
  destruct (N.eqb_spec k' k) as [->|NE]; [exfalso; apply H; left; reflexivity|].
  apply IH. intro Hin. apply H. right. exact Hin.
Qed.
Lemma lookup_some {V} k (l : list (N * V)) : In k (map fst l) -> exists v, lookup k l = Some v.
Proof.
  induction l as [|[k' v] r IH]; intro H; [destruct H|]. simpl.
  destruct (N.eqb_spec k' k) as [->|NE]; [exists v; reflexivity|].
  destruct H as [H|H]; [simpl in H; congruence|]. apply IH, H.
Qed.
Lemma lookup_In {V} k (l : list (N * V)) v : lookup k l = Some v -> In k (map fst l).
Proof.
  induction l as [|[k' w] r IH]; [discriminate|]. simpl.
  destruct (N.eqb_spec k' k) as [->|NE]; [intros _; left; reflexivity|]. intro H. right. apply IH, H.
Qed.

Lemma jset_notin k v o : ~ In k (map fst o) -> jset k v o = o ++ [(k, v)].
Proof.
  induction o as [|[k' w] r IH]; intro H; [reflexivity|]. simpl.
  destruct (N.eqb_spec k' k) as [->|NE]; [exfalso; apply H; left; reflexivity|].
  rewrite IH; [reflexivity|]. intro Hin. apply H. right. exact Hin.
Qed.
Lemma map_fst_jprops ps : map fst (jprops ps) = map fst ps.
Proof. unfold jprops. rewrite map_map. reflexivity. Qed.

(* the objects node_link_data writes for dicts without structural names: the dict, then the structural entries *)
Lemma node_obj k ps : ~ In P_id (map fst ps) -> jset P_id (JK k) (jprops ps) = jprops ps ++ [(P_id, JK k)].
Proof. intro H. apply jset_notin. rewrite map_fst_jprops. exact H. Qed.
Lemma edge_obj u v ps : ~ In P_source (map fst ps) -> ~ In P_target (map fst ps) ->
  jset P_target (JK v) (jset P_source (JK u) (jprops ps)) = jprops ps ++ [(P_source, JK u); (P_target, JK v)].
Proof.
  intros HS HT. rewrite (jset_notin P_source) by (rewrite map_fst_jprops; exact HS).
  rewrite jset_notin, <- app_assoc; [reflexivity|].
  rewrite map_app, map_fst_jprops. intro H. apply in_app_or in H as [H|[H|[]]]; [exact (HT H)|discriminate].
Qed.

Lemma junprops_app skip a b :
  junprops skip (a ++ b) = match junprops skip a, junprops skip b with
                           | Some x, Some y => Some (x ++ y) | _, _ => None end.
Proof.
  induction a as [|[k v] r IH]; simpl.
  - destruct (junprops skip b); reflexivity.
  - destruct (skip k); [exact IH|]. destruct v as [p|n].
    + rewrite IH. destruct (junprops skip r), (junprops skip b); reflexivity.
    + destruct (junprops skip b); reflexivity.
Qed.
Lemma junprops_jprops skip ps : (forall k, In k (map fst ps) -> skip k = false) -> junprops skip (jprops ps) = Some ps.
Proof.
  induction ps as [|[k v] r IH]; intro H; [reflexivity|]. simpl.
  rewrite (H k (or_introl eq_refl)). rewrite IH; [reflexivity|]. intros k' Hk. apply H. right. exact Hk.
Qed.

(* reading such an object back: the structural entries are found behind the dict, the dict is what is left *)
Lemma jget_behind k ps tl : ~ In k (map fst ps) -> jget k (jprops ps ++ tl) = jget k tl.
Proof. intro H. unfold jget. rewrite lookup_app, lookup_none; [reflexivity|]. rewrite map_fst_jprops. exact H. Qed.
Lemma junprops_behind skip ps tl : (forall k, In k (map fst ps) -> skip k = false) -> junprops skip tl = Some [] ->
  junprops skip (jprops ps ++ tl) = Some ps.
Proof. intros H T. rewrite junprops_app, junprops_jprops, T, app_nil_r by exact H. reflexivity. Qed.

Lemma graph_json_ok_iff g : graph_json_ok g = true <->
  (forall n, In n (g_nodes g) -> ~ In P_id (map fst (snd n)))
  /\ (forall e, In e (g_edges g) -> ~ In P_source (map fst (snd e)) /\ ~ In P_target (map fst (snd e))).
Proof.
  unfold graph_json_ok. rewrite andb_true_iff, !forallb_forall.
  assert (M : forall k l, negb (memN k l) = true <-> ~ In k l) by (intros; rewrite negb_true_iff; apply memN_false).
  split; intros [A B]; (split; [intros n Hn; apply M, A, Hn|intros e He]).
  - specialize (B _ He). rewrite andb_true_iff, !M in B. exact B.
  - rewrite andb_true_iff, !M. apply B, He.
Qed.

Theorem json_roundtrip g : graph_json_ok g = true -> jread (jwrite g) = Some g.
Proof.
  intro OK. apply graph_json_ok_iff in OK as [HN HE]. unfold jread, jwrite. cbn [j_nodes j_links].
  rewrite !opt_list_unmap; [destruct g; reflexivity| |].
  - intros [[u v] ps] He. destruct (HE _ He) as [HS HT]. cbn [snd] in HS, HT.
    rewrite edge_obj, !jget_behind by assumption. rewrite junprops_behind; [reflexivity| |reflexivity].
    intros k Hk. apply orb_false_iff. split; apply N.eqb_neq; intros <-; auto.
  - intros [k ps] Hn. specialize (HN _ Hn). cbn [fst snd] in *.
    rewrite node_obj, jget_behind by assumption. rewrite junprops_behind; [reflexivity| |reflexivity].
    intros k' Hk. apply N.eqb_neq. intros <-. auto.
Qed.

Fixpoint zip_ids (k : N) (ns : list gnode) : list gnode :=
  match ns with
  | [] => []
  | (_, ps) :: r => (k, ps) :: zip_ids (N.succ k) r
  end.
Definition ren (m : list (nkey * N)) (u : nkey) : N := match lookup u m with Some i => i | None => 0 end.
Definition relabelled (first : N) (g : nxg) : nxg :=
  let m := numbering first (g_nodes g) in
  {| g_nodes := zip_ids first (g_nodes g);
     g_edges := map (fun e => let '(u, v, ps) := e in (ren m u, ren m v, ps)) (g_edges g) |}.

Lemma map_snd_zip_ids k ns : map snd (zip_ids k ns) = map snd ns.
Proof. revert k. induction ns as [|[key ps] r IH]; intro k; [reflexivity|]. simpl. rewrite IH. reflexivity. Qed.

Lemma zip_ids_range k ns i : In i (map fst (zip_ids k ns)) -> k <= i < k + N.of_nat (List.length ns).
Proof.
  revert k. induction ns as [|[key ps] r IH]; intros k H; [destruct H|]. simpl in H. destruct H as [<-|H].
  - simpl List.length. lia.
  - apply IH in H. simpl List.length. lia.
Qed.

Lemma zip_ids_nodup k ns : NoDup (map fst (zip_ids k ns)).
Proof.
  revert k. induction ns as [|[key ps] r IH]; intro k; simpl; constructor; [|apply IH].
  intro H. apply zip_ids_range in H. lia.
Qed.

Lemma numbering_fst k ns : map fst (numbering k ns) = map fst ns.
Proof. revert k. induction ns as [|[key ps] r IH]; intro k; [reflexivity|]. simpl. rewrite IH. reflexivity. Qed.

(* the node with key u gets id i, and under id i sits what sat under u *)
Lemma numbering_lookup ns : forall first u, NoDup (map fst ns) -> In u (map fst ns) ->
  exists i, lookup u (numbering first ns) = Some i /\ lookup i (zip_ids first ns) = lookup u ns /\ first <= i.
Proof.
  induction ns as [|[key ps] r IH]; intros first u ND Hin; [destruct Hin|].
  inversion ND; subst. simpl. destruct (N.eqb_spec key u) as [->|NE].
  - exists first. rewrite N.eqb_refl. split; [reflexivity|]. split; [reflexivity|lia].
  - destruct Hin as [E|Hin]; [simpl in E; congruence|].
    destruct (IH (N.succ first) u H2 Hin) as (i & L1 & L2 & L3).
    exists i. split; [exact L1|]. split; [|lia].
    destruct (N.eqb_spec first i); [lia|]. exact L2.
Qed.

Lemma relabel_nodes ns : forall first m, NoDup (map fst ns) ->
  (forall n, In n ns -> lookup (fst n) m = lookup (fst n) (numbering first ns)) ->
  opt_list (fun n => match lookup (fst n) m with Some i => Some (i, snd n) | None => None end) ns
  = Some (zip_ids first ns).
Proof.
  induction ns as [|[key ps] r IH]; intros first m ND H; [reflexivity|].
  inversion ND; subst. cbn [opt_list fst snd].
  pose proof (H (key, ps) (or_introl eq_refl)) as H0. cbn [fst numbering lookup] in H0. rewrite N.eqb_refl in H0.
  rewrite H0.
  rewrite (IH (N.succ first) m H3); [reflexivity|].
  intros n Hn. rewrite (H n (or_intror Hn)). cbn [numbering lookup].
  destruct (N.eqb_spec key (fst n)) as [E|NE]; [|reflexivity].
  exfalso. apply H2. rewrite E. apply in_map, Hn.
Qed.

Definition closed (g : nxg) : Prop :=
  forall e, In e (g_edges g) -> In (fst (fst e)) (map fst (g_nodes g)) /\ In (snd (fst e)) (map fst (g_nodes g)).

Lemma relabel_spec first g : NoDup (map fst (g_nodes g)) -> closed g -> relabel first g = Some (relabelled first g).
Proof.
  intros ND CL. unfold relabel, relabelled.
  rewrite (relabel_nodes _ first _ ND (fun n _ => eq_refl)).
  rewrite (opt_list_map _ (fun e => let '(u, v, ps) := e in
             (ren (numbering first (g_nodes g)) u, ren (numbering first (g_nodes g)) v, ps))); [reflexivity|].
  intros [[u v] ps] He. destruct (CL _ He) as [A B]. simpl in A, B.
  destruct (numbering_lookup _ first u ND A) as (i & Li & _). destruct (numbering_lookup _ first v ND B) as (j & Lj & _).
  unfold ren. rewrite Li, Lj. reflexivity.
Qed.

Lemma content_relabelled first g : NoDup (map fst (g_nodes g)) -> closed g ->
  content (relabelled first g) = content g.
Proof.
  intros ND CL. unfold content. f_equal.
  - simpl. apply map_snd_zip_ids.
  - simpl. rewrite map_map. apply map_ext_in. intros [[u v] ps] He.
    destruct (CL _ He) as [A B]. simpl in A, B.
    destruct (numbering_lookup _ first u ND A) as (i & Li & Zi & _).
    destruct (numbering_lookup _ first v ND B) as (j & Lj & Zj & _).
    unfold node_id_of, ren. simpl. rewrite Li, Lj, Zi, Zj. reflexivity.
Qed.

Lemma relabelled_closed first g : NoDup (map fst (g_nodes g)) -> closed g -> closed (relabelled first g).
Proof.
  intros ND CL e He. simpl in He. apply in_map_iff in He as ([[u v] ps] & <- & H0).
  destruct (CL _ H0) as [A B]. simpl in A, B.
  destruct (numbering_lookup _ first u ND A) as (i & Li & Zi & _).
  destruct (numbering_lookup _ first v ND B) as (j & Lj & Zj & _).
  destruct (lookup_some u (g_nodes g) A) as (pu & Pu). destruct (lookup_some v (g_nodes g) B) as (pv & Pv).
  unfold ren. simpl. rewrite Li, Lj. split.
  - eapply lookup_In. rewrite Zi. exact Pu.
  - eapply lookup_In. rewrite Zj. exact Pv.
Qed.

Lemma relabelled_snd k g :
  map snd (g_nodes (relabelled k g)) = map snd (g_nodes g) /\ map snd (g_edges (relabelled k g)) = map snd (g_edges g).
Proof.
  split; simpl; [apply map_snd_zip_ids|]. rewrite map_map. apply map_ext. intros [[u v] ps]. reflexivity.
Qed.

Lemma forallb_snd {A B} (f : B -> bool) (l l2 : list (A * B)) : map snd l = map snd l2 ->
  forallb (fun n => f (snd n)) l = forallb (fun n => f (snd n)) l2.
Proof.
  revert l2. induction l as [|x l IH]; intros [|y l2] H; try discriminate; [reflexivity|].
  simpl in *. inversion H. rewrite H1, (IH l2 H2). reflexivity.
Qed.

Lemma relabelled_ids_ok k g : graph_ids_ok (relabelled k g) = graph_ids_ok g.
Proof. apply (forallb_snd (fun ps => truthy (pget P_NodeID ps))), relabelled_snd. Qed.

Lemma pget_pset_same k v ps : pget k (pset k v ps) = Some v.
Proof.
  induction ps as [|[k' w] r IH]; simpl; [rewrite N.eqb_refl; reflexivity|].
  destruct (N.eqb_spec k' k) as [->|NE]; simpl; [rewrite N.eqb_refl; reflexivity|].
  destruct (N.eqb_spec k' k); [contradiction|exact IH].
Qed.
Lemma pget_pset_other k k2 v ps : k <> k2 -> pget k2 (pset k v ps) = pget k2 ps.
Proof.
  intro NE. induction ps as [|[k' w] r IH]; simpl.
  - destruct (N.eqb_spec k k2); [contradiction|reflexivity].
  - destruct (N.eqb_spec k' k) as [->|NE2]; simpl.
    + destruct (N.eqb_spec k k2); [contradiction|reflexivity].
    + destruct (N.eqb k' k2); [reflexivity|exact IH].
Qed.

Lemma stamp_fst gid g : map fst (g_nodes (stamp gid g)) = map fst (g_nodes g).
Proof. simpl. rewrite map_map. reflexivity. Qed.

Lemma stamp_has_gid gid g n : In n (g_nodes (stamp gid g)) -> has_gid gid n = true.
Proof.
  simpl. intro H. apply in_map_iff in H as (n0 & <- & _).
  unfold has_gid, node_gid. simpl. rewrite pget_pset_same. apply str_eqb_refl.
Qed.

Lemma content_stamp gid g : content (stamp gid g) = (map (pset P_GraphID (PStr gid)) (fst (content g)), snd (content g)).
Proof.
  unfold content, stamp. simpl. f_equal.
  - rewrite !map_map. reflexivity.
  - apply map_ext. intros [[u v] ps]. unfold node_id_of. simpl.
    assert (L : forall k, match lookup k (map (fun n : gnode => (fst n, pset P_GraphID (PStr gid) (snd n))) (g_nodes g)) with
                          | Some ps0 => pget P_NodeID ps0 | None => None end
                          = match lookup k (g_nodes g) with Some ps0 => pget P_NodeID ps0 | None => None end).
    { intro k. induction (g_nodes g) as [|[k' w] r IH]; [reflexivity|]. simpl.
      destruct (N.eqb k' k); [apply pget_pset_other; discriminate|exact IH]. }
    rewrite !L. reflexivity.
Qed.

(* store_wf as a proposition *)
Definition swf (s : store) : Prop :=
  NoDup (map fst (s_nodes s))
  /\ (forall n, In n (s_nodes s) -> fst n < s_next s)
  /\ (forall e, In e (s_edges s) -> In (fst (fst e)) (map fst (s_nodes s)) /\ In (snd (fst e)) (map fst (s_nodes s))).

Lemma store_wf_swf s : store_wf s = true <-> swf s.
Proof.
  unfold store_wf, swf. rewrite !andb_true_iff, !forallb_forall, nodupN_NoDup.
  assert (E : forall e : gedge, (let '(u, v, _) := e in memN u (map fst (s_nodes s)) && memN v (map fst (s_nodes s))) = true
                <-> In (fst (fst e)) (map fst (s_nodes s)) /\ In (snd (fst e)) (map fst (s_nodes s))).
  { intros [[u v] ps]. rewrite andb_true_iff, !memN_In. reflexivity. }
  split.
  - intros [[A B] C]. split; [exact A|]. split; [intros n Hn; apply N.ltb_lt, B, Hn|intros e He; apply E, C, He].
  - intros (A & B & C). split; [split; [exact A|intros n Hn; apply N.ltb_lt, B, Hn]|intros e He; apply E, C, He].
Qed.

(* a graph that can be appended to a store whose counter stands at k: its node ids are distinct, lie in the
   block the counter then skips, and its edges stay inside it *)
Definition fresh_for (k : N) (t : nxg) : Prop :=
  NoDup (map fst (g_nodes t)) /\ closed t
  /\ forall i, In i (map fst (g_nodes t)) -> k <= i < k + N.of_nat (List.length (g_nodes t)).

Lemma relabelled_fresh k g : NoDup (map fst (g_nodes g)) -> closed g -> fresh_for k (relabelled k g).
Proof.
  intros ND CL. split; [apply zip_ids_nodup|]. split; [apply relabelled_closed; assumption|].
  intros i Hi. simpl in *. apply zip_ids_range in Hi.
  rewrite <- (map_length snd (zip_ids _ _)), map_snd_zip_ids, map_length. exact Hi.
Qed.

Lemma stamp_fresh gid k t : fresh_for k t -> fresh_for k (stamp gid t).
Proof.
  unfold fresh_for, closed. rewrite stamp_fst. simpl. rewrite map_length. auto.
Qed.

Lemma merge_swf s t : swf s -> fresh_for (s_next s) t -> swf (merge s t).
Proof.
  intros (A & B & C) (ND & CL & R). split; [|split]; simpl.
  - rewrite map_app. apply NoDup_app_intro; [exact A|exact ND|].
    intros x Hx Hx2. apply in_map_iff in Hx as (n & <- & Hn). specialize (B _ Hn). specialize (R _ Hx2). lia.
  - intros n Hn. apply in_app_or in Hn as [Hn|Hn]; [specialize (B _ Hn); lia|].
    specialize (R _ (in_map fst _ _ Hn)). lia.
  - intros e He. rewrite map_app. apply in_app_or in He as [He|He].
    + destruct (C _ He) as [C1 C2]. split; apply in_or_app; left; assumption.
    + destruct (CL _ He) as [C1 C2]. split; apply in_or_app; right; assumption.
Qed.

(* after appending a fresh graph all of whose nodes carry [gid] to a store without [gid], extracting [gid] returns it *)
Lemma extract_merge s gid t :
  swf s -> (forall n, In n (s_nodes s) -> has_gid gid n = false) -> fresh_for (s_next s) t ->
  g_nodes t <> [] -> (forall n, In n (g_nodes t) -> has_gid gid n = true) ->
  extract (merge s t) gid = Some t.
Proof.
  intros (_ & B & C) NG (_ & CL & R) NE HT. unfold extract, merge. cbn [s_nodes s_edges].
  rewrite filter_app, (filter_none _ _ NG), (filter_all _ (g_nodes t)) by exact HT.
  cbn [app]. destruct t as [tn te]. cbn [g_nodes g_edges] in *.
  destruct tn as [|n0 ns0]; [congruence|]. f_equal. f_equal.
  rewrite filter_app. rewrite filter_none, filter_all; [reflexivity| |].
  - intros [[u v] ps] He. destruct (CL _ He) as [A1 A2]. cbn [fst snd g_nodes] in A1, A2.
    apply memN_In in A1. apply memN_In in A2. rewrite A1, A2. reflexivity.
  - intros [[u v] ps] He. destruct (C _ He) as [A _]. cbn [fst snd] in A.
    apply in_map_iff in A as (n & <- & Hn). specialize (B _ Hn).
    apply andb_false_iff. left. apply memN_false. intro H. specialize (R _ H). lia.
Qed.

(* add_graph and add_graph_direct first drop what the store holds under the graph id *)
Definition cleared (s : store) (gid : str) : store :=
  if existsb (has_gid gid) (s_nodes s) then del_graph s gid else s.

Lemma del_graph_swf s gid : swf s -> swf (del_graph s gid).
Proof.
  intros (A & B & C). split; [|split]; simpl.
  - apply NoDup_map_filter, A.
  - intros n Hn. apply filter_In in Hn as [Hn _]. apply B, Hn.
  - intros [[u v] ps] He. apply filter_In in He as [He K]. apply andb_true_iff in K as [K1 K2].
    apply negb_true_iff, memN_false in K1. apply negb_true_iff, memN_false in K2.
    destruct (C _ He) as [C1 C2]. simpl in *.
    assert (keep : forall w, In w (map fst (s_nodes s)) ->
                   ~ In w (map fst (filter (has_gid gid) (s_nodes s))) ->
                   In w (map fst (filter (fun n => negb (has_gid gid n)) (s_nodes s)))).
    { intros w Hw NW. apply in_map_iff in Hw as (n & <- & Hn). apply in_map. apply filter_In. split; [exact Hn|].
      destruct (has_gid gid n) eqn:E; [|reflexivity]. exfalso. apply NW. apply in_map. apply filter_In. split; assumption. }
    split; apply keep; assumption.
Qed.

Lemma cleared_swf s gid : swf s -> swf (cleared s gid).
Proof. unfold cleared. destruct (existsb _ _); [apply del_graph_swf|auto]. Qed.
Lemma cleared_next s gid : s_next (cleared s gid) = s_next s.
Proof. unfold cleared. destruct (existsb _ _); reflexivity. Qed.
Lemma cleared_no_gid s gid : forall n, In n (s_nodes (cleared s gid)) -> has_gid gid n = false.
Proof.
  unfold cleared. destruct (existsb (has_gid gid) (s_nodes s)) eqn:E; intros n Hn.
  - simpl in Hn. apply filter_In in Hn as [_ H]. apply negb_true_iff in H. exact H.
  - destruct (has_gid gid n) eqn:H; [|reflexivity].
    assert (existsb (has_gid gid) (s_nodes s) = true) by (apply existsb_exists; exists n; split; assumption). congruence.
Qed.

Definition copy_of (s : store) (gid : str) (g : nxg) : nxg := stamp gid (relabelled (s_next s) g).
Definition copy_direct (s : store) (g : nxg) : nxg := relabelled (s_next s) g.

Lemma content_stamp_relabelled gid k g : NoDup (map fst (g_nodes g)) -> closed g ->
  content (stamp gid (relabelled k g)) = content (stamp gid g).
Proof. intros ND CL. rewrite !content_stamp, (content_relabelled _ g ND CL). reflexivity. Qed.

Lemma relabelled_nonempty k g : g_nodes g <> [] -> g_nodes (relabelled k g) <> [].
Proof. simpl. destruct (g_nodes g) as [|[key ps] r]; [congruence|discriminate]. Qed.

Lemma add_graph_eq s gid g : NoDup (map fst (g_nodes g)) -> closed g ->
  add_graph s gid g = if graph_ids_ok g then (merge (cleared s gid) (copy_of s gid g), ROk gid)
                      else (cleared s gid, RErrImport).
Proof.
  intros ND CL. unfold add_graph, copy_of. fold (cleared s gid).
  rewrite (relabel_spec _ g ND CL), cleared_next. fold (graph_ids_ok (relabelled (s_next s) g)).
  rewrite relabelled_ids_ok. reflexivity.
Qed.

Lemma add_graph_direct_eq s gid g : NoDup (map fst (g_nodes g)) -> closed g ->
  add_graph_direct s gid g = (merge (cleared s gid) (copy_direct s g), ROk gid).
Proof.
  intros ND CL. unfold add_graph_direct, copy_direct. fold (cleared s gid).
  rewrite (relabel_spec _ g ND CL), cleared_next. reflexivity.
Qed.

Theorem add_graph_spec s gid g :
  swf s -> NoDup (map fst (g_nodes g)) -> closed g -> graph_ids_ok g = true -> g_nodes g <> [] ->
  exists s', add_graph s gid g = (s', ROk gid) /\ extract s' gid = Some (copy_of s gid g).
Proof.
  intros W ND CL IDS NE. rewrite (add_graph_eq s gid g ND CL), IDS. eexists. split; [reflexivity|].
  apply extract_merge; [apply cleared_swf, W|apply cleared_no_gid| | |apply stamp_has_gid].
  - rewrite cleared_next. apply stamp_fresh, relabelled_fresh; assumption.
  - simpl. intro H. apply map_eq_nil in H. exact (relabelled_nonempty _ g NE H).
Qed.

Theorem add_graph_direct_spec s gid g :
  swf s -> NoDup (map fst (g_nodes g)) -> closed g -> (forall n, In n (g_nodes g) -> has_gid gid n = true) ->
  g_nodes g <> [] ->
  exists s', add_graph_direct s gid g = (s', ROk gid) /\ extract s' gid = Some (copy_direct s g).
Proof.
  intros W ND CL HG NE. rewrite (add_graph_direct_eq s gid g ND CL). eexists. split; [reflexivity|].
  apply extract_merge; [apply cleared_swf, W|apply cleared_no_gid| |apply relabelled_nonempty, NE|].
  - rewrite cleared_next. apply relabelled_fresh; assumption.
  - apply forallb_forall. unfold copy_direct.
    rewrite (forallb_snd (fun ps => match node_gid ps with Some x => str_eqb x gid | None => false end)
               _ (g_nodes g)) by apply relabelled_snd.
    apply forallb_forall, HG.
Qed.
