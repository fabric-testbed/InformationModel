(* C01 proofs: what serialize_graph puts into the text, in ANY store - also one that holds links between nodes
   of different graph ids (cross-graph links, as merge_nodes leaves them): exactly the graph's own nodes and the
   links with both ends in it; and the round trip: that text, imported through any entry point
   (Proofs/Serial1Main.v), files a copy of the stored graph. *)
From Coq Require Import List NArith Bool.
From FIM Require Import Model.Serial1Graph.
From FIM Require Import Proofs.Serial1Store Proofs.Serial1Main.
Import ListNotations.
Open Scope N_scope.

Lemma extract_some s gid g : extract s gid = Some g ->
  g_nodes g <> [] /\ g_nodes g = filter (has_gid gid) (s_nodes s)
  /\ g_edges g = filter (fun e : gedge => let '(u, v, _) := e in
                                          memN u (map fst (g_nodes g)) && memN v (map fst (g_nodes g))) (s_edges s).
Proof.
  unfold extract. destruct (filter (has_gid gid) (s_nodes s)) as [|n0 r]; [discriminate|].
  intro H. injection H as <-. split; [discriminate|]. split; reflexivity.
Qed.

Theorem extract_exact s gid g : extract s gid = Some g ->
  (forall n, In n (g_nodes g) <-> In n (s_nodes s) /\ has_gid gid n = true)
  /\ (forall e, In e (g_edges g) <->
                In e (s_edges s) /\ In (fst (fst e)) (map fst (g_nodes g)) /\ In (snd (fst e)) (map fst (g_nodes g)))
  /\ closed g.
Proof.
  intro H. destruct (extract_some s gid g H) as (_ & EN & EE).
  assert (EDGE : forall e, In e (g_edges g) <->
                 In e (s_edges s) /\ In (fst (fst e)) (map fst (g_nodes g)) /\ In (snd (fst e)) (map fst (g_nodes g))).
  { intros [[u v] ps]. rewrite EE at 1. rewrite filter_In, andb_true_iff, !memN_In. reflexivity. }
  split; [intro n; rewrite EN; apply filter_In|]. split; [exact EDGE|]. intros e He. apply EDGE, He.
Qed.

Lemma extract_facts s gid g : extract s gid = Some g ->
  g_nodes g <> [] /\ (forall n, In n (g_nodes g) -> has_gid gid n = true).
Proof.
  intro E. split; [apply (extract_some s gid g E)|]. intros n Hn. apply (proj1 (extract_exact s gid g E)), Hn.
Qed.

Theorem serialize_graph_denotes f s gid g : extract s gid = Some g -> fmt_ok f g = true ->
  exists t, serialize_graph s gid f = Some (Some t) /\ text_graph t = Some g.
Proof.
  intros E OK. destruct (serialize_then_read f g OK) as (t & SE & RD). exists t.
  unfold serialize_graph. rewrite E, SE. split; [reflexivity|exact RD].
Qed.

Theorem serialize_graph_absent f s gid : extract s gid = None -> serialize_graph s gid f = None.
Proof. intro E. unfold serialize_graph. rewrite E. reflexivity. Qed.

Theorem roundtrip_restamp f ep s gid gid' g :
  is_direct ep = false -> store_wf s = true -> extract s gid = Some g ->
  fmt_ok f g = true -> graph_ids_ok g = true ->
  exists t s' g',
    serialize_graph s gid f = Some (Some t)
    /\ import_via ep s t gid' = (s', ROk gid')
    /\ extract s' gid' = Some g'
    /\ g' = copy_of s gid' g
    /\ content g' = content (restamp gid' g).
Proof.
  intros D W E OK IDS. destruct (serialize_graph_denotes f s gid g E OK) as (t & SE & TG).
  destruct (load_restamp_any_store ep s t gid' g D W TG (fmt_ok_shape f g OK) IDS (proj1 (extract_facts _ _ _ E)))
    as (s' & A & B & C).
  exists t, s', (copy_of s gid' g). auto.
Qed.

Theorem roundtrip_direct f ep s gid g :
  is_direct ep = true -> store_wf s = true -> extract s gid = Some g -> fmt_ok f g = true ->
  forall gid', exists t s' g',
    serialize_graph s gid f = Some (Some t)
    /\ import_via ep s t gid' = (s', ROk gid)
    /\ extract s' gid = Some g'
    /\ g' = copy_direct s g
    /\ content g' = content g.
Proof.
  intros D W E OK gid'. destruct (serialize_graph_denotes f s gid g E OK) as (t & SE & TG).
  destruct (extract_facts _ _ _ E) as [NE HG].
  destruct (load_direct_any_store ep s t gid g D W TG (fmt_ok_shape f g OK) NE HG gid') as (s' & A & B & C).
  exists t, s', (copy_direct s g). auto.
Qed.

Theorem validates_after_import_restamp jsonok f ep s gid gid' g :
  (forall v, jsonok P_GraphID v = true) ->
  is_direct ep = false -> store_wf s = true -> extract s gid = Some g ->
  fmt_ok f g = true -> graph_ids_ok g = true -> validate jsonok g = true ->
  exists t s' g', serialize_graph s gid f = Some (Some t) /\ import_via ep s t gid' = (s', ROk gid')
                  /\ extract s' gid' = Some g' /\ validate jsonok g' = true.
Proof.
  intros JG D W E OK I V.
  destruct (roundtrip_restamp f ep s gid gid' g D W E OK I) as (t & s' & g' & A1 & A2 & A3 & -> & _).
  exists t, s', (copy_of s gid' g). auto using validate_copy_of.
Qed.

Theorem validates_after_import_direct jsonok f ep s gid g :
  is_direct ep = true -> store_wf s = true -> extract s gid = Some g ->
  fmt_ok f g = true -> validate jsonok g = true ->
  forall gid', exists t s' g', serialize_graph s gid f = Some (Some t) /\ import_via ep s t gid' = (s', ROk gid)
                  /\ extract s' gid = Some g' /\ validate jsonok g' = true.
Proof.
  intros D W E OK V gid'.
  destruct (roundtrip_direct f ep s gid g D W E OK gid') as (t & s' & g' & A1 & A2 & A3 & -> & _).
  exists t, s', (copy_direct s g). unfold copy_direct at 2. rewrite relabelled_validate. auto.
Qed.

Lemma pset_same k v ps : pget k ps = Some v -> pset k v ps = ps.
Proof.
  induction ps as [|[k' w] r IH]; [discriminate|]. simpl. destruct (N.eqb_spec k' k) as [->|NE].
  - intro H. inversion H. reflexivity.
  - intro H. rewrite IH by exact H. reflexivity.
Qed.

Lemma stamp_own gid g : (forall n, In n (g_nodes g) -> has_gid gid n = true) -> stamp gid g = g.
Proof.
  intro HG. unfold stamp. destruct g as [ns es]. simpl in *. f_equal.
  rewrite <- (map_id ns) at 2. apply map_ext_in. intros [k ps] Hn. simpl. f_equal.
  apply pset_same. apply (has_gid_inv gid (k, ps)), HG, Hn.
Qed.

(* a stored graph is serialized (a snapshot); then - whatever happened to the stored graph in between, [s2] is any
   store - the snapshot is loaded back under the graph's own id through any entry point: afterwards the id holds
   exactly the snapshot's content *)
Theorem reload_same_id f ep s s2 gid g :
  store_wf s = true -> extract s gid = Some g -> fmt_ok f g = true -> graph_ids_ok g = true -> store_wf s2 = true ->
  exists t, serialize_graph s gid f = Some (Some t)
            /\ forall gid', exists s' g', import_via ep s2 t (if is_direct ep then gid' else gid) = (s', ROk gid)
                                         /\ extract s' gid = Some g' /\ content g' = content g.
Proof.
  intros W E OK IDS W2. destruct (serialize_graph_denotes f s gid g E OK) as (t & SE & TG).
  exists t. split; [exact SE|]. intro gid'.
  destruct (extract_facts _ _ _ E) as [NE HG]. pose proof (fmt_ok_shape f g OK) as SH.
  destruct (is_direct ep) eqn:D.
  - destruct (load_direct_any_store ep s2 t gid g D W2 TG SH NE HG gid') as (s' & A & B & C). eauto.
  - destruct (load_restamp_any_store ep s2 t gid g D W2 TG SH IDS NE) as (s' & A & B & C).
    change (restamp gid g) with (stamp gid g) in C. rewrite (stamp_own gid g HG) in C. eauto.
Qed.
