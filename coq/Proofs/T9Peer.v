(* C09 - NetworkService.peer (since fix 1e03994): whatever step is refused, the ports made so far are removed.
   Stated for any two handles (names and cached interface names as the handles carry them): add_interface and peer
   use what the handle cached and read nothing from the graph before they write. *)
From Coq Require Import List NArith Bool String.
From FIM Require Import Base.Str Gen.T9Names Model.T9Graph Model.T9Ops Proofs.T9Monad Proofs.T9Simple Proofs.T9Ext
     Proofs.T9Rollback Proofs.T9Connect Proofs.T9Refuted.
Import ListNotations.
Open Scope N_scope.

(* a port that hangs on a service (neither a ConnectionPoint nor a Link) and on nothing else can be removed *)
Lemma remove_fresh_port G a o fr :
  closed G -> NoDup (ids G) -> ~ In (nid o) (ids G) -> In a (ids G) ->
  has_cls G cCP a = false -> has_cls G cLink a = false ->
  remove_cp_and_links (nid o) (mkSt (plus_port G a o) fr) = (mkSt G fr, Ok tt).
Proof.
  intros Hcl Hnd Hnew Ha Hcp Hlk.
  set (E := plus_port G a o).
  assert (HndE : NoDup (ids E)) by (apply plus_port_nodup; auto).
  assert (Hfind : find_node E (nid o) = Ok o).
  { apply find_node_unique; auto. unfold E, plus_port; simpl. apply in_app_iff. right. left. reflexivity. }
  assert (Hne : a <> nid o) by (intro X; apply Hnew; rewrite <- X; exact Ha).
  assert (Hunt : untouched (nid o) (gedges G)) by (apply closed_untouched; auto).
  assert (Hadj : adj_rel E (nid o) rConnects = [a]).
  { unfold adj_rel, E, plus_port. cbn [gedges]. rewrite flat_map_app.
    fold (adj_es (gedges G) (nid o) rConnects). rewrite (adj_es_untouched _ _ _ Hunt). simpl.
    unfold other_end; simpl. rewrite (neqb_of_neq a (nid o)) by auto. rewrite N.eqb_refl. reflexivity. }
  assert (Hca : forall k, has_cls E k a = has_cls G k a).
  { intro k. unfold E, plus_port. apply has_cls_app_old. exact Ha. }
  rewrite (remove_plain_port E (nid o) o fr Hfind).
  - unfold remove_node_raw, E, plus_port. cbn [gnodes gedges].
    rewrite filter_old_nodes, filter_old_edges by auto.
    simpl. rewrite N.eqb_refl. simpl. unfold touches; simpl. rewrite N.eqb_refl, orb_true_r. simpl.
    rewrite !app_nil_r. destruct G; reflexivity.
  - intros y Hy. rewrite Hadj in Hy. destruct Hy as [<-|[]]. rewrite !Hca. auto.
Qed.

Lemma node_cls_facts g a : node_cls g a = Ok cNS ->
  In a (ids g) /\ has_cls g cCP a = false /\ has_cls g cLink a = false.
Proof.
  unfold node_cls, find_node, has_cls, cls_of. intro H.
  destruct (find_nodes g a) as [|n [|m r]] eqn:E; try discriminate. inversion H as [Hc].
  split; [|rewrite Hc; split; reflexivity].
  assert (In n (find_nodes g a)) by (rewrite E; left; auto).
  unfold find_nodes in H0. apply filter_In in H0 as [Hin He]. apply N.eqb_eq in He. subst. apply in_map; auto.
Qed.

(* when the parent is there the look-up changes nothing *)
Lemma new_interface_pc_eq fl name node_id p itype pure s :
  (exists n, find_node (sg s) p = Ok n) ->
  new_interface_pc fl name node_id p itype pure s = new_interface fl name node_id (Some p) itype pure s.
Proof.
  intros [n Hn]. unfold new_interface_pc, new_interface, bind.
  destruct (guard (negb (is_substrate fl && match node_id with None => true | Some _ => false end)) ETopology s)
    as [s1 [u|e]] eqn:E1; [|reflexivity].
  apply guard_ok in E1 as [-> _].
  destruct (id_or_draw node_id s) as [s2 [id|e]] eqn:E2; [|reflexivity].
  apply id_or_draw_ok in E2 as (G2 & _ & _).
  destruct itype as [ty|]; [|reflexivity].
  destruct (guard (name_ok rule_iface name) EValue s2) as [s3 [u3|e]] eqn:E3; [|reflexivity].
  apply guard_ok in E3 as [-> _].
  destruct (opt_raise pure s2) as [s4 [u4|e]] eqn:E4; [|reflexivity].
  apply opt_raise_ok in E4 as ->.
  unfold ask. rewrite G2, Hn. reflexivity.
Qed.

Lemma port_on_service_h pc fl G a cached name pure s s1 r :
  closed G -> NoDup (ids G) -> In a (ids G) -> sg s = G ->
  add_interface_h pc fl a cached name None (Some tServicePort) pure s = (s1, r) ->
  match r with
  | Err _ => sg s1 = G
  | Ok p => ~ In p (ids G) /\ sg s1 = plus_port G a (mkNode p cCP name tServicePort 0)
  end.
Proof.
  intros Hcl Hnd Ha Hsg H.
  apply (add_port_cases fl G a cached name None tServicePort pure s s1 r Hcl Hnd Ha Hsg).
  destruct pc; [|exact H].
  unfold add_interface_h in H. unfold add_interface_cached.
  unfold bind in *. destruct (guard (negb (str_in name cached)) ETopology s) as [s0 [u|e]] eqn:Eg; [|exact H].
  apply guard_ok in Eg as [-> _].
  rewrite <- new_interface_pc_eq; [exact H|]. rewrite Hsg. apply found_In; auto.
Qed.

Lemma peer_h_atomic pc fl a an ca b bn cb pure g fresh s' e :
  wf_graph g = true -> node_cls g a = Ok cNS -> node_cls g b = Ok cNS ->
  op_peer_h pc fl a an ca b bn cb pure (mkSt g fresh) = (s', Err e) -> sg s' = g.
Proof.
  intros Hwf Hca Hcb H. assert (Hcl := wf_closed g Hwf). assert (Hnd := wf_nodup g Hwf).
  destruct (node_cls_facts g a Hca) as (Ha & Ha1 & Ha2).
  destruct (node_cls_facts g b Hcb) as (Hb & Hb1 & Hb2).
  unfold op_peer_h in H.
  apply bind_err_cases in H as [H|(s1 & i1 & H1 & H)].
  { exact (port_on_service_h pc fl g a ca _ pure (mkSt g fresh) s' (Err e) Hcl Hnd Ha eq_refl H). }
  destruct (port_on_service_h pc fl g a ca _ pure (mkSt g fresh) s1 (Ok i1) Hcl Hnd Ha eq_refl H1) as (Hnew1 & Hs1).
  set (G1 := plus_port g a _) in *.
  assert (HclG1 : closed G1) by (apply plus_port_closed; auto).
  assert (HndG1 : NoDup (ids G1)) by (apply plus_port_nodup; auto).
  assert (HbG1 : In b (ids G1)) by (unfold G1; rewrite ids_plus_port; apply in_app_iff; left; exact Hb).
  (* the outer handler removes the first port from G1: whatever the inner part did, it failed leaving G1 *)
  eapply catch_undo; [|exact H]. intros [g2 fr2] e2 Hm. exists fr2.
  assert (Hs2 : g2 = G1); [|subst g2; apply (remove_fresh_port g a); auto].
  change (sg (mkSt g2 fr2) = G1).
  apply bind_err_cases in Hm as [Hm|(s3 & i2 & H3 & Hm)].
  { exact (port_on_service_h pc fl G1 b cb _ None s1 _ (Err e2) HclG1 HndG1 HbG1 Hs1 Hm). }
  destruct (port_on_service_h pc fl G1 b cb _ None s1 s3 (Ok i2) HclG1 HndG1 HbG1 Hs1 H3) as (Hnew2 & Hs3).
  eapply catch_undo; [|exact Hm]. intros [g4 fr4] e4 Hl. exists fr4.
  apply bind_ret_err, new_link_atomic in Hl. simpl in Hl. rewrite Hs3 in Hl. subst g4.
  apply (remove_fresh_port G1 b); auto; unfold G1, plus_port; rewrite has_cls_app_old; auto.
Qed.

(* through two handles made just now *)
Lemma peer_atomic fl a b pure g fresh s' e :
  wf_graph g = true -> node_cls g a = Ok cNS -> node_cls g b = Ok cNS ->
  op_peer fl a b pure (mkSt g fresh) = (s', Err e) -> sg s' = g.
Proof.
  intros Hwf Hca Hcb H. unfold op_peer in H.
  apply (bind_check (check_ask _)) in H as [[-> _]|(an & _ & H)]; [reflexivity|].
  apply (bind_check (check_ask _)) in H as [[-> _]|(bn & _ & H)]; [reflexivity|].
  apply (bind_check (check_ask _)) in H as [[-> _]|(ca & _ & H)]; [reflexivity|].
  apply (bind_check (check_ask _)) in H as [[-> _]|(cb & _ & H)]; [reflexivity|].
  exact (peer_h_atomic false fl a an ca b bn cb pure g fresh s' e Hwf Hca Hcb H).
Qed.

(* witnesses: a stale service handle, no parent look-up *)

Lemma add_interface_stale_refuted :
  exists fl ns cached name nid ty pure g fresh s' e,
    wf_graph g = true /\ add_interface_h false fl ns cached name nid ty pure (mkSt g fresh) = (s', Err e) /\ sg s' <> g.
Proof.
  exists Experiment, 77, [], (S "p9"), None, (Some tFacilityPort), None, g_two_nodes, supply,
         (fst (add_interface_h false Experiment 77 [] (S "p9") None (Some tFacilityPort) None (mkSt g_two_nodes supply))), EQuery.
  split; [exact g_two_nodes_wf|]. split; [vm_compute; reflexivity|differs].
Qed.

Lemma ex_add_interface_stale_pc :
  let r := add_interface_h true Experiment 77 [] (S "p9") None (Some tFacilityPort) None (mkSt g_two_nodes supply) in
  snd r = Err EQuery /\ sg (fst r) = g_two_nodes.
Proof. vm_compute. auto. Qed.

Lemma peer_stale_refuted :
  exists fl a an ca b bn cb pure g fresh s' e,
    wf_graph g = true /\ op_peer_h false fl a an ca b bn cb pure (mkSt g fresh) = (s', Err e) /\ sg s' <> g.
Proof.
  exists Experiment, 30, (S "a"), [], 77, (S "gone"), [], None, g_two_services, supply,
         (fst (op_peer_h false Experiment 30 (S "a") [] 77 (S "gone") [] None (mkSt g_two_services supply))), EQuery.
  split; [vm_compute; reflexivity|]. split; [vm_compute; reflexivity|differs].
Qed.

Lemma ex_peer_stale_pc :
  let r := op_peer_h true Experiment 30 (S "a") [] 77 (S "gone") [] None (mkSt g_two_services supply) in
  snd r = Err EQuery /\ sg (fst r) = g_two_services.
Proof. vm_compute. auto. Qed.
