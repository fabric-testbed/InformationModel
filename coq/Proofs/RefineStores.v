(* C05: the two storage models refine the reference model, one step of an operation of the property's
   quantifier at a time: the graph-object methods through [sim_pg_step], delete_graph and
   find_matching_nodes on their own. *)
From Coq Require Import List NArith Bool.
From FIM Require Import Base.ListFacts Base.Assoc Model.Store Model.StoreDisjoint Model.PGSpec.
From FIM Require Import Proofs.IsolationBase Proofs.IsolationShared Proofs.IsolationFrame Proofs.IsolationDisjoint.
From FIM Require Import Proofs.RefineBase Proofs.RefineUnique Proofs.RefineSim.
Import ListNotations.
Open Scope N_scope.

(* ---------- every link joins two stored nodes: preserved ---------- *)
Lemma In_set_edge a b ps p q d l : In (p, q, d) (set_edge a b ps l) -> exists d', In (p, q, d') l.
Proof.
  induction l as [|[[x y] e] r IH]; [intros []|]. cbn [set_edge].
  destruct (edge_is a b (x, y, e)); cbn [fst snd].
  - intros [H|H]; [inversion H; subst; exists e; now left | exists d; now right].
  - intros [H|H]; [exists d; now left | destruct (IH H) as [d' Hd]; exists d'; now right].
Qed.

Lemma closed_set_node G id ps : EClosed G -> EClosed (nx_set_node G id ps).
Proof.
  intros H a b q Hin. unfold ids, nx_set_node in *. cbn [gn ge] in *. rewrite map_fst_set_node. now apply (H a b q).
Qed.

Lemma closed_set_edge G a b ps : EClosed G -> EClosed (nx_set_edge G a b ps).
Proof.
  intros H p q d Hin. unfold nx_set_edge in Hin. cbn [ge] in Hin. apply In_set_edge in Hin as [d' Hd].
  exact (H p q d' Hd).
Qed.

Lemma closed_add_edge G a b ps : In a (ids G) -> In b (ids G) -> EClosed G -> EClosed (nx_add_edge G a b ps).
Proof.
  intros Ha Hb H. unfold nx_add_edge. destruct (nx_edge G a b); [now apply closed_set_edge|].
  intros p q d Hin. cbn [ge] in Hin. apply in_app_or in Hin as [Hin|[Hin|[]]].
  - exact (H p q d Hin).
  - inversion Hin; subst. now split.
Qed.

Lemma closed_remove_node G x : EClosed G -> EClosed (nx_remove_node G x).
Proof.
  intros H a b q Hin. unfold nx_remove_node, ids in *. cbn [gn ge] in *.
  apply filter_In in Hin as [Hin Ht]. destruct (H a b q Hin) as [Ha Hb].
  unfold edge_touches in Ht. apply negb_true_iff in Ht. apply orb_false_iff in Ht as [Ta Tb].
  rewrite (map_fst_filter_fst (fun i => negb (N.eqb i x))). split; apply filter_In; split; auto; now apply negb_true_iff.
Qed.

Lemma closed_remove_nodes G l : EClosed G -> EClosed (nx_remove_nodes G l).
Proof.
  intros H a b q Hin. unfold nx_remove_nodes, ids in *. cbn [gn ge] in *.
  apply filter_In in Hin as [Hin Ht]. destruct (H a b q Hin) as [Ha Hb].
  apply negb_true_iff in Ht. apply orb_false_iff in Ht as [Ta Tb].
  rewrite (map_fst_filter_fst (fun i => negb (memN i l))). split; apply filter_In; split; auto; now apply negb_true_iff.
Qed.

Lemma closed_add_node G g newid n c ps G' :
  nx_node G newid = None -> EClosed G -> pg_add_node G g newid n c ps = Some G' -> EClosed G'.
Proof.
  intros Hfresh H Hadd. destruct (pg_add_node_result G g newid n c ps G' Hfresh Hadd) as [_ ->].
  intros a b q Hin. destruct (H a b q Hin) as [Ha Hb]. unfold ids. cbn [gn]. rewrite map_app. split; apply in_or_app; now left.
Qed.

(* extract_graph returns what the graph id sees *)
Lemma extract_is_view G g :
  NoDup (ids G) ->
  s_extract G g = match fst (view G g) with [] => None | _ => Some (mkI (fst (view G g)) (snd (view G g))) end.
Proof.
  intro Hnd. unfold s_extract. rewrite search_graphid_ids_in. unfold view. cbn [fst snd].
  destruct (ids_in G g) as [|x r] eqn:Ei.
  - apply map_eq_nil in Ei. now rewrite Ei.
  - rewrite <- Ei, (filter_memN_ids_in G g Hnd). unfold ids_in in Ei.
    destruct (filter (in_g g) (gn G)); [discriminate | reflexivity].
Qed.

Lemma collect_snd (l : list node) : collect_nodeids (map (fun nd => (0, snd nd)) l) = collect_nodeids l.
Proof.
  induction l as [|[i ps] r IH]; [reflexivity|]. cbn [map collect_nodeids snd].
  destruct (aget k_nodeid ps); [|reflexivity]. destruct (hashable p); [|reflexivity]. now rewrite IH.
Qed.

Lemma matching_result_snd mine (l : list node) :
  matching_result mine (map (fun ps => (0, ps)) (map snd l)) = matching_result mine l.
Proof. unfold matching_result. rewrite map_map. now rewrite collect_snd. Qed.

Lemma sim_matching G g g2 :
  NoDup (ids G) -> s_matching G g g2 = sp_matching (abs_nxg G g) (abs_nxg G g2).
Proof.
  intro Hnd. unfold s_matching, sp_matching. rewrite (sim_list_ids G g Hnd).
  destruct (sp_list_ids (abs_nxg G g)) as [[| |mine| |]|e]; try reflexivity.
  destruct (negb (forallb hashable mine)); [reflexivity|].
  rewrite (extract_is_view G g2 Hnd). unfold abs_nxg at 1, abs_of_view. cbn [sn].
  destruct (fst (view G g2)) as [|nd r] eqn:E; [reflexivity|]. cbn [inodes map].
  symmetry. exact (matching_result_snd mine (nd :: r)).
Qed.

(* in the one-graph-per-id store a graph id sees all of its nx.Graph *)
Lemma view_whole G g : homed g G -> EClosed G -> view G g = (gn G, ge G).
Proof.
  intros Hh Hcl. unfold view, ids_in. rewrite (filter_all (in_g g) (gn G)) by (apply forallb_forall, Hh). f_equal.
  apply filter_all. intros [[a b] ps] Hin. destruct (Hcl a b ps Hin) as [Ha Hb]. unfold in_ids.
  apply memN_In in Ha, Hb. unfold ids in Ha, Hb. now rewrite Ha, Hb.
Qed.

Lemma sim_matching_disjoint d g g2 :
  (forall x, NoDup (ids (dget d x))) -> (forall x, EClosed (dget d x)) -> DHome d ->
  d_matching d g g2 = sp_matching (abs_disjoint d g) (abs_disjoint d g2).
Proof.
  intros Hnd Hcl Hhome. unfold d_matching, sp_matching, abs_disjoint. rewrite (sim_list_ids (dget d g) g (Hnd g)).
  destruct (sp_list_ids (abs_nxg (dget d g) g)) as [[| |mine| |]|e]; try reflexivity.
  destruct (negb (forallb hashable mine)); [reflexivity|].
  unfold abs_nxg at 1. rewrite (view_whole _ g2 (Hhome g2) (Hcl g2)). symmetry. apply matching_result_snd.
Qed.

Definition refines_shared (s : store) (sp : spec) : Prop := forall g, abs_shared s g = sget sp g.
Definition refines_disjoint (d : dstore) (sp : spec) : Prop := forall g, abs_disjoint d g = sget sp g.

(* a step that replaces what graph id g sees by X and leaves the other ids alone *)
Lemma refines_shared_update s' sp' s sp g X :
  refines_shared s sp -> (forall g', g' <> g -> view (sg s') g' = view (sg s) g') ->
  abs_nxg (sg s') g = X -> (forall g', sget sp' g' = if N.eqb g' g then X else sget sp g') -> refines_shared s' sp'.
Proof.
  intros HR Hfr Hab Hsp g'. rewrite Hsp. unfold abs_shared. destruct (N.eqb_spec g' g) as [->|E]; [exact Hab|].
  unfold abs_nxg. rewrite (Hfr g' E). apply HR.
Qed.

Lemma refines_disjoint_update d' sp' d sp g X :
  refines_disjoint d sp -> (forall g', g' <> g -> dget d' g' = dget d g') ->
  abs_nxg (dget d' g) g = X -> (forall g', sget sp' g' = if N.eqb g' g then X else sget sp g') -> refines_disjoint d' sp'.
Proof.
  intros HR Hfr Hab Hsp g'. rewrite Hsp. unfold abs_disjoint. destruct (N.eqb_spec g' g) as [->|E]; [exact Hab|].
  rewrite (Hfr g' E). apply HR.
Qed.

Lemma spec_frame_scope o : in_spec_scope o = true -> frame_scope o = true.
Proof.
  assert (K : forall u, negb (writes_identity u) = true -> negb (ahas k_graphid u) = true).
  { intros u H. apply negb_true_iff, orb_false_iff in H as [H _]. now rewrite H. }
  assert (Kk : forall ig, keys_ok ig = true -> edges_ok ig = true).
  { intros ig H. apply andb_true_iff in H as [H _]. now apply andb_true_iff in H as [_ H]. }
  destruct o; cbn; try reflexivity; auto.
  - intro H. apply andb_true_iff in H as [H1 H2]. now rewrite (Kk ig H1).
  - destruct ps as [u|]; auto.
  - unfold is_identity. intro H. apply negb_true_iff, orb_false_iff in H as [H _]. now rewrite H.
  - unfold is_identity. intro H. apply negb_true_iff, orb_false_iff in H as [H _]. now rewrite H.
Qed.

Lemma scope0_spec o : refine_scope0 o = true -> in_spec_scope o = true.
Proof. destruct o; cbn; auto; discriminate. Qed.

Lemma shared_pg_step_refines s sp o :
  SInv s -> EClosed (sg s) -> pg_op o = true -> in_spec_scope o = true -> refines_shared s sp ->
  refines_shared (fst (sstep s o)) (fst (spec_step sp o)) /\ snd (sstep s o) = snd (spec_step sp o).
Proof.
  intros HI Hcl Hpg Hsc HR. destruct (sstep_pg s o Hpg) as [Eg Er], (spec_step_pg sp o Hpg) as [Fg Fr].
  destruct (sim_pg_step (sg s) (snext s) o (SInv_NoDup s HI) Hcl (SInv_next_fresh s HI) Hpg Hsc) as [A B].
  pose proof (HR (target o)) as Ht. unfold abs_shared in Ht. rewrite Ht in A, B.
  split; [|now rewrite Er, Fr].
  eapply (refines_shared_update _ _ s sp (target o)); [exact HR | | rewrite Eg; exact A | exact Fg].
  intros g' Hne. apply frame_step; auto. now apply spec_frame_scope.
Qed.

Lemma disjoint_pg_step_refines d sp o :
  DInv d -> (forall g, EClosed (dget d g)) -> pg_op o = true -> in_spec_scope o = true -> refines_disjoint d sp ->
  refines_disjoint (fst (dstep d o)) (fst (spec_step sp o)) /\ snd (dstep d o) = snd (spec_step sp o).
Proof.
  intros HI Hcl Hpg Hsc HR. destruct (dstep_pg d o Hpg) as [Eg Er], (spec_step_pg sp o Hpg) as [Fg Fr].
  set (g := target o) in *.
  destruct (sim_pg_step (dget d g) (dcounter d g) o (SInv_NoDup _ (HI g)) (Hcl g) (DInv_fresh d g HI) Hpg Hsc) as [A B].
  pose proof (HR g) as Ht. unfold abs_disjoint in Ht. fold g in A, B. rewrite Ht in A, B.
  split; [|now rewrite Er, Fr].
  eapply (refines_disjoint_update _ _ d sp g); [exact HR | | rewrite Eg, N.eqb_refl; exact A | exact Fg].
  intros g' Hne. rewrite Eg. apply N.eqb_neq in Hne. now rewrite Hne.
Qed.

Theorem shared_step_refines s sp o :
  SInv s -> EClosed (sg s) -> refine_scope0 o = true -> refines_shared s sp ->
  refines_shared (fst (sstep s o)) (fst (spec_step sp o)) /\ snd (sstep s o) = snd (spec_step sp o).
Proof.
  intros HI Hcl Hsc HR.
  destruct (pg_op o) eqn:Ep; [apply shared_pg_step_refines; auto; now apply scope0_spec|].
  destruct o; try discriminate; cbn [sstep spec_step].
  - split; [|reflexivity]. cbn [fst]. apply (refines_shared_update _ _ s sp g empty_sg HR).
    + intros g' Hne. apply frame_del_graph_nxg; [apply SInv_NoDup, HI | congruence].
    + apply sim_del_graph.
    + intro g'. apply sget_sput.
  - split; [exact HR|]. cbn [snd]. rewrite <- (HR g), <- (HR g2). apply sim_matching, HI.
Qed.

Theorem disjoint_step_refines d sp o :
  DInv d -> (forall g, EClosed (dget d g)) -> DHome d -> refine_scope0 o = true -> refines_disjoint d sp ->
  refines_disjoint (fst (dstep d o)) (fst (spec_step sp o)) /\ snd (dstep d o) = snd (spec_step sp o).
Proof.
  intros HI Hcl Hhome Hsc HR.
  destruct (pg_op o) eqn:Ep; [apply disjoint_pg_step_refines; auto; now apply scope0_spec|].
  destruct o; try discriminate; cbn [dstep spec_step].
  - split; [|reflexivity]. cbn [fst]. apply (refines_disjoint_update _ _ d sp g empty_sg HR).
    + intros g' Hne. unfold d_del_graph. destruct (gn (dget d g)); [reflexivity | apply dget_put_other; congruence].
    + apply abs_sees_none. unfold d_del_graph. destruct (gn (dget d g)) eqn:E; [now rewrite E|]. now rewrite dget_dput, N.eqb_refl.
    + intro g'. apply sget_sput.
  - split; [exact HR|]. cbn [snd]. rewrite <- (HR g), <- (HR g2). apply sim_matching_disjoint; auto. intro x. apply (HI x).
Qed.
