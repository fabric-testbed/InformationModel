(* C07 - reflection: the boolean checker wf_b that the harness evaluates on every snapshot of the
   implementation decides the declarative statement WF. *)
From Coq Require Import List Bool Arith.
From FIM Require Import Base.Str Gen.Rules Model.T7Graph Model.T7Ops Model.T7WF Proofs.T7Tables.
From FIM Require Export Base.ListFacts.
Import ListNotations.

Lemma cls_eqb_eq a b : cls_eqb a b = true <-> a = b.
Proof. destruct a, b; simpl; split; congruence. Qed.
Lemma cls_eqb_refl a : cls_eqb a a = true.
Proof. destruct a; reflexivity. Qed.
Lemma rel_eqb_eq a b : rel_eqb a b = true <-> a = b.
Proof. destruct a, b; simpl; split; congruence. Qed.
Lemma ostr_eqb_eq a b : ostr_eqb a b = true <-> a = b.
Proof.
  destruct a, b; simpl; split; intro H; try reflexivity; try discriminate.
  - apply str_eqb_eq in H. congruence.
  - inversion H; subst. apply str_eqb_refl.
Qed.
Lemma len_is_eq {A} (l : list A) n : len_is l n = true <-> length l = n.
Proof. unfold len_is. apply Nat.eqb_eq. Qed.

Lemma nodup_b_NoDup l : nodup_b l = true <-> NoDup l.
Proof.
  induction l as [|x l IH]; simpl; [split; [constructor | reflexivity]|].
  rewrite andb_true_iff, negb_true_iff, IH, <- not_true_iff_false, mem_str_In.
  split; [intros []; constructor | intro H; inversion H]; auto.
Qed.

(* a checker that refuses a list as soon as an element clashes with a later one decides "no ordered pair clashes" *)
Lemma ord_pairs_reflect {A} (R : A -> A -> bool) (chk : list A -> bool) :
  chk [] = true -> (forall a l, chk (a :: l) = negb (existsb (R a) l) && chk l) ->
  forall l, chk l = true <-> ForallOrdPairs (fun a b => R a b = false) l.
Proof.
  intros H0 HS. induction l as [|a l IH]; [split; [constructor | auto]|].
  rewrite HS, andb_true_iff, negb_true_iff, existsb_false, IH, <- Forall_forall.
  split; [intros []; constructor | intro H; inversion H]; auto.
Qed.

Lemma edges_nodup_b_P l : edges_nodup_b l = true <-> edges_distinct l.
Proof. exact (ord_pairs_reflect (fun e e' => same_ends e' (ea e) (eb e)) edges_nodup_b eq_refl (fun _ _ => eq_refl) l). Qed.

Lemma names_unique_in_P g l : names_unique_in g l = true <-> ForallOrdPairs (fun a b => name_clash g a b = false) l.
Proof. exact (ord_pairs_reflect (name_clash g) (names_unique_in g) eq_refl (fun _ _ => eq_refl) l). Qed.

Lemma has_id_In g x : has_id g x = true <-> exists n, In n (gnodes g) /\ nid n = x.
Proof.
  unfold has_id. rewrite existsb_exists.
  split; intros [n [H1 H2]]; exists n; (split; [exact H1 | apply str_eqb_eq; exact H2]).
Qed.

Lemma fields_ok_P n : fields_ok n = true <-> fields_P n.
Proof.
  unfold fields_ok, fields_P.
  destruct (ntyp n), (nname n); split; try discriminate; eauto; intros [t [nm [H1 H2]]]; discriminate.
Qed.

Lemma vocab_ok_P n : vocab_ok n = true <-> vocab_P n.
Proof.
  unfold vocab_ok, vocab_ok_in, vocab_P. destruct (class_name (ncls n)) as [c|]; split; intro H.
  - apply andb_true_iff in H as [H1 H2]. exists c. split; [reflexivity|]. split; [apply mem_str_In; exact H1|].
    intros v t Hv Ht. rewrite Hv, Ht in H2. apply mem_str_In. exact H2.
  - destruct H as [c' [Hc [Hin Hty]]]. inversion Hc; subst c'. apply andb_true_iff. split; [apply mem_str_In; exact Hin|].
    destruct (assoc_str c rule_types) as [v|] eqn:Ev; [|reflexivity].
    destruct (ntyp n) as [t|] eqn:Et; [|reflexivity]. apply mem_str_In. eapply Hty; eauto.
  - discriminate.
  - destruct H as [c' [Hc _]]. discriminate.
Qed.

Lemma edge_ends_ok_P g e : edge_ends_ok g e = true <-> edge_ends_P g e.
Proof. unfold edge_ends_ok, edge_ends_P. rewrite andb_true_iff, !has_id_In. reflexivity. Qed.

Lemma xorb_neq a b : xorb a b = true <-> a <> b.
Proof. destruct a, b; simpl; split; congruence. Qed.

Lemma node_struct_ok_P g n : node_struct_ok g n = true <-> struct_P g n.
Proof.
  unfold node_struct_ok, struct_P, sub_shape_ok, link_ends_ok. destruct (ncls n);
    rewrite ?andb_true_iff, ?forallb_forall, ?len_is_eq;
    try (split; [intros _; split; [|split]; discriminate | reflexivity]).
  - split; [intro H; split; [auto | split; discriminate] | intros [H _]; auto].
  - (* KCP: a port that is not a service port needs no peer *)
    assert (SP : negb (ostr_eqb (ntyp n) (Some sServicePort)) || len_is (peers g (nid n)) 1 = true <->
                 (ntyp n = Some sServicePort -> length (peers g (nid n)) = 1)).
    { rewrite <- len_is_eq. destruct (ostr_eqb (ntyp n) (Some sServicePort)) eqn:E; simpl.
      - apply ostr_eqb_eq in E. tauto.
      - split; [intros _ Ht; apply ostr_eqb_eq in Ht; congruence | reflexivity]. }
    rewrite SP. split.
    + intros [[H1 H2] H3]. split; [discriminate|]. split; [|discriminate]. intros _. split; [exact H1|]. split; [|exact H3].
      intros j Hj. apply xorb_neq. auto.
    + intros [_ [H _]]. destruct (H eq_refl) as [H1 [H2 H3]]. split; [split; [exact H1|] | exact H3].
      intros j Hj. apply xorb_neq. auto.
  - split.
    + intro H. split; [discriminate|]. split; [discriminate|]. intros _ j r Hin. specialize (H _ Hin). simpl in H.
      apply andb_true_iff in H as [H1 H2]. apply rel_eqb_eq in H1. auto.
    + intros [_ [_ H]] [j r] Hin. destruct (H eq_refl _ _ Hin) as [-> H2]. simpl. exact H2.
Qed.

Theorem wf_b_reflect g : wf_b g = true <-> WF g.
Proof.
  unfold wf_b. rewrite !andb_true_iff, !forallb_forall, nodup_b_NoDup, edges_nodup_b_P, names_unique_in_P. split.
  - intros [[[[[[F V] I] E] D] St] N].
    constructor; auto; intros x Hx; [apply fields_ok_P | apply vocab_ok_P | apply edge_ends_ok_P | apply node_struct_ok_P]; auto.
  - intros [F V I E D St N].
    repeat split; auto; intros x Hx; [apply fields_ok_P | apply vocab_ok_P | apply edge_ends_ok_P | apply node_struct_ok_P]; auto.
Qed.
