(* C14 - what smerge does, key by key; the equivalence of combined models; commutation of two merges; order
   independence of merging a pairwise compatible family. *)
From Coq Require Import List NArith Bool Permutation.
From FIM Require Import Model.Cbm14Spec Proofs.Cbm14Assoc.
Import ListNotations.
Open Scope N_scope.


Lemma get_merge_nodes g cn an k :
  getn k (merge_nodes g cn an) =
  match getn k cn, getn k an with
  | Some c, Some a => Some (upd g a c)
  | Some c, None => Some c
  | None, Some a => Some (stamp g a)
  | None, None => None
  end.
Proof.
  unfold merge_nodes, getn. rewrite (get_app N.eqb).
  rewrite (get_map N.eqb N.eqb_eq (fun k c => match get N.eqb k an with Some a => upd g a c | None => c end)).
  destruct (get N.eqb k cn) as [c|] eqn:Ec; simpl.
  - destruct (get N.eqb k an); reflexivity.
  - rewrite (get_map N.eqb N.eqb_eq (fun _ a => stamp g a)).
    rewrite (get_filter_key N.eqb N.eqb_eq (fun k => negb (hasn k cn))).
    unfold hasn, has. rewrite Ec. simpl. destruct (get N.eqb k an); reflexivity.
Qed.

Lemma get_merge_edges ce ae e :
  gete e (merge_edges ce ae) =
  match gete e ce, gete e ae with
  | Some d, _ => Some d
  | None, Some d => Some d
  | None, None => None
  end.
Proof.
  unfold merge_edges, gete. rewrite (get_app ekey_eqb).
  destruct (get ekey_eqb e ce) as [d|] eqn:Ec; simpl; auto.
  rewrite (get_filter_key ekey_eqb ekey_eqb_eq (fun k => negb (hase k ce))).
  unfold hase, has. rewrite Ec. simpl. destruct (get ekey_eqb e ae); reflexivity.
Qed.

Lemma smerge_Some C A C' :
  smerge C A = Some C' ->
  conflict C A = false /\
  nodes C' = merge_nodes (adm_id A) (nodes C) (adm_nodes A) /\
  edges C' = merge_edges (edges C) (adm_edges A).
Proof.
  unfold smerge. destruct (conflict C A); [discriminate|]. intro H; inversion H; subst; simpl; auto.
Qed.

Lemma smerge_get_node C A C' k :
  smerge C A = Some C' ->
  getn k (nodes C') =
  match getn k (nodes C), getn k (adm_nodes A) with
  | Some c, Some a => Some (upd (adm_id A) a c)
  | Some c, None => Some c
  | None, Some a => Some (stamp (adm_id A) a)
  | None, None => None
  end.
Proof. intro H. apply smerge_Some in H as (_ & -> & _). apply get_merge_nodes. Qed.

Lemma smerge_get_edge C A C' e :
  smerge C A = Some C' ->
  gete e (edges C') =
  match gete e (edges C), gete e (adm_edges A) with
  | Some d, _ => Some d
  | None, Some d => Some d
  | None, None => None
  end.
Proof. intro H. apply smerge_Some in H as (_ & _ & ->). apply get_merge_edges. Qed.

Lemma smerge_hasn C A C' k :
  smerge C A = Some C' -> hasn k (nodes C') = hasn k (nodes C) || hasn k (adm_nodes A).
Proof.
  intro H. rewrite !hasn_is_some, (smerge_get_node _ _ _ k H).
  destruct (getn k (nodes C)), (getn k (adm_nodes A)); reflexivity.
Qed.

Lemma smerge_hase C A C' e :
  smerge C A = Some C' -> hase e (edges C') = hase e (edges C) || hase e (adm_edges A).
Proof.
  intro H. rewrite !hase_is_some, (smerge_get_edge _ _ _ e H).
  destruct (gete e (edges C)), (gete e (adm_edges A)); reflexivity.
Qed.

(* well-formed delegation model: node ids unique, one connection per pair, connections join its own nodes *)
Definition wf_adm (A : adm) : Prop :=
  NoDup (map fst (adm_nodes A)) /\ NoDup (map fst (adm_edges A)) /\
  (forall e, In e (map fst (adm_edges A)) ->
             hasn (fst e) (adm_nodes A) = true /\ hasn (snd e) (adm_nodes A) = true).

Lemma conflict_false C A :
  wf_adm A ->
  (conflict C A = false <->
   forall k a c, getn k (adm_nodes A) = Some a -> getn k (nodes C) = Some c -> clash c a = false).
Proof.
  intros (ND & _). unfold conflict. split.
  - intros H k a c Ha Hc.
    apply (get_Some_In N.eqb N.eqb_eq) in Ha.
    destruct (clash c a) eqn:E; auto.
    assert (existsb (fun ka => match getn (fst ka) (nodes C) with Some c => clash c (snd ka) | None => false end)
                    (adm_nodes A) = true) as X.
    { apply existsb_exists. exists (k, a). split; auto. simpl. rewrite Hc. exact E. }
    congruence.
  - intro H. destruct (existsb _ (adm_nodes A)) eqn:E; auto.
    apply existsb_exists in E as ([k a] & Hin & Hx). simpl in Hx.
    destruct (getn k (nodes C)) as [c|] eqn:Hc; [|discriminate].
    rewrite (H k a c) in Hx; auto. apply (In_get N.eqb N.eqb_eq); auto.
Qed.

Lemma smerge_defined C A : conflict C A = false -> exists C', smerge C A = Some C'.
Proof. unfold smerge. intros ->. eauto. Qed.

Definition eqv_node (c c' : cnode) : Prop :=
  c_cls c = c_cls c' /\ c_oth c = c_oth c' /\ (forall g, In g (c_con c) <-> In g (c_con c')) /\
  c_ld c = c_ld c' /\ c_cd c = c_cd c'.
Definition opt_rel {A} (R : A -> A -> Prop) (x y : option A) : Prop :=
  match x, y with Some a, Some b => R a b | None, None => True | _, _ => False end.
(* same elements, contributors as sets, same connections *)
Definition eqv (C C' : cbm) : Prop :=
  (forall k, opt_rel eqv_node (getn k (nodes C)) (getn k (nodes C'))) /\
  (forall e, gete e (edges C) = gete e (edges C')).

Lemma eqv_node_refl c : eqv_node c c.
Proof. unfold eqv_node; intuition. Qed.
Lemma eqv_node_sym c c' : eqv_node c c' -> eqv_node c' c.
Proof. unfold eqv_node; intros (?&?&H&?&?); repeat split; try congruence; apply H. Qed.
Lemma eqv_node_trans a b c : eqv_node a b -> eqv_node b c -> eqv_node a c.
Proof.
  unfold eqv_node; intros (?&?&H&?&?) (?&?&H'&?&?); repeat split; try congruence.
  - intro X; apply H', H, X.
  - intro X; apply H, H', X.
Qed.

Lemma opt_rel_refl {A} (R : A -> A -> Prop) : (forall a, R a a) -> forall x, opt_rel R x x.
Proof. intros H [a|]; simpl; auto. Qed.
Lemma opt_rel_sym {A} (R : A -> A -> Prop) :
  (forall a b, R a b -> R b a) -> forall x y, opt_rel R x y -> opt_rel R y x.
Proof. intros H [a|] [b|]; simpl; auto. Qed.
Lemma opt_rel_trans {A} (R : A -> A -> Prop) :
  (forall a b c, R a b -> R b c -> R a c) -> forall x y z, opt_rel R x y -> opt_rel R y z -> opt_rel R x z.
Proof. intros H [a|] [b|] [c|]; simpl; eauto; tauto. Qed.

Lemma eqv_refl C : eqv C C.
Proof. split; auto using opt_rel_refl, eqv_node_refl. Qed.
Lemma eqv_sym C C' : eqv C C' -> eqv C' C.
Proof. intros [H1 H2]; split; auto using opt_rel_sym, eqv_node_sym. Qed.
Lemma eqv_trans A B C : eqv A B -> eqv B C -> eqv A C.
Proof. intros [H1 H2] [H3 H4]; split; [|congruence]. eauto using opt_rel_trans, eqv_node_trans. Qed.
Lemma upd_eqv g a c c' : eqv_node c c' -> eqv_node (upd g a c) (upd g a c').
Proof.
  intros (H1&H2&H3&H4&H5). unfold eqv_node, upd; simpl. rewrite H4, H5. repeat split; auto;
  rewrite !in_app_iff, H3; tauto.
Qed.
Lemma clash_eqv c c' a : eqv_node c c' -> clash c a = clash c' a.
Proof. intros (_&_&_&H4&H5). unfold clash. rewrite H4, H5. reflexivity. Qed.

Lemma smerge_eqv C C' A D :
  wf_adm A -> eqv C C' -> smerge C A = Some D -> exists D', smerge C' A = Some D' /\ eqv D D'.
Proof.
  intros WF [E1 E2] H.
  assert (conflict C' A = false) as CF.
  { apply smerge_Some in H as (CF & _). rewrite conflict_false in CF |- *; auto.
    intros k a c' Ha Hc'. specialize (E1 k). rewrite Hc' in E1.
    destruct (getn k (nodes C)) as [c|] eqn:Hc; simpl in E1; [|contradiction].
    rewrite <- (clash_eqv c c' a E1). eauto. }
  destruct (smerge_defined _ _ CF) as [D' HD']. exists D'; split; auto.
  split.
  - intro k. rewrite (smerge_get_node _ _ _ k H), (smerge_get_node _ _ _ k HD').
    specialize (E1 k).
    destruct (getn k (nodes C)), (getn k (nodes C')); simpl in E1; try contradiction;
    destruct (getn k (adm_nodes A)); simpl; auto using upd_eqv, eqv_node_refl.
  - intro e. rewrite (smerge_get_edge _ _ _ e H), (smerge_get_edge _ _ _ e HD'), E2. reflexivity.
Qed.

Lemma merge_from_cons C A As :
  merge_from C (A :: As) = match smerge C A with Some C1 => merge_from C1 As | None => None end.
Proof. unfold merge_from; simpl. destruct (smerge C A); auto. induction As; simpl; auto. Qed.

Lemma merge_from_snoc C As A :
  merge_from C (As ++ [A]) = match merge_from C As with Some D => smerge D A | None => None end.
Proof. unfold merge_from. rewrite fold_left_app. reflexivity. Qed.

Lemma merge_from_eqv As : forall C C' D,
  Forall wf_adm As -> eqv C C' -> merge_from C As = Some D ->
  exists D', merge_from C' As = Some D' /\ eqv D D'.
Proof.
  induction As as [|A As IH]; intros C C' D WF E H.
  - unfold merge_from in *; simpl in *. inversion H; subst. eauto.
  - rewrite merge_from_cons in *. inversion WF; subst.
    destruct (smerge C A) as [C1|] eqn:S; [|discriminate].
    destruct (smerge_eqv _ _ _ _ H2 E S) as (C1' & -> & E1). eauto.
Qed.

(* a node id / connection found in both models is the same element in both *)
Definition compatible (A B : adm) : Prop :=
  (forall k a b, getn k (adm_nodes A) = Some a -> getn k (adm_nodes B) = Some b ->
                 a_cls a = a_cls b /\ a_oth a = a_oth b) /\
  (forall e d d', gete e (adm_edges A) = Some d -> gete e (adm_edges B) = Some d' -> d = d').

(* a node only the merged model has: the update of a node nobody has contributed to yet.  So the refusal
   test and the commutation need to be argued for upd only. *)
Definition bare (a : anode) : cnode := mkC (a_cls a) (a_oth a) [] None None.
Lemma stamp_upd g a : stamp g a = upd g a (bare a).
Proof. reflexivity. Qed.

Lemma smerge_node_cases C A C' k c' :
  smerge C A = Some C' -> getn k (nodes C') = Some c' ->
  (getn k (adm_nodes A) = None /\ getn k (nodes C) = Some c') \/
  exists a, getn k (adm_nodes A) = Some a /\
            c' = upd (adm_id A) a (match getn k (nodes C) with Some c => c | None => bare a end).
Proof.
  intros H. rewrite (smerge_get_node _ _ _ k H).
  destruct (getn k (nodes C)), (getn k (adm_nodes A)) as [a|]; intro E; inversion E; eauto.
Qed.

(* a and b do not both speak for the resource *)
Definition apart (a b : anode) : Prop :=
  is_some (a_ld a) && is_some (a_ld b) = false /\ is_some (a_cd a) && is_some (a_cd b) = false.

Lemma apart_sym a b : apart a b -> apart b a.
Proof. unfold apart. rewrite (andb_comm (is_some (a_ld b))), (andb_comm (is_some (a_cd b))). auto. Qed.

Lemma join_d_some g c a : is_some (join_d g c a) = is_some c || is_some a.
Proof. destruct c, a; reflexivity. Qed.

Lemma clash_upd g a c b : clash (upd g a c) b = false <-> clash c b = false /\ apart a b.
Proof.
  unfold clash, upd, apart; simpl. rewrite !join_d_some, !andb_orb_distrib_l, !orb_false_iff. tauto.
Qed.

Lemma clash_stamp g a b : clash (stamp g a) b = false <-> apart a b.
Proof. rewrite stamp_upd, clash_upd. split; [tauto | split; [reflexivity | assumption]]. Qed.

(* what the refusal test of a second merge sees *)
Lemma conflict_smerge C A C1 B :
  wf_adm B -> smerge C A = Some C1 ->
  (conflict C1 B = false <->
   conflict C B = false /\
   forall k a b, getn k (adm_nodes A) = Some a -> getn k (adm_nodes B) = Some b -> apart a b).
Proof.
  intros WB H. rewrite !(conflict_false _ B WB). split.
  - intro F. split.
    + intros k b c Hb Hc. specialize (F k b). rewrite (smerge_get_node _ _ _ k H), Hc in F.
      destruct (getn k (adm_nodes A)) as [a|]; [|eauto].
      specialize (F _ Hb eq_refl). apply clash_upd in F. tauto.
    + intros k a b Ha Hb. specialize (F k b). rewrite (smerge_get_node _ _ _ k H), Ha in F.
      destruct (getn k (nodes C)) as [c|]; specialize (F _ Hb eq_refl);
        [apply clash_upd in F; tauto | apply clash_stamp in F; exact F].
  - intros [F Q] k b c1 Hb Hc1. rewrite (smerge_get_node _ _ _ k H) in Hc1.
    destruct (getn k (nodes C)) as [c|] eqn:Hc, (getn k (adm_nodes A)) as [a|] eqn:Ha; inversion Hc1; subst.
    + apply clash_upd. eauto.
    + eauto.
    + apply clash_stamp. eauto.
Qed.

Lemma join_d_swap g1 g2 c a b :
  is_some a && is_some b = false ->
  join_d g2 (join_d g1 c a) b = join_d g1 (join_d g2 c b) a.
Proof. destruct c, a, b; simpl; auto; discriminate. Qed.

Lemma upd_swap g1 g2 a b c : apart a b -> eqv_node (upd g2 b (upd g1 a c)) (upd g1 a (upd g2 b c)).
Proof.
  intros [L D]. unfold eqv_node, upd; simpl.
  repeat split; auto using join_d_swap; rewrite !in_app_iff; simpl; tauto.
Qed.

Lemma smerge_swap C A B C1 C2 :
  wf_adm A -> wf_adm B -> compatible A B ->
  smerge C A = Some C1 -> smerge C1 B = Some C2 ->
  exists C1' C2', smerge C B = Some C1' /\ smerge C1' A = Some C2' /\ eqv C2 C2'.
Proof.
  intros WA WB [CN CE] H1 H2.
  pose proof (smerge_Some _ _ _ H1) as (F1 & _). pose proof (smerge_Some _ _ _ H2) as (F2 & _).
  apply (conflict_smerge _ _ _ _ WB H1) in F2 as [G1 AP].
  destruct (smerge_defined _ _ G1) as [C1' H1'].
  assert (conflict C1' A = false) as G2.
  { apply (conflict_smerge _ _ _ _ WA H1'). split; auto. intros k b a Hb Ha. apply apart_sym. eauto. }
  destruct (smerge_defined _ _ G2) as [C2' H2'].
  exists C1', C2'. repeat split; auto.
  - intro k.
    rewrite (smerge_get_node _ _ _ k H2), (smerge_get_node _ _ _ k H1),
            (smerge_get_node _ _ _ k H2'), (smerge_get_node _ _ _ k H1').
    destruct (getn k (nodes C)) as [c|], (getn k (adm_nodes A)) as [a|] eqn:Ha,
             (getn k (adm_nodes B)) as [b|] eqn:Hb; simpl; auto using eqv_node_refl.
    + apply upd_swap. eauto.
    + destruct (CN k a b Ha Hb) as [Q1 Q2]. rewrite !stamp_upd.
      replace (bare b) with (bare a) by (unfold bare; rewrite Q1, Q2; reflexivity).
      apply upd_swap. eauto.
  - intro e.
    rewrite (smerge_get_edge _ _ _ e H2), (smerge_get_edge _ _ _ e H1),
            (smerge_get_edge _ _ _ e H2'), (smerge_get_edge _ _ _ e H1').
    destruct (gete e (edges C)) as [d|], (gete e (adm_edges A)) as [da|] eqn:Ea,
             (gete e (adm_edges B)) as [db|] eqn:Eb; auto.
    rewrite (CE e da db Ea Eb). reflexivity.
Qed.

Definition pairwise_compatible (As : list adm) : Prop :=
  NoDup (map adm_id As) /\
  forall A B, In A As -> In B As -> adm_id A <> adm_id B -> compatible A B.

Lemma pairwise_perm As As' : Permutation As As' -> pairwise_compatible As -> pairwise_compatible As'.
Proof.
  intros P [ND H]. split.
  - eapply Permutation_NoDup; [apply Permutation_map; exact P | exact ND].
  - intros A B HA HB. apply H; apply (Permutation_in _ (Permutation_sym P)); assumption.
Qed.

Lemma pairwise_tail A As : pairwise_compatible (A :: As) -> pairwise_compatible As.
Proof. intros [ND H]. split; [inversion ND; auto | intros; apply H; simpl; auto]. Qed.

Lemma merge_from_perm As As' :
  Permutation As As' ->
  forall C D, Forall wf_adm As -> pairwise_compatible As -> merge_from C As = Some D ->
  exists D', merge_from C As' = Some D' /\ eqv D D'.
Proof.
  induction 1 as [| x l l' P IH | x y l | l l' l'' P1 IH1 P2 IH2]; intros C D WF PC H.
  - exists D; split; auto using eqv_refl.
  - rewrite merge_from_cons in *. destruct (smerge C x) as [C1|]; [|discriminate].
    inversion WF; subst. eapply IH; eauto using pairwise_tail.
  - rewrite merge_from_cons in H.
    destruct (smerge C y) as [C1|] eqn:S1; [|discriminate].
    rewrite merge_from_cons in H.
    destruct (smerge C1 x) as [C2|] eqn:S2; [|discriminate].
    inversion WF as [|? ? Wy WF']; subst. inversion WF' as [|? ? Wx WF'']; subst.
    assert (compatible y x) as CP.
    { destruct PC as [ND HC]. apply HC; simpl; auto.
      simpl in ND. inversion ND; subst. intro E. apply H2. simpl. auto. }
    destruct (smerge_swap _ _ _ _ _ Wy Wx CP S1 S2) as (C1' & C2' & S1' & S2' & E).
    rewrite merge_from_cons, S1', merge_from_cons, S2'.
    eapply merge_from_eqv; eauto.
  - destruct (IH1 C D WF PC H) as (D1 & H1 & E1).
    destruct (IH2 C D1 (Permutation_Forall P1 WF) (pairwise_perm _ _ P1 PC) H1) as (D2 & H2 & E2).
    exists D2; split; eauto using eqv_trans.
Qed.
