(* C14 - refinement: clone_graph appends one copy per node of the cloned graph, under fresh internal ids, and copies
   its connections onto them; the first half of merge_adm (temporary clone, rewrite_delegations, stamping
   adm_graph_ids) turns the copies into the images of the delegation model's nodes.  Nothing else is touched. *)
From Coq Require Import List NArith Lia.
From FIM Require Import Base.ListFacts Model.Cbm14Store Model.Cbm14Abs Proofs.Cbm14Frame
     Proofs.Cbm14RefBase Proofs.Cbm14RefEdge.
Import ListNotations.
Open Scope N_scope.

(* t is the copy of a in graph new, m maps old internal ids to new ones *)
Record copy_of (new : N) (m : list (N * N)) (a t : node) : Prop := mkCopy {
  cp_gid : n_gid t = new; cp_nid : n_nid t = n_nid a; cp_cls : n_cls t = n_cls a; cp_oth : n_oth t = n_oth a;
  cp_si : n_si t = n_si a; cp_ld : n_ld t = n_ld a; cp_cd : n_cd t = n_cd a;
  cp_int : lookup m (n_int a) = Some (n_int t) }.

(* t is the temporary image of the source node a *)
Record img (adm tmp : N) (m : list (N * N)) (a t : node) : Prop := mkImg {
  im_gid : n_gid t = tmp; im_nid : n_nid t = n_nid a; im_cls : n_cls t = n_cls a; im_oth : n_oth t = n_oth a;
  im_si : n_si t = SIds [adm]; im_ld : rw_d adm (n_ld a) = inl (n_ld t); im_cd : rw_d adm (n_cd a) = inl (n_cd t);
  im_int : lookup m (n_int a) = Some (n_int t) }.

(* lists of images: one node of graph new per node of the original, under the same NodeID *)
Section Images.
  Variables (new : N) (R : node -> node -> Prop).
  Hypothesis R_key : forall a t, R a t -> n_gid t = new /\ n_nid t = n_nid a.

  Lemma images_gid l tn : Forall2 R l tn -> forall n, In n tn -> n_gid n = new.
  Proof. intros F n Hn. destruct (Forall2_in_r _ _ _ _ F Hn) as (a & _ & H). apply (R_key a n H). Qed.

  Lemma images_at g k ns tn :
    Forall2 R (gnodes g ns) tn ->
    match at_ g k ns with
    | Some a => exists t, at_ new k tn = Some t /\ R a t
    | None => at_ new k tn = None
    end.
  Proof.
    intro F. rewrite at_gnodes, (at_all_gid new k tn (images_gid _ _ F)).
    induction F as [|a t l tn' H F IH]; simpl; auto.
    destruct (R_key a t H) as [_ ->]. destruct (n_nid a =? k); eauto.
  Qed.

  Lemma images_keys l tn : Forall2 R l tn -> NoDup (map n_nid l) -> NoDup (map key tn).
  Proof.
    intros F ND. rewrite (Forall2_map_eq (fun a => (new, n_nid a)) key l tn).
    - rewrite <- (map_map n_nid (pair new)). apply NoDup_map_inj_in; auto. intros x y _ _ E. congruence.
    - eapply Forall2_impl'; [|exact F]. intros a t H. destruct (R_key a t H) as [G K]. unfold key. congruence.
  Qed.

  (* the lookups in a list extended by images of its graph g, when it had no node of graph new *)
  Lemma images_app g ns tn :
    (forall n, In n ns -> n_gid n <> new) -> Forall2 R (gnodes g ns) tn ->
    (forall h k, h <> new -> at_ h k (ns ++ tn) = at_ h k ns) /\
    (forall k, match at_ g k ns with
               | Some a => exists t, at_ new k (ns ++ tn) = Some t /\ R a t
               | None => at_ new k (ns ++ tn) = None
               end).
  Proof.
    intros NT F. pose proof (images_gid _ _ F) as TT. split.
    - intros h k NH. rewrite (at_app_new new h k ns tn NT TT). apply N.eqb_neq in NH. rewrite NH. reflexivity.
    - intro k. rewrite (at_app_new new new k ns tn NT TT), N.eqb_refl. apply images_at. exact F.
  Qed.
End Images.

Lemma clone_nodes_copy new : forall l nx cn m,
  NoDup (map n_int l) -> clone_nodes new nx l = (cn, m) ->
  Forall2 (copy_of new m) l cn /\ renaming nx m /\ (forall i v, lookup m i = Some v -> In i (map n_int l)).
Proof.
  induction l as [|a r IH]; intros nx cn m ND H; simpl in H.
  - inversion H; subst. split; [constructor|]. split; [split|]; simpl; intros; discriminate.
  - destruct (clone_nodes new (N.succ nx) r) as [cn0 m0] eqn:E. inversion H; subst; clear H.
    simpl in ND. inversion ND as [|? ? NI ND']; subst.
    destruct (IH _ _ _ ND' E) as (F & (R1 & R2) & D).
    split; [|split; [split|]].
    + constructor; [constructor; simpl; rewrite ?N.eqb_refl; reflexivity|].
      eapply Forall2_impl'; [|exact F]. intros x y [G1 G2 G3 G4 G5 G6 G7 L].
      constructor; auto. simpl.
      destruct (n_int a =? n_int x) eqn:Q; auto. apply N.eqb_eq in Q.
      exfalso. apply NI. rewrite Q. apply D in L. exact L.
    + intros i v. simpl. destruct (n_int a =? i); [intro X; inversion X; lia|].
      intro X. apply R1 in X. lia.
    + intros i j v. simpl.
      destruct (n_int a =? i) eqn:Qi, (n_int a =? j) eqn:Qj; intros X Y.
      * apply N.eqb_eq in Qi, Qj. congruence.
      * inversion X; subst. apply R1 in Y. lia.
      * inversion Y; subst. apply R1 in X. lia.
      * eapply R2; eauto.
    + intros i v. simpl. destruct (n_int a =? i) eqn:Q; [apply N.eqb_eq in Q; auto|]. intro X. right. eapply D; eauto.
Qed.

Lemma copy_of_key new m a t : copy_of new m a t -> n_gid t = new /\ n_nid t = n_nid a.
Proof. intro C. exact (conj (cp_gid _ _ _ _ C) (cp_nid _ _ _ _ C)). Qed.

Lemma clone_spec g new st :
  J (s_next st) (s_nodes st) -> gexists new st = false ->
  let st' := clone g new st in
  exists cn m, s_nodes st' = s_nodes st ++ cn /\
               s_edges st' = s_edges st ++ clone_edges m (s_edges st) /\
               Forall2 (copy_of new m) (of_gid g st) cn /\ renaming (s_next st) m /\
               J (s_next st') (s_nodes st') /\
               (ebelow (s_next st) (s_edges st) -> ebelow (s_next st') (s_edges st')) /\
               (forall h k, h <> new -> at_ h k (s_nodes st') = at_ h k (s_nodes st)) /\
               (forall k, match at_ g k (s_nodes st) with
                          | Some a => exists t, at_ new k (s_nodes st') = Some t /\ copy_of new m a t
                          | None => at_ new k (s_nodes st') = None
                          end).
Proof.
  intros (U & B & K) FR. pose proof (notmp_of_fresh new st FR) as NT.
  unfold clone. destruct (clone_nodes new (s_next st) (of_gid g st)) as [cn m] eqn:E.
  assert (NoDup (map n_int (of_gid g st))) as NDI by (apply NoDup_map_filter; exact U).
  destruct (clone_nodes_copy new _ _ _ _ NDI E) as (CP & RN & _).
  destruct (clone_nodes_spec _ _ _ _ _ E) as (S1 & S2 & S3).
  exists cn, m. simpl. split; auto. split; auto. split; auto. split; auto.
  split; [split; [|split]|split; [|apply (images_app new _ (copy_of_key new m) g _ _ NT CP)]].
  - unfold uniq. rewrite map_app. apply NoDup_app_intro; auto.
    intros x Hx Hy. apply in_map_iff in Hx as (n & En & Hn). apply in_map_iff in Hy as (n' & En' & Hn').
    specialize (B n Hn). destruct (S1 n' Hn') as (_ & ? & _). lia.
  - intros n Hn. apply in_app_iff in Hn as [Hn|Hn]; [specialize (B n Hn); lia|]. apply (S1 n Hn).
  - unfold ukeys. rewrite map_app. apply NoDup_app_intro; auto.
    + apply (images_keys new _ (copy_of_key new m) _ _ CP). apply (ukeys_nids g). exact K.
    + intros x Hx Hy. apply in_map_iff in Hx as (n & En & Hn). apply in_map_iff in Hy as (t & Et & Ht).
      apply (NT n Hn). destruct (S1 t Ht) as (G & _). unfold key in *. rewrite <- En in Et. inversion Et. congruence.
  - intro EB. apply clone_edges_ebelow; auto. intros i v L. apply S3 in L. apply L.
Qed.

Lemma rw_node_fields adm n n' :
  rw_node adm n = inl n' ->
  n_int n' = n_int n /\ n_gid n' = n_gid n /\ n_nid n' = n_nid n /\ n_cls n' = n_cls n /\ n_oth n' = n_oth n /\
  n_si n' = n_si n /\ rw_d adm (n_ld n) = inl (n_ld n') /\ rw_d adm (n_cd n) = inl (n_cd n').
Proof.
  unfold rw_node. destruct (rw_d adm (n_ld n)) as [ld|] eqn:L; [|discriminate].
  destruct (rw_d adm (n_cd n)) as [cd|] eqn:C; [|discriminate]. intro H; inversion H; subst; simpl;
  repeat split; auto.
Qed.

Lemma rw_nodes_notmp adm tmp ns : (forall n, In n ns -> n_gid n <> tmp) -> rw_nodes adm tmp ns = inl ns.
Proof.
  induction ns as [|n r IH]; simpl; auto. intro H.
  assert (n_gid n =? tmp = false) as -> by (apply N.eqb_neq; apply H; simpl; auto).
  rewrite IH; auto; intros; apply H; simpl; auto.
Qed.

Lemma rw_nodes_split adm tmp : forall ns cn ns2,
  (forall n, In n ns -> n_gid n <> tmp) -> (forall n, In n cn -> n_gid n = tmp) ->
  rw_nodes adm tmp (ns ++ cn) = inl ns2 ->
  exists cn', ns2 = ns ++ cn' /\ Forall2 (fun t t' => rw_node adm t = inl t') cn cn'.
Proof.
  induction ns as [|n r IH]; simpl; intros cn ns2 H1 H2 H.
  - revert ns2 H. induction cn as [|t c IHc]; simpl; intros ns2 H.
    + inversion H; subst. exists []. split; auto.
    + assert (n_gid t =? tmp = true) as E by (apply N.eqb_eq; apply H2; simpl; auto). rewrite E in H.
      destruct (rw_node adm t) as [t'|] eqn:R; [|discriminate].
      destruct (rw_nodes adm tmp c) as [c'|] eqn:RC; [|discriminate]. inversion H; subst.
      destruct (IHc (fun n Hn => H2 n (or_intror Hn)) c' eq_refl) as (cn' & E' & F).
      simpl in E'. subst. exists (t' :: cn'). split; auto.
  - assert (n_gid n =? tmp = false) as E by (apply N.eqb_neq; apply H1; simpl; auto). rewrite E in H.
    destruct (rw_nodes adm tmp (r ++ cn)) as [x|] eqn:R; [|discriminate]. inversion H; subst.
    destruct (IH cn x (fun m Hm => H1 m (or_intror Hm)) H2 R) as (cn' & E' & F). subst.
    exists cn'. split; auto.
Qed.

Lemma map_gid_split tmp f ns cn :
  (forall n, In n ns -> n_gid n <> tmp) -> (forall n, In n cn -> n_gid n = tmp) ->
  map (fun n => if n_gid n =? tmp then f n else n) (ns ++ cn) = ns ++ map f cn.
Proof.
  intros H1 H2. rewrite map_app. f_equal.
  - rewrite <- (map_id ns) at 2. apply map_ext_in. intros n Hn.
    assert (n_gid n =? tmp = false) as -> by (apply N.eqb_neq; auto). reflexivity.
  - apply map_ext_in. intros n Hn. assert (n_gid n =? tmp = true) as -> by (apply N.eqb_eq; auto). reflexivity.
Qed.

(* the state after clone + rewrite_delegations + stamping *)
Definition prep_store (adm tmp : N) (st : store) (ns2 : list node) : store :=
  map_gid tmp (set_si (SIds [adm])) (mkStore ns2 (s_edges (clone adm tmp st)) (s_next (clone adm tmp st))).

Lemma img_key adm tmp m a t : img adm tmp m a t -> n_gid t = tmp /\ n_nid t = n_nid a.
Proof. intro I. exact (conj (im_gid _ _ _ _ _ I) (im_nid _ _ _ _ _ I)). Qed.

Lemma prep_spec adm tmp st ns2 :
  J (s_next st) (s_nodes st) -> gexists tmp st = false ->
  rw_nodes adm tmp (s_nodes (clone adm tmp st)) = inl ns2 ->
  let st2 := prep_store adm tmp st ns2 in
  exists tn m, s_nodes st2 = s_nodes st ++ tn /\
               s_edges st2 = s_edges st ++ clone_edges m (s_edges st) /\
               Forall2 (img adm tmp m) (of_gid adm st) tn /\ renaming (s_next st) m /\
               J (s_next st2) (s_nodes st2) /\
               (ebelow (s_next st) (s_edges st) -> ebelow (s_next st2) (s_edges st2)) /\
               (forall h k, h <> tmp -> at_ h k (s_nodes st2) = at_ h k (s_nodes st)) /\
               (forall k, match at_ adm k (s_nodes st) with
                          | Some a => exists t, at_ tmp k (s_nodes st2) = Some t /\ img adm tmp m a t
                          | None => at_ tmp k (s_nodes st2) = None
                          end).
Proof.
  intros Jst FR R st2.
  destruct (clone_spec adm tmp st Jst FR) as (cn & m & EN & EE & CP & RN & J2 & EB2 & _). cbv zeta in *.
  pose proof (notmp_of_fresh tmp st FR) as NT.
  pose proof (images_gid tmp _ (copy_of_key tmp m) _ _ CP) as CT.
  rewrite EN in R. destruct (rw_nodes_split adm tmp _ _ _ NT CT R) as (cn' & -> & F).
  assert (forall n, In n cn' -> n_gid n = tmp) as CT'.
  { intros n Hn. destruct (Forall2_in_r _ _ _ _ F Hn) as (t & Ht & Rt).
    apply rw_node_fields in Rt as (_ & G & _). rewrite G. auto. }
  set (tn := map (set_si (SIds [adm])) cn').
  assert (s_nodes st2 = s_nodes st ++ tn) as E2 by apply (map_gid_split tmp _ _ _ NT CT').
  assert (Forall2 (img adm tmp m) (of_gid adm st) tn) as IM.
  { apply (Forall2_map_r (fun a t' => img adm tmp m a (set_si (SIds [adm]) t'))); [auto|].
    eapply Forall2_trans3; [|exact CP|exact F].
    intros a b c [G1 G2 G3 G4 G5 G6 G7 L] Rb.
    apply rw_node_fields in Rb as (Q0 & Q1 & Q2 & Q3 & Q4 & _ & Q6 & Q7).
    constructor; simpl; congruence. }
  exists tn, m. split; [exact E2|]. split; [exact EE|]. split; [exact IM|]. split; [exact RN|]. split.
  2:{ split; [exact EB2|]. rewrite E2. apply (images_app tmp _ (img_key adm tmp m) adm _ _ NT IM). }
  (* rewriting and stamping keep internal ids and keys *)
  rewrite E2. apply (J_same _ (s_nodes st ++ cn)); [| |rewrite <- EN; exact J2].
  all: unfold tn; rewrite !map_app, map_map; f_equal; apply Forall2_map_eq.
  all: eapply Forall2_impl'; [|exact F]; intros t t' Rt; apply rw_node_fields in Rt as (I & G & Nn & _).
  - exact I.
  - unfold key; simpl. congruence.
Qed.
