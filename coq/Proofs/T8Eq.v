(* C08: the upper and the lower bound meet.  For the element removals (node, facility, switch,
   component, service through the topology or through its node) on a well-formed graph:

       a node that is not a link is deleted  <->  it is owned by the addressed element, or it is the ServicePort across
                                                  a two-ended link from one of the element's interfaces
       a link is deleted                     <->  it had >= 2 ends, lost >= 1, and <= 1 survives      (T8Link.v)

   WQ g = WP g (T8Art.v), WL g (T8Link.v), "the connection points next to a port of a service hang on that port
   alone" (sub-interfaces), and "a link that carries a ServicePort has exactly two ends" (peering links). *)
From Coq Require Import List NArith Bool PeanoNat.
From FIM Require Import Model.T8Graph Model.T8Ops Proofs.T8Frame Proofs.T8Query Proofs.T8Hoare Proofs.T8Sound
     Proofs.T8SoundTop Proofs.T8Complete Proofs.T8Closed Proofs.T8Top Proofs.T8Owned Proofs.T8Handles Proofs.T8Fixed
     Proofs.T8Inv Proofs.T8Link Proofs.T8Art.
Import ListNotations.

(* WQ g: the well-formedness under which deleted = owned + artefacts *)
Record WQ (g : graph) : Prop := mkWQ {
  wq_wp : WP g;
  wq_wl : WL g;
  wq_sub : forall s i x, class_of g s = CNS -> In i (cpn g s) -> In x (cpn g i) -> sole g i x;
  wq_splink : forall l p, class_of g l = CLink -> In p (cpn g l) -> type_of g p = T_ServicePort ->
                          length (cpn g l) = 2%nat
}.

Definition element_removal (o : op) : bool :=
  match o with
  | ORemoveNode _ | ORemoveFacility _ | ORemoveSwitch _ | ORemoveNsTopo _ | ORemoveComponent _ _ | ONodeRemoveNs _ _ => true
  | _ => false
  end.

(* the peering artefacts of the element: the ServicePort across a two-ended link from one of its interfaces *)
Definition artefact (g : graph) (o : op) (x : N) : Prop :=
  exists ii l, disc_ifs g o ii /\ link2 g l ii x /\ type_of g x = T_ServicePort.

Section Eq.
Variable g : graph.
Hypothesis HQ : WQ g.
Let HW : WP g := wq_wp g HQ.

Lemma len2_link2 l i p :
  class_of g l = CLink -> length (cpn g l) = 2%nat -> In i (cpn g l) -> In p (cpn g l) -> i <> p -> link2 g l i p.
Proof.
  intros Hl Hlen Hi Hp Hne. split; [exact Hl|]. split; [exact Hne|]. intros y.
  pose proof (first_neighbor_NoDup g l RConnects CCP) as Hn. fold (cpn g l) in Hn.
  destruct (cpn g l) as [|a [|b [|c r]]]; simpl in Hlen; try discriminate.
  inversion Hn as [|? ? Hab _]; subst. simpl in Hab.
  simpl in Hi, Hp. simpl. split.
  - intros [<-|[<-|[]]]; destruct Hi as [<-|[<-|[]]]; destruct Hp as [<-|[<-|[]]]; auto; exfalso; apply Hne; reflexivity.
  - intros [->| ->]; tauto.
Qed.

(* a ServicePort peer of a connection point is joined to it by a two-ended link *)
Lemma peer_link2 i p :
  class_of g i = CCP -> In p (peer_cps g i) -> type_of g p = T_ServicePort -> exists l, link2 g l i p.
Proof.
  intros Hi Hp Ht. unfold peer_cps in Hp. apply in_flat_map in Hp. destruct Hp as [l [Hl Hp]].
  apply removeN_In in Hp. destruct Hp as [Hp Hne].
  assert (Hlc : class_of g l = CLink) by (apply first_neighbor_In in Hl; tauto).
  apply nbrs_cls_In in Hp. destruct Hp as [[r Hr] Hpc].
  rewrite (wp_link_edges g HW l p r Hlc Hr) in Hr.
  assert (Hpl : In p (cpn g l)) by (unfold cpn; apply first_neighbor_In; auto).
  assert (Hil : In i (cpn g l)) by (unfold cpn; apply (first_neighbor_sym g i l RConnects CLink CCP); assumption).
  exists l. apply len2_link2; [exact Hlc | apply (wq_splink g HQ l p Hlc Hpl Ht) | exact Hil | exact Hpl | congruence].
Qed.

Lemma U_cp_owned s i x :
  class_of g s = CNS -> In i (cpn g s) -> class_of g x <> CLink -> U_cp g i true x -> O_cp g i true x.
Proof.
  intros Hs Hi Hx [[->|[_ Hn]]|[j [_ Hl]]].
  - left. reflexivity.
  - right. split; [reflexivity|]. apply (wq_sub g HQ s i x Hs Hi Hn).
  - exfalso. apply Hx. unfold lks in Hl. apply first_neighbor_In in Hl. tauto.
Qed.

Lemma U_ns_owned s x : class_of g s = CNS -> class_of g x <> CLink -> U_ns g s x -> O_ns g s x.
Proof.
  intros Hs Hx [->|[i [Hi Hu]]]; [left; reflexivity|]. right. exists i. split; [exact Hi|].
  apply (U_cp_owned s i x Hs Hi Hx Hu).
Qed.

Lemma U_comp_owned c x : class_of g x <> CLink -> U_comp g c x -> O_comp g c x.
Proof.
  intros Hx [->|[s [Hs Hu]]]; [left; reflexivity|]. right. exists s. split; [exact Hs|].
  apply U_ns_owned; [apply first_neighbor_In in Hs; tauto | exact Hx | exact Hu].
Qed.

Lemma U_node_owned n x : class_of g x <> CLink -> U_node g n x -> O_node g n x.
Proof.
  intros Hx [->|[[c [Hc Hu]]|[s [Hs Hu]]]]; [left; reflexivity | |].
  - right. left. exists c. split; [exact Hc | apply U_comp_owned; assumption].
  - right. right. exists s. split; [exact Hs|].
    apply U_ns_owned; [apply first_neighbor_In in Hs; tauto | exact Hx | exact Hu].
Qed.

(* what disconnecting interface i may delete, when it is not a link: the ServicePort across a two-ended link *)
Lemma U_disc_artefact i x :
  class_of g i = CCP -> class_of g x <> CLink -> U_disc g i x -> exists l, link2 g l i x /\ type_of g x = T_ServicePort.
Proof.
  intros Hi Hx [p [Hp [Ht [[->|[_ Hn]]|[j [_ Hl]]]]]].
  - destruct (peer_link2 i p Hi Hp Ht) as [l Hl]. exists l. auto.
  - rewrite (wp_sp_alone g HW p Ht) in Hn. destruct Hn.
  - exfalso. apply Hx. unfold lks in Hl. apply first_neighbor_In in Hl. tauto.
Qed.

Lemma U_disc_class i x : U_disc g i x -> class_of g x = CCP \/ class_of g x = CLink.
Proof.
  intros [p [Hp [_ [[->|[_ Hn]]|[j [_ Hl]]]]]].
  - left. apply (peer_cps_class g (g, []) i p (cons_init g)). exact Hp.
  - left. apply (cpn_class g p). exact Hn.
  - right. unfold lks in Hl. apply first_neighbor_In in Hl. tauto.
Qed.

End Eq.

(* what disconnecting an interface of the element may delete, when it is not a link, is an artefact of the element *)
Lemma disc_artefact g o cands e i x :
  WQ g -> elem_sel g o = Some cands -> In e cands -> In i (disc_list g (elem_ifs g o e)) ->
  class_of g x <> CLink -> U_disc g i x -> artefact g o x.
Proof.
  intros HQ Hs He Hi Hx HU.
  destruct (U_disc_artefact g HQ i x (disc_list_class g _ (elem_ifs_class g o e) i Hi) Hx HU) as [l Hl].
  exists i, l. split; [apply (elem_disc_ifs g o cands e i Hs He Hi) | exact Hl].
Qed.

(* a returning remove_node / remove_switch: the name addresses one node, and it is not a facility: the disconnect loop
   deletes connection points and links only, so every node of that name is still there when the name is looked up again *)
Lemma ok_node_unique g nm L e s1 s' n :
  WP g -> for_each_set disconnect_step L (g, []) = (inl tt, s1) ->
  elem_rest (ORemoveNode nm) e s1 = (inl tt, s') ->
  In e (by_name g CNode nm) -> In n (by_name g CNode nm) -> n = e.
Proof.
  intros HW E1 E He Hn. apply get_uniq_ok in E. destruct E as [n' [Hu _]].
  pose proof (cons_to g _ _ _ _ (Inv_for_each_set _ _ Inv_disconnect_step) (cons_init g) E1) as C1.
  assert (Hin : forall m, In m (by_name g CNode nm) -> In m [n']).
  { intros m Hm. rewrite <- Hu, C1. apply by_name_restrict. split; [exact Hm|]. intros Hd.
    pose proof (Sound_peers_loop g (fun x => exists i, U_disc g i x) (fun _ => True) L
                  (fun _ _ => Logic.I) (fun i x _ H => ex_intro _ i H) (g, []) (cons_init g) m) as S.
    rewrite E1 in S. destruct (S Hd) as [[]|[i Hi]].
    pose proof (by_name_class g HW CNode nm m Hm). destruct (U_disc_class g i m Hi); congruence. }
  destruct (Hin n Hn) as [<-|[]]. destruct (Hin e He) as [<-|[]]. reflexivity.
Qed.

(* THE EQUATION for everything that is not a link *)
Theorem deleted_nonlinks_iff ex o cs g r g' tr :
  WQ g -> element_removal o = true -> run (exec ex o cs) g = (inl r, (g', tr)) ->
  forall x, class_of g x <> CLink -> (In x tr <-> owned g o x \/ artefact g o x).
Proof.
  intros HQ Ho E x Hx. pose proof (wq_wp g HQ) as HW. split.
  - (* upper bound -> owned or artefact *)
    intros Hin. pose proof (sound_exec ex o cs g (inl r) g' tr E x Hin) as HA.
    pose proof (fun cands e i Hs He Hi => disc_artefact g o cands e i x HQ Hs He Hi Hx) as Hart.
    destruct o; simpl in Ho; try discriminate; simpl in HA.
    1,3: destruct HA as [n [Hn HA]];
         destruct (elem_run ex _ cs g r _ _ E eq_refl) as [e [s1 [Hc [L1 E2]]]];
         assert (He : In e (by_name g CNode name))
           by (assert (A : In e (topo_nodes g name)) by (rewrite Hc; left; reflexivity); apply filter_In in A; tauto);
         pose proof (ok_node_unique g name _ e s1 _ n HW L1 E2 He Hn) as ->;
         destruct HA as [HU|[i [Hi HU]]];
         [ left; exists e; split; [exact He|]; split;
             [apply (by_name_class g HW CNode name e He) | apply (U_node_owned g HQ e x Hx HU)]
         | right; apply (Hart _ e i eq_refl); [rewrite Hc; left; reflexivity | exact Hi | exact HU] ].
    + (* remove_facility *)
      destruct HA as [n [Hn [HU|[i [Hi HU]]]]].
      * left. exists n. split; [exact Hn|]. split; [apply (by_name_class g HW CNode name n Hn)|].
        apply (U_node_owned g HQ n x Hx HU).
      * right. apply (Hart _ n i eq_refl Hn Hi HU).
    + (* topology.remove_network_service *)
      destruct HA as [s [Hs [HU|[i [Hi HU]]]]].
      * left. exists s. split; [exact Hs|]. pose proof (by_name_class g HW CNS name s Hs) as Hsc.
        split; [exact Hsc | apply (U_ns_owned g HQ s x Hsc Hx HU)].
      * right. apply (Hart _ s i eq_refl Hs Hi HU).
    + (* remove_component *)
      destruct HA as [c [Hc [Hnm [HU|[i [Hi HU]]]]]].
      * left. exists c. split; [exact Hc|]. split; [exact Hnm | apply (U_comp_owned g HQ c x Hx HU)].
      * right. apply (Hart _ c i eq_refl); [apply child_by_name_In; auto | exact Hi | exact HU].
    + (* node.remove_network_service *)
      destruct HA as [s [Hs [Hnm [HU|[i [Hi HU]]]]]].
      * left. exists s. split; [exact Hs|]. split; [exact Hnm|].
        apply (U_ns_owned g HQ s x); [apply first_neighbor_In in Hs; tauto | exact Hx | exact HU].
      * right. apply (Hart _ s i eq_refl); [apply child_by_name_In; auto | exact Hi | exact HU].
  - (* lower bound *)
    intros [HO|[ii [l [Hd [Hl Ht]]]]].
    + apply (owned_exec ex o cs g r g' tr E x HO).
    + apply (artefact_ports_deleted_wf ex o cs g r g' tr HW E ii l x Hd Hl Ht).
Qed.

Lemma element_removal_liftable o : element_removal o = true -> liftable o = true.
Proof. destruct o; simpl; intros H; try discriminate; reflexivity. Qed.

(* ... and the links: T8Link.link_deleted_iff, restated here for the same operations and hypothesis *)
Theorem deleted_links_iff ex o cs g r g' tr :
  WQ g -> element_removal o = true -> run (exec ex o cs) g = (inl r, (g', tr)) ->
  forall l, class_of g l = CLink ->
    (In l tr <-> (2 <= length (cpn g l) /\ length (surv tr (cpn g l)) <= 1 /\ exists e, In e (cpn g l) /\ In e tr)).
Proof.
  intros HQ Ho E. apply (link_deleted_iff ex o cs g r g' tr (wq_wl g HQ) (element_removal_liftable o Ho) E).
Qed.

(* ---- a decidable version of WQ, for concrete graphs ---- *)
Definition wqb (g : graph) : bool :=
  wpb g && wlb g &&
  forallb (fun s => if cls_eqb (class_of g (nid s)) CNS
                    then forallb (fun i => forallb (fun x => memN i (cpn g x) && forallb (fun y => N.eqb y i) (cpn g x))
                                                   (cpn g i)) (cpn g (nid s))
                    else true) (gnodes g) &&
  forallb (fun l => if cls_eqb (class_of g (nid l)) CLink
                    then negb (existsb (fun p => N.eqb (type_of g p) T_ServicePort) (cpn g (nid l))) ||
                         Nat.eqb (length (cpn g (nid l))) 2
                    else true) (gnodes g).

Lemma wqb_sound g : wqb g = true -> WQ g.
Proof.
  unfold wqb. intros H.
  apply andb_true_iff in H. destruct H as [H H4]. apply andb_true_iff in H. destruct H as [H H3].
  apply andb_true_iff in H. destruct H as [H1 H2].
  constructor.
  - apply wpb_sound. exact H1.
  - apply wlb_sound. exact H2.
  - intros s i x Hs Hi Hx. rewrite forallb_forall in H3.
    destruct (class_node g s CNS Hs ltac:(discriminate)) as [sx [Hsx <-]].
    specialize (H3 sx Hsx). rewrite Hs in H3. simpl in H3.
    rewrite forallb_forall in H3. specialize (H3 i Hi). rewrite forallb_forall in H3. specialize (H3 x Hx).
    apply andb_true_iff in H3. destruct H3 as [A B]. split; [exact Hx|]. split; [apply memN_In; exact A|].
    intros y Hy. rewrite forallb_forall in B. apply N.eqb_eq. apply B. exact Hy.
  - intros l p Hl Hp Ht. rewrite forallb_forall in H4.
    destruct (class_node g l CLink Hl ltac:(discriminate)) as [lx [Hlx <-]].
    specialize (H4 lx Hlx). rewrite Hl in H4. simpl in H4. apply orb_true_iff in H4. destruct H4 as [A|A].
    + exfalso. apply negb_true_iff in A.
      assert (B : existsb (fun p0 => N.eqb (type_of g p0) T_ServicePort) (cpn g (nid lx)) = true).
      { apply existsb_exists. exists p. split; [exact Hp | apply N.eqb_eq; exact Ht]. } congruence.
    + apply Nat.eqb_eq. exact A.
Qed.
