(* C09 - example graphs, and where the full statement "every failing call leaves the graph unchanged" is still
   FALSE of the faithful model: concrete witnesses (each is replayed on the real code by
   harness/topo9_gen.refuted_witnesses). *)
From Coq Require Import List NArith String.
From FIM Require Import Base.Str Model.T9Graph Model.T9Ops Model.T9Check.
Import ListNotations.
Open Scope N_scope.

(* a VM with a shared NIC: node 1, component 2, its OVS service 3, its port 4; a second VM 5 with NIC 6,
   service 7, ports 8 and 9 *)
Definition tVM : N := 100.
Definition tNIC : N := 101.
Definition tOVS : N := 102.
Definition tL2Bridge : N := 103.
Definition tVLAN : N := 104.
Definition g_two_nodes : graph :=
  mkGraph [mkNode 1 cNN (S "n1") tVM 1; mkNode 2 cComp (S "nic1") tNIC 2; mkNode 3 cNS (S "n1-nic1-l2ovs") tOVS 3;
           mkNode 4 cCP (S "nic1-p1") tSharedPort 4;
           mkNode 5 cNN (S "n2") tVM 1; mkNode 6 cComp (S "nic1") tNIC 2; mkNode 7 cNS (S "n2-nic1-l2ovs") tOVS 3;
           mkNode 8 cCP (S "nic1-p1") tDedicatedPort 5; mkNode 9 cCP (S "nic1-p2") tDedicatedPort 6]
          [mkEdge 1 2 rHas; mkEdge 2 3 rHas; mkEdge 3 4 rConnects;
           mkEdge 5 6 rHas; mkEdge 6 7 rHas; mkEdge 7 8 rConnects; mkEdge 7 9 rConnects].
Definition supply : list N := [50; 51; 52; 53; 54; 55; 56; 57].

Lemma g_two_nodes_wf : wf_graph g_two_nodes = true.
Proof. vm_compute. reflexivity. Qed.

Ltac differs := let Heq := fresh "Heq" in intro Heq; apply (f_equal (fun g => List.length (gnodes g))) in Heq; vm_compute in Heq; discriminate.

(* composite sliver adders: a caller-supplied child id that already exists (substrate topologies) is
   detected after the component node has been added *)
Definition spec_smartnic (nsid i1 i2 : N) : comp_spec :=
  mkCompSpec tNIC (Some (mkChildNs (S "n1-nic2-l2ovs") tOVS (Some nsid)
     [mkChildIf (S "nic2-p1") tDedicatedPort (Some i1); mkChildIf (S "nic2-p2") tDedicatedPort (Some i2)])).

Definition w_component_dup_child : st * res N :=
  op_add_component false Substrate 1 (S "nic2") (Some 20) true true true (Ok (spec_smartnic 21 22 22)) None
                   (mkSt g_two_nodes supply).

Lemma add_component_atomic_refuted :
  exists fl pn name nid a b c cat pure g fresh s' e,
    wf_graph g = true /\ op_add_component false fl pn name nid a b c cat pure (mkSt g fresh) = (s', Err e) /\ sg s' <> g.
Proof.
  exists Substrate, 1, (S "nic2"), (Some 20), true, true, true, (Ok (spec_smartnic 21 22 22)), None,
         g_two_nodes, supply, (fst w_component_dup_child), EQuery.
  split; [exact g_two_nodes_wf|]. split; [vm_compute; reflexivity|differs].
Qed.

(* add_switch WITHOUT the rollback of proposed_fixes/C09-5.patch (flag false): node, service, ports in three steps;
   a port's labels rejected after node and service exist *)
Definition w_switch_late : st * res N :=
  op_add_switch false Experiment (S "sw1") None 0 [] tVLAN None 2 (Some EAssert) (mkSt g_two_nodes supply).

Lemma add_switch_atomic_refuted :
  exists fl name nid dns dk ty pns np pp g fresh s' e,
    wf_graph g = true /\ op_add_switch false fl name nid dns dk ty pns np pp (mkSt g fresh) = (s', Err e) /\ sg s' <> g.
Proof.
  exists Experiment, (S "sw1"), None, 0, [], tVLAN, None, 2%nat, (Some EAssert),
         g_two_nodes, supply, (fst w_switch_late), EAssert.
  split; [exact g_two_nodes_wf|]. split; [vm_compute; reflexivity|differs].
Qed.

(* two top-level services 30 and 31; 31 already has an interface named "b-a" *)
Definition g_two_services : graph :=
  mkGraph [mkNode 30 cNS (S "a") tL2Bridge 1; mkNode 31 cNS (S "b") tL2Bridge 1; mkNode 32 cCP (S "b-a") tServicePort 2]
          [mkEdge 31 32 rConnects].

