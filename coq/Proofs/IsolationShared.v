(* C04 on the shared store: what keeps the node ids of the nx.Graph ([keeps]) and the allocator
   invariant [SInv] over all histories. *)
From Coq Require Import List NArith Lia.
From FIM Require Import Base.ListFacts Base.Assoc Model.Store Proofs.IsolationBase.
Import ListNotations.
Open Scope N_scope.

Definition ids (G : nxg) : list N := map fst (gn G).

(* every stored internal id is unique and was drawn from the allocator (below start_id) *)
Definition SInv (s : store) : Prop :=
  NoDup (ids (sg s)) /\ forall i, In i (ids (sg s)) -> i < snext s.

(* [G'] keeps (a subset of) the node ids of [G] *)
Definition keeps (G' G : nxg) : Prop :=
  (NoDup (ids G) -> NoDup (ids G')) /\ incl (ids G') (ids G).

Lemma SInv_NoDup s : SInv s -> NoDup (ids (sg s)).
Proof. now intros [H _]. Qed.

Lemma SInv_below s i : SInv s -> In i (ids (sg s)) -> i < snext s.
Proof. intros [_ H]. apply H. Qed.

Lemma keeps_In G' G i : keeps G' G -> In i (ids G') -> In i (ids G).
Proof. intros [_ H]. apply H. Qed.

Lemma keeps_refl G : keeps G G.
Proof. split; [auto | apply incl_refl]. Qed.

Lemma keeps_trans A B C : keeps A B -> keeps B C -> keeps A C.
Proof. intros [H1 H2] [H3 H4]. split; [auto | eapply incl_tran; eauto]. Qed.

Lemma keeps_same_nodes G' G : ids G' = ids G -> keeps G' G.
Proof. intro H. unfold keeps. rewrite H. split; [auto | apply incl_refl]. Qed.

Lemma keeps_set_node G id ps : keeps (nx_set_node G id ps) G.
Proof. apply keeps_same_nodes. unfold ids, nx_set_node. simpl. apply map_fst_set_node. Qed.

Lemma keeps_set_edge G a b ps : keeps (nx_set_edge G a b ps) G.
Proof. now apply keeps_same_nodes. Qed.

Lemma keeps_add_edge G a b ps : keeps (nx_add_edge G a b ps) G.
Proof. unfold nx_add_edge. destruct (nx_edge G a b); now apply keeps_same_nodes. Qed.

Lemma keeps_filter_nodes (p : N -> bool) G es :
  keeps (mkG (filter (fun n => p (fst n)) (gn G)) es) G.
Proof.
  unfold keeps, ids. simpl. rewrite map_fst_filter_fst. split.
  - apply NoDup_filter.
  - apply incl_filter.
Qed.

Lemma keeps_remove_node G id : keeps (nx_remove_node G id) G.
Proof. unfold nx_remove_node. apply (keeps_filter_nodes (fun i => negb (N.eqb i id))). Qed.

Lemma keeps_remove_nodes G l : keeps (nx_remove_nodes G l) G.
Proof. unfold nx_remove_nodes. apply (keeps_filter_nodes (fun i => negb (memN i l))). Qed.

Lemma ids_upd_nodes l p v G es : ids (mkG (upd_nodes l p v (gn G)) es) = ids G.
Proof.
  unfold ids, upd_nodes. simpl. rewrite map_map. apply map_ext.
  intros [i ps]. simpl. now destruct (memN i l).
Qed.

Lemma keeps_upd_nodes G l p v : keeps (mkG (upd_nodes l p v (gn G)) (ge G)) G.
Proof. apply keeps_same_nodes, ids_upd_nodes. Qed.

Lemma keeps_same_gn G es : keeps (mkG (gn G) es) G.
Proof. now apply keeps_same_nodes. Qed.

Lemma write_keeps Q g G G' : pg_write Q g G G' -> keeps G' G.
Proof.
  destruct 1; [apply keeps_refl | apply keeps_set_node | apply keeps_upd_nodes | apply keeps_set_edge
              | apply keeps_add_edge | apply keeps_remove_node].
Qed.

Lemma gn_fold_remap u v es G : gn (fold_left (remap_edge u v) es G) = gn G.
Proof.
  apply (fold_left_inv (fun G' => gn G' = gn G)); [|reflexivity].
  intros G' [[p q] d] _ E. rewrite <- E. unfold remap_edge. now destruct (nx_edge G' u _).
Qed.

Lemma keeps_contract G u v : keeps (contract G u v) G.
Proof.
  unfold contract. eapply keeps_trans; [|apply keeps_remove_node].
  apply keeps_same_nodes. unfold ids. now rewrite gn_fold_remap.
Qed.

Lemma keeps_merge G g n g2 pol : keeps (fst (s_merge G g n g2 pol)) G.
Proof.
  destruct (s_merge_cases G g n g2 pol) as [E|[u [v [ps [_ [_ [_ E]]]]]]]; rewrite E; [apply keeps_refl|].
  eapply keeps_trans; [apply keeps_set_node | apply keeps_contract].
Qed.

Fixpoint seqN (f : N) (n : nat) : list N :=
  match n with O => [] | S k => f :: seqN (N.succ f) k end.

Lemma seqN_In f n i : In i (seqN f n) <-> f <= i < f + N.of_nat n.
Proof.
  revert f; induction n as [|k IH]; intro f; simpl.
  - split; [intros [] | lia].
  - rewrite IH. split.
    + intros [H|H]; lia.
    + intro H. destruct (N.eq_dec f i); [now left | right; lia].
Qed.

Lemma seqN_NoDup f n : NoDup (seqN f n).
Proof.
  revert f; induction n as [|k IH]; intro f; simpl; constructor.
  - rewrite seqN_In. lia.
  - apply IH.
Qed.

Lemma relabel_nodes_fst l f : map fst (relabel_nodes l f) = seqN f (length l).
Proof.
  revert f; induction l as [|[k ps] r IH]; intro f; simpl; [reflexivity|]. now rewrite IH.
Qed.

Lemma relabel_nodes_length l f : length (relabel_nodes l f) = length l.
Proof. revert f; induction l as [|[k ps] r IH]; intro f; simpl; [reflexivity|]. now rewrite IH. Qed.

Lemma map_fst_stamp g l : map fst (stamp g l) = map fst l.
Proof. unfold stamp. rewrite map_map. reflexivity. Qed.

Lemma index_of_bounds k l f i : index_of k l f = Some i -> f <= i < f + N.of_nat (length l).
Proof.
  revert f; induction l as [|[k' ps] r IH]; intro f; simpl; [discriminate|].
  destruct (N.eqb k k').
  - intro H; inversion H; subst. lia.
  - intro H. apply IH in H. lia.
Qed.

Lemma index_of_some k l f : ahas k l = true -> exists i, index_of k l f = Some i.
Proof.
  revert f; induction l as [|[k' ps] r IH]; intro f; unfold ahas; simpl; [discriminate|].
  destruct (N.eqb k k'); [eauto|]. intro H. apply IH. exact H.
Qed.

Lemma add_nodes_fresh ns : forall G,
  NoDup (map fst ns) -> (forall i, In i (map fst ns) -> ~ In i (ids G)) ->
  fold_left (fun acc n => nx_add_node acc (fst n) (snd n)) ns G = mkG (gn G ++ ns) (ge G).
Proof.
  induction ns as [|[i ps] r IH]; intros G Hnd Hfresh; simpl.
  - rewrite app_nil_r. now destruct G.
  - inversion Hnd; subst.
    assert (Hn : nx_node G i = None).
    { unfold nx_node. apply aget_None_notin. apply Hfresh. now left. }
    unfold nx_add_node at 2. rewrite Hn.
    rewrite IH; simpl.
    + now rewrite <- app_assoc.
    + exact H2.
    + intros j Hj. unfold ids. simpl. rewrite map_app. simpl. intro Hin.
      apply in_app_or in Hin as [Hin|[Hin|[]]].
      * apply (Hfresh j); [now right | exact Hin].
      * subst j. now apply H1.
Qed.

Lemma fold_add_edges_gn es : forall G,
  gn (fold_left (fun acc e => let '(a, b, ps) := e in nx_add_edge acc a b ps) es G) = gn G.
Proof.
  intro G. apply (fold_left_inv (fun G' => gn G' = gn G)); [|reflexivity].
  intros G' [[a b] ps] _ E. rewrite <- E. unfold nx_add_edge. now destruct (nx_edge G' a b).
Qed.

Lemma fold_add_edges_view es g' : forall G,
  (forall e, In e es -> memN (fst (fst e)) (ids_in G g') = false) ->
  view (fold_left (fun acc e => let '(a, b, ps) := e in nx_add_edge acc a b ps) es G) g' = view G g'.
Proof.
  intros G H. apply (fold_left_inv (fun G' => view G' g' = view G g')); [|reflexivity].
  intros G' [[a b] ps] Hin E. rewrite <- E. apply view_add_edge.
  change (ids_in G' g') with (map fst (fst (view G' g'))). rewrite E. exact (H _ Hin).
Qed.

Lemma ids_in_incl G g : incl (ids_in G g) (ids G).
Proof.
  intros i Hi. apply In_ids_in in Hi as [ps [H _]]. change i with (fst (i, ps)). now apply in_map.
Qed.

Lemma view_add_all G ns es g' first k :
  NoDup (ids G) -> (forall i, In i (ids G) -> i < first) ->
  map fst ns = seqN first k ->
  (forall n, In n ns -> in_g g' n = false) ->
  (forall e, In e es -> first <= fst (fst e)) ->
  view (nx_add_all G ns es) g' = view G g'.
Proof.
  intros Hnd Hlt Hfst Hng Hes. unfold nx_add_all.
  rewrite add_nodes_fresh; [| rewrite Hfst; apply seqN_NoDup |].
  - rewrite fold_add_edges_view; [now apply view_app_nodes|].
    intros e He. apply memN_false. intro Hin.
    change (ids_in (mkG (gn G ++ ns) (ge G)) g') with (map fst (fst (view (mkG (gn G ++ ns) (ge G)) g'))) in Hin.
    rewrite (view_app_nodes G ns g' Hng) in Hin. apply ids_in_incl, Hlt in Hin. specialize (Hes e He). lia.
  - intros i Hi Hin. rewrite Hfst in Hi. apply seqN_In in Hi. apply Hlt in Hin. lia.
Qed.

Lemma ids_add_all G ns es :
  NoDup (ids G) -> (forall i, In i (map fst ns) -> ~ In i (ids G)) -> NoDup (map fst ns) ->
  ids (nx_add_all G ns es) = ids G ++ map fst ns.
Proof.
  intros Hnd Hfresh Hnd2. unfold nx_add_all, ids. rewrite fold_add_edges_gn.
  rewrite add_nodes_fresh by assumption. simpl. apply map_app.
Qed.

Lemma SInv_keeps s G' : SInv s -> keeps G' (sg s) -> SInv (mkS G' (snext s)).
Proof.
  intros [H1 H2] [K1 K2]. split; simpl; [auto|]. intros i Hi. apply H2. now apply K2.
Qed.

Lemma SInv_del_graph s g : SInv s -> SInv (s_del_graph s g).
Proof. intro H. unfold s_del_graph. apply SInv_keeps; [exact H | apply keeps_remove_nodes]. Qed.

Lemma SInv_add_all s ns es k :
  SInv s -> map fst ns = seqN (snext s) k ->
  SInv (mkS (nx_add_all (sg s) ns es) (snext s + N.of_nat k)).
Proof.
  intros [H1 H2] Hfst.
  assert (Hfresh : forall i, In i (map fst ns) -> ~ In i (ids (sg s))).
  { intros i Hi Hin. rewrite Hfst in Hi. apply seqN_In in Hi. apply H2 in Hin. lia. }
  assert (Hnd : NoDup (map fst ns)) by (rewrite Hfst; apply seqN_NoDup).
  split; simpl; rewrite ids_add_all by assumption.
  - apply NoDup_app_intro; auto. intros i Hi Hj. now apply (Hfresh i Hj).
  - intros i Hi. apply in_app_or in Hi as [Hi|Hi].
    + apply H2 in Hi. lia.
    + rewrite Hfst in Hi. apply seqN_In in Hi. lia.
Qed.

Lemma SInv_lift s x : SInv s -> keeps (fst x) (sg s) -> SInv (fst (lift s x)).
Proof. intros H K. unfold lift. simpl. now apply SInv_keeps. Qed.

Lemma relabel_inodes_fst ig f : map fst (inodes (relabel ig f)) = seqN f (length (inodes (relabel ig f))).
Proof. unfold relabel. simpl. now rewrite relabel_nodes_fst, relabel_nodes_length. Qed.

Lemma SInv_add_graph s g ig : SInv s -> SInv (fst (s_add_graph s g ig)).
Proof.
  intro H. unfold s_add_graph. pose proof (SInv_del_graph s g H) as H1.
  destruct (existsb node_id_missing _); cbn [fst]; [exact H1|].
  apply (SInv_add_all (s_del_graph s g)); [exact H1|]. rewrite map_fst_stamp. apply relabel_inodes_fst.
Qed.

Lemma SInv_add_graph_direct s g ig : SInv s -> SInv (fst (s_add_graph_direct s g ig)).
Proof.
  intro H. unfold s_add_graph_direct. cbn [fst].
  apply (SInv_add_all (s_del_graph s g)); [now apply SInv_del_graph | apply relabel_inodes_fst].
Qed.

Lemma SInv_next_fresh s : SInv s -> nx_node (sg s) (snext s) = None.
Proof. intro H. apply aget_None_notin. intro Hin. apply (SInv_below s _ H) in Hin. lia. Qed.

Lemma SInv_add_node s g n c ps G' :
  SInv s -> pg_add_node (sg s) g (snext s) n c ps = Some G' -> SInv (mkS G' (snext s + 1)).
Proof.
  intros H Hadd. pose proof (SInv_next_fresh s H) as Hn.
  rewrite (pg_add_node_fresh _ _ _ _ _ _ _ Hn Hadd), <- nx_add_node_fresh by exact Hn.
  apply (SInv_add_all s [(snext s, _)] [] 1); [exact H | reflexivity].
Qed.

Theorem SInv_step s o : SInv s -> SInv (fst (sstep s o)).
Proof.
  intro H. destruct (mutator o (sg s)) as [x|] eqn:Em.
  { rewrite (sstep_mutator _ _ _ Em). apply SInv_lift; [exact H|].
    exact (write_keeps _ _ _ _ (mutator_write_any _ _ _ Em)). }
  destruct o; try discriminate Em; cbn [sstep fst]; try exact H.
  - now apply SInv_add_graph.
  - now apply SInv_add_graph_direct.
  - now apply SInv_del_graph.
  - unfold s_clone. destruct (s_extract (sg s) g); [now apply SInv_add_graph | exact H].
  - destruct (pg_add_node (sg s) g (snext s) n c ps) eqn:E; cbn [fst]; [|exact H].
    eapply SInv_add_node; eauto.
  - apply SInv_lift; [exact H | apply keeps_merge].
Qed.

Lemma SInv_init : SInv init_store.
Proof. split; simpl; [constructor | intros i []]. Qed.

Theorem SInv_run ops : forall s, SInv s -> SInv (srun ops s).
Proof.
  induction ops as [|o r IH]; intros s H; simpl; [exact H|].
  apply IH. now apply SInv_step.
Qed.

Theorem ids_unique_all ops :
  NoDup (ids (sg (srun ops init_store))) /\
  forall i, In i (ids (sg (srun ops init_store))) -> i < snext (srun ops init_store).
Proof. exact (SInv_run ops init_store SInv_init). Qed.
