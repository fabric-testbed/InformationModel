(* C07 - more building calls keep WF: add_component / add_storage (component + its service + its interfaces, each
   element with its owner edge as a unit; any failing step stops with a well-formed partial structure); and, at the
   end, run_op_preserves_basic: the case split over the calls whose precondition is op_pre_basic, which
   Proofs/T7Hist.v extends to all calls. *)
From Coq Require Import String List Bool.
From FIM Require Import Base.Str Gen.Rules Model.T7Graph Model.T7Ops Model.T7WF Model.T7Steps
     Proofs.T7Tables Proofs.T7WFRefl Proofs.T7Frame Proofs.T7Units Proofs.T7Api.
Import ListNotations.

Lemma name_of_new g n a r : owned_ok g n a r = true -> name_of (add_owned g n a r) (nid n) = nname n.
Proof. intro OK. unfold name_of. rewrite (ao_find_new g n a r OK). reflexivity. Qed.

Lemma has_id_add_owned g n a r y : has_id (add_owned g n a r) y = has_id g y || str_eqb (nid n) y.
Proof. unfold add_owned. rewrite has_id_add_edge, has_id_add_node. reflexivity. Qed.

(* one more interface i under the service sid: the service stays a service, its interfaces are the old ones under their
   old names and i under its own *)
Lemma iface_step g sid i :
  WF g -> owned_ok g i sid Connects = true -> ncls i = KCP -> cls_is g sid KNS = true ->
  WF (add_owned g i sid Connects) /\ cls_is (add_owned g i sid Connects) sid KNS = true /\
  forall y, In y (first_nb (add_owned g i sid Connects) sid Connects KCP) ->
    (In y (first_nb g sid Connects KCP) /\ name_of (add_owned g i sid Connects) y = name_of g y) \/
    (y = nid i /\ name_of (add_owned g i sid Connects) y = nname i).
Proof.
  intros W OK Pc Hs. pose proof (aw_fresh _ _ _ _ OK) as Hf. split; [apply WF_add_owned; assumption|]. split.
  - rewrite ao_cls_old; [exact Hs|]. intro E. rewrite <- E, (cls_is_has_id _ _ _ Hs) in Hf. discriminate.
  - intros y Hy. rewrite (ao_first_nb_a _ _ _ _ W OK), Pc in Hy. apply in_app_or in Hy as [Hy|[<-|[]]].
    + left. split; [exact Hy|]. apply ao_name_old. intro E. subst y.
      rewrite (first_nb_has_id _ _ _ _ _ (wf_edge_ends _ W) Hy) in Hf. discriminate.
    + right. split; [reflexivity | exact (name_of_new _ _ _ _ OK)].
Qed.

Definition plain_iface (i : node) : Prop :=
  ncls i = KCP /\ new_node_ok i = true /\ is_type i sServicePort = false /\ is_type i sSubInterface = false.

Lemma iface_loop sid : forall (ifs : list node) s s' r,
  WF (sg s) -> cls_is (sg s) sid KNS = true ->
  Forall plain_iface ifs -> NoDup (map nname ifs) ->
  (forall y, In y (first_nb (sg s) sid Connects KCP) -> ~ In (name_of (sg s) y) (map nname ifs)) ->
  for_each ifs (fun i => add_interface_sliver sid i) s = (s', r) -> WF (sg s').
Proof.
  induction ifs as [|i ifs IH]; intros s s' r W Hs Hp ND Hn H; simpl in H.
  - apply ret_inv in H as [-> _]. exact W.
  - inversion Hp as [|? ? [Pc [Pn [Psp Psub]]] Hp']; subst. inversion ND as [|? ? Hnot ND']; subst.
    assert (OK : has_id (sg s) (nid i) = false -> owned_ok (sg s) i sid Connects = true).
    { intro Hf. unfold owned_ok, fresh, owner_shape_ok. rewrite Hf, Pn, Pc, Psp, Psub, Hs. simpl.
      unfold sibling_free. apply forallb_forall. intros y Hy. apply negb_true_iff.
      destruct (ostr_eqb (name_of (sg s) y) (nname i)) eqn:E; [|reflexivity].
      apply ostr_eqb_eq in E. exfalso. apply (Hn y Hy). rewrite E. left. reflexivity. }
    apply bind_inv in H as [[s1 [[] [H1 H2]]]|[e [H1 _]]]; [|exact (proj1 (api_add_owned _ _ _ _ _ _ W OK H1))].
    destruct (add_owned_inv _ _ _ _ _ _ W OK H1) as [[_ [OK' Hg]]|[e [He _]]]; [|discriminate He].
    destruct (iface_step _ _ _ W OK' Pc Hs) as [W1 [Hs1 Nb]]. rewrite <- Hg in W1, Hs1, Nb.
    apply (IH s1 s' r W1 Hs1 Hp' ND'); [|exact H2].
    intros y Hy Hin. destruct (Nb y Hy) as [[Hy' E]|[-> E]]; rewrite E in Hin; [apply (Hn y Hy'); right; exact Hin | auto].
Qed.

Lemma gen_ifs_val name itype : forall plan s s' ifs,
  mapM (fun pi => check_name KCP (name ++ dash ++ fst pi) ;;;
                  i <- id_or_draw (snd pi) ;;
                  ret (mkNode i KCP itype (Some (name ++ dash ++ fst pi)) true)) plan s = (s', Ok ifs) ->
  map nname ifs = map (fun pi => Some (name ++ dash ++ fst pi)) plan /\
  Forall (fun n => ncls n = KCP /\ ntyp n = itype /\ exists nm, nname n = Some nm) ifs.
Proof.
  induction plan as [|pi plan IH]; intros s s' ifs H; cbn [mapM] in H.
  - apply ret_inv in H as [-> H]. inversion H. auto.
  - unfold check_name, guard, bind, ret, raise in H. destruct (name_ok KCP (name ++ dash ++ fst pi)); [|discriminate].
    destruct (id_or_draw (snd pi) s) as [s1 [i|e]]; [|discriminate].
    destruct (mapM _ plan s1) as [s2 [ys|e]] eqn:M; [|discriminate]. injection H as <- <-. apply IH in M as [N F].
    split; [simpl; f_equal; exact N | constructor; [simpl; eauto | exact F]].
Qed.

Lemma map_fst_zip_ids ps ids : map fst (zip_ids ps ids) = ps.
Proof. revert ids; induction ps as [|p ps IH]; intros [|i ids]; simpl; try reflexivity; f_equal; apply IH. Qed.

Lemma nodup_iface_names name (plan : list (str * option str)) :
  NoDup (map fst plan) -> NoDup (map (fun pi => Some (name ++ dash ++ fst pi)) plan).
Proof.
  induction plan as [|pi plan IH]; simpl; intro ND; [constructor|]. inversion ND; subst. constructor; [|auto].
  intro Hin. apply in_map_iff in Hin as [q [E Hq]]. inversion E as [E']. apply app_inv_head in E'.
  injection E' as X. apply H1.
  exact (eq_ind (fst q) (fun z => In z (map fst plan)) (in_map fst plan q Hq) (fst pi) X).
Qed.

(* every catalogue entry with ports has distinct port names and a type whose ports get an interface type *)
Definition catalog_ports_ok : bool :=
  forallb (fun c => match c with
                    | (_, _, t, Some ps) => nodup_b ps && (str_eqb t sSmartNIC || str_eqb t sFPGA || str_eqb t sSharedNIC)
                    | _ => true
                    end) catalog.
Lemma catalog_ports_ok_true : catalog_ports_ok = true.
Proof. vm_compute. reflexivity. Qed.

Lemma catalog_lookup_in model ctype c : catalog_lookup model ctype = Some c -> In c catalog.
Proof. unfold catalog_lookup. intro H. apply find_some in H. tauto. Qed.

Lemma catalog_type_allowed c : In c catalog -> match c with (_, _, t, _) => type_allowed KComp t = true end.
Proof.
  intro H. pose proof builtin_types_in_vocab as B. unfold builtin_types_ok in B.
  do 5 (apply andb_true_iff in B as [B ?]). rewrite forallb_forall in B. specialize (B _ H). destruct c as [[[m al] t] ps]. exact B.
Qed.
Lemma catalog_ports_facts m al t ps : In (m, al, t, Some ps) catalog ->
  NoDup ps /\ (str_eqb t sSmartNIC || str_eqb t sFPGA || str_eqb t sSharedNIC) = true.
Proof.
  intro H. pose proof catalog_ports_ok_true as B. unfold catalog_ports_ok in B. rewrite forallb_forall in B.
  specialize (B _ H). simpl in B. apply andb_true_iff in B as [B1 B2]. split; [apply nodup_b_NoDup; exact B1 | exact B2].
Qed.

Lemma reads_comp_precheck fl id gen : reads (comp_precheck fl id gen).
Proof. unfold comp_precheck. destruct (fl_comp_precheck fl); auto 8 with reads. Qed.
#[export] Hint Resolve reads_comp_precheck : reads.

(* what generate_component makes for a catalogue entry with ports: a service and plain interfaces of distinct names *)
Definition gen_plain (gen : option (node * list node)) : Prop :=
  match gen with
  | Some (ns, ifs) => ncls ns = KNS /\ new_node_ok ns = true /\ Forall plain_iface ifs /\ NoDup (map nname ifs)
  | None => True
  end.

(* the component under its node, then its service under the component, then the interfaces under the service --
   every failing step stops with a well-formed partial structure *)
Lemma component_units comp parent gen s s' r :
  WF (sg s) -> ncls comp = KComp -> cls_is (sg s) parent KNode = true ->
  (has_id (sg s) (nid comp) = false -> owned_ok (sg s) comp parent Has = true) -> gen_plain gen ->
  (add_node comp ;;; add_link parent Has (nid comp) ;;;
   match gen with
   | None => ret tt
   | Some (ns, ifs) => add_node ns ;;; add_link (nid comp) Has (nid ns) ;;; for_each ifs (fun i => add_interface_sliver (nid ns) i)
   end) s = (s', r) -> WF (sg s').
Proof.
  intros W Kc Hp OK1 GP H. rewrite bind_assoc in H.
  apply bind_inv in H as [[s1 [[] [H1 H2]]]|[e [H1 _]]]; [| exact (proj1 (api_add_owned _ _ _ _ _ _ W OK1 H1))].
  apply add_owned_inv in H1 as [[_ [OK G1]]|[e [He _]]]; [| discriminate He | exact W | exact OK1]. clear OK1.
  pose proof (WF_add_owned _ _ _ _ W OK) as W1. rewrite <- G1 in W1.
  destruct gen as [[ns ifs]|]; [| apply ret_inv in H2 as [-> _]; exact W1].
  destruct GP as [Kn [Nn [Pi ND]]].
  (* the only neighbour of the new component is its node: no service under it yet *)
  assert (OK2 : has_id (sg s1) (nid ns) = false -> owned_ok (sg s1) ns (nid comp) Has = true).
  { intro Hf. rewrite G1 in *. unfold owned_ok, fresh, owner_shape_ok. rewrite Hf, Nn, Kn, !(ao_cls_new _ _ _ _ OK), Kc. simpl.
    unfold sibling_free, first_nb. rewrite (ao_nbrs_x _ _ _ _ W OK). simpl.
    assert (Hpne : parent <> nid comp).
    { intro E. pose proof (aw_fresh _ _ _ _ OK) as F. rewrite <- E, (cls_is_has_id _ _ _ Hp) in F. discriminate F. }
    rewrite (ao_cls_old _ _ _ _ _ _ Hpne), (cls_is_unique _ _ _ KNS Hp) by discriminate. reflexivity. }
  rewrite bind_assoc in H2.
  apply bind_inv in H2 as [[s2 [[] [H3 H4]]]|[e [H3 _]]]; [| exact (proj1 (api_add_owned _ _ _ _ _ _ W1 OK2 H3))].
  apply add_owned_inv in H3 as [[_ [OK2' G2]]|[e [He _]]]; [| discriminate He | exact W1 | exact OK2].
  apply (iface_loop (nid ns) ifs) in H4; auto; rewrite G2.
  - apply WF_add_owned; assumption.
  - rewrite (ao_cls_new _ _ _ _ OK2'), Kn. reflexivity.
  - intros y Hy. apply In_first_nb in Hy as [Hy _]. rewrite (ao_nbrs_x _ _ _ _ W1 OK2') in Hy. destruct Hy as [Hy|[]]. discriminate Hy.
Qed.

(* Component(NEW): everything before the first add_node only reads *)
Lemma api_new_component fl sub parent name cid ctype model nsid ifids lab s s' r :
  WF (sg s) -> cls_is (sg s) parent KNode = true ->
  sibling_free (sg s) parent Has KComp (Some name) = true ->
  new_component fl sub parent name cid ctype model nsid ifids lab s = (s', r) -> WF (sg s').
Proof.
  intros W Hp SF H. unfold new_component in H.
  peelw H W. peelw H W. peelw H W.
  apply bind_reads in H; [| unfold props; solve [auto 8 with reads]].
  destruct H as [[s1 [pn [Hpn [Hg H]]]] | [e [Hr Hg]]]; [| rewrite Hg; exact W].
  unfold props in Hpn. apply find1_val in Hpn as [-> Fpn]. clear Hg.
  destruct (catalog_lookup model ctype) as [[[[cmodel also] ctype'] ports]|] eqn:CL;
    [| apply raise_inv in H as [-> _]; exact W].
  apply catalog_lookup_in in CL.
  peelw H W.
  apply bind_reads in H;
    [| destruct ports; [apply reads_bind; [apply reads_guard | intro; apply reads_bind; [apply reads_mapM; intro; auto 8 with reads | intro; auto 8 with reads]] | apply reads_ret]].
  destruct H as [[sG [gen [Hgen [HgG H]]]] | [e [Hr Hg]]]; [| rewrite Hg; exact W].
  assert (GP : gen_plain gen).
  { destruct ports as [ps|]; [| apply ret_inv in Hgen as [_ X]; inversion X; exact I].
    destruct (catalog_ports_facts _ _ _ _ CL) as [NDps Tt].
    unfold check_name, guard, bind, ret, raise in Hgen. destruct (match ifids with Some l => _ | None => _ end); [|discriminate].
    destruct (mapM _ _ _) as [sb [ifs|e]] eqn:Hifs; [|discriminate]. apply gen_ifs_val in Hifs as [Nifs Fifs].
    destruct (id_or_draw nsid sb) as [sc [sid|e]]; [|discriminate]. destruct (name_ok KNS _); [|discriminate].
    inversion Hgen. split; [reflexivity|]. split; [destruct (str_eqb ctype' sFPGA); reflexivity|]. split.
    - apply Forall_forall. intros i Hi. rewrite Forall_forall in Fifs. destruct (Fifs _ Hi) as [Ci [Ti [nm En]]].
      unfold plain_iface, new_node_ok, fields_ok, vocab_ok, vocab_ok_in, is_type. rewrite Ci, Ti, En.
      destruct (str_eqb ctype' sSmartNIC || str_eqb ctype' sFPGA) eqn:E1; [repeat split; reflexivity|].
      destruct (str_eqb ctype' sSharedNIC) eqn:E2; [repeat split; reflexivity|].
      simpl in Tt. discriminate Tt.
    - rewrite Nifs. apply nodup_iface_names. destruct ifids as [l|]; [rewrite map_fst_zip_ids | rewrite map_map; simpl; rewrite map_id]; exact NDps. }
  clear Hgen. rewrite <- HgG in *. peelw H W.
  eapply component_units; [exact W | | exact Hp | | exact GP | exact H]; [reflexivity|].
  intro Hf. apply owned_ok_mk; auto; [exact (catalog_type_allowed _ CL) | unfold owner_shape_ok; simpl; rewrite Hp; reflexivity].
Qed.

(* Node.add_component / add_storage: the name is new among the components of the node *)
Lemma api_component_under fl sub n name cid ctype model nsid ifids lab s s' r :
  WF (sg s) ->
  (cs <- components_of n ;; g <- getg ;; guard (negb (name_in g name cs)) ETopology ;;;
   new_component fl sub n name cid ctype model nsid ifids lab) s = (s', r) -> WF (sg s').
Proof.
  intros W H.
  apply bind_reads in H; [| solve [auto 8 with reads]]. destruct H as [[s1 [cs [Hm [_ H]]]] | [e [_ Hg]]]; [| rewrite Hg; exact W].
  apply class_nb_val in Hm as [-> [-> [k [[<-|[]] Hk]]]]. peelw H W. peelw H W.
  eapply api_new_component; [exact W | exact Hk | | exact H]. eapply name_in_sibling; eauto.
Qed.
Lemma api_node_add_component fl sub n name cid ctype model nsid ifids s s' r :
  WF (sg s) -> node_add_component fl sub n name cid ctype model nsid ifids s = (s', r) -> WF (sg s').
Proof. apply api_component_under. Qed.
Lemma api_node_add_storage fl sub n name cid s s' r :
  WF (sg s) -> node_add_storage fl sub n name cid s = (s', r) -> WF (sg s').
Proof. intros W H. unfold node_add_storage in H. peelw H W. exact (api_component_under _ _ _ _ _ _ _ _ _ _ _ _ _ W H). Qed.

Lemma mem_enum_allowed k l t : (forall t, In t l -> type_allowed k t = true) -> mem_str t l = true -> type_allowed k t = true.
Proof. intros H M. apply H. apply mem_str_In. exact M. Qed.

Lemma service_type_ok t : mem_str t enum_service_types = true -> type_allowed KNS t = true.
Proof. intro H. apply service_types_in_vocab. apply mem_str_In. exact H. Qed.

Lemma reads_need_elem x : reads (need_elem x).
Proof. unfold need_elem. auto 8 with reads. Qed.
#[export] Hint Resolve reads_need_elem : reads.
Lemma reads_for_each_need l : reads (for_each l (need KCP)).
Proof. apply reads_for_each. intro. apply reads_need. Qed.

Lemma run_op_preserves_basic sub fl hint o s s' r :
  WF (sg s) -> op_pre_basic (sg s) o = true -> run_op sub fl hint o s = (s', r) -> WF (sg s').
Proof.
  intros W P R. destruct o; simpl in P; try discriminate P; unfold run_op in R.
  - (* add_node *)
    apply then_ret_state in R as [r0 R].
    eapply api_add_node; [exact W | eapply mem_enum_allowed; [apply node_types_in_vocab | exact P] | exact R].
  - (* node.add_component *)
    peelw R W. eapply api_node_add_component; eauto.
  - (* node.add_storage *)
    peelw R W. eapply api_node_add_storage; eauto.
  - (* add_network_service without interfaces *)
    destruct ifs; [|discriminate P]. simpl in R.
    apply bind_inv in R as [[s1 [[] [R1 R2]]]|[e0 [R1 _]]]; [|apply ret_inv in R1 as [_ R1]; discriminate].
    apply ret_inv in R1 as [-> _]. eapply (api_add_ns_nil fl); [exact W | apply service_type_ok; exact P | exact R2].
  - (* node.add_network_service *)
    peelw R W. apply then_ret_state in R as [r0 R].
    eapply api_node_add_ns; [exact W | apply service_type_ok; exact P | exact R].
  - (* add_link *)
    apply andb_true_iff in P as [P1 P2]. peelw R W.
    eapply api_add_link; [exact W | eapply mem_enum_allowed; [apply link_types_in_vocab | exact P1] | exact P2 | exact R].
  - (* remove_link *)
    eapply api_remove_link; eauto.
  - (* add_child_interface *)
    peelw R W. eapply api_add_sub; eauto.
  - (* rename *)
    peelw R W. eapply api_rename; eauto.
  - (* set_property *)
    peelw R W. destruct p; try discriminate P; (eapply api_set_property; [exact W | | | exact R]); intro X; try (destruct X as [X|X]); try discriminate X; exact P.
  - (* unset_property *)
    peelw R W. eapply api_unset_property; eauto.
Qed.
