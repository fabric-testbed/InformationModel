(* C05: the regenerated constants, the guards on identity properties and on Class, and the
   history invariant "identity properties never disappear, Class never changes". *)
From Coq Require Import List NArith Bool Lia.
From FIM Require Import Base.ListFacts Base.Assoc Gen.PGConst Model.Store Model.StoreDisjoint.
From FIM Require Import Proofs.IsolationBase Proofs.IsolationShared Proofs.IsolationDisjoint Proofs.RefineBase.
Import ListNotations.
Open Scope N_scope.

(* ---------- the model's constants are the source's (regenerated on every run) ---------- *)
Definition constants_tied : bool :=
  gen_ok &&
  N.eqb gen_graph_id k_graphid && N.eqb gen_node_id k_nodeid && N.eqb gen_class k_class &&
  N.eqb gen_type k_type && N.eqb gen_name k_name && N.eqb gen_networkx_label k_class &&
  list_eqb N.eqb gen_no_unset no_unset &&
  forallb (fun x => snd x) gen_class_guarded && Nat.eqb (List.length gen_class_guarded) 7%nat &&
  gen_unset_identity_guarded && gen_add_node_checks_any_class && gen_disjoint_merge_unsupported.

Lemma constants_tied_true : constants_tied = true.
Proof. vm_compute. reflexivity. Qed.

(* ---------- guards: rejected before anything is touched ---------- *)
(* a method that raises without touching its nx.Graph leaves either store as it was *)
Lemma rejected_shared s o e : mutator o (sg s) = Some (sg s, Err e) -> sstep s o = (s, Err e).
Proof. intro H. rewrite (sstep_mutator _ _ _ H). now destruct s. Qed.

Lemma rejected_disjoint d o e :
  mutator o (dget d (target o)) = Some (dget d (target o), Err e) ->
  snd (dstep d o) = Err e /\ forall g', dget (fst (dstep d o)) g' = dget d g'.
Proof.
  intro H. rewrite (dstep_mutator _ _ _ H). split; [reflexivity | intro g'].
  unfold dlift. cbn [fst]. rewrite dget_dput. destruct (N.eqb_spec g' (target o)); now subst.
Qed.

Lemma unset_identity_rejected G g n p : In p no_unset -> pg_unset_node G g n p = (G, Err EQuery).
Proof. intro H. rewrite pg_unset_node_eq. unfold with_node. now rewrite (proj2 (memN_In p no_unset) H), orb_true_r. Qed.

Lemma unset_identity_shared s g n p :
  In p no_unset -> sstep s (OUnsetNode g n p) = (s, Err EQuery).
Proof. intro H. apply rejected_shared. cbn [mutator]. now rewrite unset_identity_rejected. Qed.

Lemma unset_identity_disjoint d g n p :
  In p no_unset ->
  snd (dstep d (OUnsetNode g n p)) = Err EQuery /\
  forall g', dget (fst (dstep d (OUnsetNode g n p))) g' = dget d g'.
Proof. intro H. apply rejected_disjoint. cbn [mutator target]. now rewrite unset_identity_rejected. Qed.

(* every operation that would write or remove 'Class' *)
Definition writes_class (o : op) : bool :=
  match o with
  | OUpdNode _ _ p _ | OUnsetNode _ _ p | OUpdNodes _ p _ | OUpdLink _ _ _ _ p _ | OUnsetLink _ _ _ _ p => N.eqb p k_class
  | OUpdNodeProps _ _ ps | OUpdLinkProps _ _ _ _ ps => ahas k_class ps
  | _ => false
  end.

(* the Class guard of the method, whatever the storage *)
Lemma class_write_rejected G o : writes_class o = true -> mutator o G = Some (G, Err EQuery).
Proof.
  destruct o; try discriminate; cbn [writes_class mutator]; intro H; f_equal.
  - unfold pg_update_node. now rewrite H.
  - unfold pg_unset_node. now rewrite H.
  - unfold pg_update_nodes. destruct (find_all G g); [now rewrite H | reflexivity].
  - unfold pg_update_node_props. now rewrite H.
  - unfold pg_update_link, with_link. now rewrite H.
  - unfold pg_unset_link, with_link. now rewrite H.
  - unfold pg_update_link_props, with_link. now rewrite H.
Qed.

Lemma class_write_rejected_shared s o :
  writes_class o = true -> sstep s o = (s, Err EQuery).
Proof. intro H. now apply rejected_shared, class_write_rejected. Qed.

Lemma class_write_rejected_disjoint d o :
  writes_class o = true ->
  snd (dstep d o) = Err EQuery /\ forall g', dget (fst (dstep d o)) g' = dget d g'.
Proof. intro H. now apply rejected_disjoint, class_write_rejected. Qed.

(* ---------- identity properties of a stored node never disappear, its class never changes ---------- *)
Definition ident_le (ps ps' : props) : Prop :=
  (forall p, In p no_unset -> ahas p ps = true -> ahas p ps' = true) /\ aget k_class ps' = aget k_class ps.

Lemma ident_le_refl ps : ident_le ps ps.
Proof. split; auto. Qed.

Lemma ident_le_trans a b c : ident_le a b -> ident_le b c -> ident_le a c.
Proof. intros [H1 H2] [H3 H4]. split; [auto | congruence]. Qed.

Lemma ident_le_aset ps p v : N.eqb p k_class = false -> ident_le ps (aset p v ps).
Proof.
  intro H. apply N.eqb_neq in H. split.
  - intros q _ Hq. rewrite ahas_aset, Hq. apply orb_true_r.
  - apply aget_aset_other. congruence.
Qed.

Lemma ident_le_aremove ps p : memN p no_unset = false -> ident_le ps (aremove p ps).
Proof.
  intro H. split.
  - intros q Hq Hh. unfold ahas in *. rewrite aget_aremove_other; [exact Hh|].
    intro E; subst q. apply memN_In in Hq. congruence.
  - apply aget_aremove_other. intro E. subst p. discriminate H.
Qed.

Lemma ident_le_aupdate ps upd : ahas k_class upd = false -> ident_le ps (aupdate upd ps).
Proof.
  intro H. split.
  - intros q _ Hq. now apply ahas_aupdate.
  - apply aget_aupdate_notin. unfold ahas in H. now destruct (aget k_class upd).
Qed.

Definition evolves (G G' : nxg) : Prop :=
  forall id ps ps', nx_node G id = Some ps -> nx_node G' id = Some ps' -> ident_le ps ps'.

Lemma evolves_refl G : evolves G G.
Proof. intros id ps ps' H1 H2. rewrite H1 in H2. inversion H2. apply ident_le_refl. Qed.

Lemma evolves_same_nodes G G' : gn G' = gn G -> evolves G G'.
Proof. intros E id ps ps' H1 H2. unfold nx_node in *. rewrite E in H2. rewrite H1 in H2. inversion H2. apply ident_le_refl. Qed.

Lemma evolves_set_node G id ps0 ps1 :
  nx_node G id = Some ps0 -> ident_le ps0 ps1 -> evolves G (nx_set_node G id ps1).
Proof.
  intros Hn Hle i ps ps' H1 H2. unfold nx_node, nx_set_node in *. simpl in H2.
  rewrite aget_set_node in H2. destruct (N.eqb i id) eqn:E.
  - apply N.eqb_eq in E; subst i. rewrite Hn in H2, H1. inversion H1; inversion H2; subst. exact Hle.
  - rewrite H1 in H2. inversion H2. apply ident_le_refl.
Qed.

Lemma evolves_filter_nodes (p : N -> bool) G es : evolves G (mkG (filter (fun n => p (fst n)) (gn G)) es).
Proof.
  intros id ps ps' H1 H2. unfold nx_node in *. cbn [gn] in H2. rewrite aget_filter_fst, H1 in H2.
  destruct (p id); inversion H2. apply ident_le_refl.
Qed.

Lemma aget_upd_nodes l p v ns id :
  aget id (upd_nodes l p v ns) =
  match aget id ns with Some ps => Some (if memN id l then aset p v ps else ps) | None => None end.
Proof.
  induction ns as [|[i q] r IH]; simpl; [reflexivity|].
  destruct (memN i l) eqn:Em; simpl; destruct (N.eqb id i) eqn:E; try exact IH.
  - apply N.eqb_eq in E; subst. now rewrite Em.
  - apply N.eqb_eq in E; subst. now rewrite Em.
Qed.

Lemma evolves_upd_nodes G l p v :
  (forall ps, ident_le ps (aset p v ps)) -> evolves G (mkG (upd_nodes l p v (gn G)) (ge G)).
Proof.
  intros Hp id ps ps' H1 H2. unfold nx_node in *. simpl in H2. rewrite aget_upd_nodes, H1 in H2.
  inversion H2. destruct (memN id l); [apply Hp | apply ident_le_refl].
Qed.

Lemma evolves_trans_keep A B C :
  (forall id, nx_node C id <> None -> nx_node B id <> None) -> evolves A B -> evolves B C -> evolves A C.
Proof.
  intros Hk H1 H2 id ps ps' Ha Hc.
  destruct (nx_node B id) as [q|] eqn:Eb.
  - eapply ident_le_trans; [eapply H1 | eapply H2]; eauto.
  - exfalso. apply (Hk id); [congruence | exact Eb].
Qed.

(* appended nodes do not touch the stored ones *)
Lemma evolves_append G ns es : evolves G (mkG (gn G ++ ns) es).
Proof.
  intros id ps ps' H1 H2. unfold nx_node in *. cbn [gn] in H2. rewrite (aget_app (gn G)), H1 in H2.
  inversion H2. apply ident_le_refl.
Qed.

Lemma evolves_add_all G ns es :
  NoDup (map fst ns) -> (forall i, In i (map fst ns) -> ~ In i (ids G)) -> evolves G (nx_add_all G ns es).
Proof.
  intros Hnd Hf. unfold nx_add_all. rewrite add_nodes_fresh by assumption.
  intros id ps ps' H1 H2. unfold nx_node in H2. rewrite fold_add_edges_gn in H2.
  eapply (evolves_append G ns (ge G)); eauto.
Qed.

(* one primitive write whose new property dictionary keeps the identity properties and the class *)
Lemma write_evolves g G G' : pg_write ident_le g G G' -> evolves G G'.
Proof.
  destruct 1 as [|n id ps ps' _ Hn Hq|l p v _ Hq| | |n id _].
  - apply evolves_refl.
  - eapply evolves_set_node; eauto.
  - now apply evolves_upd_nodes.
  - now apply evolves_same_nodes.
  - apply evolves_same_nodes, gn_add_edge.
  - apply (evolves_filter_nodes (fun i => negb (N.eqb i id))).
Qed.

Lemma noclass_rewrites o : writes_class o = false -> rewrites ident_le o.
Proof.
  destruct o; cbn; auto; intro H.
  - intro ps0. now apply ident_le_aset.
  - intros Hm ps0. now apply ident_le_aremove.
  - intro ps0. now apply ident_le_aset.
  - intro ps0. now apply ident_le_aupdate.
Qed.

(* the methods of the graph object: Class is guarded, identity properties are only ever written *)
Lemma evolves_pg_step G newid o : nx_node G newid = None -> evolves G (fst (pg_step G newid o)).
Proof.
  intro Hf. destruct (writes_class o) eqn:Ew;
    [rewrite (pg_step_mutator G newid o _ (class_write_rejected G o Ew)); apply evolves_refl|].
  destruct (mutator o G) as [x|] eqn:Em.
  - rewrite (pg_step_mutator G newid o x Em).
    exact (write_evolves _ _ _ (mutator_write _ o G x Em (noclass_rewrites o Ew))).
  - destruct o; try discriminate; cbn [pg_step fst]; try apply evolves_refl.
    destruct (pg_add_node G g newid n c ps) as [G'|] eqn:E; [|apply evolves_refl].
    destruct (pg_add_node_result G g newid n c ps G' Hf E) as [_ ->]. apply evolves_append.
Qed.

Lemma evolves_del_graph s g : evolves (sg s) (sg (s_del_graph s g)).
Proof. unfold s_del_graph, nx_remove_nodes. simpl. apply (evolves_filter_nodes (fun i => negb (memN i _))). Qed.

Lemma keeps_present G' G id : keeps G' G -> nx_node G' id <> None -> nx_node G id <> None.
Proof. intros K H. apply present_iff, (keeps_In _ _ _ K), present_iff, H. Qed.

(* an import: the ids below start_id that survive the delete keep their properties, the others are new *)
Lemma evolves_import s g ns es :
  SInv s -> map fst ns = seqN (snext s) (length ns) ->
  evolves (sg s) (nx_add_all (sg (s_del_graph s g)) ns es).
Proof.
  intros HI Hfst. pose proof (SInv_del_graph s g HI) as [H1 H2].
  assert (Hfresh : forall i, In i (map fst ns) -> ~ In i (ids (sg (s_del_graph s g)))).
  { intros i Hi Hin. rewrite Hfst in Hi. apply seqN_In in Hi. apply H2 in Hin. simpl in Hin. lia. }
  assert (Hnd : NoDup (map fst ns)) by (rewrite Hfst; apply seqN_NoDup).
  intros id ps ps' Ha Hc.
  destruct (nx_node (sg (s_del_graph s g)) id) as [q|] eqn:Eb.
  - apply (ident_le_trans ps q ps').
    + exact (evolves_del_graph s g id ps q Ha Eb).
    + exact (evolves_add_all _ ns es Hnd Hfresh id q ps' Eb Hc).
  - exfalso. apply nx_node_In in Ha, Hc. apply (SInv_below s id HI) in Ha.
    rewrite ids_add_all in Hc by assumption.
    apply in_app_or in Hc as [Hc|Hc]; [apply present_iff in Hc; contradiction|].
    rewrite Hfst in Hc. apply seqN_In in Hc. lia.
Qed.

Theorem identity_kept_step s o :
  SInv s -> merge_free o = true ->
  evolves (sg s) (sg (fst (sstep s o))).
Proof.
  intros HI Hm.
  assert (Kimp : forall g ig, evolves (sg s) (sg (fst (s_add_graph s g ig)))).
  { intros g ig. unfold s_add_graph.
    destruct (existsb node_id_missing (inodes (relabel ig (snext (s_del_graph s g))))); cbn [fst sg].
    - apply evolves_del_graph.
    - apply evolves_import; [exact HI | apply stamp_relabel_fst]. }
  destruct (pg_op o) eqn:Ep; [rewrite (proj1 (sstep_pg s o Ep)); now apply evolves_pg_step, SInv_next_fresh|].
  destruct o; try discriminate; cbn [sstep fst sg].
  - apply Kimp.
  - unfold s_add_graph_direct. cbn [fst sg]. apply evolves_import; [exact HI | apply relabel_inodes_fst].
  - apply evolves_del_graph.
  - unfold s_clone. destruct (s_extract (sg s) g) as [ig|]; [apply Kimp | apply evolves_refl].
  - apply evolves_refl.
Qed.

(* ---------- ids only ever come from the allocator: a deleted id is never re-used ---------- *)
Lemma ids_add_all_cases s ns es i :
  SInv s -> map fst ns = seqN (snext s) (length ns) ->
  In i (ids (nx_add_all (sg s) ns es)) -> In i (ids (sg s)) \/ snext s <= i.
Proof.
  intros [H1 H2] Hfst Hin.
  rewrite ids_add_all in Hin.
  - apply in_app_or in Hin as [Hin|Hin]; [now left|]. right. rewrite Hfst in Hin. apply seqN_In in Hin. lia.
  - exact H1.
  - intros j Hj Hin'. rewrite Hfst in Hj. apply seqN_In in Hj. apply H2 in Hin'. lia.
  - rewrite Hfst. apply seqN_NoDup.
Qed.

Lemma step_ids s o i :
  SInv s -> In i (ids (sg (fst (sstep s o)))) -> In i (ids (sg s)) \/ snext s <= i.
Proof.
  intros HI Hin.
  assert (Kdel : forall g ns es, map fst ns = seqN (snext s) (length ns) ->
                 In i (ids (nx_add_all (sg (s_del_graph s g)) ns es)) -> In i (ids (sg s)) \/ snext s <= i).
  { intros g ns es Hfst H. apply (ids_add_all_cases (s_del_graph s g)) in H; [|now apply SInv_del_graph | exact Hfst].
    destruct H as [H|H]; [left; exact (keeps_In _ _ _ (keeps_remove_nodes _ _) H) | right; exact H]. }
  assert (Kimp : forall g ig, In i (ids (sg (fst (s_add_graph s g ig)))) -> In i (ids (sg s)) \/ snext s <= i).
  { intros g ig. unfold s_add_graph.
    destruct (existsb node_id_missing (inodes (relabel ig (snext (s_del_graph s g))))); cbn [fst sg]; intro H.
    - left. exact (keeps_In _ _ _ (keeps_remove_nodes _ _) H).
    - apply (Kdel g _ _ (stamp_relabel_fst g ig _) H). }
  destruct (pg_op o) eqn:Ep.
  - rewrite (proj1 (sstep_pg s o Ep)) in Hin. apply ids_pg_step in Hin; [|now apply SInv_next_fresh].
    apply in_app_or in Hin as [Hin|[<-|[]]]; [now left | right; lia].
  - destruct o; try discriminate; cbn [sstep fst sg lift] in Hin.
    + now apply (Kimp g ig).
    + apply (Kdel g _ _ (relabel_inodes_fst ig _) Hin).
    + left. exact (keeps_In _ _ _ (keeps_remove_nodes _ _) Hin).
    + unfold s_clone in Hin. destruct (s_extract (sg s) g) as [ig|]; [now apply (Kimp g2 ig) | now left].
    + now left.
    + left. exact (keeps_In _ _ _ (keeps_merge _ _ _ _ _) Hin).
Qed.

Lemma snext_mono s o : snext s <= snext (fst (sstep s o)).
Proof.
  destruct o; simpl; try lia.
  - unfold s_add_graph. destruct (existsb _ _); simpl; lia.
  - unfold s_clone. destruct (s_extract (sg s) g); [|simpl; lia].
    unfold s_add_graph. destruct (existsb _ _); simpl; lia.
  - destruct (pg_add_node (sg s) g (snext s) n c ps); simpl; lia.
Qed.

(* the history lift, for any class of operations whose single steps preserve identity properties *)
Section Histories.
Variable okop : op -> bool.
Hypothesis Hstep : forall s o, SInv s -> okop o = true -> evolves (sg s) (sg (fst (sstep s o))).

(* an id below start_id that is not stored can never come back *)
Lemma absent_stays id ops s :
  SInv s -> id < snext s -> nx_node (sg s) id = None -> nx_node (sg (srun ops s)) id = None.
Proof.
  intros HI Hlt Hn.
  apply (fold_left_inv (fun s => SInv s /\ id < snext s /\ nx_node (sg s) id = None) (fun s o => fst (sstep s o)) ops);
    [|exact (conj HI (conj Hlt Hn))].
  intros s' o _ [HI' [Hlt' Hn']]. split; [now apply SInv_step | split; [pose proof (snext_mono s' o); lia |]].
  destruct (nx_node (sg (fst (sstep s' o))) id) eqn:E; [|reflexivity]. exfalso.
  apply nx_node_In, step_ids in E; [|exact HI']. destruct E as [E|E]; [|lia].
  apply present_iff in E. contradiction.
Qed.

Theorem identity_kept_histories_gen ops : forall s,
  SInv s -> (forall o, In o ops -> okop o = true) -> evolves (sg s) (sg (srun ops s)).
Proof.
  induction ops as [|o r IH]; intros s HI Hmf; simpl; [apply evolves_refl|].
  assert (H1 : evolves (sg s) (sg (fst (sstep s o)))) by (apply Hstep; [exact HI | apply Hmf; now left]).
  assert (H2 : evolves (sg (fst (sstep s o))) (sg (srun r (fst (sstep s o))))).
  { apply IH; [now apply SInv_step | intros o' Ho'; apply Hmf; now right]. }
  intros id ps ps' Ha Hc.
  destruct (nx_node (sg (fst (sstep s o))) id) as [q|] eqn:Eb.
  - eapply ident_le_trans; [eapply H1 | eapply H2]; eauto.
  - rewrite (absent_stays id r (fst (sstep s o))) in Hc; [discriminate | now apply SInv_step | | exact Eb].
    pose proof (snext_mono s o). apply nx_node_In, (SInv_below s id HI) in Ha. lia.
Qed.
End Histories.
