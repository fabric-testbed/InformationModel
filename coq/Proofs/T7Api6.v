(* C07 - peer: two new service ports and their link, all or nothing (T7RelAdd.WF_add_peering2; the rollback of a
   half-made peering gives back the graph before the call); unpeer: the peerings between two services are taken away
   as units (remove_cps_loop over the relaxed invariant).  Rests on T7Api5 (ports and link as runs). *)
From Coq Require Import String List Bool Lia.
From FIM Require Import Base.Str Model.T7Graph Model.T7Ops Model.T7WF Model.T7Steps Model.T7Rel Proofs.T7WFRefl Proofs.T7Frame
     Proofs.T7Units Proofs.T7Api Proofs.T7Api2 Proofs.T7Api3 Proofs.T7RelUnits Proofs.T7RelRun Proofs.T7Api4
     Proofs.T7RelAdd Proofs.T7Api5.
Import ListNotations.

Lemma reads_fresh_ns_cache x : reads (fresh_ns_cache x).
Proof. unfold fresh_ns_cache. auto 10 with reads. Qed.
#[export] Hint Resolve reads_fresh_ns_cache : reads.

Lemma ns_add_iface_run sub s cache name iid itype lab st st' r :
  NoDup (map nid (gnodes (sg st))) -> has_id (sg st) s = true ->
  ns_add_interface sub s cache name iid itype lab st = (st', r) ->
  (exists id, r = Ok id /\ (iid = None -> sub = false) /\ has_id (sg st) id = false /\
              negb (existsb (fun o => ostr_eqb o (Some name)) cache) = true /\
              sg st' = add_owned (sg st) (mk id KCP (Some itype) name lab) s Connects) \/
  (exists e, r = Err e /\ sg st' = sg st).
Proof.
  intros ND Hs H. unfold ns_add_interface in H.
  apply bind_inv in H as [[s1 [[] [H1 H2]]]|[e [H1 Hr]]].
  - apply guard_ok_val in H1 as [-> G]. apply new_iface_run in H2; [|assumption|assumption].
    destruct H2 as [[id [A [B [C D]]]]|X]; [left; exists id; auto | right; exact X].
  - right. exists e. split; [exact Hr | eapply reads_guard; eauto].
Qed.

(* the second port and the link, from the state in which the first port pa exists: done, or back to that state *)
Lemma peer_second_port sub g a b an bn ia sA sX (rr : res unit) :
  WF g -> cls_is g a KNS = true -> cls_is g b KNS = true -> a <> b ->
  name_free g KLink (Some (an ++ dash ++ bn ++ S "-link")) = true ->
  has_id g ia = false -> sibling_free g a Connects KCP (Some (an ++ dash ++ bn)) = true ->
  sg sA = add_owned g (mk ia KCP (Some sServicePort) (an ++ dash ++ bn) false) a Connects ->
  (ib <- ns_add_interface sub b (map (name_of g) (first_nb g b Connects KCP)) (bn ++ dash ++ an) None sServicePort false ;;
   try_any (new_link sub (an ++ dash ++ bn ++ S "-link") None sL2Path [ia; ib] ;;; ret tt)
           (fun e => remove_cp_and_links ib true ;;; raise e)) sA = (sX, rr) ->
  (exists v, rr = Ok v /\ WF (sg sX)) \/ (exists e, rr = Err e /\ sg sX = sg sA).
Proof.
  intros W Ca Cb Nab NF' Hfa SFa Hq1 E.
  set (pa := mk ia KCP (Some sServicePort) (an ++ dash ++ bn) false) in *. set (ep := fun _ : str => true).
  assert (OK1 : owned_okR g pa a Connects = true) by (apply sp_owned_ok; assumption).
  pose proof (WF_WFr_ep ep g W) as W0.
  set (g1 := add_owned g pa a Connects) in *.
  assert (W1 : WFr no_exempt ep g1) by (apply (WFr_add_owned _ _ _ _ _ W0 OK1 (fun _ _ => eq_refl))).
  pose proof (r_ids _ _ _ W1) as ND1.
  pose proof (cls_is_has_id _ _ _ Cb) as Hb.
  assert (Hb1 : has_id g1 b = true) by (unfold g1; rewrite has_id_add_owned, Hb; reflexivity).
  apply bind_run in E as [sB [rB [H1 H2]]].
  apply ns_add_iface_run in H1; [| rewrite Hq1; exact ND1 | rewrite Hq1; exact Hb1].
  destruct H1 as [[ib [-> [_ [Hfb [Gnb Hq2]]]]]|[e' [-> Hq]]]; [| destruct H2 as [-> ->]; right; exists e'; split; [reflexivity | exact Hq]].
  rewrite Hq1 in Hfb, Hq2.
  set (pb := mk ib KCP (Some sServicePort) (bn ++ dash ++ an) false) in *.
  unfold g1 in Hfb. rewrite has_id_add_owned in Hfb. apply orb_false_iff in Hfb as [Hfb Nab']. change (nid pa) with ia in Nab'.
  assert (SFb : sibling_free g b Connects KCP (Some (bn ++ dash ++ an)) = true)
    by (eapply existsb_map_sibling; [reflexivity | exact Gnb]).
  assert (Eab : str_eqb a b = false) by (apply str_eqb_neq; exact Nab).
  pose proof (ports2_ok_sp g a b ia ib _ _ Hfa Hfb Nab' Ca Cb SFa SFb Eab) as P2. fold pa pb in P2.
  pose proof (pt_ok2 ep g a b pa pb W P2) as OK2. fold g1 in OK2.
  assert (W2 : WFr no_exempt ep (add_owned g1 pb b Connects)) by (apply (WFr_add_owned _ _ _ _ _ W1 OK2 (fun _ _ => eq_refl))).
  assert (Cb1 : cls_is g1 b KNS = true).
  { unfold g1. rewrite ao_cls_old; [exact Cb|]. intro Eb. change (nid pa) with ia in Eb. rewrite <- Eb in Hfa. congruence. }
  assert (Hia2 : has_id (sg sB) ia = true).
  { rewrite Hq2, has_id_add_owned. unfold g1. rewrite has_id_add_owned. change (nid pa) with ia. rewrite str_eqb_refl, orb_true_r. reflexivity. }
  assert (Hib2 : has_id (sg sB) ib = true).
  { rewrite Hq2, has_id_add_owned. change (nid pb) with ib. rewrite str_eqb_refl. apply orb_true_r. }
  assert (ND2 : NoDup (map nid (gnodes (sg sB)))) by (rewrite Hq2; apply (r_ids _ _ _ W2)).
  apply try_any_inv in H2 as [[v2 [E2 ->]]|[sC [e2 [E2 H2]]]].
  - left. exists v2. split; [reflexivity|].
    apply bind_inv in E2 as [[sC [lid [H1 H3]]]|[e [_ Hr]]]; [|discriminate]. apply ret_inv in H3 as [-> _].
    apply new_link_pair_run in H1; [| exact ND2 | exact Hia2 | exact Hib2].
    destruct H1 as [[id [X [Hfl Hq3]]]|[_ [[X|[X|X]]|[X _]]]]; try discriminate X. inversion X; subst id; clear X.
    rewrite Hq3, Hq2.
    set (l := mk lid KLink (Some sL2Path) (an ++ dash ++ bn ++ S "-link") false).
    change (WF (add_peering2 g a b pa pb l)). apply WF_add_peering2; [exact W|].
    rewrite Hq2 in Hfl. unfold g1 in Hfl. rewrite !has_id_add_owned in Hfl.
    apply orb_false_iff in Hfl as [Hfl Nbl]. apply orb_false_iff in Hfl as [Hfl Nal].
    apply (peering2_ok_link g a b pa pb lid _ sL2Path P2 Hfl Nal Nbl eq_refl NF').
  - right. assert (Hc : sg sC = sg sB).
    { apply bind_inv in E2 as [[sD [lid [H1 H3]]]|[e [H1 Hr]]]; [apply ret_inv in H3 as [_ H3]; discriminate|].
      apply new_link_pair_run in H1; [| exact ND2 | exact Hia2 | exact Hib2].
      destruct H1 as [[id [X _]]|[Hc _]]; [discriminate | exact Hc]. }
    rewrite Hq2 in Hc.
    destruct (undo_owned_port ep g1 pb b sC e2 sX rr W1 OK2 eq_refl Cb1 Hc H2) as [U1 U2].
    exists e2. split; [exact U2 | congruence].
Qed.

Theorem api_peer fl sub a b st st' r :
  WF (sg st) -> cls_is (sg st) a KNS = true -> cls_is (sg st) b KNS = true ->
  (fl_peer_checks fl = false ->
   a <> b /\ forall an bn, name_of (sg st) a = Some an -> name_of (sg st) b = Some bn ->
               name_free (sg st) KLink (Some (an ++ dash ++ bn ++ S "-link")) = true) ->
  ns_peer fl sub a b st = (st', r) -> WF (sg st').
Proof.
  intros W Ca Cb Pre H. unfold ns_peer in H.
  peelw H W. rename Hm into Fa. peelw H W. rename Hm into Na.
  peelw H W. rename Hm into Fb. peelw H W. rename Hm into Nb.
  match type of Na with nname ?n = Some ?x => rename x into an; rename n into na end.
  match type of Nb with nname ?n = Some ?x => rename x into bn; rename n into nb end.
  apply bind_reads in H; [| destruct (fl_peer_checks fl); solve [auto 8 with reads]].
  destruct H as [[sq [[] [Hq [Gq H]]]] | [e [Hr Hg]]]; [| rewrite Hg; exact W].
  assert (Both : a <> b /\ name_free (sg st) KLink (Some (an ++ dash ++ bn ++ S "-link")) = true).
  { destruct (fl_peer_checks fl) eqn:FP.
    - do 2 peelok Hq. apply guard_ok_val in Hq as [_ ->].
      split; [apply str_eqb_neq, negb_true_iff; exact Hm | auto].
    - destruct (Pre eq_refl) as [P1 P2]. split; [exact P1|]. apply P2; unfold name_of; [rewrite Fa | rewrite Fb]; assumption. }
  destruct Both as [Nab NF']. clear Pre Hq. rewrite <- Gq in *. clear Gq.
  peelw H W. peelw H W.
  match type of W with WF (sg ?sc) => rename st into st0; rename sc into st end.
  pose proof (wf_ids _ W) as ND.
  set (g := sg st) in *.
  pose proof (cls_is_has_id _ _ _ Ca) as Ha. pose proof (cls_is_has_id _ _ _ Cb) as Hb.
  (* the first port *)
  apply bind_run in H as [sA [rA [H1 H]]].
  apply ns_add_iface_run in H1; [| exact ND | exact Ha].
  destruct H1 as [[ia [-> [_ [Hfa [Gna Hq1]]]]]|[e' [-> Hq]]]; [| destruct H as [-> ->]; rewrite Hq; exact W].
  fold g in Hfa, Hq1.
  set (pa := mk ia KCP (Some sServicePort) (an ++ dash ++ bn) false) in *.
  assert (SFa : sibling_free g a Connects KCP (Some (an ++ dash ++ bn)) = true)
    by (eapply existsb_map_sibling; [reflexivity | exact Gna]).
  assert (OK1 : owned_okR g pa a Connects = true) by (apply sp_owned_ok; assumption).
  set (ep := fun _ : str => true).
  assert (W0 : WFr no_exempt ep g) by (apply WF_WFr_ep; exact W).
  apply try_any_inv in H as [[v [E ->]]|[sX [e [E H]]]];
    apply (peer_second_port sub g a b an bn ia sA _ _ W Ca Cb Nab NF' Hfa SFa Hq1) in E as [[v' [Q Wx]]|[e' [Q Hx]]]; try discriminate Q.
  - exact Wx.
  - rewrite Hq1 in Hx. rewrite (proj1 (undo_owned_port ep g pa a sX e st' r W0 OK1 eq_refl Ca Hx H)). exact W.
Qed.

Lemma x1_remove_set g d : subs_under_dedicated g = true -> subs_under_dedicated (remove_set g d) = true.
Proof.
  unfold subs_under_dedicated. intro X. rewrite forallb_forall in *. intros e He.
  unfold remove_set in He. simpl in He. apply filter_In in He as [He Hd]. apply andb_true_iff in Hd as [D1 D2].
  apply negb_true_iff in D1. apply negb_true_iff in D2. specialize (X e He).
  rewrite !(rs_cls g d _ _ D1), !(rs_cls g d _ _ D2), (rs_typ g d _ _ D1), (rs_typ g d _ _ D2). exact X.
Qed.

Lemma has_id_remove_inv g d z : has_id (remove_set g d) z = true -> has_id g z = true /\ d z = false.
Proof.
  intro H. apply has_id_In in H as [n [Hn E]]. apply In_remove_set_nodes in Hn as [Hn Hd]. split.
  - apply has_id_In. exists n. auto.
  - rewrite <- E. exact Hd.
Qed.

Lemma cp_exists_run x s : NoDup (map nid (gnodes (sg s))) -> cp_exists x s = (s, Ok (cls_is (sg s) x KCP)).
Proof.
  intro ND. unfold cp_exists, bind, getg. unfold cls_is, cls_of.
  destruct (has_id (sg s) x) eqn:Hx.
  - destruct (find_nodes_single _ _ ND Hx) as [n E]. rewrite E. simpl. destruct (cls_eqb (ncls n) KCP); reflexivity.
  - rewrite (find_nodes_none _ _ Hx). reflexivity.
Qed.

Lemma peers_absent g y : sane g -> has_id g y = false -> peers g y = [].
Proof.
  intros [_ HE] H. unfold peers, first_nb. rewrite (nbrs_fresh_nil _ _ HE H). reflexivity.
Qed.

Lemma peers_cls g y z : In z (peers g y) -> cls_is g z KCP = true.
Proof. intro H. apply In_peers_inv in H as [l [_ [H _]]]. apply In_first_nb in H. tauto. Qed.

(* a list of service ports is taken away one by one (ports already gone are skipped); ports that lose their peer
   on the way are all scheduled *)
Lemma remove_cps_loop : forall L s s' r ep,
  WFr no_exempt ep (sg s) -> subs_under_dedicated (sg s) = true ->
  (forall z, ep z = true -> cls_is (sg s) z KCP = true -> In z L) ->
  (forall x, In x L -> cls_is (sg s) x KCP = true -> typ_is (sg s) x sServicePort = true) ->
  (forall x z, In x L -> In z (peers (sg s) x) -> In z L) ->
  for_each L (fun cp => ex <- cp_exists cp ;; if ex then remove_cp_and_links cp true else ret tt) s = (s', r) ->
  WF (sg s').
Proof.
  induction L as [|x L IH]; intros s s' r ep I1 I2 I3 I4 I5 H; simpl in H.
  - apply ret_inv in H as [-> _]. apply WF_WFr. apply (WFr_discharge_ep _ _ _ I1). intros n Hn _ He Hc _. exfalso.
    apply (I3 (nid n) He). rewrite (cls_is_node _ _ _ (r_ids _ _ _ I1) Hn), Hc. reflexivity.
  - unfold bind at 1 2 in H. rewrite (cp_exists_run x s (r_ids _ _ _ I1)) in H.
    destruct (cls_is (sg s) x KCP) eqn:Cx.
    + rewrite (cp_unit_run x true s (WFr_sane _ _ _ I1) (cls_is_has_id _ _ _ Cx)) in H.
      set (d := fun y => mem_str y (D_cp (sg s) x true)) in *.
      pose proof (WFr_remove_cp _ _ _ x true I1 Cx (or_introl eq_refl)) as W1. fold d in W1.
      (* x is a service port: no interface hangs off it *)
      assert (NC : first_nb (sg s) x Connects KCP = [])
        by (apply (x1_serviceport_no_children _ _ _ _ I1 I2 Cx eq_refl); apply I4; [left; reflexivity | exact Cx]).
      pose proof (fun z => cp_stranded_alone (sg s) x true z (cp_extra_nochild _ _ _ NC)) as Hst.
      assert (Dx : d x = true) by apply x_in_D_cp.
      eapply (IH (mkSt (remove_set (sg s) d) (sdr s)) s' r _ W1); [| | | | exact H]; simpl.
      * apply x1_remove_set. exact I2.
      * intros z Hz Cz. pose proof (cls_is_has_id _ _ _ Cz) as Hz'. apply has_id_remove_inv in Hz' as [_ Dz].
        rewrite (rs_cls _ _ _ _ Dz) in Cz.
        assert (In z (x :: L)) as [E|Hin].
        { apply orb_true_iff in Hz as [Hz|Hz]; [apply I3; assumption | apply (I5 x z); [left; reflexivity | apply Hst; exact Hz]]. }
        -- subst z. congruence.
        -- exact Hin.
      * intros y Hy Cy. pose proof (cls_is_has_id _ _ _ Cy) as Hy'. apply has_id_remove_inv in Hy' as [_ Dy].
        rewrite (rs_cls _ _ _ _ Dy) in Cy. rewrite (rs_typ _ _ _ _ Dy). apply I4; [right; exact Hy | exact Cy].
      * intros y z Hy Hz. destruct (d y) eqn:Dy.
        -- rewrite peers_absent in Hz; [destruct Hz | apply sane_remove_set; apply (WFr_sane _ _ _ I1) |].
           destruct (has_id (remove_set (sg s) d) y) eqn:Hq; [|reflexivity]. apply has_id_remove_inv in Hq as [_ Hq]. congruence.
        -- apply peers_remove_sub in Hz as [Hz Dz]; [|exact Dy].
           destruct (I5 y z (or_intror Hy) Hz) as [E|Hin]; [subst z; congruence | exact Hin].
    + unfold ret at 1 in H. eapply (IH s s' r ep I1 I2); [| | | exact H].
      * intros z Hz Cz. destruct (I3 z Hz Cz) as [E|Hin]; [subst z; congruence | exact Hin].
      * intros y Hy Cy. apply I4; [right; exact Hy | exact Cy].
      * intros y z Hy Hz. destruct (I5 y z (or_intror Hy) Hz) as [E|Hin]; [|exact Hin].
        subst z. rewrite (peers_cls _ _ _ Hz) in Cx. discriminate.
Qed.

(* what a reading concatM returned: every item comes from the run of f on some member, in a state with the same graph *)
Lemma mapM_In {A B} (f : A -> M B) : (forall a, reads (f a)) -> forall l s s' r,
  mapM f l s = (s', Ok r) ->
  sg s' = sg s /\ forall y, In y r -> exists a s1 s2, In a l /\ sg s1 = sg s /\ f a s1 = (s2, Ok y).
Proof.
  intros R. induction l as [|a l IH]; simpl; intros s s' r H.
  - apply ret_inv in H as [-> H]. inversion H. split; [reflexivity | intros y []].
  - apply bind_inv in H as [[s1 [y [H1 H2]]]|[e [_ H]]]; [|discriminate].
    apply bind_inv in H2 as [[s2 [ys [H2 H3]]]|[e [_ H]]]; [|discriminate].
    apply ret_inv in H3 as [-> H3]. inversion H3; subst r. clear H3.
    pose proof (R a _ _ _ H1) as G1. destruct (IH _ _ _ H2) as [G2 IH']. split; [congruence|].
    intros z [<-|Hz].
    + exists a, s, s1. auto.
    + destruct (IH' z Hz) as [a' [sa [sb [Ha [Hg Hf]]]]]. exists a', sa, sb. split; [right; exact Ha|]. split; [congruence | exact Hf].
Qed.
Lemma concatM_In {A B} (f : A -> M (list B)) : (forall a, reads (f a)) -> forall l s s' r,
  concatM f l s = (s', Ok r) ->
  sg s' = sg s /\ forall x, In x r -> exists a s1 s2 la, In a l /\ sg s1 = sg s /\ f a s1 = (s2, Ok la) /\ In x la.
Proof.
  intros R l s s' r H. unfold concatM in H. apply bind_inv in H as [[s1 [ls [H1 H2]]]|[e [_ H]]]; [|discriminate].
  apply ret_inv in H2 as [-> H2]. inversion H2; subst r. clear H2.
  destruct (mapM_In f R _ _ _ _ H1) as [G IH]. split; [exact G|].
  intros x Hx. apply in_concat in Hx as [la [Hla Hx]]. destruct (IH la Hla) as [a [sa [sb [Ha [Hg Hf]]]]].
  exists a, sa, sb, la. auto.
Qed.

Lemma find_peers_val i s s' o :
  find_peers i s = (s', Ok o) -> s' = s /\ o = match raw_peers (sg s) i with [] => None | l => Some l end.
Proof.
  unfold find_peers. intro H. apply bind_inv in H as [[s1 [c [Hc H1]]]|[e [_ H]]]; [|discriminate].
  unfold q_second_nb in Hc. apply bind_inv in Hc as [[s3 [n [Hn Hc]]]|[e [_ H]]]; [|discriminate].
  apply find1_val in Hn as [-> _]. apply bind_inv in Hc as [[s4 [g0 [Hg Hc]]]|[e [_ H]]]; [|discriminate].
  apply getg_val in Hg as [-> ->]. apply ret_inv in Hc as [-> Hc]. inversion Hc; subst c. clear Hc.
  apply ret_inv in H1 as [-> H1]. inversion H1. split; [reflexivity|]. unfold raw_peers.
  destruct (second_nb (sg s) i Connects KLink KCP); reflexivity.
Qed.

Definition peer_inner (b cp p : str) : M (list (str * str)) :=
  tp <- type_is p sServicePort ;;
  if negb tp then ret [] else
  o <- get_parent p Connects KNS ;;
  ret (match o with Some (_, id) => if str_eqb id b then [(cp, p)] else [] | None => [] end).
Definition peer_outer (b cp : str) : M (list (str * str)) :=
  t <- type_is cp sServicePort ;;
  if negb t then ret [] else
  ps <- find_peers cp ;;
  concatM (peer_inner b cp) (match ps with Some l => l | None => [] end).

Lemma reads_peer_inner b cp p : reads (peer_inner b cp p).
Proof.
  unfold peer_inner. apply reads_bind; [auto with reads|]. intros [|]; simpl; [|apply reads_ret].
  apply reads_bind; [auto with reads | intro; apply reads_ret].
Qed.
Lemma reads_concatM {A B} (f : A -> M (list B)) l : (forall a, reads (f a)) -> reads (concatM f l).
Proof. intro R. unfold concatM. apply reads_bind; [apply reads_mapM; exact R | intro; apply reads_ret]. Qed.
Lemma reads_peer_outer b cp : reads (peer_outer b cp).
Proof.
  unfold peer_outer. apply reads_bind; [auto with reads|]. intros [|]; simpl; [|apply reads_ret].
  apply reads_bind; [auto with reads|]. intro. apply reads_concatM. intro. apply reads_peer_inner.
Qed.
Lemma reads_peerings a b : reads (peerings a b).
Proof.
  unfold peerings. apply reads_bind; [auto with reads|]. intro cps. apply (reads_concatM (peer_outer b)). intro. apply reads_peer_outer.
Qed.

Lemma peerings_val a b s s' pairs :
  peerings a b s = (s', Ok pairs) ->
  sg s' = sg s /\ forall cp p, In (cp, p) pairs ->
    In cp (first_nb (sg s) a Connects KCP) /\ typ_is (sg s) cp sServicePort = true /\
    In p (raw_peers (sg s) cp) /\ typ_is (sg s) p sServicePort = true.
Proof.
  unfold peerings. intro H. apply bind_inv in H as [[s1 [cps [H1 H2]]]|[e [_ H]]]; [|discriminate].
  apply cps_of_ns_or_link_val in H1 as [-> ->].
  change (concatM (peer_outer b) (first_nb (sg s) a Connects KCP) s = (s', Ok pairs)) in H2.
  destruct (concatM_In _ (reads_peer_outer b) _ _ _ _ H2) as [G Hin]. split; [exact G|].
  intros cp p Hp. destruct (Hin _ Hp) as [cp' [s1 [s2 [la [Hcp [G1 [Hf Hla]]]]]]].
  unfold peer_outer in Hf. apply bind_inv in Hf as [[s3 [t [Ht Hf]]]|[e [_ H]]]; [|discriminate].
  apply type_is_val in Ht as [-> ->]. destruct (typ_is (sg s1) cp' sServicePort) eqn:Tcp; simpl in Hf;
    [| apply ret_inv in Hf as [_ Hf]; inversion Hf; subst la; destruct Hla].
  apply bind_inv in Hf as [[s4 [ps [Hps Hf]]]|[e [_ H]]]; [|discriminate].
  apply find_peers_val in Hps as [-> ->].
  destruct (concatM_In _ (reads_peer_inner b cp') _ _ _ _ Hf) as [_ Hin2].
  destruct (Hin2 _ Hla) as [p' [s5 [s6 [lb [Hp' [G5 [Hg Hlb]]]]]]].
  unfold peer_inner in Hg. apply bind_inv in Hg as [[s7 [tp [Htp Hg]]]|[e [_ H]]]; [|discriminate].
  apply type_is_val in Htp as [-> ->]. destruct (typ_is (sg s5) p' sServicePort) eqn:Tp; simpl in Hg;
    [| apply ret_inv in Hg as [_ Hg]; inversion Hg; subst lb; destruct Hlb].
  apply bind_inv in Hg as [[s8 [o [_ Hg]]]|[e [_ H]]]; [|discriminate].
  apply ret_inv in Hg as [_ Hg]. inversion Hg; subst lb. clear Hg.
  assert (E : (cp, p) = (cp', p')).
  { destruct o as [[nm id]|]; [|destruct Hlb]. destruct (str_eqb id b); [|destruct Hlb]. destruct Hlb as [E|[]]. congruence. }
  inversion E; subst cp' p'. rewrite G1 in *. rewrite G5 in Tp.
  repeat split; try assumption.
  destruct (raw_peers (sg s) cp); [destruct Hp' | exact Hp'].
Qed.

Lemma sp_one_peer g x : WF g -> cls_is g x KCP = true -> typ_is g x sServicePort = true -> length (peers g x) = 1.
Proof. intros W Cx Tx. apply WF_WFr in W. destruct (cp_structR _ _ _ _ W Cx eq_refl) as [_ [_ S3]]. exact (S3 Tx eq_refl). Qed.

Theorem api_unpeer a b st st' r :
  WF (sg st) -> subs_under_dedicated (sg st) = true -> ns_unpeer a b st = (st', r) -> WF (sg st').
Proof.
  intros W X H. unfold ns_unpeer in H.
  apply bind_reads in H; [| apply reads_peerings].
  destruct H as [[s1 [pairs [Hm [Hg H]]]] | [e [Hr Hg]]]; [| rewrite Hg; exact W].
  apply peerings_val in Hm as [_ Hp].
  apply bind_reads in H; [| auto with reads].
  destruct H as [[s2 [[] [_ [Hg2 H]]]] | [e [Hr Hg2]]]; [| rewrite Hg2, Hg; exact W].
  assert (G : sg s2 = sg st) by congruence. clear Hg Hg2.
  assert (Facts : forall x, In x (dedup (map fst pairs ++ map snd pairs)) ->
            cls_is (sg st) x KCP = true /\ typ_is (sg st) x sServicePort = true /\
            forall z, In z (peers (sg st) x) -> In z (dedup (map fst pairs ++ map snd pairs))).
  { intros x Hx. apply (proj1 (In_dedup _ _)) in Hx. apply in_app_or in Hx as [Hx|Hx];
      apply in_map_iff in Hx as [[cp p] [E Hin]]; simpl in E; subst x; destruct (Hp _ _ Hin) as [Hcp [Tcp [Hraw Tp]]].
    - assert (Ccp : cls_is (sg st) cp KCP = true) by (apply In_first_nb in Hcp; tauto).
      split; [exact Ccp|]. split; [exact Tcp|]. intros z Hz.
      assert (Hpp : In p (peers (sg st) cp)).
      { apply WF_WFr in W. eapply raw_in_peers; [exact W | reflexivity | eapply raw_peers_cls; eauto | exact Hraw]. }
      assert (z = p) by (eapply len1_same; [| exact Hz | exact Hpp]; rewrite (sp_one_peer _ _ W Ccp Tcp); lia).
      subst z. apply (proj2 (In_dedup _ _)). apply in_or_app. right. apply in_map_iff. exists (cp, p). auto.
    - assert (Ccp : cls_is (sg st) cp KCP = true) by (apply In_first_nb in Hcp; tauto).
      pose proof (raw_peers_cls _ _ _ Hraw) as Cp.
      split; [exact Cp|]. split; [exact Tp|]. intros z Hz.
      assert (Hpp : In p (peers (sg st) cp)).
      { apply WF_WFr in W. eapply raw_in_peers; [exact W | reflexivity | exact Cp | exact Hraw]. }
      assert (Hcc : In cp (peers (sg st) p)) by (apply peers_sym; assumption).
      assert (z = cp) by (eapply len1_same; [| exact Hz | exact Hcc]; rewrite (sp_one_peer _ _ W Cp Tp); lia).
      subst z. apply (proj2 (In_dedup _ _)). apply in_or_app. left. apply in_map_iff. exists (cp, p). auto. }
  eapply (remove_cps_loop _ s2 st' r no_exempt); [| | | | | exact H]; rewrite ?G.
  - apply WF_WFr. exact W.
  - exact X.
  - intros z Hz. discriminate Hz.
  - intros x Hx _. exact (proj1 (proj2 (Facts x Hx))).
  - intros x z Hx Hz. exact (proj2 (proj2 (Facts x Hx)) z Hz).
Qed.
