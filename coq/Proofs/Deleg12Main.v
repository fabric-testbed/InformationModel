(* C12: the regrouping identity under the one hypothesis pools_wf, pools + single-pool delegations -> node properties
   (annotate) -> read back, and the value-level instances of the non-vacuity Examples (the history and text ones are in Deleg12Hist.v, Deleg12DHist.v, Deleg12Text.v).
   Rests on Deleg12Enc.v, Deleg12Pools.v, Deleg12Regroup.v. *)
From Coq Require Import List ZArith Bool String Permutation.
From FIM Require Import Base.Str Gen.DelegGen Model.Deleg12 Model.Pools12
     Proofs.Deleg12Enc Proofs.Deleg12Pools Proofs.Deleg12Regroup.
Import ListNotations.

Lemma wf_parts ty P : pools_wf ty P = true ->
  forallb (pool_ok ty) P = true /\ NoDup (map p_id P) /\ no_conflict P = true.
Proof. unfold pools_wf. rewrite !andb_true_iff, str_nodup_NoDup. tauto. Qed.

Lemma pools_regroup : forall ty P, pools_wf ty P = true ->
  exists P', regroup ty P = Ok P' /\ pools_equiv P' P.
Proof. intros ty P WF. destruct (wf_parts ty P WF) as (OK & IDS & NC). apply regroup_ok; assumption. Qed.

Lemma pools_regroup_any_order : forall ty P idx G G', pools_wf ty P = true ->
  build_index P = Ok idx -> generate ty (Some idx) = Ok G -> Permutation G' G ->
  exists P', incorporate_all ty G' [] = Ok P' /\ pools_equiv P' P.
Proof.
  intros ty P idx G G' WF. destruct (wf_parts ty P WF) as (OK & IDS & NC).
  apply regroup_any_order; assumption.
Qed.

Lemma merge_singles_ok dels : forall g, NoDup (map fst dels) ->
  (forall n, In n (map fst dels) -> ~ In n (map fst g)) -> merge_singles g dels = Ok (g ++ dels).
Proof.
  induction dels as [|[n ds] r IH]; intros g ND DJ; simpl.
  - rewrite app_nil_r. reflexivity.
  - simpl in ND. apply NoDup_cons_iff in ND as [NI ND].
    rewrite (proj2 (lookup_None n g) (DJ n (or_introl eq_refl))).
    rewrite IH; [rewrite <- app_assoc; reflexivity|exact ND|].
    intros m Hm. rewrite map_app, in_app_iff. simpl. intros [H|[H|[]]].
    + apply (DJ m); [right; exact Hm|exact H].
    + subst. contradiction.
Qed.

Lemma lookup_app_r {A} n (g1 g2 : list (str * A)) : ~ In n (map fst g1) -> lookup n (g1 ++ g2) = lookup n g2.
Proof.
  induction g1 as [|[k v] r IH]; intro NI; [reflexivity|]. simpl in *.
  destruct (str_eqb k n) eqn:E; [apply str_eqb_eq in E; tauto|]. apply IH. tauto.
Qed.

Lemma encode_read lc ty g : Forall (fun nd => ds_type (snd nd) = ty /\ ds_wf lc (snd nd) = true) g ->
  exists pr, encode_all g = Ok pr /\ read_all lc ty pr = Ok g.
Proof.
  induction g as [|[n ds] r IH]; intro F.
  - exists []. split; reflexivity.
  - apply Forall_cons_iff in F as [[T W] Fr]. simpl in T, W.
    destruct (delegations_roundtrip lc ds W) as (doc & EJ & _ & DJ).
    destruct (IH Fr) as (pr & E & R).
    exists ((n, doc) :: pr). cbn [encode_all read_all]. rewrite EJ. cbn [bind]. rewrite E. cbn [bind].
    split; [reflexivity|]. rewrite <- T, DJ. cbn [bind]. rewrite T, R. reflexivity.
Qed.

Lemma inc_events_singles ty es : forall l, Forall (fun e => d_fmt (snd e) = FSingle) es -> inc_events ty l es = Ok l.
Proof.
  induction es as [|[n d] r IH]; intros l F; [reflexivity|].
  apply Forall_cons_iff in F as [Fh Ft]. simpl in Fh. cbn [inc_events]. unfold inc_one. rewrite Fh. cbn [bind].
  apply IH. exact Ft.
Qed.

Lemma pool_evs_deleg_ok lc ty p : pool_ok ty p = true ->
  match p_details p with Some x => det_ok lc x && det_nonempty x | None => false end = true ->
  Forall (fun e => deleg_ok lc ty (snd e) = true) (pool_evs ty p).
Proof.
  intros OK EN. destruct (pool_ok_inv ty p OK) as (did & on & x & F & ->).
  rewrite (pf_details F) in EN. apply andb_true_iff in EN as [DO DN]. constructor.
  - unfold deleg_ok, str_neqb. cbn. rewrite dtype_eqb_refl, (pf_not_reserved F), (pf_kind F), dtype_eqb_refl, DO, DN. reflexivity.
  - apply Forall_map, Forall_forall. intros n _. unfold deleg_ok. cbn. rewrite dtype_eqb_refl. reflexivity.
Qed.

Lemma expected_deleg_ok lc ty P : forallb (pool_ok ty) P = true -> pools_encodable lc P = true ->
  Forall (fun e => deleg_ok lc ty (snd e) = true) (expected_events ty P).
Proof.
  unfold pools_encodable. rewrite !forallb_forall. intros OK EN.
  apply Forall_flat_map, Forall_forall. intros p Hp. apply pool_evs_deleg_ok; [apply OK|apply EN]; exact Hp.
Qed.

Lemma expected_nodes ty P e : In e (expected_events ty P) -> In (fst e) (pool_nodes P).
Proof.
  unfold expected_events, pool_nodes. intro H. apply in_flat_map in H as (p & Hp & He).
  apply in_flat_map. exists p. split; [exact Hp|].
  unfold pool_evs in He. destruct (p_deleg p) as [did|]; [|contradiction]. destruct (p_on p) as [on|]; [|contradiction].
  destruct He as [<-|He]; [left; reflexivity|]. right. apply in_map_iff in He as (n & <- & Hn). exact Hn.
Qed.

(* what generate returns for P, seen through its flat view *)
Section Generated.
Variables (ty : dtype) (P : list pool) (G : gmap).
Hypothesis GI : g_inv ty G.
Hypothesis PE : Permutation (flatten_g G) (expected_events ty P).

(* a node of G holds a prescribed delegation, so it takes part in a pool *)
Lemma generated_nodes n : In n (map fst G) -> In n (pool_nodes P).
Proof.
  intro HG. apply in_map_iff in HG as ([n' ds] & <- & HG).
  destruct (proj1 (Forall_forall _ _) (proj2 GI) _ HG) as (_ & _ & NE). cbn [fst snd] in *.
  destruct (ds_items ds) as [|d r] eqn:Ed; [contradiction|].
  apply (expected_nodes ty P (n', d)). rewrite <- PE. apply in_flatten_g.
  exists ds. rewrite Ed. split; [exact HG|left; reflexivity].
Qed.

Lemma generated_wf lc : forallb (pool_ok ty) P = true -> pools_encodable lc P = true ->
  Forall (fun nd => ds_type (snd nd) = ty /\ ds_wf lc (snd nd) = true) G.
Proof.
  intros OK EN. apply Forall_forall. intros [n ds] Hin.
  destruct (proj1 (Forall_forall _ _) (proj2 GI) _ Hin) as (T & [NDI _] & _). cbn [snd] in *. split; [exact T|].
  unfold ds_wf. rewrite T. apply andb_true_iff. split; [|apply str_nodup_NoDup; exact NDI].
  apply forallb_forall. intros d Hd. apply (proj1 (Forall_forall _ _) (expected_deleg_ok lc ty P OK EN) (n, d)).
  rewrite <- PE. apply in_flatten_g. eauto.
Qed.

End Generated.

Lemma singles_ok_inv lc ty P dels : singles_ok lc ty P dels = true ->
  NoDup (map fst dels) /\
  forall n ds, In (n, ds) dels ->
    ~ In n (pool_nodes P) /\ ds_type ds = ty /\ ds_wf lc ds = true /\ Forall (fun d => d_fmt d = FSingle) (ds_items ds).
Proof.
  unfold singles_ok. rewrite andb_true_iff, str_nodup_NoDup, forallb_forall. intros [ND SD]. split; [exact ND|].
  intros n ds Hin. apply SD in Hin. cbn [fst snd] in Hin.
  rewrite !andb_true_iff, negb_true_iff, str_mem_false, dtype_eqb_eq in Hin. destruct Hin as [[[NI T] W] SO].
  repeat split; trivial. eapply forallb_Forall; [|exact SO]. intro d. cbv beta. destruct (d_fmt d); intro; congruence.
Qed.

Lemma annotate_readback_ok lc ty P dels :
  pools_wf ty P = true -> pools_encodable lc P = true -> singles_ok lc ty P dels = true ->
  exists g P', annotate_readback lc ty dels P = Ok (g, P') /\ pools_equiv P' P /\
               Permutation (flatten_g g) (expected_events ty P ++ flatten_g dels) /\
               forall n ds, In (n, ds) dels -> lookup n g = Some ds.
Proof.
  intros WF EN SO. destruct (wf_parts ty P WF) as (OK & IDS & NC).
  destruct (index_complete ty P OK) as (idx & B & _).
  destruct (generate_ok ty P idx OK NC B) as (G & GE & GI & PE).
  destruct (singles_ok_inv lc ty P dels SO) as [NDD SD].
  (* no single sits on a node of G, so the merge appends them *)
  assert (DJ : forall n, In n (map fst dels) -> ~ In n (map fst G)).
  { intros n Hn HG. apply in_map_iff in Hn as ([n' ds] & <- & Hin).
    exact (proj1 (SD _ _ Hin) (generated_nodes ty P G GI PE _ HG)). }
  (* everything is encodable and reads back *)
  assert (WG : Forall (fun nd => ds_type (snd nd) = ty /\ ds_wf lc (snd nd) = true) (G ++ dels)).
  { apply Forall_app. split; [exact (generated_wf ty P G GI PE lc OK EN)|].
    apply Forall_forall. intros [n ds] Hin. destruct (SD _ _ Hin). tauto. }
  destruct (encode_read lc ty (G ++ dels) WG) as (pr & EA & RA).
  (* incorporate: the pools' part rebuilds P, the singles are ignored *)
  assert (SG : Forall (fun e => d_fmt (snd e) = FSingle) (flatten_g dels)).
  { apply Forall_forall. intros [n d] He. apply in_flatten_g in He as (ds & Hin & Hd).
    destruct (SD _ _ Hin) as (_ & _ & _ & SO'). exact (proj1 (Forall_forall _ _) SO' d Hd). }
  destruct (incorporate_expected ty P OK IDS (flatten_g G) PE) as (P' & IE & EQ).
  exists (G ++ dels), P'. split; [|split; [exact EQ|split]].
  - unfold annotate_readback, annotate. rewrite B. cbn [bind]. rewrite GE. cbn [bind].
    rewrite (merge_singles_ok dels G NDD DJ). cbn [bind]. rewrite EA. cbn [bind]. rewrite RA. cbn [bind].
    rewrite incorporate_all_flat by (eapply Forall_impl; [|exact WG]; intros a H; apply H).
    rewrite flatten_app, inc_events_app, IE. cbn [bind]. rewrite (inc_events_singles ty _ P' SG). reflexivity.
  - rewrite flatten_app. apply Permutation_app_tail. exact PE.
  - intros n ds Hin. rewrite lookup_app_r; [apply lookup_In_nodup; assumption|].
    apply DJ. exact (in_map fst _ _ Hin).
Qed.

Definition ex_caps : det := mkDet TCap (map (fun f => if str_eqb f (S"cpu") then Some (DInt 2) else
                                                      if str_eqb f (S"ram") then Some (DInt 1024) else Some (DInt 0))
                                            deleg_cap_fields).

Definition ex_labs (v : str) : det :=
  mkDet TLab (map (fun f => if str_eqb f (S"vlan_range") then Some (DStr v) else None) deleg_lab_fields).

(* the three formats in one container *)
Definition ex_ds : delegations :=
  mkDs TLab [ mkD TLab (S"del1") FSingle None (Some (ex_labs (S"1-100")));
              mkD TLab (S"del2") FDef (Some (S"pool1")) (Some (ex_labs (S"101-200")));
              mkD TLab (S"del3") FRef (Some (S"pool1")) None ].

(* a node (node2) defines one pool and references another, under different delegation ids; node1 does the
   same the other way round *)
Definition ex_pools : list pool :=
  [ mkP TLab (S"pool1") (Some (S"del1")) (Some (S"node1")) [S"node2"; S"node3"] (Some (ex_labs (S"1-100")));
    mkP TLab (S"pool2") (Some (S"del2")) (Some (S"node2")) [S"node1"; S"node4"; S"node5"] (Some (ex_labs (S"101-200"))) ].

Definition ex_single : gmap :=
  [ (S"node6", mkDs TLab [ mkD TLab (S"del3") FSingle None (Some (ex_labs (S"300-400"))) ]) ].

(* the same two pools under ONE delegation id: node2 would need two entries under "del1" -> conflict *)
Definition ex_conflict : list pool :=
  [ mkP TLab (S"pool1") (Some (S"del1")) (Some (S"node1")) [S"node2"] (Some (ex_labs (S"1-100")));
    mkP TLab (S"pool2") (Some (S"del1")) (Some (S"node2")) [S"node3"] (Some (ex_labs (S"101-200"))) ].

(* ex_ds as the API builds it: every delegation is new_deleg followed by set_details attempts *)
Definition ex_api_items : list deleg :=
  [ fold_left set_try [ex_labs (S"1-100")] (mkD TLab (S"del1") FSingle None None);
    fold_left set_try [ex_labs (S"101-200")] (mkD TLab (S"del2") FDef (Some (S"pool1")) None);
    fold_left set_try [ex_labs (S"5-6")] (mkD TLab (S"del3") FRef (Some (S"pool1")) None) ].
