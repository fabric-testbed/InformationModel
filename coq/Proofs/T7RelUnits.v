(* C07 - the relaxed invariant WFr: monotonicity, discharge of exemptions, the structure rule of an element by id.
   remove_cp_and_links as a run, and as a unit (an instance of the removal lemma T7Units.WFr_remove_set): it keeps the
   relaxed invariant; the service ports that faced a removed interface across a link become exempt from the peer rule
   (they are "stranded" until somebody removes them too). *)
From Coq Require Import List Bool Lia.
From FIM Require Import Base.Str Model.T7Graph Model.T7Ops Model.T7WF Model.T7Steps Model.T7Rel Proofs.T7Tables Proofs.T7WFRefl
     Proofs.T7Frame Proofs.T7Units Proofs.T7RelRun.
Import ListNotations.

(* exemptions matter only on the elements present, and the peer exemption only on service ports *)
Lemma WFr_restrict eo ep eo' ep' g :
  WFr eo ep g ->
  (forall n, In n (gnodes g) -> eo (nid n) = true -> eo' (nid n) = true) ->
  (forall n, In n (gnodes g) -> ncls n = KCP -> ntyp n = Some sServicePort -> ep (nid n) = true -> ep' (nid n) = true) ->
  WFr eo' ep' g.
Proof.
  intros [F V I E D St N] Ho Hp. constructor; auto.
  - intros n Hn He.
    assert (He0 : eo (nid n) = false) by (destruct (eo (nid n)) eqn:X; [rewrite (Ho n Hn X) in He; discriminate | reflexivity]).
    destruct (St n Hn He0) as [A [B C]]. split; [exact A|]. split; [|exact C].
    intro Hc. destruct (B Hc) as [B1 [B2 B3]]. repeat split; auto. intros Ht Hq. apply B3; [exact Ht|].
    destruct (ep (nid n)) eqn:X; [rewrite (Hp n Hn Hc Ht X) in Hq; discriminate | reflexivity].
  - eapply ForallOrdPairs_impl_in; [|exact N]. intros a b Ha Hb H Ea Eb. apply H.
    + destruct (eo (nid a)) eqn:X; [rewrite (Ho a Ha X) in Ea; discriminate | reflexivity].
    + destruct (eo (nid b)) eqn:X; [rewrite (Ho b Hb X) in Eb; discriminate | reflexivity].
Qed.

(* more exemptions are harmless *)
Lemma WFr_mono eo ep eo' ep' g :
  (forall x, eo x = true -> eo' x = true) -> (forall x, ep x = true -> ep' x = true) -> WFr eo ep g -> WFr eo' ep' g.
Proof. intros Ho Hp W. apply (WFr_restrict _ _ _ _ _ W); auto. Qed.

(* a well-formed graph satisfies the relaxed invariant whatever is exempt from the peer rule *)
Lemma WF_WFr_ep ep g : WF g -> WFr no_exempt ep g.
Proof. intro W. apply WF_WFr in W. eapply WFr_mono; [| |exact W]; intros x H; [exact H | discriminate H]. Qed.

(* exemptions only matter on the elements present *)
Lemma WFr_ext eo ep eo' ep' g :
  (forall n, In n (gnodes g) -> eo' (nid n) = eo (nid n)) -> (forall n, In n (gnodes g) -> ep' (nid n) = ep (nid n)) ->
  WFr eo ep g -> WFr eo' ep' g.
Proof.
  intros Ho Hp W. apply (WFr_restrict _ _ _ _ _ W); [intros n Hn H; rewrite (Ho n Hn); exact H | intros n Hn _ _ H; rewrite (Hp n Hn); exact H].
Qed.

(* a service port whose peer rule does hold need not be exempt *)
Lemma WFr_discharge_ep eo ep g :
  WFr eo ep g ->
  (forall n, In n (gnodes g) -> eo (nid n) = false -> ep (nid n) = true -> ncls n = KCP -> ntyp n = Some sServicePort ->
             length (peers g (nid n)) = 1) ->
  WFr eo no_exempt g.
Proof.
  intros [F V I E D St N] H. constructor; auto.
  intros n Hn He. destruct (St n Hn He) as [A [B C]]. split; [exact A|]. split; [|exact C].
  intro Hc. destruct (B Hc) as [B1 [B2 B3]]. repeat split; auto. intros Ht _.
  destruct (ep (nid n)) eqn:X; [apply H; auto | apply B3; auto].
Qed.

Lemma node_of_cls g x k : NoDup (map nid (gnodes g)) -> cls_is g x k = true -> exists n, In n (gnodes g) /\ nid n = x /\ ncls n = k.
Proof.
  intros ND C. pose proof (cls_is_has_id _ _ _ C) as H. apply has_id_In in H as [n [Hn E]]. exists n. split; [exact Hn|]. split; [exact E|].
  rewrite <- E, (cls_is_node g n _ ND Hn) in C. apply cls_eqb_eq. exact C.
Qed.

Lemma cp_structR eo ep g x : WFr eo ep g -> cls_is g x KCP = true -> eo x = false ->
  length (cp_owners g x) = 1 /\
  (forall j, In j (first_nb g x Connects KCP) -> typ_is g x sSubInterface <> typ_is g j sSubInterface) /\
  (typ_is g x sServicePort = true -> ep x = false -> length (peers g x) = 1).
Proof.
  intros W C Eo. destruct (node_of_cls g x KCP (r_ids _ _ _ W) C) as [n [Hn [En Kn]]]. subst x.
  destruct (r_struct _ _ _ W n Hn Eo) as [_ [S2 _]]. destruct (S2 Kn) as [A [B C3]].
  split; [exact A|]. split; [exact B|]. intro T. apply C3.
  rewrite (typ_is_node g n _ (r_ids _ _ _ W) Hn) in T. apply ostr_eqb_eq. exact T.
Qed.

Lemma link_structR eo ep g l : WFr eo ep g -> cls_is g l KLink = true -> eo l = false ->
  forall j r, In (j, r) (nbrs g l) -> r = Connects /\ cls_is g j KCP = true.
Proof.
  intros W C Eo. destruct (node_of_cls g l KLink (r_ids _ _ _ W) C) as [n [Hn [En Kn]]]. subst l.
  destruct (r_struct _ _ _ W n Hn Eo) as [_ [_ S3]]. exact (S3 Kn).
Qed.

Lemma cp_unit_run x dp s : sane (sg s) -> has_id (sg s) x = true ->
  remove_cp_and_links x dp s = (mkSt (remove_set (sg s) (fun y => mem_str y (D_cp (sg s) x dp))) (sdr s), Ok tt).
Proof.
  intros Hs Hx. pose proof Hs as [ND E]. unfold remove_cp_and_links.
  unfold bind at 1. rewrite (q_first_nb_ok x Connects KCP s Hs Hx).
  assert (Hnb : forall y r k j, In j (first_nb (sg s) y r k) -> has_id (sg s) j = true)
    by (intros y r k j Hj; eapply first_nb_has_id; eauto).
  unfold bind at 1.
  rewrite (filterM_pure _ (fun p => len_is (first_nb (sg s) p Connects KCP) 1 && dp) (first_nb (sg s) x Connects KCP) s).
  2:{ intros p Hp. unfold bind. rewrite (q_first_nb_ok p Connects KCP s Hs (Hnb _ _ _ _ Hp)). reflexivity. }
  fold (cp_extra (sg s) x dp). fold (cp_ifs (sg s) x dp).
  assert (Hifs : forall i, In i (cp_ifs (sg s) x dp) -> has_id (sg s) i = true).
  { intros i Hi. unfold cp_ifs in Hi. apply (proj1 (In_dedup _ _)) in Hi. destruct Hi as [<-|Hi]; [exact Hx|]. unfold cp_extra in Hi. apply filter_In in Hi as [Hi _]. eapply Hnb; eauto. }
  unfold bind at 1.
  rewrite (concatM_pure _ (fun i => filter (fun l => len_is (first_nb (sg s) l Connects KCP) 2) (first_nb (sg s) i Connects KLink)) (cp_ifs (sg s) x dp) s).
  2:{ intros i Hi. unfold bind. rewrite (q_first_nb_ok i Connects KLink s Hs (Hifs i Hi)).
      apply filterM_pure. intros l Hl. unfold bind. rewrite (q_first_nb_ok l Connects KCP s Hs (Hnb _ _ _ _ Hl)). reflexivity. }
  fold (cp_links (sg s) x dp). fold (D_cp (sg s) x dp).
  apply del_seq; [exact Hs | apply NoDup_dedup |].
  intros y Hy. unfold D_cp in Hy. apply (proj1 (In_dedup _ _)) in Hy. apply in_app_or in Hy as [Hy|Hy]; [apply Hifs; exact Hy|].
  unfold cp_links in Hy. apply in_flat_map in Hy as [i [Hi Hy]]. apply filter_In in Hy as [Hy _]. eapply Hnb; eauto.
Qed.

Lemma first_nb_sym g x y r k k' : In y (first_nb g x r k) -> cls_is g x k' = true -> In x (first_nb g y r k').
Proof. intros H Hk. apply In_first_nb in H as [H _]. apply In_first_nb. split; [apply nbrs_sym; exact H | exact Hk]. Qed.

Lemma In_peers g y n l : In l (first_nb g y Connects KLink) -> In n (first_nb g l Connects KCP) -> n <> y -> In n (peers g y).
Proof.
  intros Hl Hn Hne. unfold peers. apply in_flat_map. exists l. split; [exact Hl|]. apply filter_In. split; [exact Hn|].
  apply negb_true_iff. apply str_eqb_neq. exact Hne.
Qed.
Lemma In_peers_inv g y n : In n (peers g y) -> exists l, In l (first_nb g y Connects KLink) /\ In n (first_nb g l Connects KCP) /\ n <> y.
Proof.
  unfold peers. intro H. apply in_flat_map in H as [l [Hl H]]. apply filter_In in H as [H1 H2].
  exists l. split; [exact Hl|]. split; [exact H1|]. apply negb_true_iff in H2. apply str_eqb_neq. exact H2.
Qed.

Lemma filter_sub_length {A} (P Q : A -> bool) l : (forall a, In a l -> P a = true -> Q a = true) -> length (filter P l) <= length (filter Q l).
Proof.
  induction l as [|a l IH]; simpl; intro H; [lia|].
  assert (IH' : length (filter P l) <= length (filter Q l)) by (apply IH; intros; apply H; auto).
  destruct (P a) eqn:Pa; [rewrite (H a (or_introl eq_refl) Pa); simpl; lia | destruct (Q a); simpl; lia].
Qed.

(* a sub-interface that obeys the structure rule has exactly its parent as interface neighbour *)
Lemma sub_cp_nbrs_le eo ep g x : WFr eo ep g -> cls_is g x KCP = true -> eo x = false -> typ_is g x sSubInterface = true ->
  length (first_nb g x Connects KCP) <= 1.
Proof.
  intros W C Eo Ht. destruct (cp_structR _ _ _ _ W C Eo) as [L [Sh _]]. rewrite <- L. unfold first_nb, cp_owners, nb_where.
  rewrite !map_length. apply filter_sub_length. intros [j r] Hin P. simpl in *.
  apply andb_true_iff in P as [P1 P2]. rewrite P1. simpl. rewrite Ht, P2. simpl.
  assert (Hj : In j (first_nb g x Connects KCP)).
  { apply In_first_nb. apply rel_eqb_eq in P1. subst r. auto. }
  specialize (Sh j Hj). rewrite Ht in Sh. destruct (typ_is g j sSubInterface); [congruence|]. apply orb_true_r.
Qed.

Lemma len1_same {A} (l : list A) a b : length l <= 1 -> In a l -> In b l -> a = b.
Proof. destruct l as [|x [|y l]]; simpl; intros L Ha Hb; try lia; try contradiction. destruct Ha as [<-|[]]. destruct Hb as [<-|[]]. reflexivity. Qed.

(* an interface that takes no other interface along: only itself and links go, and only its own peers are stranded *)
Lemma cp_extra_nochild g x dp : first_nb g x Connects KCP = [] -> cp_extra g x dp = [].
Proof. intro H. unfold cp_extra. rewrite H. reflexivity. Qed.
Lemma cp_extra_keep g x : cp_extra g x false = [].
Proof. unfold cp_extra. induction (first_nb g x Connects KCP) as [|a l IH]; simpl; [reflexivity | rewrite andb_false_r; exact IH]. Qed.
Lemma x_in_D_cp g x dp : mem_str x (D_cp g x dp) = true.
Proof.
  apply mem_str_In. unfold D_cp. apply (proj2 (In_dedup _ _)). apply in_or_app. left.
  unfold cp_ifs. apply (proj2 (In_dedup _ _)). left. reflexivity.
Qed.
Lemma D_cp_alone g x dp y : cp_extra g x dp = [] -> mem_str y (D_cp g x dp) = true -> y = x \/ cls_is g y KLink = true.
Proof.
  intros H Hy. apply mem_str_In in Hy. unfold D_cp, cp_links, cp_ifs in Hy. rewrite H in Hy. apply (proj1 (In_dedup _ _)) in Hy.
  simpl in Hy. destruct Hy as [Hy|Hy]; [left; congruence|]. right. rewrite app_nil_r in Hy. apply filter_In in Hy as [Hy _].
  apply In_first_nb in Hy. tauto.
Qed.
Lemma cp_stranded_alone g x dp z : cp_extra g x dp = [] -> cp_stranded g x dp z = true -> In z (peers g x).
Proof. intros H Hz. unfold cp_stranded, cp_ifs in Hz. rewrite H in Hz. simpl in Hz. rewrite orb_false_r in Hz. apply mem_str_In. exact Hz. Qed.

Section RemoveCp.
Variables (g : graph) (eo ep : str -> bool) (x : str) (dp : bool).
Let D := D_cp g x dp.
Let del := fun y => mem_str y D.
Let ep' := fun z => ep z || cp_stranded g x dp z.
Hypothesis W : WFr eo ep g.
Hypothesis Hx : cls_is g x KCP = true.
Hypothesis Hdp : dp = true \/ typ_is g x sSubInterface = true.

Lemma rc_ifs_cls i : In i (cp_ifs g x dp) -> cls_is g i KCP = true.
Proof.
  unfold cp_ifs. intro H. apply (proj1 (In_dedup _ _)) in H. destruct H as [<-|H]; [exact Hx|].
  unfold cp_extra in H. apply filter_In in H as [H _]. apply In_first_nb in H. tauto.
Qed.
Lemma rc_links_cls l : In l (cp_links g x dp) -> cls_is g l KLink = true.
Proof.
  unfold cp_links. intro H. apply in_flat_map in H as [i [_ H]]. apply filter_In in H as [H _]. apply In_first_nb in H. tauto.
Qed.
Lemma rc_del_inv y : del y = true -> (In y (cp_ifs g x dp) /\ cls_is g y KCP = true) \/ (In y (cp_links g x dp) /\ cls_is g y KLink = true).
Proof.
  unfold del, D, D_cp. intro H. apply mem_str_In in H. apply (proj1 (In_dedup _ _)) in H. apply in_app_or in H as [H|H].
  - left. split; [exact H | apply rc_ifs_cls; exact H].
  - right. split; [exact H | apply rc_links_cls; exact H].
Qed.
Lemma rc_del_ifs y : In y (cp_ifs g x dp) -> del y = true.
Proof. intro H. unfold del, D, D_cp. apply mem_str_In. apply In_dedup. apply in_or_app. left. exact H. Qed.

Lemma rc_class_safe o k : cls_is g o k = true -> k <> KCP -> k <> KLink -> del o = false.
Proof.
  intros Ho H1 H2. destruct (del o) eqn:E; [|reflexivity]. exfalso.
  destruct (rc_del_inv o E) as [[_ C]|[_ C]]; rewrite (cls_is_unique _ _ _ _ Ho) in C; congruence.
Qed.

Lemma rc_closed : closedR g del eo ep eo ep'.
Proof.
  intros n Hn Hd He. split; [exact He|].
  pose proof (r_ids _ _ _ W) as ND.
  destruct (ncls n) eqn:Hc; try exact I.
  - intros o Ho. unfold comp_owners in Ho. apply In_nb_where in Ho as [r [_ Ho]]. apply andb_true_iff in Ho as [_ Ho].
    apply orb_true_iff in Ho as [Ho|Ho]; eapply rc_class_safe; eauto; discriminate.
  - intros o Ho. unfold ns_owners in Ho. apply In_nb_where in Ho as [r [_ Ho]]. apply andb_true_iff in Ho as [_ Ho].
    apply orb_true_iff in Ho as [Ho|Ho]; [apply orb_true_iff in Ho as [Ho|Ho]|]; eapply rc_class_safe; eauto; discriminate.
  - assert (Cn : cls_is g (nid n) KCP = true) by (rewrite (cls_is_node g n _ ND Hn), Hc; reflexivity).
    split.
    + intros o Ho. unfold cp_owners in Ho. apply In_nb_where in Ho as [r [Hadj Ho]]. apply andb_true_iff in Ho as [Hr Ho].
      apply rel_eqb_eq in Hr. subst r.
      apply orb_true_iff in Ho as [Ho|Ho]; [eapply rc_class_safe; eauto; discriminate|].
      apply andb_true_iff in Ho as [Ho Hns]. apply andb_true_iff in Ho as [Hsub Hoc]. apply negb_true_iff in Hns.
      destruct (del o) eqn:Edo; [|reflexivity]. exfalso.
      destruct (rc_del_inv o Edo) as [[Hoi _]|[_ C]]; [|rewrite (cls_is_unique _ _ _ _ Hoc) in C; [discriminate C | discriminate]].
      assert (Hno : In o (first_nb g (nid n) Connects KCP)) by (apply In_first_nb; auto).
      assert (Hon : In (nid n) (first_nb g o Connects KCP)) by (eapply first_nb_sym; eauto).
      pose proof (sub_cp_nbrs_le _ _ _ _ W Cn He Hsub) as Ln.
      unfold cp_ifs in Hoi. apply (proj1 (In_dedup _ _)) in Hoi. destruct Hoi as [Eo|Hoe].
      * subst o. destruct Hdp as [Hd1|Hd2]; [|congruence].
        assert (Hex : In (nid n) (cp_extra g x dp)).
        { unfold cp_extra. apply filter_In. split; [exact Hon|]. rewrite Hd1, andb_true_r. apply len_is_eq.
          destruct (first_nb g (nid n) Connects KCP) as [|a [|b l]]; simpl in *; [contradiction | reflexivity | lia]. }
        assert (del (nid n) = true) by (apply rc_del_ifs; unfold cp_ifs; apply In_dedup; right; exact Hex). congruence.
      * unfold cp_extra in Hoe. apply filter_In in Hoe as [Hox Hlen]. apply andb_true_iff in Hlen as [Hlen _]. apply len_is_eq in Hlen.
        assert (Hxo : In x (first_nb g o Connects KCP)) by (eapply first_nb_sym; eauto).
        assert (E : nid n = x) by (eapply len1_same; [| exact Hon | exact Hxo]; lia).
        assert (del x = true) by (apply rc_del_ifs; unfold cp_ifs; apply In_dedup; left; reflexivity). congruence.
    + intros Ht Hp. unfold ep' in Hp. apply orb_false_iff in Hp as [Hp1 Hp2]. split; [exact Hp1|].
      assert (NS : forall i, In i (cp_ifs g x dp) -> ~ In (nid n) (peers g i)).
      { intros i Hi Hin. unfold cp_stranded in Hp2.
        assert (X : existsb (fun i => mem_str (nid n) (peers g i)) (cp_ifs g x dp) = true)
          by (apply existsb_exists; exists i; split; [exact Hi | apply mem_str_In; exact Hin]). congruence. }
      intros l Hl. assert (Cl : cls_is g l KLink = true) by (apply In_first_nb in Hl; tauto).
      assert (Hnl : In (nid n) (first_nb g l Connects KCP)) by (eapply first_nb_sym; eauto).
      split.
      * destruct (del l) eqn:Edl; [|reflexivity]. exfalso.
        destruct (rc_del_inv l Edl) as [[_ C]|[Hll _]]; [rewrite (cls_is_unique _ _ _ _ Cl) in C; [discriminate C | discriminate]|].
        unfold cp_links in Hll. apply in_flat_map in Hll as [i [Hi Hll]]. apply filter_In in Hll as [Hil _].
        pose proof (rc_ifs_cls i Hi) as Ci.
        assert (Hii : In i (first_nb g l Connects KCP)) by (eapply first_nb_sym; eauto).
        destruct (str_eq_dec (nid n) i) as [E|Hne].
        -- subst i. assert (del (nid n) = true) by (apply rc_del_ifs; exact Hi). congruence.
        -- apply (NS i Hi). eapply In_peers; eauto.
      * intros y Hy. destruct (del y) eqn:Edy; [|reflexivity]. exfalso.
        assert (Cy : cls_is g y KCP = true) by (apply In_first_nb in Hy; tauto).
        destruct (rc_del_inv y Edy) as [[Hyi _]|[_ C]]; [|rewrite (cls_is_unique _ _ _ _ Cy) in C; [discriminate C | discriminate]].
        destruct (str_eq_dec (nid n) y) as [E|Hne]; [subst y; congruence|].
        apply (NS y Hyi). eapply In_peers; [eapply first_nb_sym; eauto | exact Hnl | exact Hne].
Qed.

Theorem WFr_remove_cp :
  WFr eo (fun z => ep z || cp_stranded g x dp z) (remove_set g (fun y => mem_str y (D_cp g x dp))).
Proof. apply (WFr_remove_set g del eo ep eo ep' W rc_closed). Qed.
End RemoveCp.

