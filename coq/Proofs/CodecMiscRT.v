(* C03: Tags, JSONData, PathInfo / ERO, MaintenanceInfo, typed tuples.  For each codec the round trip on the values
   the constructors build, and the decode side: whatever decodes is such a value (or re-encodes like one). *)
From Coq Require Import String List NArith ZArith Bool.
From FIM Require Import Base.Str Base.Json Base.JsonRT Gen.CodecGen Model.CodecField Model.CodecMisc Model.CodecWf
     Proofs.CodecAssoc.
Import ListNotations.

Lemma aget_jwfb d k v : jwfb (JObj d) = true -> aget k d = Some v -> jwfb v = true.
Proof.
  cbn [jwfb]. intros J G. apply andb_true_iff in J as [J _]. rewrite forallb_forall in J.
  specialize (J (k, v) (aget_in _ _ _ G)). apply andb_true_iff in J as [_ J]. exact J.
Qed.

Section TagsProofs.
  Variable VT : str -> bool.

  Lemma tags_wf_iff t : tags_wf VT t = true <-> forallb VT t = true /\ forallb str_ok t = true.
  Proof.
    unfold tags_wf. induction t as [|s t IH]; simpl; [tauto|]. rewrite !andb_true_iff, IH. tauto.
  Qed.

  Lemma jwfb_strs t : jwfb (JArr (map JStr t)) = forallb str_ok t.
  Proof. cbn [jwfb]. induction t as [|s t IH]; simpl; congruence. Qed.

  Lemma tags_each_ok t : forallb VT t = true -> tags_each VT (map JStr t) = Ok t.
  Proof.
    induction t as [|s t IH]; simpl; [reflexivity|]. intro H. apply andb_true_iff in H as [H1 H2].
    rewrite H1, (IH H2). reflexivity.
  Qed.

  Lemma tags_each_inv l : forall t, tags_each VT l = Ok t -> l = map JStr t /\ forallb VT t = true.
  Proof.
    induction l as [|v l IH]; intros t H; simpl in H.
    - injection H as <-. split; reflexivity.
    - destruct v; try discriminate. simpl in H. destruct (VT s) eqn:E; [|discriminate].
      destruct (tags_each VT l) as [t'|]; [|discriminate]. injection H as <-.
      destruct (IH t' eq_refl) as [-> H]. simpl. rewrite E. split; [reflexivity|exact H].
  Qed.

  Theorem tags_roundtrip t : tags_wf VT t = true ->
    tags_from_json VT (Some (tags_to_json t)) = Ok (Some t).
  Proof.
    intro W. apply tags_wf_iff in W as [W1 W2]. unfold tags_from_json, tags_to_json.
    rewrite jparse_jprint by (rewrite jwfb_strs; exact W2).
    cbn [tags_make]. rewrite (tags_each_ok t W1), List.app_nil_r. reflexivity.
  Qed.

  Theorem tags_canonical t u : tags_wf VT t = true ->
    tags_from_json VT (Some (tags_to_json t)) = Ok (Some u) -> tags_to_json u = tags_to_json t.
  Proof. intros W H. rewrite (tags_roundtrip t W) in H. congruence. Qed.

  Theorem tags_make_valid args t : tags_make VT args = Ok t -> forallb VT t = true.
  Proof.
    revert t. induction args as [|a args IH]; intros t H; cbn [tags_make] in H.
    - injection H as <-. reflexivity.
    - destruct (match a with JArr l => tags_each VT l | _ => tags_each VT [a] end) as [t1|] eqn:E1; [|discriminate].
      destruct (tags_make VT args) as [t2|] eqn:E2; [|discriminate]. injection H as <-.
      rewrite forallb_app, (IH t2 eq_refl), andb_true_r.
      destruct a; exact (proj2 (tags_each_inv _ _ E1)).
  Qed.

  (* the accepted texts: absent, or a JSON list of strings / a single JSON string, every string passing the pattern;
     whatever decodes is a valid Tags value and re-encodes to a text that decodes to the same value *)
  Theorem tags_decode_closed t j l : jparse t = Some j -> jwfb j = true -> tags_from_json VT (Some t) = Ok (Some l) ->
    tags_wf VT l = true /\ tags_from_json VT (Some (tags_to_json l)) = Ok (Some l).
  Proof.
    intros P J H. unfold tags_from_json in H.
    destruct (Nat.eqb (List.length t) 0 || str_eqb t (S"None")); [discriminate|]. rewrite P in H.
    destruct (tags_make VT [j]) as [l'|] eqn:M; [|discriminate]. injection H as ->.
    assert (W : tags_wf VT l = true).
    { apply tags_wf_iff. split; [exact (tags_make_valid [j] l M)|].
      cbn [tags_make] in M.
      destruct (match j with JArr l0 => tags_each VT l0 | _ => tags_each VT [j] end) as [t1|] eqn:E; [|discriminate].
      injection M as <-. rewrite List.app_nil_r.
      (* j is a string or a list of strings, and t1 its content *)
      assert (E' : j = JArr (map JStr t1) \/ [j] = map JStr t1).
      { destruct j; apply tags_each_inv in E as [E _]; auto. left. rewrite E. reflexivity. }
      destruct E' as [-> | E']; [rewrite <- jwfb_strs; exact J|].
      destruct t1 as [|s [|]]; try discriminate. injection E' as ->. simpl in *. rewrite J. reflexivity. }
    split; [exact W|apply tags_roundtrip; exact W].
  Qed.
End TagsProofs.

Definition jd_input_wf (i : jd_input) : bool := match i with JDObj v => jwfb v | _ => true end.
Definition jd_value (i : jd_input) : option json :=
  match i with JDNone => Some (JObj []) | JDText s => jparse s | JDObj v => Some v end.

(* decoding = constructing from the text *)
Theorem jd_text_kept_verbatim mx exn s t : jd_make mx exn (JDText s) = Ok t -> t = s /\ jparse s <> None.
Proof.
  simpl. destruct (mx <? N.of_nat (List.length s))%N; [discriminate|].
  destruct (jparse s); [|discriminate]. intros [= <-]. split; [reflexivity|discriminate].
Qed.

Theorem jd_roundtrip mx exn i t : (2 <= mx)%N -> jd_input_wf i = true -> jd_make mx exn i = Ok t ->
  jd_make mx exn (JDText (jd_json t)) = Ok t /\ jd_data t = jd_value i /\ jd_data t <> None.
Proof.
  intros M W H. unfold jd_json, jd_data.
  (* in each case the stored text is within the limit and parses to the value *)
  assert (Q : (mx <? N.of_nat (List.length t))%N = false /\ jparse t = jd_value i /\ jparse t <> None).
  { destruct i as [|s|v]; simpl in *.
    - injection H as <-. split; [apply N.ltb_ge; exact M|]. split; [reflexivity|discriminate].
    - destruct (jd_text_kept_verbatim mx exn s t H) as [-> P].
      destruct (mx <? N.of_nat (List.length s))%N; [discriminate|]. auto.
    - destruct (mx <? N.of_nat (List.length (jprint v)))%N eqn:E; [discriminate|]. injection H as <-.
      rewrite (jparse_jprint v W). split; [exact E|]. split; [reflexivity|discriminate]. }
  destruct Q as (L & P & N). split; [|split; assumption].
  simpl. rewrite L. destruct (jparse t); [reflexivity|contradiction].
Qed.

Lemma jsondata_limits_ok : forallb (fun x => (2 <=? snd (fst x))%N) jsondata_classes = true.
Proof. reflexivity. Qed.

Lemma strict_spellings : existsb (str_eqb (S"True")) ero_strict_true = true /\ existsb (str_eqb (S"False")) ero_strict_true = false.
Proof. split; reflexivity. Qed.

(* the members of the object pi_to_json prints, given the JSON form j of the payload *)
Definition pi_members (ty : option ptype) (st : option bool) (j : json) : obj :=
  (k_type, JStr (ptype_str ty))
  :: match st with Some b => [(k_strict, JStr (if b then S"True" else S"False"))] | None => [] end ++ [(k_payload, j)].

Lemma pi_members_wf ty st j : jwfb j = true -> jwfb (JObj (pi_members ty st j)) = true.
Proof.
  intro J. destruct ty as [[|]|], st as [[|]|]; cbn [jwfb pi_members app forallb map fst snd]; rewrite J; reflexivity.
Qed.

Lemma pi_from_json_jprint ero v : jwfb v = true -> pi_from_json ero (Some (jprint v)) = pi_of_jv ero v.
Proof. intro J. unfold pi_from_json. rewrite (jprint_nonempty v J), (jparse_jprint v J). reflexivity. Qed.

Lemma pi_of_jv_graph ero st j : is_none st = negb ero ->
  pi_of_jv ero (JObj (pi_members (Some PTGraph) st j))
  = Ok (Some {| pi_type := Some PTGraph; pi_payload := PLRaw j; pi_strict := st |}).
Proof. destruct ero, st as [[|]|]; try discriminate; reflexivity. Qed.

Lemma pi_of_jv_path ero ty st a z : is_none st = negb ero -> ty <> Some PTGraph ->
  pi_of_jv ero (JObj (pi_members ty st (JObj [(k_a2z, a); (k_z2a, z)])))
  = Ok (Some {| pi_type := ty; pi_payload := PLPath a z; pi_strict := st |}).
Proof. destruct ty as [[|]|]; [|congruence|]; destruct ero, st as [[|]|]; try discriminate; reflexivity. Qed.

(* What the encoder and decoder agree on: a strict flag exactly for an ERO, and either nothing set, or a Graph-typed
   value with any payload that is not a Path object, or a Path object under any type that is not Graph.  The
   constructor and set() build such values (pinfo_wf), and so does the decoder, which also yields unknown types and
   Graph payloads of any JSON kind. *)
Definition pi_codable (ero : bool) (p : pinfo) : Prop :=
  payload_wf (pi_payload p) = true /\ is_none (pi_strict p) = negb ero /\
  match pi_payload p with
  | PLRaw JNull => True
  | PLRaw _ => pi_type p = Some PTGraph
  | PLPath _ _ => pi_type p <> Some PTGraph
  end.

Theorem pi_reencode ero p : pi_codable ero p ->
  exists s, pi_to_json p = Ok s /\ pi_from_json ero (Some s) = Ok (if pinfo_nothing p then None else Some p).
Proof.
  destruct p as [ty pl st]. unfold pi_codable, pinfo_nothing, pi_to_json. cbn [pi_type pi_payload pi_strict].
  intros (W & ST & C). destruct pl as [j|a z]; cbn [payload_wf] in W.
  - destruct (payload_unset (PLRaw j)) eqn:U; [exists []; split; reflexivity|].
    assert (ty = Some PTGraph) as -> by (destruct j; (discriminate U || exact C)).
    exists (jprint (JObj (pi_members (Some PTGraph) st j))). split; [reflexivity|].
    rewrite pi_from_json_jprint by (apply pi_members_wf; exact W).
    apply pi_of_jv_graph. exact ST.
  - exists (jprint (JObj (pi_members ty st (JObj [(k_a2z, a); (k_z2a, z)])))). split.
    + destruct ty as [[|]|]; [reflexivity|congruence|reflexivity].
    + apply andb_true_iff in W as [Wa Wz].
      rewrite pi_from_json_jprint by (apply pi_members_wf; simpl; rewrite Wa, Wz; reflexivity).
      apply pi_of_jv_path; assumption.
Qed.

Theorem pi_roundtrip ero p : pinfo_wf ero p = true ->
  exists s, pi_to_json p = Ok s /\ pi_from_json ero (Some s) = Ok (if pinfo_nothing p then None else Some p).
Proof.
  intro W. apply pi_reencode. unfold pinfo_wf in W.
  apply andb_true_iff in W as [W W3]. apply andb_true_iff in W as [W1 W2].
  split; [exact W1|]. split.
  - destruct ero, (pi_strict p); (reflexivity || discriminate).
  - destruct (pi_type p) as [[|]|], (pi_payload p) as [[]|]; try discriminate W2; (exact I || reflexivity || discriminate).
Qed.

Theorem pi_canonical ero p q s : pinfo_wf ero p = true -> pi_to_json p = Ok s ->
  pi_from_json ero (Some s) = Ok (Some q) -> pi_to_json q = Ok s.
Proof.
  intros W E H. destruct (pi_roundtrip ero p W) as (s' & E1 & E2). rewrite E in E1. injection E1 as <-.
  rewrite E2 in H. destruct (pinfo_nothing p); [discriminate|]. injection H as <-. exact E.
Qed.

(* the payload part of pi_of_jv (Model/CodecMisc.v), named so that a lemma can speak of it: a Graph type takes the payload
   as it is, any other type wants an object with both directions *)
Definition payload_of_jv (ty : option ptype) (pv : json) : res payload :=
  match ty with
  | Some PTGraph => Ok (PLRaw pv)
  | _ => match pv with
         | JObj pd => match aget k_a2z pd, aget k_z2a pd with Some a, Some z => Ok (PLPath a z) | _, _ => Err e_assert end
         | _ => Err e_assert
         end
  end.

Lemma pi_typed_codable ero ty st pv p : jwfb pv = true -> is_none st = negb ero ->
  match payload_of_jv ty pv with
  | Ok pl => Ok (Some {| pi_type := ty; pi_payload := pl; pi_strict := st |})
  | Err e => Err e
  end = Ok (Some p) -> pi_codable ero p.
Proof.
  unfold payload_of_jv. intros JP ST H. destruct ty as [[|]|].
  2: { injection H as <-. split; [exact JP|]. split; [exact ST|]. destruct pv; (exact I || reflexivity). }
  all: destruct pv as [| | | | | |pd]; try discriminate H.
  all: destruct (aget k_a2z pd) as [a|] eqn:GA; [|discriminate H].
  all: destruct (aget k_z2a pd) as [z|] eqn:GZ; [|discriminate H].
  all: injection H as <-; split; [|split; [exact ST|discriminate]].
  all: simpl; rewrite (aget_jwfb pd _ _ JP GA), (aget_jwfb pd _ _ JP GZ); reflexivity.
Qed.

(* whatever decodes (also an unknown type string, a Graph payload of any JSON kind) re-encodes to a text that decodes
   to the same value -- or to absent when the decoded value has nothing set (a Graph-typed text with "payload": null) *)
Theorem pi_decode_reencode ero j p : jwfb j = true -> pi_of_jv ero j = Ok (Some p) ->
  exists s, pi_to_json p = Ok s /\ pi_from_json ero (Some s) = Ok (if pinfo_nothing p then None else Some p).
Proof.
  intros J H. apply pi_reencode. destruct j as [| | | | | |d]; try discriminate. cbn [pi_of_jv] in H.
  destruct (aget k_type d) as [tv|]; [|discriminate].
  destruct (aget k_payload d) as [pv|] eqn:GP; [|destruct tv; discriminate].
  assert (ST : forall b : bool, is_none (if ero then Some b else None) = negb ero) by (destruct ero; reflexivity).
  (* a type value that is not null matters only through type_from_str; in each case H is, by conversion, the
     hypothesis of pi_typed_codable *)
  destruct tv; try discriminate H; exact (pi_typed_codable ero _ _ pv p (aget_jwfb d _ _ J GP) (ST _) H).
Qed.

(* forward compatibility: the decoder reads only type / payload / strict; any other key is ignored *)
Theorem pi_forward_compat ero d d' :
  (forall k, In k [k_type; k_payload; k_strict] -> aget k d' = aget k d) ->
  pi_of_jv ero (JObj d') = pi_of_jv ero (JObj d).
Proof.
  intro H. unfold pi_of_jv.
  rewrite (H k_type), (H k_payload), (H k_strict) by (simpl; tauto). reflexivity.
Qed.

Lemma aget_app_extra {V} k (d extra : list (str * V)) : aget k extra = None -> aget k (d ++ extra) = aget k d.
Proof.
  intro H. induction d as [|[k0 v0] d IH]; simpl; [exact H|]. destruct (str_eqb k k0); [reflexivity|exact IH].
Qed.

Lemma pi_unset_empty p : pinfo_nothing p = true -> pi_to_json p = Ok [].
Proof. unfold pinfo_nothing, pi_to_json. intros ->. reflexivity. Qed.

Lemma minfo_eta m : mi_lock m = true -> {| mi_nodes := mi_nodes m; mi_lock := true |} = m.
Proof. destruct m as [n l]. simpl. intros ->. reflexivity. Qed.

Lemma mstep_locked m o : mi_lock m = true ->
  fst (mstep m o) = m /\ (mutating o = true -> snd (mstep m o) = RErr e_maint).
Proof.
  intro L. destruct o; simpl; rewrite ?L; simpl; try (split; [reflexivity|]; intros; reflexivity || discriminate).
  split; [apply minfo_eta; exact L|discriminate].
Qed.

(* a finalized record cannot be altered: over EVERY sequence of operations the record stays the same and
   every mutating operation reports MaintenanceModeException *)
Theorem maint_finalized_immutable ops : forall m, mi_lock m = true ->
  fst (mrun m ops) = m /\
  Forall2 (fun o r => mutating o = true -> r = RErr e_maint) ops (snd (mrun m ops)).
Proof.
  induction ops as [|o ops IH]; intros m L; simpl.
  - split; [reflexivity|constructor].
  - destruct (mstep_locked m o L) as [E1 E2].
    destruct (mstep m o) as [m1 x] eqn:E. simpl in E1, E2. subst m1.
    destruct (IH m L) as [F1 F2]. destruct (mrun m ops) as [m2 xs]. simpl in *.
    split; [exact F1|constructor; [exact E2|exact F2]].
Qed.

Theorem maint_copy_spec m : mi_nodes (mi_copy m) = mi_nodes m /\ mi_lock (mi_copy m) = false.
Proof. split; reflexivity. Qed.

(* the original survives a history over itself and its copies when it is finalized, or when the history leaves it alone *)
Lemma mrun2_original_kept ops : forall s,
  mi_lock (fst s) = true \/ forallb (fun o => negb (on_original o)) ops = true -> fst (fst (mrun2 s ops)) = fst s.
Proof.
  induction ops as [|o ops IH]; intros s H; [reflexivity|]. cbn [mrun2 forallb] in *.
  assert (E : fst (fst (mstep2 s o)) = fst s).
  { destruct o as [op| |op]; cbn [mstep2]; [|reflexivity|].
    - destruct H as [L|H]; [|discriminate H].
      pose proof (mstep_locked (fst s) op L) as [Q _]. destruct (mstep (fst s) op). exact Q.
    - destruct (snd s) as [c|]; [|reflexivity]. destruct (mstep c op). reflexivity. }
  destruct (mstep2 s o) as [s1 x]. cbn [fst] in E. specialize (IH s1). rewrite E in IH.
  destruct (mrun2 s1 ops) as [s2 xs]. apply IH.
  destruct H as [L|H]; [left; exact L|right]. apply andb_true_iff in H as [_ H]. exact H.
Qed.

(* finalize is reached, and stays, from any state *)
Theorem maint_finalize_locks m : mi_lock (fst (mstep m MFinalize)) = true.
Proof. reflexivity. Qed.

Section MaintProofs.
  Variable VISO : str -> bool.

  Lemma mstate_roundtrip s : mstate_of_str (mstate_str s) = Some s.
  Proof. destruct s; reflexivity. Qed.
  Lemma mstate_str_ok s : str_ok (mstate_str s) = true.
  Proof. destruct s; reflexivity. Qed.

  Lemma iso_arg_ok o : iso_ok VISO o = true -> iso_arg VISO (Some (jopt_str o)) = Ok o.
  Proof.
    destruct o as [s|]; simpl; [|reflexivity]. intro H.
    apply andb_true_iff in H as [H H3]. apply andb_true_iff in H as [H1 H2].
    rewrite H3, H1. reflexivity.
  Qed.

  Lemma mentry_roundtrip e : mentry_wf VISO e = true -> mentry_of_jv VISO (mentry_json e) = Ok e.
  Proof.
    destruct e as [st dl en]. unfold mentry_wf. cbn [me_deadline me_end]. intro W.
    apply andb_true_iff in W as [W1 W2].
    unfold mentry_of_jv, mentry_json. cbn [me_state me_deadline me_end].
    change (aget k_state _) with (Some (match st with Some s => JStr (mstate_str s) | None => JNull end)). cbv iota beta.
    change (aget k_deadline _) with (Some (jopt_str dl)).
    change (aget k_end _) with (Some (jopt_str en)).
    rewrite (iso_arg_ok dl W1), (iso_arg_ok en W2).
    destruct st as [s|]; [rewrite mstate_roundtrip|]; reflexivity.
  Qed.

  Lemma mentry_jwfb e : mentry_wf VISO e = true -> jwfb (mentry_json e) = true.
  Proof.
    destruct e as [st dl en]. unfold mentry_wf. cbn [me_deadline me_end]. intro W.
    apply andb_true_iff in W as [W1 W2].
    assert (Q : forall o, iso_ok VISO o = true -> jwfb (jopt_str o) = true).
    { intros [s|]; simpl; [|reflexivity]. intro H. apply andb_true_iff in H as [H _]. apply andb_true_iff in H as [_ H]. exact H. }
    unfold mentry_json. cbn [jwfb forallb fst snd map me_state me_deadline me_end].
    rewrite (Q dl W1), (Q en W2).
    destruct st as [s|]; [cbn [jwfb]; rewrite mstate_str_ok|]; reflexivity.
  Qed.

  Lemma mentries_roundtrip nodes : forallb (fun ne => str_ok (fst ne) && mentry_wf VISO (snd ne)) nodes = true ->
    mentries_of VISO (map (fun ne => (fst ne, mentry_json (snd ne))) nodes) = Ok nodes.
  Proof.
    induction nodes as [|[n e] nodes IH]; [reflexivity|]. intro H. cbn [forallb fst snd] in H.
    apply andb_true_iff in H as [H1 H2]. apply andb_true_iff in H1 as [_ H1].
    cbn [map mentries_of fst snd].
    rewrite (mentry_roundtrip e H1), (IH H2). reflexivity.
  Qed.

  Lemma mi_from_json_jprint v : jwfb v = true -> mi_from_json VISO (Some (jprint v)) = mi_of_jv VISO v.
  Proof. intro J. unfold mi_from_json. rewrite (jprint_nonempty v J), (jparse_jprint v J). reflexivity. Qed.

  Theorem maint_roundtrip m : minfo_wf VISO m = true -> mi_lock m = true ->
    exists s, mi_to_json m = Ok s /\ mi_from_json VISO (Some s) = Ok (Some m).
  Proof.
    unfold minfo_wf. intros W L. apply andb_true_iff in W as [ND W].
    unfold mi_to_json. rewrite L. eexists. split; [reflexivity|].
    rewrite mi_from_json_jprint.
    - unfold mi_of_jv. rewrite (mentries_roundtrip _ W), (minfo_eta m L). reflexivity.
    - cbn [jwfb]. apply andb_true_iff. split; [|rewrite map_map; exact ND].
      rewrite forallb_forall in *. intros y Hy. apply in_map_iff in Hy as (x & <- & Hx). cbn [fst snd].
      specialize (W x Hx). apply andb_true_iff in W as [W1 W2]. rewrite W1, (mentry_jwfb _ W2). reflexivity.
  Qed.

  Theorem maint_decoded_is_finalized t m : mi_from_json VISO t = Ok (Some m) -> mi_lock m = true.
  Proof.
    unfold mi_from_json. destruct t as [s|]; [|discriminate].
    destruct (Nat.eqb (List.length s) 0); [discriminate|].
    destruct (jparse s) as [j|]; [|discriminate]. unfold mi_of_jv.
    destruct j; try discriminate. destruct (mentries_of VISO m0); [|discriminate].
    intros [= <-]. reflexivity.
  Qed.

  (* forward compatibility at the node level: an additional node does not disturb the known ones *)
  Theorem maint_extra_node d n v l e : mentries_of VISO d = Ok l -> mentry_of_jv VISO v = Ok e ->
    mentries_of VISO (d ++ [(n, v)]) = Ok (l ++ [(n, e)]).
  Proof.
    revert l. induction d as [|[n0 v0] d IH]; intros l H He; simpl in *.
    - injection H as <-. rewrite He. reflexivity.
    - destruct (mentry_of_jv VISO v0); [|discriminate].
      destruct (mentries_of VISO d) as [l'|]; [|discriminate]. injection H as <-.
      rewrite (IH l' eq_refl He). reflexivity.
  Qed.

  Lemma iso_arg_wf o r : (forall v, o = Some v -> jwfb v = true) -> iso_arg VISO o = Ok r -> iso_ok VISO r = true.
  Proof.
    intros J H. unfold iso_arg in H. destruct o as [v|]; [|injection H as <-; reflexivity].
    destruct (truthy v) eqn:T; [|injection H as <-; reflexivity].
    destruct v; try discriminate. destruct (VISO s) eqn:E; [|discriminate]. injection H as <-.
    simpl. rewrite E. specialize (J (JStr s) eq_refl). simpl in J. rewrite J. simpl in T. rewrite T. reflexivity.
  Qed.

  Lemma mentry_decode_wf v e : jwfb v = true -> mentry_of_jv VISO v = Ok e -> mentry_wf VISO e = true.
  Proof.
    intros J H. unfold mentry_of_jv in H. destruct v as [| | | | | |d]; try discriminate.
    destruct (aget k_state d); [|discriminate].
    destruct (iso_arg VISO (aget k_deadline d)) as [dl|] eqn:E1; [|discriminate].
    destruct (iso_arg VISO (aget k_end d)) as [en|] eqn:E2; [|discriminate].
    injection H as <-. unfold mentry_wf. cbn [me_deadline me_end].
    rewrite (iso_arg_wf _ _ (fun v G => aget_jwfb d _ v J G) E1), (iso_arg_wf _ _ (fun v G => aget_jwfb d _ v J G) E2).
    reflexivity.
  Qed.

  Lemma mentries_decode_wf d : forall l, forallb (fun kv => str_ok (fst kv) && jwfb (snd kv)) d = true ->
    mentries_of VISO d = Ok l ->
    map fst l = map fst d /\ forallb (fun ne => str_ok (fst ne) && mentry_wf VISO (snd ne)) l = true.
  Proof.
    induction d as [|[n v] d IH]; intros l J H; simpl in H.
    - injection H as <-. split; reflexivity.
    - simpl in J. apply andb_true_iff in J as [J1 J2]. apply andb_true_iff in J1 as [Jn Jv].
      destruct (mentry_of_jv VISO v) as [e|] eqn:E; [|discriminate].
      destruct (mentries_of VISO d) as [l'|] eqn:E2; [|discriminate]. injection H as <-.
      destruct (IH l' J2 eq_refl) as [K W]. split; [simpl; rewrite K; reflexivity|].
      simpl. rewrite Jn, (mentry_decode_wf v e Jv E), W. reflexivity.
  Qed.

  (* the accepted texts: absent, or a JSON object whose members are objects with a "state" (other known members:
     deadline / expected_end, falsy or ISO text); whatever decodes is a well-formed FINALIZED record that re-encodes to
     a text decoding to the same record *)
  Theorem maint_decode_closed j m : jwfb j = true -> mi_of_jv VISO j = Ok (Some m) ->
    minfo_wf VISO m = true /\ mi_lock m = true /\
    exists s, mi_to_json m = Ok s /\ mi_from_json VISO (Some s) = Ok (Some m).
  Proof.
    intros J H. unfold mi_of_jv in H. destruct j as [| | | | | |d]; try discriminate.
    destruct (mentries_of VISO d) as [l|] eqn:E; [|discriminate]. injection H as <-.
    cbn [jwfb] in J. apply andb_true_iff in J as [J ND].
    destruct (mentries_decode_wf d l J E) as [K W].
    assert (WF : minfo_wf VISO {| mi_nodes := l; mi_lock := true |} = true).
    { unfold minfo_wf. cbn [mi_nodes]. rewrite K, ND, W. reflexivity. }
    split; [exact WF|]. split; [reflexivity|]. apply maint_roundtrip; [exact WF|reflexivity].
  Qed.
End MaintProofs.

(* forward compatibility inside an entry: only state / deadline / expected_end are read *)
Theorem maint_entry_forward_compat VISO d d' :
  (forall k, In k [k_state; k_deadline; k_end] -> aget k d' = aget k d) ->
  mentry_of_jv VISO (JObj d') = mentry_of_jv VISO (JObj d).
Proof.
  intro H. unfold mentry_of_jv.
  rewrite (H k_state), (H k_deadline), (H k_end) by (simpl; tauto). reflexivity.
Qed.

Lemma lstrip_id s : match s with [] => True | c :: _ => py_space c = false end -> lstrip s = s.
Proof. destruct s as [|c r]; [reflexivity|]. simpl. intros ->. reflexivity. Qed.

Lemma py_strip_id s : match s with [] => True | c :: _ => py_space c = false end ->
  match rev s with [] => True | c :: _ => py_space c = false end -> py_strip s = s.
Proof. intros H1 H2. unfold py_strip. rewrite (lstrip_id s H1), (lstrip_id _ H2). apply rev_involutive. Qed.

Lemma lstrip_head s : match lstrip s with [] => True | c :: _ => py_space c = false end.
Proof.
  induction s as [|c s IH]; simpl; [exact I|]. destruct (py_space c) eqn:E; [exact IH|exact E].
Qed.

Lemma split1_sep sep a b : existsb (N.eqb sep) a = false -> split1 sep (a ++ sep :: b) = Some (a, b).
Proof.
  induction a as [|c a IH]; simpl; intro H.
  - rewrite N.eqb_refl. reflexivity.
  - apply orb_false_iff in H as [H1 H2]. rewrite N.eqb_sym, H1. rewrite (IH H2). reflexivity.
Qed.

Lemma split1_eq sep s : forall a b, split1 sep s = Some (a, b) -> s = a ++ sep :: b.
Proof.
  induction s as [|c s IH]; intros a b H; simpl in H; [discriminate|].
  destruct (c =? sep)%N eqn:E.
  - injection H as <- <-. apply N.eqb_eq in E. subst. reflexivity.
  - destruct (split1 sep s) as [[a' b']|]; [|discriminate]. injection H as <- <-. simpl. rewrite (IH a' b' eq_refl). reflexivity.
Qed.

Lemma types_of_in cat t : In t (types_of cat) -> exists ct, In ct tuple_types /\ In t (snd ct).
Proof.
  unfold types_of. destruct (find _ tuple_types) as [ct|] eqn:E; [|intros []].
  intro H. exists ct. split; [|exact H]. apply find_some in E. tauto.
Qed.

Theorem tt_roundtrip_partial cat t : tuple_vocab_ok = true -> ttuple_wf cat t = true ->
  tval_plain (tt_val t) = true -> tt_fromstring cat (tt_string t) = Ok t.
Proof.
  intros VO W P. destruct t as [ty v]. unfold ttuple_wf in W. cbn [tt_type tt_val] in *.
  destruct v as [s|z]; [|discriminate]. unfold tval_plain in P.
  unfold tuple_vocab_ok in VO. apply andb_true_iff in VO as [VO L1]. apply andb_true_iff in VO as [VO SP].
  apply negb_true_iff in SP.
  assert (TN : type_name_ok ty = true).
  { apply existsb_exists in W as (x & Hx & E). apply str_eqb_eq in E. subst x.
    destruct (types_of_in cat ty Hx) as (ct & H1 & H2).
    rewrite forallb_forall in VO. specialize (VO ct H1). rewrite forallb_forall in VO. exact (VO ty H2). }
  unfold type_name_ok in TN. apply andb_true_iff in TN as [TN T3]. apply andb_true_iff in TN as [T1 T2].
  apply negb_true_iff in T1.
  assert (SE : tuple_separator = [sep_char]).
  { unfold sep_char. destruct tuple_separator as [|c [|c2 r]]; try discriminate. reflexivity. }
  unfold tt_fromstring, tt_string. cbn [tt_type tt_val tval_str]. rewrite SE.
  assert (ST : py_strip (ty ++ [sep_char] ++ s) = ty ++ [sep_char] ++ s).
  { apply py_strip_id.
    - destruct ty as [|c r]; [discriminate|]. apply negb_true_iff in T2. exact T2.
    - rewrite !rev_app_distr, <- app_assoc. destruct (rev s) as [|c r]; [exact SP|]. apply negb_true_iff in P. exact P. }
  rewrite ST. cbn [List.app]. rewrite (split1_sep sep_char ty s T1).
  unfold tt_make. rewrite W. reflexivity.
Qed.

(* tt_fromstring cat (tt_string t) = Ok t fails for some well-formed t: an int value reads back as a string (same text),
   a value with trailing whitespace reads back stripped *)
Lemma tt_int_value_refuted : exists cat t u, ttuple_wf cat t = true /\ tt_fromstring cat (tt_string t) = Ok u /\ u <> t
  /\ tt_string u = tt_string t.
Proof.
  exists (S"cap"), {| tt_type := S"ram"; tt_val := TVInt 1000 |}, {| tt_type := S"ram"; tt_val := TVStr (S"1000") |}.
  repeat split; try reflexivity. discriminate.
Qed.
Lemma tt_trailing_space_refuted : exists cat t u, ttuple_wf cat t = true /\ tt_fromstring cat (tt_string t) = Ok u /\ u <> t.
Proof.
  exists (S"label"), {| tt_type := S"mac"; tt_val := TVStr (S"x ") |}, {| tt_type := S"mac"; tt_val := TVStr (S"x") |}.
  repeat split; try reflexivity. discriminate.
Qed.

Lemma tuple_vocab_ok_true : tuple_vocab_ok = true.
Proof. reflexivity. Qed.

(* whatever fromstring accepts is a tuple of the category's vocabulary whose value is a string without trailing
   whitespace, i.e. in the domain of the round-trip theorem *)
Theorem tt_decode_closed cat s t : tt_fromstring cat s = Ok t ->
  ttuple_wf cat t = true /\ tval_plain (tt_val t) = true.
Proof.
  unfold tt_fromstring. destruct (split1 sep_char (py_strip s)) as [[a b]|] eqn:E; [|discriminate].
  unfold tt_make. destruct (existsb (str_eqb a) (types_of cat)) eqn:X; [|discriminate]. intros [= <-].
  split; [exact X|]. cbn [tt_val tval_plain].
  apply split1_eq in E. unfold py_strip in E.
  pose proof (lstrip_head (rev (lstrip s))) as LH.
  assert (R : lstrip (rev (lstrip s)) = rev b ++ sep_char :: rev a).
  { rewrite <- (rev_involutive (lstrip (rev (lstrip s)))), E. rewrite rev_app_distr. simpl. rewrite <- app_assoc. reflexivity. }
  rewrite R in LH. destruct (rev b) as [|c r]; [reflexivity|]. simpl in LH. rewrite LH. reflexivity.
Qed.
