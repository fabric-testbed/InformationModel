(* C01 proofs: node-link JSON at the text level = value-level round trip (Proofs/Serial1Store.v) composed with
   jparse (jprint v) = Some v (Base/JsonRT.v). *)
From Coq Require Import String.
From Coq Require Import List NArith ZArith Bool Lia.
From FIM Require Import Base.ListFacts Base.Str Base.Json Base.JsonRT.
From FIM Require Import Model.Serial1Graph Model.Serial1Json.
From FIM Require Import Proofs.Serial1Doc Proofs.Serial1Store.
Import ListNotations.
Local Arguments N.eqb : simpl nomatch.

Lemma nodup_str_NoDup l : nodup_str l = true -> NoDup l.
Proof.
  induction l as [|x l IH]; simpl; intro H; [constructor|]. apply andb_true_iff in H as [H1 H2].
  apply negb_true_iff in H1. constructor; [apply (existsb_eqb_notIn str_eqb str_eqb_eq), H1|apply IH, H2].
Qed.

Lemma lookup_In_snd {V} k (l : list (N * V)) v : lookup k l = Some v -> In v (map snd l).
Proof.
  induction l as [|[k' w] r IH]; [discriminate|]. simpl.
  destruct (N.eqb k' k); [intro H; inversion H; left; reflexivity|]. intro H. right. apply IH, H.
Qed.

Lemma name_back tbl : NoDup (map snd tbl) -> forall k s, name_text tbl k = Some s -> name_of_text tbl s = Some k.
Proof.
  unfold name_text. induction tbl as [|[k0 s0] r IH]; intros ND k s H; [discriminate|].
  inversion ND; subst. simpl in *. destruct (N.eqb_spec k0 k) as [->|NE].
  - inversion H; subst. rewrite str_eqb_refl. reflexivity.
  - destruct (str_eqb s0 s) eqn:E.
    + apply str_eqb_eq in E. subst. exfalso. apply H2. eapply lookup_In_snd. exact H.
    + apply IH; assumption.
Qed.

Lemma name_text_inj tbl k1 k2 s : NoDup (map snd tbl) -> name_text tbl k1 = Some s -> name_text tbl k2 = Some s -> k1 = k2.
Proof.
  intros ND H1 H2. pose proof (name_back tbl ND _ _ H1). pose proof (name_back tbl ND _ _ H2). congruence.
Qed.

Lemma name_text_ok tbl k s : forallb (fun e => str_ok (snd e)) tbl = true -> name_text tbl k = Some s -> str_ok s = true.
Proof.
  intros F H. rewrite forallb_forall in F. unfold name_text in H.
  induction tbl as [|[k0 s0] r IH]; [discriminate|]. simpl in H.
  destruct (N.eqb k0 k).
  - inversion H; subst. apply (F (k0, s)). left. reflexivity.
  - apply IH; [|exact H]. intros x Hx. apply F. right. exact Hx.
Qed.

Definition shape_ok (structural : pname -> bool) (kv : pname * jval) : Prop :=
  match snd kv with JK _ => structural (fst kv) = true | JP v => structural (fst kv) = false /\ jval_ok v = true end.
Definition obj_ok (tbl : names) (structural : pname -> bool) (o : jobj) : Prop :=
  NoDup (map fst o) /\ forall kv, In kv o -> (exists s, name_text tbl (fst kv) = Some s) /\ shape_ok structural kv.

Lemma jval_back structural kv : shape_ok structural kv ->
  jval_of_json (structural (fst kv)) (json_of_jval (snd kv)) = Some (snd kv)
  /\ jwfb (json_of_jval (snd kv)) = true.
Proof.
  unfold shape_ok. destruct (snd kv) as [v|k]; simpl.
  - intros [-> J]. destruct v as [s|z|b]; simpl; split; auto.
  - intros ->. split; [|reflexivity]. destruct (Z.ltb_spec (Z.of_N k) 0); [lia|]. rewrite N2Z.id. reflexivity.
Qed.

Lemma NoDup_map_in {A B} (f : A -> B) l :
  (forall x y, In x l -> In y l -> f x = f y -> x = y) -> NoDup l -> NoDup (map f l).
Proof.
  intros I ND. induction ND as [|x l NI _ IH]; simpl; constructor.
  - intro H. apply in_map_iff in H as (y & E & Hy).
    rewrite (I y x (or_intror Hy) (or_introl eq_refl) E) in Hy. exact (NI Hy).
  - apply IH. intros a b Ha Hb. apply I; right; assumption.
Qed.

(* the JSON object json_of_obj gives when every name is interned *)
Definition nm (tbl : names) (k : pname) : str := match name_text tbl k with Some s => s | None => [] end.
Definition json_obj (tbl : names) (o : jobj) : json :=
  JObj (map (fun kv => (nm tbl (fst kv), json_of_jval (snd kv))) o).

Lemma obj_text tbl structural o :
  NoDup (map snd tbl) -> forallb (fun e => str_ok (snd e)) tbl = true -> obj_ok tbl structural o ->
  json_of_obj tbl o = Some (json_obj tbl o)
  /\ jwfb (json_obj tbl o) = true
  /\ obj_of_json tbl structural (json_obj tbl o) = Some o.
Proof.
  intros ND SO [NDo H].
  assert (Nm : forall kv, In kv o -> name_text tbl (fst kv) = Some (nm tbl (fst kv))).
  { intros kv Hkv. destruct (H kv Hkv) as [(s & Hs) _]. unfold nm. rewrite Hs. reflexivity. }
  assert (Nk : forall k, In k (map fst o) -> name_text tbl k = Some (nm tbl k)).
  { intros k Hk. apply in_map_iff in Hk as (kv & <- & Hkv). apply Nm, Hkv. }
  unfold json_of_obj, obj_of_json, json_obj. split; [|split].
  - rewrite (opt_list_map _ (fun kv => (nm tbl (fst kv), json_of_jval (snd kv)))); [reflexivity|].
    intros kv Hkv. rewrite (Nm kv Hkv). reflexivity.
  - simpl. apply andb_true_iff. split.
    + apply forallb_forall. intros p Hp. apply in_map_iff in Hp as (kv & <- & Hkv). simpl.
      rewrite (name_text_ok tbl _ _ SO (Nm kv Hkv)). apply (jval_back structural kv), H, Hkv.
    + apply NoDup_nodup_keys. rewrite map_map. cbn [fst]. rewrite <- (map_map fst (nm tbl)). apply NoDup_map_in; [|exact NDo].
      intros x y Hx Hy E. apply (name_text_inj tbl _ _ _ ND (Nk x Hx)). rewrite E. apply Nk, Hy.
  - apply opt_list_unmap. intros kv Hkv. simpl. rewrite (name_back tbl ND _ _ (Nm kv Hkv)).
    rewrite (proj1 (jval_back structural kv (proj2 (H kv Hkv)))). destruct kv; reflexivity.
Qed.

Lemma objs_text tbl structural os :
  NoDup (map snd tbl) -> forallb (fun e => str_ok (snd e)) tbl = true ->
  (forall o, In o os -> obj_ok tbl structural o) ->
  opt_list (json_of_obj tbl) os = Some (map (json_obj tbl) os)
  /\ forallb jwfb (map (json_obj tbl) os) = true
  /\ opt_list (obj_of_json tbl structural) (map (json_obj tbl) os) = Some os.
Proof.
  intros ND SO H. split; [|split].
  - apply opt_list_map. intros o Ho. apply (obj_text tbl structural o ND SO (H o Ho)).
  - apply forallb_forall. intros j Hj. apply in_map_iff in Hj as (o & <- & Ho).
    apply (obj_text tbl structural o ND SO (H o Ho)).
  - apply opt_list_unmap. intros o Ho. apply (obj_text tbl structural o ND SO (H o Ho)).
Qed.

Lemma jprops_ok_parts tbl ps : jprops_ok tbl ps = true ->
  NoDup (map fst ps) /\ forall kv, In kv ps -> (exists s, name_text tbl (fst kv) = Some s) /\ jval_ok (snd kv) = true.
Proof.
  unfold jprops_ok. rewrite andb_true_iff, forallb_forall. intros [ND F]. split; [apply nodupN_NoDup, ND|].
  intros kv Hkv. specialize (F _ Hkv). apply andb_true_iff in F as [A B]. split; [|exact B].
  destruct (name_text tbl (fst kv)) as [s|]; [exists s; reflexivity|discriminate].
Qed.

Lemma names_ok_parts tbl : names_ok tbl = true ->
  NoDup (map snd tbl) /\ forallb (fun e => str_ok (snd e)) tbl = true
  /\ name_text tbl P_id = Some (S"id") /\ name_text tbl P_source = Some (S"source") /\ name_text tbl P_target = Some (S"target").
Proof.
  unfold names_ok. rewrite !andb_true_iff. intros [[[[A B] C] D] E]. split; [apply nodup_str_NoDup, A|]. split; [exact B|].
  assert (G : forall o s, opt_eqb str_eqb o (Some s) = true -> o = Some s).
  { intros [x|] s H; simpl in H; [apply str_eqb_eq in H; congruence|discriminate]. }
  split; [apply G, C|]. split; [apply G, D|apply G, E].
Qed.

(* a dict without structural names, followed by structural entries under distinct interned names *)
Lemma dict_obj_ok tbl structural ps tl : jprops_ok tbl ps = true ->
  (forall k, In k (map fst ps) -> structural k = false /\ ~ In k (map fst tl)) -> NoDup (map fst tl) ->
  (forall kv, In kv tl -> (exists s, name_text tbl (fst kv) = Some s) /\ shape_ok structural kv) ->
  obj_ok tbl structural (jprops ps ++ tl).
Proof.
  intros JP NS NDt Ht. destruct (jprops_ok_parts tbl ps JP) as [ND F]. split.
  - rewrite map_app, map_fst_jprops. apply NoDup_app_intro; [exact ND|exact NDt|]. intros k Hk. apply NS, Hk.
  - intros kv Hkv. apply in_app_or in Hkv as [Hkv|Hkv]; [|apply Ht, Hkv].
    unfold jprops in Hkv. apply in_map_iff in Hkv as (kv0 & <- & H0). destruct (F _ H0) as [A B].
    split; [exact A|]. split; [|exact B]. exact (proj1 (NS _ (in_map fst _ _ H0))).
Qed.

Lemma node_obj_ok tbl k ps : names_ok tbl = true -> jprops_ok tbl ps = true -> ~ In P_id (map fst ps) ->
  obj_ok tbl node_structural (jset P_id (JK k) (jprops ps)).
Proof.
  intros NO JP NI. destruct (names_ok_parts tbl NO) as (_ & _ & Iid & _ & _). rewrite node_obj by exact NI.
  apply dict_obj_ok; [exact JP| |repeat constructor; simpl; tauto|].
  - intros k' Hk. assert (P_id <> k') by (intros <-; exact (NI Hk)).
    split; [apply N.eqb_neq; auto|intros [E|[]]; auto].
  - intros kv [<-|[]]. split; [eexists; exact Iid|reflexivity].
Qed.

Lemma edge_obj_ok tbl u v ps : names_ok tbl = true -> jprops_ok tbl ps = true ->
  ~ In P_source (map fst ps) -> ~ In P_target (map fst ps) ->
  obj_ok tbl edge_structural (jset P_target (JK v) (jset P_source (JK u) (jprops ps))).
Proof.
  intros NO JP NS NT. destruct (names_ok_parts tbl NO) as (_ & _ & _ & Is & It). rewrite edge_obj by assumption.
  apply dict_obj_ok; [exact JP| |repeat constructor; simpl; intuition discriminate|].
  - intros k Hk. assert (P_source <> k /\ P_target <> k) as [A B] by (split; intros <-; auto).
    split; [apply orb_false_iff; split; apply N.eqb_neq; auto|intros [E|[E|[]]]; auto].
  - intros kv [<-|[<-|[]]]; (split; [eexists; eassumption|reflexivity]).
Qed.

(* a node-link document of good objects: its JSON value is well formed and reads back as the document *)
Lemma jdoc_back tbl j : NoDup (map snd tbl) -> forallb (fun e => str_ok (snd e)) tbl = true ->
  (forall o, In o (j_nodes j) -> obj_ok tbl node_structural o) ->
  (forall o, In o (j_links j) -> obj_ok tbl edge_structural o) ->
  exists v, json_of_jdoc tbl j = Some v /\ jwfb v = true /\ jdoc_of_json tbl v = Some j.
Proof.
  intros ND SO HN HE.
  destruct (objs_text tbl node_structural (j_nodes j) ND SO HN) as (N1 & N2 & N3).
  destruct (objs_text tbl edge_structural (j_links j) ND SO HE) as (E1 & E2 & E3).
  unfold json_of_jdoc. rewrite N1, E1. eexists. split; [reflexivity|].
  revert N2 N3 E2 E3. generalize (map (json_obj tbl) (j_nodes j)) (map (json_obj tbl) (j_links j)).
  intros ns es N2 N3 E2 E3. simpl. rewrite N2, N3, E2, E3. destruct j; split; reflexivity.
Qed.

Theorem json_text_roundtrip tbl g :
  names_ok tbl = true -> graph_json_ok g = true -> graph_json_text_ok tbl g = true ->
  exists s, json_text tbl g = Some s /\ json_read_text tbl s = Some g.
Proof.
  intros NO JO TO. destruct (names_ok_parts tbl NO) as (ND & SO & _).
  destruct (proj1 (graph_json_ok_iff g) JO) as [JN JE].
  unfold graph_json_text_ok in TO. rewrite andb_true_iff, !forallb_forall in TO. destruct TO as [TN TE].
  destruct (jdoc_back tbl (jwrite g) ND SO) as (v & A & B & C).
  - intros o Ho. simpl in Ho. apply in_map_iff in Ho as (n & <- & Hn). apply node_obj_ok; [exact NO|apply TN, Hn|apply JN, Hn].
  - intros o Ho. simpl in Ho. apply in_map_iff in Ho as ([[u v] ps] & <- & He).
    destruct (JE _ He) as [HS HT]. apply edge_obj_ok; [exact NO|apply (TE _ He)|exact HS|exact HT].
  - unfold json_text, json_read_text. rewrite A. eexists. split; [reflexivity|].
    rewrite (jparse_jprint v B), C. exact (json_roundtrip g JO).
Qed.
