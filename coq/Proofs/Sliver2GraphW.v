(* C02, graph route: what the add_*_sliver writers build - the graph gapp g (nodes of the
   tree, parents first) (edges in creation order). *)
From Coq Require Import List String Bool.
From FIM Require Import Base.ListFacts Base.Str Model.Sliver2Kinds Gen.PropMap Model.Sliver2Map Model.Sliver2WF
  Model.Sliver2Deep Model.Sliver2DeepWF Model.Sliver2Graph Model.Sliver2GraphWF
  Proofs.Sliver2MapRT Proofs.Sliver2DeepRT.
Import ListNotations.

Local Opaque enums type_enum to_base from_base to_specific from_specific setters getters init_attrs
  sliver_property_to_graph no_unset_properties child_keys node_id_prop add_interface_descends all_tables_ok.

Definition gapp (g : graph) (N : list gnode) (E : list gedge) : graph :=
  {| g_nodes := g_nodes g ++ N; g_edges := g_edges g ++ E |}.
Definition edges_closed (g : graph) : Prop :=
  forall a r b, In (a, r, b) (g_edges g) -> In a (gids g) /\ In b (gids g).
Definition good (g : graph) : Prop := NoDup (gids g) /\ edges_closed g.

Lemma gapp_nil g : gapp g [] [] = g.
Proof. destruct g. unfold gapp. simpl. rewrite !app_nil_r. reflexivity. Qed.

Lemma gapp_gapp g N1 E1 N2 E2 : gapp (gapp g N1 E1) N2 E2 = gapp g (N1 ++ N2) (E1 ++ E2).
Proof. unfold gapp. simpl. rewrite !app_assoc. reflexivity. Qed.

Lemma gids_gapp g N E : gids (gapp g N E) = gids g ++ map g_id N.
Proof. unfold gids, gapp. simpl. apply map_app. Qed.

Lemma good_nodup g : good g -> NoDup (gids g).
Proof. intros [ND _]. exact ND. Qed.

Lemma good_closed g : good g -> edges_closed g.
Proof. intros [_ EC]. exact EC. Qed.

Lemma good_empty : good empty_graph.
Proof. split; [constructor | intros a r b []]. Qed.

Lemma subtrees_eq t : subtrees t = t :: flat_map subtrees (kids t).
Proof.
  destruct t as [k nid a c n i]. simpl. f_equal. rewrite !flat_map_app.
  destruct (has_comps k), (has_nss k), (has_ifs k), c, n, i; reflexivity.
Qed.

Lemma edges_of_eq t : edges_of t = flat_map (fun u => link_to t u :: edges_of u) (kids t).
Proof.
  destruct t as [k nid a c n i]. simpl. rewrite !flat_map_app.
  destruct (has_comps k), (has_nss k), (has_ifs k), c, n, i; reflexivity.
Qed.

Lemma ids_rec l : map g_id (map rec_of l) = map id_of l.
Proof. rewrite map_map. reflexivity. Qed.

Lemma in_kids_subtrees t c : In c (kids t) -> In c (subtrees t).
Proof.
  intro H. rewrite subtrees_eq. right. apply in_flat_map. exists c. split; [exact H|].
  rewrite subtrees_eq. left. reflexivity.
Qed.

Lemma OForall_olist (P : tree -> Prop) (b : bool) o w :
  OForall P o -> In w (if b then olist o else []) -> P w.
Proof.
  intros HF Hw. destruct b; [|contradiction]. destruct o as [l|]; [|contradiction].
  simpl in HF, Hw. rewrite Forall_forall in HF. apply HF. exact Hw.
Qed.

Lemma kids_ind (P : tree -> Prop) :
  (forall t, (forall c, In c (kids t) -> P c) -> P t) -> forall t, P t.
Proof.
  intro H. apply tree_ind'. intros k nid a c n i Hc Hn Hi. apply H. intros w Hw.
  unfold kids in Hw. apply in_app_or in Hw as [Hw|Hw]; [|apply in_app_or in Hw as [Hw|Hw]];
    (eapply OForall_olist; [|exact Hw]); assumption.
Qed.

Lemma subtrees_trans : forall t u v, In u (subtrees t) -> In v (subtrees u) -> In v (subtrees t).
Proof.
  apply (kids_ind (fun t => forall u v, In u (subtrees t) -> In v (subtrees u) -> In v (subtrees t))).
  intros t IH u v Hu Hv. rewrite subtrees_eq in Hu. destruct Hu as [E|Hu]; [subst u; exact Hv|].
  rewrite subtrees_eq. right. apply in_flat_map in Hu as [w [Hw Hu]]. apply in_flat_map. exists w.
  split; [exact Hw | exact (IH w Hw u v Hu Hv)].
Qed.

Lemma edges_of_ids : forall t a r b, In (a, r, b) (edges_of t) ->
  In a (map id_of (subtrees t)) /\ In b (map id_of (subtrees t)).
Proof.
  apply (kids_ind (fun t => forall a r b, In (a, r, b) (edges_of t) ->
           In a (map id_of (subtrees t)) /\ In b (map id_of (subtrees t)))).
  intros t IH a r b H. rewrite edges_of_eq in H. apply in_flat_map in H as [c [Hc H]].
  destruct H as [E|H].
  - unfold link_to in E. inversion E; subst. split.
    + rewrite subtrees_eq. left. reflexivity.
    + apply in_map. apply in_kids_subtrees. exact Hc.
  - destruct (IH c Hc a r b H) as [Ha Hb].
    assert (Hsub : forall x, In x (map id_of (subtrees c)) -> In x (map id_of (subtrees t))).
    { intros x Hx. apply in_map_iff in Hx as [v [E Hv]]. subst x. apply in_map.
      apply (subtrees_trans t c v); [apply in_kids_subtrees; exact Hc | exact Hv]. }
    split; apply Hsub; assumption.
Qed.

Lemma find_node_none g id : ~ In id (gids g) -> find_node g id = None.
Proof.
  unfold find_node, gids. induction (g_nodes g) as [|n l IH]; simpl; intro H; [reflexivity|].
  destruct (str_eqb (g_id n) id) eqn:E.
  - apply str_eqb_eq in E. exfalso. apply H. left. exact E.
  - apply IH. intro Hc. apply H. right. exact Hc.
Qed.

Lemma find_node_in g n : NoDup (gids g) -> In n (g_nodes g) -> find_node g (g_id n) = Some n.
Proof.
  unfold find_node, gids. induction (g_nodes g) as [|m l IH]; simpl; intros ND H; [contradiction|].
  inversion ND as [|? ? NI ND']; subst. destruct H as [E|H].
  - subst m. rewrite str_eqb_refl. reflexivity.
  - destruct (str_eqb (g_id m) (g_id n)) eqn:E.
    + apply str_eqb_eq in E. exfalso. apply NI. rewrite E. apply in_map. exact H.
    + apply IH; assumption.
Qed.

Lemma find_node_some_in g id n : find_node g id = Some n -> In n (g_nodes g) /\ g_id n = id.
Proof.
  unfold find_node. intro H. apply find_some in H as [H1 H2]. apply str_eqb_eq in H2. auto.
Qed.

Lemma in_gids_find g id : In id (gids g) -> exists n, find_node g id = Some n.
Proof.
  unfold find_node, gids. induction (g_nodes g) as [|m l IH]; simpl; intro H; [contradiction|].
  destruct (str_eqb (g_id m) id) eqn:E; [eexists; reflexivity|].
  apply IH. destruct H as [H|H]; [|exact H]. subst. rewrite str_eqb_refl in E. discriminate.
Qed.

Definition mknode (id : str) (label : string) (p : props) : gnode :=
  {| g_id := id; g_label := label; g_props := node_props id p |}.

Lemma add_node_ok g id label p :
  ~ In id (gids g) -> add_node g id label p = Ok (gapp g [mknode id label p] []).
Proof.
  intro H. unfold add_node. rewrite (find_node_none g id H). unfold gapp, mknode, node_props.
  rewrite app_nil_r. reflexivity.
Qed.

Lemma add_link_ok g a r b :
  In a (gids g) -> In b (gids g) ->
  (forall x r' y, In (x, r', y) (g_edges g) -> x <> b /\ y <> b) ->
  add_link g a r b = Ok (gapp g [] [(a, r, b)]).
Proof.
  intros Ha Hb Hfree. unfold add_link.
  destruct (in_gids_find g a Ha) as [na Hna]. destruct (in_gids_find g b Hb) as [nb Hnb].
  rewrite Hna, Hnb. unfold gapp. rewrite app_nil_r. f_equal. f_equal.
  f_equal. apply filter_all. intros [[x r'] y] He. destruct (Hfree x r' y He) as [Hx Hy].
  unfold same_edge. rewrite (proj2 (str_eqb_neq y b) Hy), (proj2 (str_eqb_neq x b) Hx). rewrite !andb_false_r. reflexivity.
Qed.

(* the node a tree hangs under, if any, is in the graph *)
Definition parent_in (g : graph) (parent : option tree) : Prop :=
  forall pt, parent = Some pt -> In (id_of pt) (gids g).

Lemma parent_in_some g pt : In (id_of pt) (gids g) -> parent_in g (Some pt).
Proof. intros H p E. inversion E; subst. exact H. Qed.

Lemma parent_in_none g : parent_in g None.
Proof. intros p E. discriminate E. Qed.

Definition plink (parent : option tree) (t : tree) : list gedge :=
  match parent with Some p => [link_to p t] | None => [] end.

Lemma node_and_link g (parent : option tree) id label rel p :
  good g -> ~ In id (gids g) -> parent_in g parent ->
  bind (add_node g id label p) (fun g1 =>
    match option_map id_of parent with
    | Some pid => add_link g1 pid rel id
    | None => Ok g1
    end)
  = Ok (gapp g [mknode id label p]
          (match parent with Some pt => [(id_of pt, rel, id)] | None => [] end)).
Proof.
  intros [ND EC] Hfresh Hp. rewrite (add_node_ok g id label p Hfresh). cbn [bind].
  destruct parent as [pt|]; cbn [option_map]; [|reflexivity].
  rewrite add_link_ok.
  - rewrite gapp_gapp. reflexivity.
  - rewrite gids_gapp. apply in_or_app. left. apply Hp. reflexivity.
  - rewrite gids_gapp. apply in_or_app. right. left. reflexivity.
  - intros x r' y He. unfold gapp in He. simpl in He. rewrite app_nil_r in He.
    destruct (EC x r' y He) as [Hx Hy]. split; intro E; subst; contradiction.
Qed.

Lemma good_grow g N E :
  good g -> NoDup (gids g ++ map g_id N) ->
  (forall a r b, In (a, r, b) E -> In a (gids g ++ map g_id N) /\ In b (gids g ++ map g_id N)) ->
  good (gapp g N E).
Proof.
  intros [ND EC] ND' HE. split.
  - rewrite gids_gapp. exact ND'.
  - intros a r b H. rewrite gids_gapp. unfold gapp in H. simpl in H. apply in_app_or in H as [H|H].
    + destruct (EC a r b H). split; apply in_or_app; left; assumption.
    + apply HE in H. exact H.
Qed.

Definition grown (g : graph) (parent : option tree) (t : tree) : graph :=
  gapp g (map rec_of (subtrees t)) (plink parent t ++ edges_of t).

Lemma good_grown g parent t :
  good g -> parent_in g parent -> NoDup (gids g ++ map id_of (subtrees t)) -> good (grown g parent t).
Proof.
  intros Hg Hp ND. unfold grown. apply good_grow; [exact Hg | rewrite ids_rec; exact ND |].
  rewrite ids_rec. intros a r b H. apply in_app_or in H as [H|H].
  - destruct parent as [pt|]; [|contradiction]. destruct H as [E|[]]. unfold link_to in E. inversion E; subst.
    split; apply in_or_app; [left; apply Hp; reflexivity | right].
    rewrite subtrees_eq. left. reflexivity.
  - apply edges_of_ids in H as [Ha Hb]. split; apply in_or_app; right; assumption.
Qed.

Lemma gids_grown g parent t : gids (grown g parent t) = gids g ++ map id_of (subtrees t).
Proof. unfold grown. rewrite gids_gapp, ids_rec. reflexivity. Qed.

Lemma foldM_err {A} (f : graph -> A -> res graph) l e :
  fold_left (fun acc x => bind acc (fun s' => f s' x)) l (Err e) = Err e.
Proof. induction l; simpl; [reflexivity | exact IHl]. Qed.

(* add writes c, hanging under pt, into any graph that holds pt and none of the ids of c *)
Definition writes_kid (add : graph -> tree -> res graph) (pt c : tree) : Prop :=
  forall g, good g -> In (id_of pt) (gids g) -> NoDup (gids g ++ map id_of (subtrees c)) ->
            add g c = Ok (grown g (Some pt) c).

Lemma foldM_kids (add : graph -> tree -> res graph) (pt : tree) : forall l g,
  (forall c, In c l -> writes_kid add pt c) ->
  good g -> In (id_of pt) (gids g) ->
  NoDup (gids g ++ flat_map (fun c => map id_of (subtrees c)) l) ->
  foldM add l g = Ok (gapp g (flat_map (fun c => map rec_of (subtrees c)) l)
                            (flat_map (fun c => link_to pt c :: edges_of c) l)).
Proof.
  induction l as [|c l IH]; intros g Hadd Hg Hp ND.
  - simpl. rewrite gapp_nil. reflexivity.
  - simpl in ND. rewrite app_assoc in ND.
    assert (NDc := NoDup_app_l _ _ ND).
    unfold foldM. simpl. rewrite (Hadd c (or_introl eq_refl) g Hg Hp NDc). cbn [bind].
    change (foldM add l (grown g (Some pt) c) = Ok (gapp g (map rec_of (subtrees c) ++ flat_map (fun c0 => map rec_of (subtrees c0)) l)
             ((link_to pt c :: edges_of c) ++ flat_map (fun c0 => link_to pt c0 :: edges_of c0) l))).
    rewrite IH.
    + unfold grown. rewrite gapp_gapp. reflexivity.
    + intros c' Hc'. apply Hadd. right. exact Hc'.
    + apply good_grown; [exact Hg | apply parent_in_some; exact Hp | exact NDc].
    + rewrite gids_grown. apply in_or_app. left. exact Hp.
    + rewrite gids_grown. exact ND.
Qed.

Lemma has_id_nid t : has_id t = true -> t_nid t = Some (id_of t).
Proof. unfold has_id, id_of. destruct (t_nid t); [reflexivity | discriminate]. Qed.

Lemma forallb_subtrees_kid (f : tree -> bool) t c :
  forallb f (subtrees t) = true -> In c (kids t) -> forallb f (subtrees c) = true.
Proof.
  intros H Hc. rewrite forallb_forall in *. intros v Hv. apply H.
  apply (subtrees_trans t c v); [apply in_kids_subtrees; exact Hc | exact Hv].
Qed.

Lemma forallb_subtrees_root (f : tree -> bool) t : forallb f (subtrees t) = true -> f t = true.
Proof. rewrite subtrees_eq. simpl. intro H. apply andb_true_iff in H as [H _]. exact H. Qed.

Lemma tree_wf_attrs t : tree_wf t = true -> attrs_wf (t_kind t) (t_attrs t) = true.
Proof. destruct t. simpl. intro H. repeat rewrite andb_true_iff in H. tauto. Qed.

Lemma props_of_ok t : all_tables_ok = true -> tree_wf t = true ->
  to_props (t_kind t) (t_attrs t) = Ok (props_of t).
Proof.
  intros Hok Hwf. destruct (tables_ok_parts (t_kind t) Hok) as [Hs _].
  destruct (wf_parts _ _ (tree_wf_attrs t Hwf)) as [Hk Ha].
  destruct (to_props_defined_weak _ _ Hs Hk) as [p Hp]; [intros x Hx; right; apply Ha; exact Hx|].
  unfold props_of. rewrite Hp. reflexivity.
Qed.

Lemma slot_kid_wf b ck o c l :
  slot_ok tree_wf b ck o = true -> (if b then olist o else []) = l -> In c l ->
  tree_wf c = true /\ t_kind c = ck.
Proof.
  intros Hs El Hc. destruct b; [|subst l; contradiction]. simpl in Hs.
  destruct o as [l'|]; [|subst l; contradiction]. simpl in El. subst l'.
  simpl in Hs. apply andb_true_iff in Hs as [Hs _]. apply andb_true_iff in Hs as [_ Hall].
  rewrite forallb_forall in Hall. specialize (Hall c Hc).
  apply andb_true_iff in Hall as [Hall _]. apply andb_true_iff in Hall as [Hall _].
  apply andb_true_iff in Hall as [Hk Hwf]. split; [exact Hwf | apply kind_eqb_eq; exact Hk].
Qed.

Lemma wf_kids t c : tree_wf t = true -> In c (kids t) ->
  tree_wf c = true /\
  match t_kind t with
  | KNode => t_kind c = KComponent \/ t_kind c = KService
  | KComponent => t_kind c = KService
  | KService | KInterface => t_kind c = KInterface
  | KLink => False
  end.
Proof.
  destruct t as [k nid a cs ns is]. simpl. intros Hwf Hc.
  repeat rewrite andb_true_iff in Hwf. destruct Hwf as [[[Ha Hsc] Hsn] Hsi].
  apply in_app_or in Hc as [Hc|Hc]; [|apply in_app_or in Hc as [Hc|Hc]].
  - destruct (slot_kid_wf _ _ _ c _ Hsc eq_refl Hc) as [H1 H2]. split; [exact H1|].
    destruct k; simpl in Hc; try contradiction. left. exact H2.
  - destruct (slot_kid_wf _ _ _ c _ Hsn eq_refl Hc) as [H1 H2]. split; [exact H1|].
    destruct k; simpl in Hc; try contradiction; [right; exact H2 | exact H2].
  - destruct (slot_kid_wf _ _ _ c _ Hsi eq_refl Hc) as [H1 H2]. split; [exact H1|].
    destruct k; simpl in Hc; try contradiction; exact H2.
Qed.

Lemma go_foldM (f : graph -> tree -> res graph) : forall l g,
  (fix go (l : list tree) (g : graph) : res graph :=
     match l with [] => Ok g | u :: r => bind (f g u) (go r) end) l g = foldM f l g.
Proof.
  induction l as [|u l IH]; intro g; [reflexivity|].
  unfold foldM. simpl. destruct (f g u) as [g'|e]; simpl.
  - rewrite IH. reflexivity.
  - rewrite foldM_err. reflexivity.
Qed.

Lemma nodup_kids_split g t :
  NoDup (gids g ++ map id_of (subtrees t)) ->
  ~ In (id_of t) (gids g) /\
  NoDup ((gids g ++ [id_of t]) ++ flat_map (fun c => map id_of (subtrees c)) (kids t)).
Proof.
  intro ND. rewrite subtrees_eq in ND. simpl in ND. split.
  - intro Hc. apply (NoDup_app_disj _ _ (id_of t) ND Hc). left. reflexivity.
  - rewrite <- app_assoc. simpl. rewrite <- map_flat_map. exact ND.
Qed.

Definition writes (chk : bool) (add : graph -> option str -> tree -> res graph) (t : tree) : Prop :=
  forall g parent,
    (chk = true -> parent = None -> check_node_unique g (class_label (t_kind t)) (t_name t) = true) ->
    good g -> parent_in g parent -> NoDup (gids g ++ map id_of (subtrees t)) ->
    add g (option_map id_of parent) t = Ok (grown g parent t).

Lemma writes_under chk add pt c :
  writes chk add c -> writes_kid (fun g u => add g (Some (id_of pt)) u) pt c.
Proof.
  intros W g Hg Hin ND.
  apply (W g (Some pt)); [intros _ E; discriminate E | exact Hg | apply parent_in_some; exact Hin | exact ND].
Qed.

Lemma after_kids (add : graph -> tree -> res graph) t g parent :
  (forall c, In c (kids t) -> writes_kid add t c) ->
  good g -> parent_in g parent -> NoDup (gids g ++ map id_of (subtrees t)) ->
  foldM add (kids t) (gapp g [rec_of t] (plink parent t)) = Ok (grown g parent t).
Proof.
  intros Hadd Hg Hp ND. destruct (nodup_kids_split g t ND) as [Hfresh ND2].
  set (g1 := gapp g [rec_of t] (plink parent t)).
  assert (Hids : gids g1 = gids g ++ [id_of t]) by (unfold g1; rewrite gids_gapp; reflexivity).
  assert (Hg1 : good g1).
  { apply good_grow; [exact Hg | simpl; apply (NoDup_app_l _ _ ND2) |].
    intros a r b H. destruct parent as [pt|]; [|contradiction]. destruct H as [E|[]].
    unfold link_to in E. inversion E; subst. simpl.
    split; apply in_or_app; [left; apply Hp; reflexivity | right; left; reflexivity]. }
  rewrite (foldM_kids add t (kids t) g1 Hadd Hg1).
  - unfold g1, grown. rewrite gapp_gapp. rewrite (subtrees_eq t), (edges_of_eq t). simpl.
    rewrite map_flat_map. reflexivity.
  - rewrite Hids. apply in_or_app. right. left. reflexivity.
  - rewrite Hids. exact ND2.
Qed.

(* the node and the link to the parent, as the writers do them, then the rest K *)
Lemma node_link_then {A} (K : graph -> res A) g parent t label rel :
  good g -> ~ In (id_of t) (gids g) -> parent_in g parent ->
  label = class_label (t_kind t) -> rel = relk (t_kind t) ->
  bind (add_node g (id_of t) label (props_of t)) (fun g1 =>
    bind (match option_map id_of parent with
          | Some pid => add_link g1 pid rel (id_of t)
          | None => Ok g1
          end) K) = K (gapp g [rec_of t] (plink parent t)).
Proof.
  intros Hg Hfresh Hp El Er. subst label rel.
  assert (E := node_and_link g parent (id_of t) (class_label (t_kind t)) (relk (t_kind t)) (props_of t) Hg Hfresh Hp).
  destruct (add_node g (id_of t) (class_label (t_kind t)) (props_of t)) as [g1|e]; cbn [bind] in *; [|discriminate E].
  rewrite E. destruct parent; reflexivity.
Qed.

(* the shape of the writers of interfaces, services and components: node, link, kids *)
Lemma node_link_kids (add : graph -> tree -> res graph) t g parent label rel :
  (forall c, In c (kids t) -> writes_kid add t c) ->
  good g -> parent_in g parent -> NoDup (gids g ++ map id_of (subtrees t)) ->
  label = class_label (t_kind t) -> rel = relk (t_kind t) ->
  bind (add_node g (id_of t) label (props_of t)) (fun g1 =>
    bind (match option_map id_of parent with
          | Some pid => add_link g1 pid rel (id_of t)
          | None => Ok g1
          end) (foldM add (kids t))) = Ok (grown g parent t).
Proof.
  intros Hadd Hg Hp ND El Er. destruct (nodup_kids_split g t ND) as [Hfresh _].
  rewrite (node_link_then _ g parent t label rel Hg Hfresh Hp El Er). exact (after_kids add t g parent Hadd Hg Hp ND).
Qed.

Lemma foldM_app {A} (f : graph -> A -> res graph) l1 l2 g :
  foldM f (l1 ++ l2) g = bind (foldM f l1 g) (foldM f l2).
Proof.
  unfold foldM. rewrite fold_left_app.
  destruct (fold_left (fun acc x => bind acc (fun s' => f s' x)) l1 (Ok g)) as [g'|e]; [reflexivity|].
  simpl. apply foldM_err.
Qed.

Lemma foldM_ext_in {A} (f h : graph -> A -> res graph) l :
  (forall x g, In x l -> f g x = h g x) -> forall g, foldM f l g = foldM h l g.
Proof.
  induction l as [|x l IH]; intros H g; [reflexivity|].
  unfold foldM. simpl. rewrite (H x g (or_introl eq_refl)).
  destruct (h g x) as [g'|e]; simpl.
  - apply IH. intros y g0 Hy. apply H. right. exact Hy.
  - rewrite !foldM_err. reflexivity.
Qed.

Section Writers.
  Hypothesis Hok : all_tables_ok = true.
  Hypothesis Hdesc : add_interface_descends = true.

  Lemma W_if : forall t, t_kind t = KInterface -> tree_wf t = true ->
    forallb has_id (subtrees t) = true -> writes false add_interface_sliver t.
  Proof.
    apply (kids_ind (fun t => t_kind t = KInterface -> tree_wf t = true ->
             forallb has_id (subtrees t) = true -> writes false add_interface_sliver t)).
    intros t IH Hk Hwf Hid g parent _ Hg Hp ND.
    assert (Hprops := props_of_ok t Hok Hwf).
    assert (Hnid := has_id_nid t (forallb_subtrees_root _ _ Hid)).
    assert (Hkids : forall c, In c (kids t) ->
              writes_kid (fun g' u => add_interface_sliver g' (Some (id_of t)) u) t c).
    { intros c Hc. destruct (wf_kids t c Hwf Hc) as [Hwc Hkc]. rewrite Hk in Hkc.
      exact (writes_under _ _ t c (IH c Hc Hkc Hwc (forallb_subtrees_kid _ t c Hid Hc))). }
    destruct (nodup_kids_split g t ND) as [Hfresh _].
    assert (Hfinal := after_kids _ t g parent Hkids Hg Hp ND).
    assert (Hstep := fun K => node_link_then (A:=graph) K g parent t (class_label KInterface) rel_connects
                               Hg Hfresh Hp).
    destruct t as [k [id|] a c n i]; [|discriminate Hnid]. simpl in Hk. subst k.
    simpl in Hprops. cbn [add_interface_sliver]. rewrite Hprops. cbn [bind].
    change id with (id_of (T KInterface (Some id) a c n i)) at 1 2.
    rewrite (Hstep _ eq_refl eq_refl). rewrite Hdesc.
    destruct i as [l|]; [|exact Hfinal].
    rewrite (go_foldM (fun g0 u => add_interface_sliver g0 (Some id) u)). exact Hfinal.
  Qed.

  Lemma W_ns t : t_kind t = KService -> tree_wf t = true ->
    forallb has_id (subtrees t) = true -> writes true add_network_service_sliver t.
  Proof.
    intros Hk Hwf Hid g parent Hroot Hg Hp ND.
    assert (Hprops := props_of_ok t Hok Hwf).
    assert (Hnid := has_id_nid t (forallb_subtrees_root _ _ Hid)).
    assert (Hkids : forall c, In c (kids t) ->
              writes_kid (fun g' u => add_interface_sliver g' (Some (id_of t)) u) t c).
    { intros c Hc. destruct (wf_kids t c Hwf Hc) as [Hwc Hkc]. rewrite Hk in Hkc.
      exact (writes_under _ _ t c (W_if c Hkc Hwc (forallb_subtrees_kid _ t c Hid Hc))). }
    assert (Hfinal := node_link_kids _ t g parent (class_label KService) rel_has Hkids Hg Hp ND).
    unfold add_network_service_sliver, need_id. rewrite Hnid. cbn [bind].
    assert (Hchk : match option_map id_of parent with
                   | None => negb (check_node_unique g (class_label KService) (t_name t))
                   | Some _ => false end = false).
    { destruct parent; [reflexivity|]. cbn [option_map]. rewrite <- Hk. rewrite (Hroot eq_refl eq_refl). reflexivity. }
    rewrite Hchk. rewrite Hk in Hprops. rewrite Hprops. cbn [bind].
    destruct t as [k nid a c n i]. simpl in Hk. subst k. exact (Hfinal eq_refl eq_refl).
  Qed.

  Lemma W_comp t pt : t_kind t = KComponent -> tree_wf t = true ->
    forallb has_id (subtrees t) = true ->
    writes_kid (fun g u => add_component_sliver g (id_of pt) u) pt t.
  Proof.
    intros Hk Hwf Hid g Hg Hin ND.
    assert (Hp := parent_in_some g pt Hin).
    assert (Hprops := props_of_ok t Hok Hwf).
    assert (Hnid := has_id_nid t (forallb_subtrees_root _ _ Hid)).
    assert (Hkids : forall c, In c (kids t) ->
              writes_kid (fun g' u => add_network_service_sliver g' (Some (id_of t)) u) t c).
    { intros c Hc. destruct (wf_kids t c Hwf Hc) as [Hwc Hkc]. rewrite Hk in Hkc.
      exact (writes_under _ _ t c (W_ns c Hkc Hwc (forallb_subtrees_kid _ t c Hid Hc))). }
    assert (Hfinal := node_link_kids _ t g (Some pt) (class_label KComponent) rel_has Hkids Hg Hp ND).
    unfold add_component_sliver, need_id. rewrite Hnid. cbn [bind].
    rewrite Hk in Hprops. rewrite Hprops. cbn [bind].
    destruct t as [k nid a c n i]. simpl in Hk. subst k. simpl t_nss.
    simpl kids in Hfinal. rewrite ?app_nil_r in Hfinal. destruct n as [l|]; exact (Hfinal eq_refl eq_refl).
  Qed.

  Lemma W_node t g : t_kind t = KNode -> tree_wf t = true ->
    forallb has_id (subtrees t) = true -> good g -> NoDup (gids g ++ map id_of (subtrees t)) ->
    check_node_unique g (class_label KNode) (t_name t) = true ->
    add_network_node_sliver g t = Ok (grown g None t).
  Proof.
    intros Hk Hwf Hid Hg ND Hchk.
    assert (Hprops := props_of_ok t Hok Hwf).
    assert (Hnid := has_id_nid t (forallb_subtrees_root _ _ Hid)).
    destruct (nodup_kids_split g t ND) as [Hfresh _].
    set (addk := fun g' u => match t_kind u with
                             | KComponent => add_component_sliver g' (id_of t) u
                             | _ => add_network_service_sliver g' (Some (id_of t)) u end).
    assert (Hkids : forall c, In c (kids t) -> writes_kid addk t c).
    { intros c Hc. destruct (wf_kids t c Hwf Hc) as [Hwc Hkc]. rewrite Hk in Hkc.
      assert (Hidc := forallb_subtrees_kid _ t c Hid Hc).
      unfold addk, writes_kid. destruct Hkc as [Hkc|Hkc]; rewrite Hkc.
      - exact (W_comp c t Hkc Hwc Hidc).
      - exact (writes_under _ _ t c (W_ns c Hkc Hwc Hidc)). }
    assert (Hfinal := after_kids addk t g None Hkids Hg (parent_in_none g) ND).
    unfold add_network_node_sliver, need_id. rewrite Hnid. cbn [bind].
    rewrite Hchk.
    cbn [negb]. rewrite Hk in Hprops. rewrite Hprops. cbn [bind].
    rewrite (add_node_ok g (id_of t) (class_label KNode) (props_of t) Hfresh). cbn [bind].
    replace (mknode (id_of t) (class_label KNode) (props_of t)) with (rec_of t)
      by (unfold rec_of, mknode; rewrite Hk; reflexivity).
    change (@nil gedge) with (plink None t).
    set (G1 := gapp g [rec_of t] (plink None t)) in *.
    destruct t as [k [id|] a c n i]; [|discriminate Hnid]. simpl in Hk. subst k. simpl t_comps. simpl t_nss.
    simpl kids in Hfinal. rewrite app_nil_r in Hfinal. rewrite foldM_app in Hfinal.
    simpl in Hwf. repeat rewrite andb_true_iff in Hwf. destruct Hwf as [[[_ Hsc] Hsn] _].
    rewrite (foldM_ext_in addk (fun g' u => add_component_sliver g' (id_of (T KNode (Some id) a c n i)) u) (olist c)) in Hfinal
      by (intros u g0 Hu; unfold addk; rewrite (proj2 (slot_kid_wf true KComponent c u _ Hsc eq_refl Hu)); reflexivity).
    destruct (foldM (fun g' u => add_component_sliver g' (id_of (T KNode (Some id) a c n i)) u) (olist c) G1) as [g2|e] eqn:E2;
      cbn [bind] in Hfinal; [|discriminate Hfinal].
    rewrite (foldM_ext_in addk (fun g' u => add_network_service_sliver g' (Some (id_of (T KNode (Some id) a c n i))) u) (olist n)) in Hfinal
      by (intros u g0 Hu; unfold addk; rewrite (proj2 (slot_kid_wf true KService n u _ Hsn eq_refl Hu)); reflexivity).
    cbn [bind]. exact Hfinal.
  Qed.

  Lemma W_link t g : t_kind t = KLink -> tree_wf t = true -> has_id t = true ->
    ~ In (id_of t) (gids g) ->
    add_network_link_sliver g t [] = Ok (grown g None t).
  Proof.
    intros Hk Hwf Hid Hfresh.
    assert (Hprops := props_of_ok t Hok Hwf). assert (Hnid := has_id_nid t Hid).
    unfold add_network_link_sliver, need_id. rewrite Hnid. cbn [bind mapM].
    rewrite Hk in Hprops. rewrite Hprops. cbn [bind].
    rewrite (add_node_ok g (id_of t) (class_label KLink) (props_of t) Hfresh).
    cbn [bind]. unfold foldM. cbn [fold_left].
    unfold grown. rewrite subtrees_eq, edges_of_eq.
    destruct t as [k nid a c n i]. simpl in Hk. subst k. reflexivity.
  Qed.
End Writers.
