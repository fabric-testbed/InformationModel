(* C02: the finite obligations on the regenerated tables (by computation over the tables - the domain
   is the table), the generic theorems instantiated with them, and the refutation witnesses. *)
From Coq Require Import List String Bool.
From FIM Require Import Base.Str Model.Sliver2Kinds Gen.PropMap Model.Sliver2Map Model.Sliver2WF
  Model.Sliver2Deep Model.Sliver2DeepWF Model.Sliver2Graph
  Model.Sliver2GraphWF Proofs.Sliver2MapRT Proofs.Sliver2Elem Proofs.Sliver2Multi Proofs.Sliver2DeepRT
  Proofs.Sliver2GraphRT.
Import ListNotations.

Lemma gen_ok_true : gen_ok = true.
Proof. reflexivity. Qed.

(* add_interface_sliver writes the child interfaces too (fix 1e6f502) *)
Lemma add_interface_descends_true : add_interface_descends = true.
Proof. reflexivity. Qed.

(* names the offending attribute / keyword when a mapping line is deleted, misspelled or made asymmetric *)
Lemma no_bad_entries : map bad_entries all_kinds = [[]; []; []; []; []].
Proof. vm_compute. reflexivity. Qed.

(* no from_json wraps an absent property into an empty object (Gateway did before fix 450b7bb) *)
Lemma no_wrapping_decoders : map wrapping_decoders all_kinds = [[]; []; []; []; []].
Proof. vm_compute. reflexivity. Qed.

(* every attribute of every sliver class is written and read back by mutually inverse table entries;
   no graph property collides with a child key or the node id; absent properties read as documented *)
Lemma tables_ok_listed :
  forallb (fun k => tables_symmetric k && dict_tables_ok k && absent_ok k && absent_none k)
          [KNode; KComponent; KService; KInterface; KLink] = true.
Proof. vm_compute. reflexivity. Qed.

Lemma all_tables_ok_true : all_tables_ok = true.
Proof. exact tables_ok_listed. Qed.

Lemma tables_sym k : tables_symmetric k = true.
Proof. apply (tables_ok_parts k all_tables_ok_true). Qed.
Lemma absent k : absent_ok k = true.
Proof. apply (tables_ok_parts k all_tables_ok_true). Qed.
Lemma absent_none_k k : absent_none k = true.
Proof. apply (tables_ok_parts k all_tables_ok_true). Qed.

Definition setter_keywords (k : kind) : list string := map (fun se => fst (fst se)) (setters k).

(* a mapped settable property: SLIVER_PROPERTY_TO_GRAPH sends it to the graph property its attribute is
   stored in, and once that is removed the getter reads None (the stitch_node flag its default) *)
Definition unset_entry (k : kind) (kw : string) : bool :=
  match settable k kw, alookup kw sliver_property_to_graph with
  | Some x, Some g =>
      match to_for k x with Some (g', _) => String.eqb g g' | None => false end &&
      match unset_reads k x with
      | None => true
      | Some (FBool false) => String.eqb kw "stitch_node"
      | Some _ => false
      end
  | _, _ => true
  end.

Lemma unset_entries_ok : forallb (fun k => forallb (unset_entry k) (setter_keywords k)) all_kinds = true.
Proof. vm_compute. reflexivity. Qed.

(* the settable properties that cannot be unset through the API *)
Lemma unmapped_exact :
  map unmapped_setters all_kinds =
  [[]; []; []; []; []].
Proof. vm_compute. reflexivity. Qed.

Lemma settable_is_setter k p x : settable k p = Some x -> In p (setter_keywords k).
Proof.
  unfold settable, find_setter, setter_keywords.
  destruct (find (fun e => String.eqb (fst (fst e)) p) (setters k)) as [[[kw a] s]|] eqn:E; [|discriminate].
  intros _. apply find_some in E as [Hin He]. simpl in He. apply String.eqb_eq in He. subst.
  apply in_map_iff. exists (p, a, s). split; [reflexivity | exact Hin].
Qed.

Lemma unset_entry_ok k p x g :
  settable k p = Some x -> alookup p sliver_property_to_graph = Some g ->
  unset_map_ok k p = true /\ (String.eqb p "stitch_node" = false -> unset_reads k x = None).
Proof.
  intros Hset Hmap. assert (H := unset_entries_ok). rewrite forallb_forall in H. specialize (H k (in_all_kinds k)).
  rewrite forallb_forall in H. specialize (H p (settable_is_setter k p x Hset)).
  unfold unset_entry in H. unfold unset_map_ok. rewrite Hset, Hmap in *.
  apply andb_true_iff in H as [H1 H2]. split; [exact H1|]. intro Hns.
  destruct (unset_reads k x) as [[ | | | | |[|]| ]|]; try discriminate H2; try reflexivity.
  rewrite Hns in H2. discriminate H2.
Qed.

Theorem props_roundtrip k a :
  attrs_wf k a = true -> bind (to_props k a) (from_props k) = Ok a.
Proof. apply props_roundtrip_exact_generic; [apply tables_sym | apply absent_none_k]. Qed.

Theorem dict_roundtrip t :
  tree_wf t = true -> bind (to_dict t) (from_dict (t_kind t)) = Ok (forget_ids t).
Proof. apply dict_roundtrip_bind. exact all_tables_ok_true. Qed.

Theorem json_roundtrip t :
  tree_wf t = true -> bind (sliver_to_json t) (sliver_from_json (t_kind t)) = Ok (forget_ids t).
Proof. apply json_roundtrip_generic. exact all_tables_ok_true. Qed.

Theorem graph_under g parent t :
  good_graph g = true -> graph_wf_sub t = true -> fresh_in g t = true -> parent_ok g parent t = true ->
  exists g', add_under g parent t = Ok g' /\
    build_deep g' (t_kind t) (id_of t) = Ok t /\
    good_graph g' = true /\
    gids g' = gids g ++ map id_of (subtrees t) /\
    (forall x, In x (gids g) -> find_node g' x = find_node g x) /\
    (forall x rel L, In x (gids g) -> parent <> Some x ->
                     get_first_neighbor g' x rel L = get_first_neighbor g x rel L).
Proof. apply graph_under_generic; [exact all_tables_ok_true | exact add_interface_descends_true]. Qed.

Theorem graph_roundtrip_thm t : graph_wf t = true -> graph_roundtrip t = Ok t.
Proof. apply graph_roundtrip_generic; [exact all_tables_ok_true | exact add_interface_descends_true]. Qed.

(* Node.set_property / set_properties complete a lone image_ref / image_type from the graph (fix c7cf34d) *)
Lemma node_completes_true : node_completes_image_pair = true.
Proof. reflexivity. Qed.

Theorem set_properties_get k l l' d :
  completed_kvs node_completes_image_pair k l d = Ok l' ->
  kws_ok k l' = true -> values_ok k l' = true -> readable k d = true ->
  exists d', set_properties k l d = Ok d' /\ readable k d' = true /\
    (forall p v x, In (p, Some v) l' -> settable k p = Some x -> get_property k p d' = Ok (stored k p v)) /\
    (forall q y, settable k q = Some y -> ~ In y (kw_targets k l') -> aget y (blank k) = None ->
                 always_written k y = false -> get_property k q d' = get_property k q d).
Proof. intros Hc Hkw Hv Hr. exact (multi_get _ k l l' d (tables_sym k) Hc Hkw Hv Hr). Qed.

Theorem set_properties_order k l l2 d d1 :
  completed_kvs node_completes_image_pair k l d = Ok l ->
  completed_kvs node_completes_image_pair k l2 d = Ok l2 ->
  kws_ok k l = true -> Permutation.Permutation l l2 ->
  set_properties k l d = Ok d1 -> set_properties k l2 d = Ok d1.
Proof. unfold set_properties. apply multi_perm. Qed.

(* the keywords set one after the other with set_property *)
Definition set_each_actual := set_each node_completes_image_pair.

Theorem set_properties_is_fold k (l : list (string * fval)) d :
  forallb (kw_plain k) l = true -> kws_ok k (opt_kvs l) = true -> values_ok k (opt_kvs l) = true ->
  readable k d = true ->
  exists df dm, set_each_actual k l d = Ok df /\ set_properties k (opt_kvs l) d = Ok dm /\
    forall q y, settable k q = Some y -> aget y (blank k) = None -> always_written k y = false ->
                get_property k q df = get_property k q dm.
Proof. unfold set_each_actual, set_properties. apply multi_is_fold. apply tables_sym. Qed.

Theorem set_get k p v d x l' :
  settable k p = Some x ->
  completed_kvs node_completes_image_pair k [(p, Some v)] d = Ok l' ->
  kws_ok k l' = true -> values_ok k l' = true -> readable k d = true ->
  exists d', set_property k p (Some v) d = Ok d' /\ get_property k p d' = Ok (stored k p v).
Proof.
  intros Hset Hc Hkw Hv Hr.
  destruct (set_properties_get k _ _ d Hc Hkw Hv Hr) as [d' [H1 [_ [H2 _]]]].
  exists d'. split; [exact H1|]. apply (H2 p v x); [|exact Hset].
  (* the keyword itself survives the completion *)
  unfold completed_kvs in Hc. destruct (node_completes_image_pair && kind_eqb k KNode).
  - apply (complete_keeps k d image_pairs _ _ p v Hc). left. reflexivity.
  - inversion Hc; subst. left. reflexivity.
Qed.

(* every keyword but the two halves of the image pair: no completion, the simple form *)
Theorem set_get_plain k p v d x :
  settable k p = Some x -> mem p ["image_ref"; "image_type"]%string = false ->
  value_ok k p v = true -> readable k d = true ->
  exists d', set_property k p (Some v) d = Ok d' /\ get_property k p d' = Ok (stored k p v).
Proof.
  intros Hset Hnp Hv Hr.
  exact (set_get k p v d x _ Hset (completed_single _ k p v d Hnp) (kws_ok_single k p v x Hset) Hv Hr).
Qed.

Theorem set_frame k p v d x q y :
  settable k p = Some x -> mem p ["image_ref"; "image_type"]%string = false ->
  value_ok k p v = true -> readable k d = true ->
  settable k q = Some y -> y <> x -> aget y (blank k) = None -> always_written k y = false ->
  exists d', set_property k p (Some v) d = Ok d' /\ get_property k q d' = get_property k q d.
Proof.
  intros Hset Hnp Hv Hr Hq Hne Hb Ha.
  destruct (set_properties_get k _ _ d (completed_single _ k p v d Hnp) (kws_ok_single k p v x Hset) Hv Hr)
    as [d' [H1 [_ [_ H3]]]].
  exists d'. split; [exact H1|]. apply (H3 q y Hq); try assumption.
  rewrite (kw_targets_cons k p (Some v) [] x Hset). intros [E|[]]. apply Hne. symmetry. exact E.
Qed.

Lemma stored_argument k p v : stores_argument k p = true -> value_ok k p v = true -> stored k p v = Some v.
Proof.
  unfold stores_argument, value_ok, stored. cbn [blank_with].
  destruct (find_setter k p) as [[x st]|]; [|discriminate].
  intros Hst Hv. destruct (apply_setter st (Some v)) as [o|] eqn:E; [|discriminate].
  destruct st as [[c|]| | | |[c|]]; simpl in E; try discriminate.
  - destruct (val_class v) as [c'|]; [destruct (String.eqb c c')|]; inversion E; reflexivity.
  - inversion E; reflexivity.
  - destruct v; inversion E; reflexivity.
  - destruct v; inversion E; reflexivity.
  - destruct (val_class v) as [c'|]; [destruct (String.eqb c c')|]; inversion E; reflexivity.
  - inversion E; reflexivity.
Qed.

Theorem set_get_same k p v d x :
  settable k p = Some x -> mem p ["image_ref"; "image_type"]%string = false -> stores_argument k p = true ->
  value_ok k p v = true -> readable k d = true ->
  exists d', set_property k p (Some v) d = Ok d' /\ get_property k p d' = Ok (Some v).
Proof.
  intros Hset Hnp Hsa Hv Hr. destruct (set_get_plain k p v d x Hset Hnp Hv Hr) as [d' [H1 H2]].
  exists d'. split; [exact H1|]. rewrite H2. rewrite (stored_argument k p v Hsa Hv). reflexivity.
Qed.

Theorem unset_get k p d x g :
  settable k p = Some x -> alookup p sliver_property_to_graph = Some g ->
  mem g no_unset_properties = false -> readable k d = true ->
  exists d', set_property k p None d = Ok d' /\ get_property k p d' = Ok (unset_reads k x).
Proof.
  intros Hset Hmap Hnu Hr.
  exact (unset_get_generic k p d x g (tables_sym k) (absent k) Hset Hmap Hnu (proj1 (unset_entry_ok k p x g Hset Hmap)) Hr).
Qed.

(* unset makes the property read as absent (a boolean flag, once it has an unset mapping, reads its
   default False: C02_unset_get_value gives the exact value) *)
Theorem unset_get_absent k p d x g :
  settable k p = Some x -> alookup p sliver_property_to_graph = Some g ->
  mem g no_unset_properties = false -> readable k d = true -> String.eqb p "stitch_node" = false ->
  exists d', set_property k p None d = Ok d' /\ get_property k p d' = Ok None.
Proof.
  intros Hset Hmap Hnu Hr Hns. destruct (unset_get k p d x g Hset Hmap Hnu Hr) as [d' [H1 H2]].
  exists d'. split; [exact H1|]. rewrite H2. rewrite (proj2 (unset_entry_ok k p x g Hset Hmap) Hns). reflexivity.
Qed.

(* documented: name and type (NO_UNSET_PROPERTIES) are refused loudly *)
Theorem unset_refused k p d g :
  alookup p sliver_property_to_graph = Some g -> mem g no_unset_properties = true ->
  set_property k p None d = Err ExQuery.
Proof. intros H1 H2. unfold set_property, set_property_with, unset_property. rewrite H1, H2. reflexivity. Qed.

(* a property without an unset mapping: unset is a silent no-op *)
Theorem unset_unmapped_noop k p d :
  alookup p sliver_property_to_graph = None -> set_property k p None d = Ok d.
Proof. intro H. unfold set_property, set_property_with, unset_property. rewrite H. reflexivity. Qed.

Definition w_name (s : string) : option fval := Some (FStr (of_string s)).

(* a freshly built, named network service: gateway is None *)
Definition w_service : attrs := aset "resource_name" (w_name "s1") (blank KService).

Lemma fresh_service_roundtrip :
  attrs_wf KService w_service = true /\ bind (to_props KService w_service) (from_props KService) = Ok w_service.
Proof.
  assert (H : attrs_wf KService w_service = true) by (vm_compute; reflexivity).
  exact (conj H (props_roundtrip _ _ H)).
Qed.

(* an empty Capacities object: encoded as '' *)
Definition w_empty_caps : attrs :=
  aset "capacities" (Some (FObj "Capacities" (Some []))) (aset "resource_name" (w_name "n1") (blank KNode)).

Lemma empty_value_reads_absent :
  bind (to_props KNode w_empty_caps) (from_props KNode)
  = Ok (aset "capacities" None w_empty_caps).
Proof. vm_compute. reflexivity. Qed.

(* the node properties of a named VM *)
Definition w_node_props : props :=
  [("GraphID", Some (S"g")); ("NodeID", Some (S"n1")); ("Name", Some (S"n1")); ("Type", Some (S"VM"));
   ("StitchNode", Some (S"false")); ("Site", Some (S"RENC"))]%string.
Definition w_service_props : props :=
  [("GraphID", Some (S"g")); ("NodeID", Some (S"s1")); ("Name", Some (S"s1")); ("Type", Some (S"L2Bridge"));
   ("StitchNode", Some (S"false")); ("Gateway", Some (S"{""ipv4"": ""10.0.0.1"", ""ipv4_subnet"": ""10.0.0.0/24""}"))]%string.

Lemma stitch_fold_refuted :
  exists df dm,
    set_each_actual KNode [("stitch_node", FBool true); ("site", FStr (S"UKY"))]%string w_node_props = Ok df /\
    set_properties KNode [("stitch_node", Some (FBool true)); ("site", Some (FStr (S"UKY")))]%string w_node_props = Ok dm /\
    get_property KNode "stitch_node" df = Ok (Some (FBool false)) /\
    get_property KNode "stitch_node" dm = Ok (Some (FBool true)).
Proof. eexists. eexists. split; [|split; [|split]]; vm_compute; reflexivity. Qed.

Definition w_node_img_props : props := w_node_props ++ [("ImageRef", Some (S"img,qcow2"))]%string.

(* SLIVER level (not repaired by c7cf34d): a NodeSliver object that carries only one half of the image
   pair loses it in the converters - the pair is one graph property, written only when both are set *)
Definition w_lone_image : attrs :=
  aset "image_ref" (Some (FStr (S"img"))) (aset "resource_name" (w_name "n1") (blank KNode)).

Lemma lone_image_half_lost :
  bind (to_props KNode w_lone_image) (from_props KNode) = Ok (aset "image_ref" None w_lone_image) /\
  aset "image_ref" None w_lone_image <> w_lone_image /\ attrs_wf KNode w_lone_image = false.
Proof. split; [vm_compute; reflexivity|]. split; [vm_compute; intro H; inversion H | vm_compute; reflexivity]. Qed.

(* a lone half on a node without an image is refused loudly; with an image it replaces its half *)
Lemma image_ref_alone :
  set_property KNode "image_ref" (Some (FStr (S"img"))) w_node_props = Err ExOther /\
  exists l' d', completed_kvs node_completes_image_pair KNode [("image_ref", Some (FStr (S"img2")))]%string w_node_img_props = Ok l' /\
    kws_ok KNode l' = true /\ values_ok KNode l' = true /\ readable KNode w_node_img_props = true /\
    set_property KNode "image_ref" (Some (FStr (S"img2"))) w_node_img_props = Ok d' /\
    get_property KNode "image_type" d' = Ok (Some (FStr (S"qcow2"))).
Proof.
  split; [vm_compute; reflexivity|]. eexists. eexists.
  split; [vm_compute; reflexivity|]. split; [vm_compute; reflexivity|]. split; [vm_compute; reflexivity|].
  split; [vm_compute; reflexivity|]. split; vm_compute; reflexivity.
Qed.

(* the model of Node._complete_image_pair (completion flag true): a lone half is completed from the graph,
   and refused when the graph has no other half *)

Lemma completion_example :
  (exists d', set_property_with true KNode "image_ref" (Some (FStr (S"img2"))) w_node_img_props = Ok d' /\
              get_property KNode "image_ref" d' = Ok (Some (FStr (S"img2"))) /\
              get_property KNode "image_type" d' = Ok (Some (FStr (S"qcow2")))) /\
  set_property_with true KNode "image_ref" (Some (FStr (S"img2"))) w_node_props = Err ExOther.
Proof. split; [eexists; split; [|split]|]; vm_compute; reflexivity. Qed.

Lemma image_pair_example :
  exists d', set_properties KNode [("image_ref", Some (FStr (S"img"))); ("image_type", Some (FStr (S"qcow2")))]%string
                            w_node_props = Ok d' /\
             get_property KNode "image_ref" d' = Ok (Some (FStr (S"img"))) /\
             get_property KNode "image_type" d' = Ok (Some (FStr (S"qcow2"))).
Proof. eexists. split; [|split]; vm_compute; reflexivity. Qed.

Lemma image_comma_example :
  exists d', set_properties KNode [("image_ref", Some (FStr (S"a,b"))); ("image_type", Some (FStr (S"qcow2")))]%string
                            w_node_props = Ok d' /\
             get_property KNode "image_ref" d' = Ok (Some (FStr (S"a,b"))) /\
             get_property KNode "image_type" d' = Ok (Some (FStr (S"qcow2"))).
Proof. eexists. split; [|split]; vm_compute; reflexivity. Qed.

Lemma unset_gateway_example :
  readable KService w_service_props = true /\
  exists d', set_property KService "gateway" None w_service_props = Ok d' /\
             get_property KService "gateway" d' = Ok None.
Proof. split; [vm_compute; reflexivity|]. eexists. split; vm_compute; reflexivity. Qed.

(* graph route: node > component > service > DedicatedPort > sub-interface *)
Definition w_sl (k : kind) (id name ty : string) (en : string) (c n i : option (list tree)) : tree :=
  T k (Some (of_string id))
    (aset "resource_type" (Some (FEnum en (of_string ty))) (aset "resource_name" (w_name name) (blank k))) c n i.

Definition w_sub := w_sl KInterface "i2" "sub1" "SubInterface" "InterfaceType" None None None.
Definition w_port := w_sl KInterface "i1" "p1" "DedicatedPort" "InterfaceType" None None (Some [w_sub]).
Definition w_ns := w_sl KService "s1" "ns1" "OVS" "ServiceType" None None (Some [w_port]).
Definition w_comp := w_sl KComponent "c1" "nic1" "SmartNIC" "ComponentType" None (Some [w_ns]) None.
Definition w_tree := w_sl KNode "n1" "node1" "Server" "NodeType" (Some [w_comp]) None None.

(* a second component, with a service and a port, added under the node of a graph that already holds w_tree *)
Definition w_port2 := w_sl KInterface "i9" "p9" "TrunkPort" "InterfaceType" None None None.
Definition w_ns2 := w_sl KService "s9" "ns9" "OVS" "ServiceType" None None (Some [w_port2]).
Definition w_comp2 := w_sl KComponent "c9" "nic9" "SharedNIC" "ComponentType" None (Some [w_ns2]) None.
Definition w_graph1 : graph := match add_sliver empty_graph w_tree with Ok g => g | Err _ => empty_graph end.

(* attrs_wf at its five slivers is the dear part of every check of w_tree: evaluated here, once *)
Lemma w_tree_wf : tree_wf w_tree = true.
Proof. vm_compute. reflexivity. Qed.

Lemma graph_under_example :
  good_graph w_graph1 = true /\ graph_wf_sub w_comp2 = true /\ fresh_in w_graph1 w_comp2 = true /\
  parent_ok w_graph1 (Some (S"n1")) w_comp2 = true /\ List.length (g_nodes w_graph1) = 5%nat /\
  exists g2, add_under w_graph1 (Some (S"n1")) w_comp2 = Ok g2 /\
    build_deep g2 KComponent (S"c9") = Ok w_comp2 /\
    get_first_neighbor g2 (S"n1") rel_has (class_label KComponent) = Ok [S"c1"; S"c9"] /\
    build_deep g2 KComponent (S"c1") = Ok w_comp.
Proof.
  split; [vm_compute; reflexivity|]. split; [vm_compute; reflexivity|]. split; [vm_compute; reflexivity|].
  split; [vm_compute; reflexivity|]. split; [vm_compute; reflexivity|].
  eexists. split; [vm_compute; reflexivity|]. split; [vm_compute; reflexivity|]. split; vm_compute; reflexivity.
Qed.

Lemma graph_example :
  graph_wf w_tree = true /\ graph_roundtrip w_tree = Ok w_tree /\ List.length (subtrees w_tree) = 5%nat.
Proof.
  assert (H : graph_wf w_tree = true) by (unfold graph_wf; rewrite w_tree_wf; vm_compute; reflexivity).
  exact (conj H (conj (graph_roundtrip_thm _ H) eq_refl)).
Qed.

(* non-vacuity of the round-trip hypotheses: the same deep tree through dictionary and JSON *)
Lemma deep_example :
  tree_wf w_tree = true /\ bind (to_dict w_tree) (from_dict KNode) = Ok (forget_ids w_tree)
  /\ forget_ids w_tree <> T KNode None [] None None None.
Proof.
  split; [exact w_tree_wf|]. split; [exact (dict_roundtrip _ w_tree_wf)|]. vm_compute. discriminate.
Qed.
