(* C14 - refinement: the loop of merge_adm over the common nodes.  One rule for invariants of the loop, indexed by
   the list P of NodeIDs merged so far; its instances: the node list (MergedNodes), the connections (MergedEdges: "an existing
   connection wins"), the connections of the other graphs. *)
From Coq Require Import List NArith Bool.
From FIM Require Import Model.Cbm14Store Model.Cbm14Spec Model.Cbm14Abs Proofs.Cbm14Frame
     Proofs.Cbm14RefBase Proofs.Cbm14RefEdge.
Import ListNotations.
Open Scope N_scope.

Definition mrg (adm : N) (c t : node) (l : list N) : node :=
  set_si (SIds (l ++ [adm])) (set_dels (upd_d (n_ld c) (n_ld t)) (upd_d (n_cd c) (n_cd t)) c).

Definition step_nodes (adm : N) (c t : node) (l : list N) (ns : list node) : list node :=
  filter (fun n => negb (n_int n =? n_int t)) (map (fun n => if n_int n =? n_int c then mrg adm c t l else n) ns).

(* the store after merging the common node with combined-graph node c and image t *)
Definition merged (adm : N) (c t : node) (l : list N) (s : store) : store :=
  contract (n_int c) (n_int t) (upd_node (mrg adm c t l) s).

Lemma merged_nodes adm c t l s : s_nodes (merged adm c t l s) = step_nodes adm c t l (s_nodes s).
Proof. reflexivity. Qed.

Lemma merge_one_some cbm tmp adm s x s1 :
  merge_one cbm tmp adm (Some s) x = Some s1 ->
  exists c t l, at_ cbm x (s_nodes s) = Some c /\ at_ tmp x (s_nodes s) = Some t /\ n_si c = SIds l /\
                s1 = merged adm c t l s.
Proof.
  simpl. rewrite !find_node_at.
  destruct (at_ cbm x (s_nodes s)) as [c|]; [|discriminate]. destruct (at_ tmp x (s_nodes s)) as [t|]; [|discriminate].
  destruct (n_si c) as [| |l] eqn:S; try discriminate. intro H; inversion H. exists c, t, l. auto.
Qed.

(* an invariant indexed by the NodeIDs merged so far *)
Lemma loop_rule cbm tmp adm (I : list N -> store -> Prop) :
  (forall P x s c t l, I P s -> at_ cbm x (s_nodes s) = Some c -> at_ tmp x (s_nodes s) = Some t ->
                       n_si c = SIds l -> I (x :: P) (merged adm c t l s)) ->
  forall todo P s st3, I P s -> fold_left (merge_one cbm tmp adm) todo (Some s) = Some st3 -> I (rev todo ++ P) st3.
Proof.
  intro STEP. induction todo as [|x r IH]; intros P s st3 I0 H.
  - simpl in H. inversion H; subst. exact I0.
  - change (fold_left (merge_one cbm tmp adm) (x :: r) (Some s))
      with (fold_left (merge_one cbm tmp adm) r (merge_one cbm tmp adm (Some s) x)) in H.
    destruct (merge_one cbm tmp adm (Some s) x) as [s1|] eqn:M.
    2:{ exfalso. clear - H. induction r; simpl in H; [discriminate|auto]. }
    apply merge_one_some in M as (c & t & l & Hc & Ht & S & ->).
    simpl rev. rewrite <- app_assoc. apply (IH (x :: P) _ st3 (STEP P x s c t l I0 Hc Ht S) H).
Qed.

Lemma fold_merge_one_next cbm tmp adm l s s' :
  fold_left (merge_one cbm tmp adm) l (Some s) = Some s' -> s_next s' = s_next s.
Proof. apply (loop_rule cbm tmp adm (fun _ s1 => s_next s1 = s_next s) (fun _ _ _ _ _ _ E _ _ _ => E) l [] s s' eq_refl). Qed.

Lemma step_spec nx cbm tmp adm ns x c t l :
  J nx ns -> cbm <> tmp -> at_ cbm x ns = Some c -> at_ tmp x ns = Some t ->
  let ns1 := step_nodes adm c t l ns in
  J nx ns1 /\
  at_ cbm x ns1 = Some (mrg adm c t l) /\ at_ tmp x ns1 = None /\
  (forall g k, (g, k) <> (cbm, x) -> (g, k) <> (tmp, x) -> at_ g k ns1 = at_ g k ns).
Proof.
  intros Jn NE Hc Ht ns1. pose proof Jn as (U & _ & _).
  destruct (at_In _ _ _ _ Hc) as (Ic & Gc & Nc). destruct (at_In _ _ _ _ Ht) as (It & Gt & Nt).
  set (repl := fun n => if n_int n =? n_int c then mrg adm c t l else n).
  assert (forall n, In n ns -> n <> c -> repl n = n) as RO.
  { intros n Hn NEn. unfold repl. destruct (N.eqb_spec (n_int n) (n_int c)) as [E|E]; auto.
    exfalso. apply NEn. apply (uniq_inj ns); auto. }
  destruct (at_map_filter nx repl (fun i => i =? n_int t) ns Jn) as [J1 AT].
  { intros n Hn. unfold repl. destruct (N.eqb_spec (n_int n) (n_int c)) as [E|E]; auto.
    assert (n = c) by (apply (uniq_inj ns); auto). subst. auto. }
  change (filter _ (map repl ns)) with ns1 in J1, AT.
  assert (n_int c =? n_int t = false) as CT.
  { apply N.eqb_neq. intro E. assert (c = t) by (apply (uniq_inj ns); auto). subst. congruence. }
  split; [exact J1|]. split; [|split].
  - rewrite AT, Hc, CT. unfold repl. rewrite N.eqb_refl. reflexivity.
  - rewrite AT, Ht, N.eqb_refl. reflexivity.
  - intros g k N1 N2. rewrite AT. destruct (at_ g k ns) as [n|] eqn:A; auto.
    apply at_In in A as (Hn & G & E).
    assert (n <> c) as X1 by (intro; subst; apply N1; congruence).
    assert (n <> t) as X2 by (intro; subst; apply N2; congruence).
    rewrite (RO n Hn X1). destruct (N.eqb_spec (n_int n) (n_int t)) as [X|X]; auto.
    exfalso. apply X2. apply (uniq_inj ns); auto.
Qed.

Section Nodes.
  Variables (cbm tmp adm nx : N) (ns0 : list node).
  Hypothesis NE : cbm <> tmp.

  (* the node list when the common nodes P of the initial list ns0 have been merged *)
  Record MergedNodes (P : list N) (ns : list node) : Prop := mkMergedNodes {
    ni_J : J nx ns;
    ni_gone : forall k, In k P -> at_ tmp k ns = None;
    ni_done : forall k c t, In k P -> at_ cbm k ns0 = Some c -> at_ tmp k ns0 = Some t ->
              at_ cbm k ns = Some (mrg adm c t (abs_con (n_si c)));
    ni_todo : forall k, ~ In k P -> at_ cbm k ns = at_ cbm k ns0 /\ at_ tmp k ns = at_ tmp k ns0;
    ni_other : forall g k, g <> cbm -> g <> tmp -> at_ g k ns = at_ g k ns0
  }.

  Lemma MergedNodes_init : J nx ns0 -> MergedNodes [] ns0.
  Proof. intro J0. constructor; auto; intros k; intros; contradiction. Qed.

  (* a NodeID whose image is still there has not been merged *)
  Lemma MergedNodes_fresh P ns x t : MergedNodes P ns -> at_ tmp x ns = Some t -> ~ In x P.
  Proof. intros I1 Ht X. rewrite (ni_gone _ _ I1 x X) in Ht. discriminate. Qed.

  Lemma MergedNodes_step P ns x c t l :
    MergedNodes P ns -> at_ cbm x ns = Some c -> at_ tmp x ns = Some t -> n_si c = SIds l ->
    MergedNodes (x :: P) (step_nodes adm c t l ns).
  Proof.
    intros I1 Hc Ht Si. pose proof (MergedNodes_fresh P ns x t I1 Ht) as NP. destruct I1 as [J0 GN DN TD OT].
    destruct (step_spec nx cbm tmp adm ns x c t l J0 NE Hc Ht) as (J1 & S1 & S2 & S3).
    assert (forall g k, k <> x -> at_ g k (step_nodes adm c t l ns) = at_ g k ns) as S3'.
    { intros g k KX. apply S3; intro E; inversion E; congruence. }
    destruct (TD x NP) as [Tc Tt]. constructor; auto.
    - intros k [<-|Hk]; auto. rewrite S3'; auto. intro; subst; contradiction.
    - intros k c0 t0 [<-|Hk] Hc0 Ht0.
      + rewrite <- Tc, Hc in Hc0. rewrite <- Tt, Ht in Ht0. inversion Hc0; inversion Ht0; subst.
        rewrite S1, Si. reflexivity.
      + rewrite S3'; auto. intro; subst; contradiction.
    - intros k NK. simpl in NK. assert (k <> x) as KX by (intro; subst; tauto). rewrite !S3'; auto.
    - intros g k G1 G2. rewrite <- OT; auto. apply S3; intro E; inversion E; congruence.
  Qed.

  Lemma fold_spec todo s st3 :
    s_nodes s = ns0 -> J nx ns0 ->
    fold_left (merge_one cbm tmp adm) todo (Some s) = Some st3 -> MergedNodes (rev todo) (s_nodes st3).
  Proof.
    intros E0 J0 H. rewrite <- (app_nil_r (rev todo)).
    apply (loop_rule cbm tmp adm (fun P s => MergedNodes P (s_nodes s))) with (s := s); auto.
    - intros P x s1 c t l I1 Hc Ht Si. rewrite merged_nodes. apply MergedNodes_step; auto.
    - rewrite E0. apply MergedNodes_init. exact J0.
  Qed.
End Nodes.

(* The connections.
   ci k / ti k = internal id of the combined-graph / temporary node with NodeID k (before the loop),
   e0 = connection data before the loop.  After the common nodes P have been merged:
   - between two combined-graph nodes: the connection they had, else (both in P) the one their images had;
   - between a combined-graph node and a not yet merged image: the connection of the two images if the first is in P;
   - between two not yet merged images: as before. *)
Section Edges.
  Variables (ci ti : N -> option N) (e0 : N -> N -> option edata).
  Definition img_conn (a b : N) : option edata :=
    match ti a, ti b with Some i, Some j => e0 i j | _, _ => None end.

  Hypothesis ci_inj : forall a b i, ci a = Some i -> ci b = Some i -> a = b.
  Hypothesis ti_inj : forall a b i, ti a = Some i -> ti b = Some i -> a = b.
  Hypothesis ct_disj : forall a b i, ci a = Some i -> ti b = Some i -> False.
  Hypothesis e0_sym : forall i j, e0 i j = e0 j i.

  Record MergedEdges (P : list N) (es : list edge) : Prop := mkMergedEdges {
    me_cbm : forall a b i j, ci a = Some i -> ci b = Some j ->
          edat es i j = match e0 i j with
                        | Some d => Some d
                        | None => if memN a P && memN b P then img_conn a b else None end;
    me_cbm_img : forall a b i j, ci a = Some i -> ti b = Some j -> memN b P = false ->
          edat es i j = if memN a P then img_conn a b else None;
    me_img : forall a b i j, ti a = Some i -> ti b = Some j -> memN a P = false -> memN b P = false ->
          edat es i j = e0 i j
  }.

  Lemma img_conn_sym a b : img_conn a b = img_conn b a.
  Proof. unfold img_conn. destruct (ti a), (ti b); auto. Qed.

  Lemma inj_eqb (f : N -> option N) a k i ik :
    (forall a b i, f a = Some i -> f b = Some i -> a = b) -> f a = Some i -> f k = Some ik -> (i =? ik) = (a =? k).
  Proof.
    intros INJ A K. destruct (N.eqb_spec a k) as [E|E].
    - subst. rewrite A in K. inversion K. apply N.eqb_refl.
    - apply N.eqb_neq. intro X. subst. apply E. eapply INJ; eauto.
  Qed.
  Definition ci_eqb a k i ik := inj_eqb ci a k i ik ci_inj.
  Definition ti_eqb a k i ik := inj_eqb ti a k i ik ti_inj.
  Lemma ct_eqb a k i jk : ci a = Some i -> ti k = Some jk -> (i =? jk) = false.
  Proof. intros A K. apply N.eqb_neq. intro X. subst. eapply ct_disj; eauto. Qed.
  Lemma tc_eqb a k i ik : ti a = Some i -> ci k = Some ik -> (i =? ik) = false.
  Proof. intros A K. apply N.eqb_neq. intro X. subst. eapply ct_disj; eauto. Qed.

  Lemma MergedEdges_step k ik jk P st :
    ci k = Some ik -> ti k = Some jk -> memN k P = false -> img_conn k k = None ->
    MergedEdges P (s_edges st) -> MergedEdges (k :: P) (s_edges (contract ik jk st)).
  Proof.
    intros CK TK NP TKK [I1 I2 I3].
    assert (ik <> jk) as NE by (intro; subst; eapply ct_disj; eauto).
    assert (edat (s_edges st) jk jk = None) as SV.
    { rewrite (I3 k k jk jk TK TK NP NP). unfold img_conn in TKK. rewrite TK in TKK. exact TKK. }
    assert (edat (s_edges st) ik jk = None) as UV by (rewrite (I2 k k ik jk CK TK NP), NP; reflexivity).
    constructor.
    - intros a b i j A B. rewrite (contract_edat ik jk st i j NE SV UV).
      rewrite (ct_eqb a k i jk A TK), (ct_eqb b k j jk B TK). cbn [orb].
      rewrite (I1 a b i j A B), (ci_eqb a k i ik A CK), (ci_eqb b k j ik B CK). cbn [memN existsb].
      fold (memN a P) (memN b P).
      destruct (e0 i j) as [d|]; auto.
      destruct (N.eqb_spec a k) as [Ea|Ea]; destruct (N.eqb_spec b k) as [Eb|Eb]; subst; cbn [orb andb].
      + rewrite NP. cbn [andb]. rewrite CK in B. inversion B; subst j. rewrite (edat_sym _ jk ik), UV, TKK. reflexivity.
      + rewrite NP. cbn [andb]. rewrite (edat_sym _ jk j), (I2 b k j jk B TK NP), img_conn_sym. reflexivity.
      + rewrite NP, andb_false_r. rewrite (edat_sym _ jk i), (I2 a k i jk A TK NP), andb_true_r. reflexivity.
      + destruct (memN a P && memN b P); auto. destruct (img_conn a b); auto.
    - intros a b i j A B NB. cbn [memN existsb] in NB. fold (memN b P) in NB.
      apply orb_false_iff in NB as [NBk NB]. apply N.eqb_neq in NBk.
      rewrite (contract_edat ik jk st i j NE SV UV).
      rewrite (ct_eqb a k i jk A TK), (ti_eqb b k j jk B TK).
      assert (b =? k = false) as -> by (apply N.eqb_neq; auto). cbn [orb].
      rewrite (I2 a b i j A B NB), (ci_eqb a k i ik A CK), (tc_eqb b k j ik B CK). cbn [memN existsb]. fold (memN a P).
      destruct (N.eqb_spec a k) as [Ea|Ea]; subst; cbn [orb].
      + rewrite NP. rewrite (I3 k b jk j TK B NP NB). unfold img_conn. rewrite TK, B. reflexivity.
      + destruct (memN a P); auto. destruct (img_conn a b); auto.
    - intros a b i j A B NA NB. cbn [memN existsb] in NA, NB. fold (memN a P) in NA. fold (memN b P) in NB.
      apply orb_false_iff in NA as [NAk NA]. apply orb_false_iff in NB as [NBk NB].
      rewrite (contract_edat ik jk st i j NE SV UV).
      rewrite (ti_eqb a k i jk A TK), (ti_eqb b k j jk B TK), NAk, NBk. cbn [orb].
      rewrite (I3 a b i j A B NA NB), (tc_eqb a k i ik A CK), (tc_eqb b k j ik B CK).
      destruct (e0 i j); reflexivity.
  Qed.

  Lemma MergedEdges_init es :
    (forall a b i j, ci a = Some i -> ci b = Some j -> edat es i j = e0 i j) ->
    (forall a b i j, ci a = Some i -> ti b = Some j -> edat es i j = None) ->
    (forall a b i j, ti a = Some i -> ti b = Some j -> edat es i j = e0 i j) ->
    MergedEdges [] es.
  Proof.
    intros H1 H2 H3. constructor; intros; simpl.
    - rewrite (H1 a b i j); auto. destruct (e0 i j); auto.
    - eapply H2; eauto.
    - eapply H3; eauto.
  Qed.
End Edges.

(* the internal ids under which the NodeIDs of graph g are found *)
Definition ids_of (g : N) (ns : list node) (k : N) : option N := option_map n_int (at_ g k ns).

Lemma ids_of_some g ns k i : ids_of g ns k = Some i -> exists n, In n ns /\ n_gid n = g /\ n_nid n = k /\ n_int n = i.
Proof.
  unfold ids_of. destruct (at_ g k ns) as [n|] eqn:A; [|discriminate].
  intro X; inversion X; subst. apply at_In in A as (? & ? & ?). eauto.
Qed.

Lemma ids_of_inj g h ns a b i :
  uniq ns -> ids_of g ns a = Some i -> ids_of h ns b = Some i -> g = h /\ a = b.
Proof.
  intros U X Y. apply ids_of_some in X as (n1 & I1 & G1 & N1 & E1). apply ids_of_some in Y as (n2 & I2 & G2 & N2 & E2).
  assert (n1 = n2) by (apply (uniq_inj ns); auto; congruence). subst. auto.
Qed.

(* the loop of merge_adm, on stores: node list and connections *)
Lemma loop_edges cbm tmp adm nx e0 todo s st3 :
  let ci := ids_of cbm (s_nodes s) in let ti := ids_of tmp (s_nodes s) in
  cbm <> tmp -> (forall i j, e0 i j = e0 j i) ->
  J nx (s_nodes s) -> ebelow nx (s_edges s) ->
  (forall k, img_conn ti e0 k k = None) -> MergedEdges ci ti e0 [] (s_edges s) ->
  fold_left (merge_one cbm tmp adm) todo (Some s) = Some st3 ->
  MergedNodes cbm tmp adm nx (s_nodes s) (rev todo) (s_nodes st3) /\
  MergedEdges ci ti e0 (rev todo) (s_edges st3) /\ ebelow nx (s_edges st3).
Proof.
  intros ci ti NE ES Js EB SL E0 H.
  assert (forall a b i, ci a = Some i -> ci b = Some i -> a = b) as CI
    by (intros a b i X Y; apply (ids_of_inj _ _ _ _ _ _ (J_uniq _ _ Js) X Y)).
  assert (forall a b i, ti a = Some i -> ti b = Some i -> a = b) as TI
    by (intros a b i X Y; apply (ids_of_inj _ _ _ _ _ _ (J_uniq _ _ Js) X Y)).
  assert (forall a b i, ci a = Some i -> ti b = Some i -> False) as CT
    by (intros a b i X Y; apply NE; apply (ids_of_inj _ _ _ _ _ _ (J_uniq _ _ Js) X Y)).
  rewrite <- (app_nil_r (rev todo)).
  apply (loop_rule cbm tmp adm
           (fun P s1 => MergedNodes cbm tmp adm nx (s_nodes s) P (s_nodes s1) /\ MergedEdges ci ti e0 P (s_edges s1) /\ ebelow nx (s_edges s1)))
    with (s := s); [|split; [apply MergedNodes_init; exact Js|auto]|exact H].
  intros P x s1 c t l (I1 & I2 & I3) Hc Ht Si.
  pose proof (MergedNodes_fresh _ _ _ _ _ _ _ _ _ I1 Ht) as NP. destruct (ni_todo _ _ _ _ _ _ _ I1 x NP) as [Tc Tt].
  split; [rewrite merged_nodes; apply MergedNodes_step; auto|]. split.
  - apply (MergedEdges_step ci ti e0 CI TI CT ES x (n_int c) (n_int t) P); auto.
    + unfold ci, ids_of. rewrite <- Tc, Hc. reflexivity.
    + unfold ti, ids_of. rewrite <- Tt, Ht. reflexivity.
    + apply memN_false. exact NP.
  - apply contract_ebelow; auto. apply at_In in Hc as (Hc & _). apply (ni_J _ _ _ _ _ _ _ I1). exact Hc.
Qed.

(* no node of the two graphs being merged has internal id i or j *)
Definition clear_of (cbm tmp i j : N) (ns : list node) : Prop :=
  forall n, In n ns -> n_gid n = cbm \/ n_gid n = tmp -> n_int n <> i /\ n_int n <> j.

Lemma fold_other cbm tmp adm i j todo s st3 :
  clear_of cbm tmp i j (s_nodes s) ->
  fold_left (merge_one cbm tmp adm) todo (Some s) = Some st3 ->
  edat (s_edges st3) i j = edat (s_edges s) i j.
Proof.
  intros CL H.
  refine (proj2 (loop_rule cbm tmp adm (fun _ s1 => clear_of cbm tmp i j (s_nodes s1) /\ edat (s_edges s1) i j = edat (s_edges s) i j)
                   _ todo [] s st3 (conj CL eq_refl) H)).
  intros _ x s1 c t l [CL1 E1] Hc Ht _.
  apply at_In in Hc as (Hc & Gc & _). apply at_In in Ht as (Ht & Gt & _).
  destruct (CL1 c Hc (or_introl Gc)) as [C1 C2]. destruct (CL1 t Ht (or_intror Gt)) as [T1 T2]. split.
  - intros n Hn Gn. rewrite merged_nodes in Hn. apply filter_In in Hn as [Hn _].
    apply in_map_iff in Hn as (m0 & E & Hm). destruct (n_int m0 =? n_int c); subst n; [simpl; auto|apply (CL1 m0 Hm Gn)].
  - unfold merged. rewrite contract_other; auto.
Qed.
