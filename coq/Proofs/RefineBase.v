(* C05: what the graph-object methods of Model/Store.v do to one nx.Graph, in the form the C05 proofs use.
   add_node and merge_nodes have their results described once; [pg_step] is the method an operation runs on
   the nx.Graph of its graph id - the same for both storage flavours, as NetworkXPropertyGraphDisjoint
   inherits the methods - and [sstep] / [dstep] factor through it. *)
From Coq Require Import List NArith Bool.
From FIM Require Import Base.Assoc Model.Store Model.StoreDisjoint.
From FIM Require Import Proofs.IsolationBase Proofs.IsolationShared Proofs.IsolationDisjoint.
Import ListNotations.
Open Scope N_scope.

Lemma nx_node_In G id ps : nx_node G id = Some ps -> In id (ids G).
Proof. intro H. apply aget_In in H. change id with (fst (id, ps)). now apply in_map. Qed.

Lemma present_iff G id : nx_node G id <> None <-> In id (ids G).
Proof.
  split.
  - destruct (nx_node G id) eqn:E; [intros _; eapply nx_node_In; eauto | congruence].
  - intros H E. apply aget_None_notin in E. contradiction.
Qed.

Lemma ids_in_intro G g i ps : In (i, ps) (gn G) -> in_g g (i, ps) = true -> In i (ids_in G g).
Proof. intros Hin Hg. apply in_map_iff. exists (i, ps). split; [reflexivity|]. apply filter_In. now split. Qed.

Lemma memN_ids_in G g i ps : NoDup (ids G) -> In (i, ps) (gn G) -> memN i (ids_in G g) = in_g g (i, ps).
Proof.
  intros Hnd Hin. destruct (in_g g (i, ps)) eqn:Eg; [apply memN_In; eapply ids_in_intro; eauto|].
  apply memN_false. intro Hm. apply in_map_iff in Hm as [[j q] [Hj Hf]]. simpl in Hj; subst j.
  apply filter_In in Hf as [Hq Hgq].
  pose proof (NoDup_In_aget i q (gn G) Hnd Hq). pose proof (NoDup_In_aget i ps (gn G) Hnd Hin). congruence.
Qed.

Lemma filter_memN_ids_in G g :
  NoDup (ids G) -> filter (fun n => memN (fst n) (ids_in G g)) (gn G) = filter (in_g g) (gn G).
Proof. intro Hnd. apply filter_ext_in. intros [i ps] Hin. now apply memN_ids_in. Qed.

Lemma find_nodes_differ G g g2 n u v :
  NoDup (ids G) -> g <> g2 -> find_node G g n = Some u -> find_node G g2 n = Some v -> u <> v.
Proof.
  intros Hnd Hg Eu Ev E; subst v.
  destruct (find_node_sound G g n u Hnd Eu) as [p1 [A1 [A2 _]]].
  destruct (find_node_sound G g2 n u Hnd Ev) as [p2 [B1 [B2 _]]].
  rewrite A1 in B1. inversion B1; subst p2. apply Hg. eapply has_val_inj; eauto.
Qed.

(* the ids a relabelled (and stamped) import is stored under *)
Lemma stamp_relabel_fst g ig f :
  map fst (stamp g (inodes (relabel ig f))) = seqN f (length (stamp g (inodes (relabel ig f)))).
Proof. rewrite map_fst_stamp. unfold stamp. rewrite map_length. apply relabel_inodes_fst. Qed.

(* a link between a and b touches exactly a and b *)
Lemma edge_is_touches a b e x : edge_is a b e = true -> edge_touches x e = N.eqb a x || N.eqb b x.
Proof.
  destruct e as [[p q] d]. unfold edge_is, edge_touches. intro H.
  apply orb_true_iff in H as [H|H]; apply andb_true_iff in H as [H1 H2]; apply N.eqb_eq in H1, H2; subst;
    [reflexivity | apply orb_comm].
Qed.

Lemma edge_is_elsewhere a b x e : a <> x -> b <> x -> edge_touches x e = true -> edge_is a b e = false.
Proof.
  intros Ha Hb Ht. destruct (edge_is a b e) eqn:E; [|reflexivity].
  rewrite (edge_is_touches a b e x E) in Ht. apply N.eqb_neq in Ha, Hb. rewrite Ha, Hb in Ht. discriminate.
Qed.

Lemma gn_add_edge G a b ps : gn (nx_add_edge G a b ps) = gn G.
Proof. unfold nx_add_edge. now destruct (nx_edge G a b). Qed.

(* ---------- add_node under an id the nx.Graph does not hold: the new node is appended ---------- *)
Definition added_props (g n c : N) (ps : option props) : props :=
  match ps with Some u => aupdate u (blank_attrs g n c) | None => blank_attrs g n c end.

Lemma pg_add_node_result G g newid n c ps G' :
  nx_node G newid = None -> pg_add_node G g newid n c ps = Some G' ->
  search G [(k_graphid, g); (k_nodeid, n)] = [] /\ G' = mkG (gn G ++ [(newid, added_props g n c ps)]) (ge G).
Proof.
  intros Hf H. split; [|exact (pg_add_node_fresh G g newid n c ps G' Hf H)].
  unfold pg_add_node in H. now destruct (search G _).
Qed.

(* ---------- merge_nodes either raises and leaves the nx.Graph alone, or contracts the two nodes found ---------- *)
Lemma s_merge_result G g n g2 pol :
  (exists e, s_merge G g n g2 pol = (G, Err e)) \/
  (exists u v mine other np,
     g <> g2 /\ find_node G g n = Some u /\ find_node G g2 n = Some v /\
     nx_node G u = Some mine /\ nx_node G v = Some other /\
     match pol with Some p => merge_props p mine other mine = Some np | None => np = mine end /\
     s_merge G g n g2 pol = (nx_set_node (strip_contraction u (contract G u v)) u np, Ok RUnit)).
Proof.
  unfold s_merge.
  destruct (N.eqb g g2) eqn:Eg; [left; eauto|]. apply N.eqb_neq in Eg.
  destruct (negb (pg_graph_exists G g2)); [left; eauto|].
  destruct (find_node G g n) as [u|] eqn:Eu; [|left; eauto].
  destruct (find_node G g2 n) as [v|] eqn:Ev; [|left; eauto].
  destruct (nx_node G u) as [mine|] eqn:Em; [|left; eauto].
  destruct (nx_node G v) as [other|] eqn:Eo; [|left; eauto].
  destruct pol as [p|]; [destruct (merge_props p mine other mine) as [np|] eqn:Ep; [|left; eauto]|];
    right; [exists u, v, mine, other, np | exists u, v, mine, other, mine]; repeat split; auto.
Qed.

Lemma gn_merged G u v : gn (strip_contraction u (contract G u v)) = filter (fun nd => negb (N.eqb (fst nd) v)) (gn G).
Proof. unfold strip_contraction, contract. cbn [gn]. now rewrite gn_fold_remap. Qed.

Lemma nx_node_merged G u v i :
  nx_node (strip_contraction u (contract G u v)) i = if N.eqb i v then None else nx_node G i.
Proof. unfold nx_node. rewrite gn_merged, (aget_filter_fst (fun j => negb (N.eqb j v))). now destruct (N.eqb i v). Qed.

(* a property the policy does not name is kept *)
Lemma merge_props_unnamed pol mine other todo np k :
  merge_props pol mine other todo = Some np -> aget k pol = None -> aget k np = aget k todo.
Proof.
  revert np. induction todo as [|[k0 v] r IH]; cbn [merge_props]; intros np H Hk; [inversion H; reflexivity|].
  destruct (match aget k0 pol with Some p => policy_value p v (aget k0 other) | None => Some v end) as [x|] eqn:Ex; [|discriminate].
  destruct (merge_props pol mine other r) as [rest|] eqn:Er; [|discriminate].
  inversion H; subst np. cbn [aget]. destruct (N.eqb k k0) eqn:E.
  - apply N.eqb_eq in E; subst k0. rewrite Hk in Ex. exact (eq_sym Ex).
  - now apply IH.
Qed.

Definition merge_free (o : op) : bool := match o with OMerge _ _ _ _ => false | _ => true end.

(* ---------- the method an operation runs on the nx.Graph of its graph id ---------- *)
Definition pg_op (o : op) : bool :=
  match o with
  | OImport _ _ | OImportDirect _ _ | ODelGraph _ | OClone _ _ | OMatching _ _ | OMerge _ _ _ _ => false
  | _ => true
  end.

(* [newid]: the internal id the storage hands to add_node *)
Definition pg_step (G : nxg) (newid : N) (o : op) : nxg * res :=
  match o with
  | OAddNode g n c ps => match pg_add_node G g newid n c ps with
                         | None => (G, Err EQuery)
                         | Some G' => (G', Ok RUnit)
                         end
  | ODelNode g n => pg_delete_node G g n
  | OAddLink g a r b ps => pg_add_link G g a r b ps
  | OUpdNode g n p v => pg_update_node G g n p v
  | OUnsetNode g n p => pg_unset_node G g n p
  | OUpdNodes g p v => pg_update_nodes G g p v
  | OUpdNodeProps g n ps => pg_update_node_props G g n ps
  | OUpdLink g a b k p v => pg_update_link G g a b k p v
  | OUnsetLink g a b k p => pg_unset_link G g a b k p
  | OUpdLinkProps g a b k ps => pg_update_link_props G g a b k ps
  | OGetNode g n => (G, pg_get_node G g n)
  | OGetLink g a b => (G, pg_get_link G g a b)
  | OByClass g c => (G, pg_by_class G g c)
  | OByClassType g c t => (G, pg_by_class_type G g c t)
  | OListIds g => (G, pg_list_ids G g)
  | ONodeExists g n c => (G, pg_node_exists G g n c)
  | OUnique g c name => (G, pg_unique G g c name)
  | OGraphExists g => (G, Ok (RBool (pg_graph_exists G g)))
  | _ => (G, Ok RUnit)
  end.

Lemma sstep_pg s o :
  pg_op o = true ->
  sg (fst (sstep s o)) = fst (pg_step (sg s) (snext s) o) /\ snd (sstep s o) = snd (pg_step (sg s) (snext s) o).
Proof.
  destruct o; try discriminate; intros _; cbn [sstep pg_step lift fst snd sg]; try (split; reflexivity).
  destruct (pg_add_node (sg s) g (snext s) n c ps); split; reflexivity.
Qed.

Lemma dstep_pg d o :
  pg_op o = true ->
  (forall g', dget (fst (dstep d o)) g' =
              if N.eqb g' (target o) then fst (pg_step (dget d (target o)) (dcounter d (target o)) o) else dget d g') /\
  snd (dstep d o) = snd (pg_step (dget d (target o)) (dcounter d (target o)) o).
Proof.
  destruct o; try discriminate; intros _; cbn [dstep pg_step target dlift fst snd];
    try (split; [intro g'; apply dget_dput | reflexivity]);
    try (split; [intro g'; destruct (N.eqb_spec g' g); now subst | reflexivity]).
  destruct (pg_add_node (dget d g) g (dcounter d g) n c ps); cbn [fst snd]; split; try reflexivity; intro g'.
  - rewrite dget_dput_ctr. apply dget_dput.
  - destruct (N.eqb_spec g' g); now subst.
Qed.

Lemma pg_step_mutator G newid o x : mutator o G = Some x -> pg_step G newid o = x.
Proof. destruct o; intros [= <-]; reflexivity. Qed.

(* the internal ids after a method: those before and, for add_node, the new one *)
Lemma ids_pg_step G newid o : nx_node G newid = None -> incl (ids (fst (pg_step G newid o))) (ids G ++ [newid]).
Proof.
  intro Hf. destruct (mutator o G) as [x|] eqn:Em.
  - rewrite (pg_step_mutator G newid o x Em). intros i Hi. apply in_or_app. left.
    exact (keeps_In _ _ i (write_keeps _ _ _ _ (mutator_write_any _ _ _ Em)) Hi).
  - destruct o; try discriminate; cbn [pg_step fst]; try (now apply incl_appl).
    destruct (pg_add_node G g newid n c ps) as [G'|] eqn:E; [|now apply incl_appl].
    destruct (pg_add_node_result G g newid n c ps G' Hf E) as [_ ->]. unfold ids. cbn [fst gn]. rewrite map_app. apply incl_refl.
Qed.
