(* C07 - service port + link as a unit: connect_interface (one new port, linked to an existing interface) and peer
   (two new ports linked to each other), built from the relaxed unit lemmas and discharged at the end. *)
From Coq Require Import List Bool.
From FIM Require Import Base.Str Model.T7Graph Model.T7Ops Model.T7WF Model.T7Steps Model.T7Rel Proofs.T7Tables Proofs.T7WFRefl
     Proofs.T7Frame Proofs.T7Units Proofs.T7Api Proofs.T7Api2 Proofs.T7RelUnits.
Import ListNotations.

Lemma name_free_add_other g n k name : cls_eqb (ncls n) k = false -> name_free (g_add_node g n) k name = name_free g k name.
Proof. intro H. unfold name_free, g_add_node. simpl. rewrite forallb_app. simpl. rewrite H. simpl. rewrite andb_true_r. reflexivity. Qed.

Lemma no_edge_add_node g n a b : no_edge (g_add_node g n) a b = no_edge g a b.
Proof. reflexivity. Qed.

Lemma nbrs_add_edge_other g a r b y : no_edge g a b = true -> y <> a -> y <> b -> nbrs (g_add_edge g a r b) y = nbrs g y.
Proof.
  intros NE Ha Hb. rewrite (nbrs_add_edge _ _ _ _ _ NE). unfold nb_of. simpl.
  assert (E1 : str_eqb a y = false) by (apply str_eqb_neq; congruence).
  assert (E2 : str_eqb b y = false) by (apply str_eqb_neq; congruence).
  rewrite E1, E2. apply app_nil_r.
Qed.

Lemma is_sp_dec n : {is_type n sServicePort = true} + {is_type n sServicePort = false}.
Proof. destruct (is_type n sServicePort); auto. Qed.

Lemma filter_none {A} (f : A -> bool) l : (forall a, In a l -> f a = false) -> filter f l = [].
Proof. induction l as [|a l IH]; simpl; intro H; [reflexivity|]. rewrite (H a (or_introl eq_refl)). apply IH. intros; apply H; right; assumption. Qed.

Lemma no_edge_nbrs g a b : (forall r, ~ In (b, r) (nbrs g a)) -> no_edge g a b = true.
Proof.
  intro H. unfold no_edge. apply negb_true_iff. destruct (existsb _ _) eqn:E; [|reflexivity].
  apply existsb_exists in E as [e [He Hs]]. exfalso. apply (H (erel e)).
  apply In_nbrs. exists e. split; [exact He|]. split; [reflexivity|]. unfold same_ends in Hs.
  apply orb_true_iff in Hs as [Hs|Hs]; apply andb_true_iff in Hs as [A B]; apply str_eqb_eq in A; apply str_eqb_eq in B; auto.
Qed.
Lemma name_of_add_owned_new g nd a r : has_id g (nid nd) = false -> name_of (add_owned g nd a r) (nid nd) = nname nd.
Proof.
  intro Hf. unfold name_of, add_owned.
  change (find_nodes (g_add_edge (g_add_node g nd) a r (nid nd)) (nid nd)) with (find_nodes (g_add_node g nd) (nid nd)).
  rewrite (find_nodes_add_node_same _ _ Hf). reflexivity.
Qed.

(* a new service port under a service *)
Lemma sp_owned_okR g sp s :
  has_id g (nid sp) = false -> new_node_ok sp = true -> ncls sp = KCP -> is_type sp sServicePort = true ->
  cls_is g s KNS = true -> sibling_free g s Connects KCP (nname sp) = true -> owned_okR g sp s Connects = true.
Proof.
  intros F N C T Cs SF. unfold owned_okR, fresh, owner_shape_okR. rewrite F, N, C. simpl.
  rewrite (is_type_excl _ _ _ T), Cs by reflexivity. exact SF.
Qed.

(* l is a new link for the interfaces x and y; a service port among them is exempt from the peer rule *)
Record link_pair_ok (ep : str -> bool) (g : graph) (l : node) (x y : str) : Prop := {
  lpo_W : WFr no_exempt ep g;
  lpo_fresh : has_id g (nid l) = false;
  lpo_node : new_node_ok l = true;
  lpo_cls : ncls l = KLink;
  lpo_name : name_free g KLink (nname l) = true;
  lpo_x : cls_is g x KCP = true;
  lpo_y : cls_is g y KCP = true;
  lpo_ne : x <> y;
  lpo_ex : negb (typ_is g x sServicePort) || ep x = true;
  lpo_ey : negb (typ_is g y sServicePort) || ep y = true }.

Section LinkPair.
Variables (ep : str -> bool) (g : graph) (l : node) (x y : str).
Local Notation lk := (nid l).
Hypothesis LP : link_pair_ok ep g l x y.
Let W := lpo_W _ _ _ _ _ LP.
Let Fl := lpo_fresh _ _ _ _ _ LP.
Let Nl := lpo_node _ _ _ _ _ LP.
Let Kl := lpo_cls _ _ _ _ _ LP.
Let NF := lpo_name _ _ _ _ _ LP.
Let Cx := lpo_x _ _ _ _ _ LP.
Let Cy := lpo_y _ _ _ _ _ LP.
Let Nxy := lpo_ne _ _ _ _ _ LP.
Let Ex := lpo_ex _ _ _ _ _ LP.
Let Ey := lpo_ey _ _ _ _ _ LP.
Let g1 := g_add_node g l.
Let g2 := add_link_edge g1 lk x.
Let g3 := add_link_edge g2 lk y.

Lemma lp_old z : has_id g z = true -> z <> lk.
Proof. intros H E. subst z. congruence. Qed.
Lemma lp_cls z k : z <> lk -> cls_is g3 z k = cls_is g z k.
Proof. intro H. apply (cls_is_ext g (g_add_node g l)). apply find_nodes_add_node_other. exact H. Qed.
Lemma lp_typ z t : z <> lk -> typ_is g3 z t = typ_is g z t.
Proof. intro H. apply (typ_is_ext g (g_add_node g l)). apply find_nodes_add_node_other. exact H. Qed.
Lemma lp_cls_l k : cls_is g3 lk k = cls_eqb (ncls l) k.
Proof. unfold cls_is, cls_of. change (find_nodes g3 lk) with (find_nodes g1 lk). unfold g1. rewrite (find_nodes_add_node_same _ _ Fl). reflexivity. Qed.

Lemma lp_W1 : WFr no_exempt ep g1.
Proof. apply WFr_add_plain; [exact W|]. unfold plain_ok, fresh. rewrite Fl, Nl, Kl, NF. reflexivity. Qed.
Lemma lp_nbrs1_l : nbrs g1 lk = [].
Proof. unfold g1. rewrite nbrs_add_node. apply nbrs_fresh_nil; [apply (r_edge_ends _ _ _ W) | exact Fl]. Qed.

Lemma lp_ok2 : link_edge_okR ep g1 lk x = true.
Proof.
  pose proof (lp_old x (cls_is_has_id _ _ _ Cx)) as Nx.
  unfold link_edge_okR, first_nb. rewrite lp_nbrs1_l. change (cls_is g1) with (cls_is g3). change (typ_is g1) with (typ_is g3).
  rewrite (lp_cls_l KLink), Kl, (lp_cls x KCP Nx), Cx, (lp_typ x _ Nx), Ex. simpl.
  rewrite no_edge_nbrs by (intros r H; rewrite lp_nbrs1_l in H; destruct H). reflexivity.
Qed.
Lemma lp_nbrs2_l : nbrs g2 lk = [(x, Connects)].
Proof. unfold g2. rewrite (le_nbrs _ _ _ _ lp_ok2), lp_nbrs1_l, str_eqb_refl. reflexivity. Qed.
Lemma lp_ok3 : link_edge_okR ep g2 lk y = true.
Proof.
  pose proof (lp_old x (cls_is_has_id _ _ _ Cx)) as Nx. pose proof (lp_old y (cls_is_has_id _ _ _ Cy)) as Ny.
  unfold link_edge_okR, first_nb. rewrite lp_nbrs2_l. change (cls_is g2) with (cls_is g3). change (typ_is g2) with (typ_is g3).
  rewrite (lp_cls_l KLink), Kl, (lp_cls y KCP Ny), Cy, (lp_typ y _ Ny), Ey. simpl.
  rewrite (lp_cls x KCP Nx), Cx, no_edge_nbrs by (intros r H; rewrite lp_nbrs2_l in H; destruct H as [H|[]]; inversion H; contradiction).
  simpl. rewrite (lp_typ x _ Nx), Ex. reflexivity.
Qed.

Lemma lp_W : WFr no_exempt ep g3.
Proof. apply WFr_add_link_edge; [apply WFr_add_link_edge; [exact lp_W1 | exact lp_ok2] | exact lp_ok3]. Qed.

Lemma lp_nbrs z : nbrs g3 z = nbrs g z ++ (if str_eqb lk z then [(x, Connects)] else if str_eqb x z then [(lk, Connects)] else [])
                                      ++ (if str_eqb lk z then [(y, Connects)] else if str_eqb y z then [(lk, Connects)] else []).
Proof.
  unfold g3. rewrite (le_nbrs _ _ _ _ lp_ok3). unfold g2. rewrite (le_nbrs _ _ _ _ lp_ok2). unfold g1. rewrite nbrs_add_node.
  symmetry. apply app_assoc.
Qed.
Lemma lp_first_l : first_nb g3 lk Connects KCP = [x; y].
Proof.
  unfold first_nb. rewrite lp_nbrs, (nbrs_fresh_nil _ _ (r_edge_ends _ _ _ W) Fl), str_eqb_refl. simpl.
  rewrite (lp_cls x KCP (lp_old x (cls_is_has_id _ _ _ Cx))), Cx, (lp_cls y KCP (lp_old y (cls_is_has_id _ _ _ Cy))), Cy. reflexivity.
Qed.

(* an end that had no link before has the other end as its only peer *)
Lemma lp_peers u v : (u = x /\ v = y) \/ (u = y /\ v = x) ->
  (forall j r, In (j, r) (nbrs g u) -> cls_is g j KLink = false) -> peers g3 u = [v].
Proof.
  intros Huv NL.
  assert (Cu : cls_is g u KCP = true) by (destruct Huv as [[-> _]|[-> _]]; assumption).
  pose proof (lp_old u (cls_is_has_id _ _ _ Cu)) as Nu.
  assert (E1 : str_eqb lk u = false) by (apply str_eqb_neq; congruence).
  assert (Fu : first_nb g3 u Connects KLink = [lk]).
  { unfold first_nb. rewrite lp_nbrs, E1, !filter_app, !map_app.
    rewrite (filter_none _ (nbrs g u)).
    - destruct Huv as [[-> ->]|[-> ->]]; rewrite str_eqb_refl; [assert (E2 : str_eqb y x = false) by (apply str_eqb_neq; congruence)
                                                              | assert (E2 : str_eqb x y = false) by (apply str_eqb_neq; exact Nxy)];
        rewrite E2; simpl; rewrite (lp_cls_l KLink), Kl; reflexivity.
    - intros [j r] Hj. simpl. pose proof (NL j r Hj) as Cj.
      rewrite (lp_cls j KLink), Cj; [apply andb_false_r|]. apply lp_old. apply (nbrs_has_id _ _ _ _ (r_edge_ends _ _ _ W)) in Hj. tauto. }
  unfold peers. rewrite Fu. simpl. rewrite lp_first_l, app_nil_r. simpl.
  destruct Huv as [[-> ->]|[-> ->]]; rewrite str_eqb_refl; simpl.
  - assert (E2 : str_eqb y x = false) by (apply str_eqb_neq; congruence). rewrite E2. reflexivity.
  - assert (E2 : str_eqb x y = false) by (apply str_eqb_neq; exact Nxy). rewrite E2. reflexivity.
Qed.
End LinkPair.

Section Peering.
Variables (g : graph) (s i : str) (sp l : node).
Hypothesis W : WF g.
Hypothesis OK : peering_ok g s i sp l = true.
Local Notation ps := (nid sp).
Local Notation lk := (nid l).
Let ep := fun z => str_eqb z ps.
Let g1 := add_owned g sp s Connects.
Let g4 := add_link_edge (add_link_edge (g_add_node g1 l) lk i) lk ps.

Lemma pk_parts :
  has_id g ps = false /\ has_id g lk = false /\ ps <> lk /\ new_node_ok sp = true /\ new_node_ok l = true /\
  ncls sp = KCP /\ is_type sp sServicePort = true /\ ncls l = KLink /\ cls_is g s KNS = true /\ cls_is g i KCP = true /\
  typ_is g i sServicePort = false /\ sibling_free g s Connects KCP (nname sp) = true /\ name_free g KLink (nname l) = true.
Proof.
  unfold peering_ok, fresh in OK. repeat (apply andb_true_iff in OK as [OK ?]).
  apply negb_true_iff in OK. apply negb_true_iff in H10. apply negb_true_iff in H9. apply str_eqb_neq in H9.
  apply cls_eqb_eq in H6. apply cls_eqb_eq in H4. apply negb_true_iff in H1.
  repeat split; assumption.
Qed.


Lemma pk_ok1 : owned_okR g sp s Connects = true.
Proof.
  destruct pk_parts as [F1 [_ [_ [N1 [_ [C1 [T1 [_ [Cs [_ [_ [SF _]]]]]]]]]]]]. apply sp_owned_okR; assumption.
Qed.
Lemma pk_W1 : WFr no_exempt ep g1.
Proof. apply WFr_add_owned; [apply WF_WFr_ep; exact W | exact pk_ok1 | intros _ _; unfold ep; apply str_eqb_refl]. Qed.

Lemma pk_ne : i <> ps /\ s <> ps /\ i <> lk /\ s <> lk /\ i <> s.
Proof.
  destruct pk_parts as [F1 [F2 [_ [_ [_ [_ [_ [_ [Cs [Ci _]]]]]]]]]].
  pose proof (cls_is_has_id _ _ _ Cs) as Hs. pose proof (cls_is_has_id _ _ _ Ci) as Hi.
  repeat split; intro E; try (rewrite <- E in *; congruence).
  subst s. rewrite (cls_is_unique _ _ _ KNS Ci) in Cs; discriminate.
Qed.

Lemma pk_fresh_l1 : has_id g1 lk = false.
Proof.
  destruct pk_parts as [_ [F2 [Ne _]]]. unfold g1. rewrite has_id_add_owned, F2. apply str_eqb_neq. exact Ne.
Qed.
Lemma pk_nolink_ps j r : In (j, r) (nbrs g1 ps) -> cls_is g1 j KLink = false.
Proof.
  destruct pk_parts as [_ [_ [_ [_ [_ [_ [_ [_ [Cs _]]]]]]]]]. destruct pk_ne as [_ [Nsp _]].
  unfold g1. rewrite (ao_nbrs_xR _ _ _ _ _ (WF_WFr_ep ep g W) pk_ok1). intros [H|[]]. inversion H; subst j.
  rewrite (ao_cls_old _ _ _ _ _ _ Nsp). apply (cls_is_unique _ _ _ _ Cs). discriminate.
Qed.

Lemma pk_lp : link_pair_ok ep g1 l i ps.
Proof.
  destruct pk_parts as [_ [_ [_ [_ [N2 [C1 [_ [C2 [_ [Ci [Ti [_ NF]]]]]]]]]]]]. destruct pk_ne as [Nip _].
  constructor; try assumption.
  - exact pk_W1.
  - exact pk_fresh_l1.
  - change (name_free (g_add_node g sp) KLink (nname l) = true). rewrite name_free_add_other; [exact NF | rewrite C1; reflexivity].
  - unfold g1. rewrite (ao_cls_old _ _ _ _ _ _ Nip). exact Ci.
  - unfold g1. rewrite (ao_cls_newR _ _ _ _ pk_ok1), C1. reflexivity.
  - unfold g1. rewrite (ao_typ_old _ _ _ _ _ _ Nip), Ti. reflexivity.
  - unfold ep. rewrite str_eqb_refl. apply orb_true_r.
Qed.

Lemma pk_W4 : WFr no_exempt ep g4.
Proof. exact (lp_W _ _ _ _ _ pk_lp). Qed.
Lemma pk_peers4 : peers g4 ps = [i].
Proof. exact (lp_peers _ _ _ _ _ pk_lp ps i (or_intror (conj eq_refl eq_refl)) pk_nolink_ps). Qed.

Theorem WF_add_peering : WF (add_peering g s i sp l).
Proof.
  change (WF g4).
  apply WF_WFr. apply (WFr_discharge_ep _ _ _ pk_W4). intros n Hn _ He _ _. unfold ep in He. apply str_eqb_eq in He.
  rewrite He. rewrite pk_peers4. reflexivity.
Qed.

(* frame: what the unit leaves alone *)
Lemma pk_cls4_old y k : y <> ps -> y <> lk -> cls_is g4 y k = cls_is g y k.
Proof. intros H1 H2. unfold g4. rewrite (lp_cls g1 l i ps y k H2). apply ao_cls_old. exact H1. Qed.
Lemma pk_typ4_old y t : y <> ps -> y <> lk -> typ_is g4 y t = typ_is g y t.
Proof. intros H1 H2. unfold g4. rewrite (lp_typ g1 l i ps y t H2). apply ao_typ_old. exact H1. Qed.
Lemma pk_typ4_ps t : typ_is g4 ps t = is_type sp t.
Proof.
  destruct pk_parts as [_ [_ [Ne _]]]. unfold g4. rewrite (lp_typ g1 l i ps ps t Ne). apply (ao_typ_new _ _ _ _ pk_ok1).
Qed.
Lemma pk_cls4_l k : cls_is g4 lk k = cls_eqb (ncls l) k.
Proof. apply (lp_cls_l _ _ _ _ _ pk_lp). Qed.
Lemma pk_nbrs4 y : nbrs g4 y = nbrs g y ++ (if str_eqb s y then [(ps, Connects)] else if str_eqb ps y then [(s, Connects)] else [])
                              ++ (if str_eqb lk y then [(i, Connects)] else if str_eqb i y then [(lk, Connects)] else [])
                              ++ (if str_eqb lk y then [(ps, Connects)] else if str_eqb ps y then [(lk, Connects)] else []).
Proof.
  unfold g4. rewrite (lp_nbrs _ _ _ _ _ pk_lp). unfold g1. rewrite (ao_nbrs _ _ _ _ _ (WF_WFr_ep ep g W) pk_ok1).
  symmetry. apply app_assoc.
Qed.
Lemma pk_nbrs4_other y : y <> s -> y <> ps -> y <> lk -> y <> i -> nbrs g4 y = nbrs g y.
Proof.
  intros H1 H2 H3 H4. rewrite pk_nbrs4.
  assert (E1 : str_eqb s y = false) by (apply str_eqb_neq; congruence).
  assert (E2 : str_eqb ps y = false) by (apply str_eqb_neq; congruence).
  assert (E3 : str_eqb lk y = false) by (apply str_eqb_neq; congruence).
  assert (E4 : str_eqb i y = false) by (apply str_eqb_neq; congruence).
  rewrite E1, E2, E3, E4. apply app_nil_r.
Qed.
Lemma pk_nbrs4_s : nbrs g4 s = nbrs g s ++ [(ps, Connects)].
Proof.
  destruct pk_ne as [_ [N1 [_ [N2 N3]]]]. rewrite pk_nbrs4, str_eqb_refl.
  assert (E2 : str_eqb ps s = false) by (apply str_eqb_neq; congruence).
  assert (E3 : str_eqb lk s = false) by (apply str_eqb_neq; congruence).
  assert (E4 : str_eqb i s = false) by (apply str_eqb_neq; exact N3).
  rewrite E2, E3, E4. reflexivity.
Qed.
End Peering.

Lemma add_peering_eq g s i sp l :
  add_peering g s i sp l = add_link_edge (add_link_edge (g_add_node (add_owned g sp s Connects) l) (nid l) i) (nid l) (nid sp).
Proof. reflexivity. Qed.

Section Ports2.
Variables (ep : str -> bool) (g : graph) (a b : str) (pa pb : node).
Hypothesis W : WF g.
Hypothesis OK : ports2_ok g a b pa pb = true.
Hypothesis Hepa : ep (nid pa) = true.
Local Notation xa := (nid pa).
Local Notation xb := (nid pb).
Let g1 := add_owned g pa a Connects.

Lemma pt_parts :
  has_id g xa = false /\ has_id g xb = false /\ xa <> xb /\
  new_node_ok pa = true /\ new_node_ok pb = true /\
  ncls pa = KCP /\ is_type pa sServicePort = true /\ ncls pb = KCP /\ is_type pb sServicePort = true /\
  cls_is g a KNS = true /\ cls_is g b KNS = true /\
  sibling_free g a Connects KCP (nname pa) = true /\ sibling_free g b Connects KCP (nname pb) = true /\
  (a = b -> ostr_eqb (nname pa) (nname pb) = false).
Proof.
  unfold ports2_ok, fresh in OK. do 13 (apply andb_true_iff in OK as [OK ?]).
  apply negb_true_iff in OK.
  repeat match goal with H : negb _ = true |- _ => apply negb_true_iff in H end.
  repeat match goal with H : str_eqb _ _ = false |- _ => apply str_eqb_neq in H end.
  repeat match goal with H : cls_eqb _ _ = true |- _ => apply cls_eqb_eq in H end.
  repeat split; try assumption.
  intro E. apply orb_true_iff in H as [X|X]; apply negb_true_iff in X; [|exact X].
  apply str_eqb_neq in X. contradiction.
Qed.


Lemma pt_ok1 : owned_okR g pa a Connects = true.
Proof.
  destruct pt_parts as [F1 [_ [_ [N1 [_ [C1 [T1 [_ [_ [Ca [_ [SF _]]]]]]]]]]]]. apply sp_owned_okR; assumption.
Qed.
Lemma pt_W1 : WFr no_exempt ep g1.
Proof. apply WFr_add_owned; [apply WF_WFr_ep; exact W | exact pt_ok1 | intros _ _; exact Hepa]. Qed.

Lemma pt_ok2 : owned_okR g1 pb b Connects = true.
Proof.
  destruct pt_parts as [F1 [F2 [Nab [_ [N2 [C1 [_ [C2 [T2 [Ca [Cb [_ [SFb Hab]]]]]]]]]]]]].
  assert (B1 : b <> xa) by (intro E; rewrite <- E in F1; rewrite (cls_is_has_id _ _ _ Cb) in F1; discriminate).
  unfold owned_okR, fresh, owner_shape_okR. unfold g1 at 1. rewrite has_id_add_owned, F2.
  assert (E : str_eqb xa xb = false) by (apply str_eqb_neq; exact Nab). rewrite E, N2, C2. simpl.
  assert (X : is_type pb sSubInterface = false) by (apply (is_type_excl _ _ _ T2); reflexivity).
  rewrite X. unfold g1 at 1. rewrite (ao_cls_old g pa a Connects b KNS B1), Cb. simpl.
  unfold sibling_free. apply forallb_forall. intros j Hj. apply In_first_nb in Hj as [Hj Cj].
  unfold g1 in Hj. rewrite (ao_nbrs _ _ _ _ _ (WF_WFr_ep ep g W) pt_ok1) in Hj. apply in_app_or in Hj as [Hj|Hj].
  - assert (Hne : j <> xa).
    { intro Ej. pose proof (proj1 (nbrs_has_id _ _ _ _ (wf_edge_ends _ W) Hj)) as Hh. rewrite Ej in Hh. congruence. }
    unfold g1 in Cj. rewrite (ao_cls_old _ _ _ _ _ _ Hne) in Cj. unfold g1. rewrite (ao_name_old _ _ _ _ _ Hne).
    unfold sibling_free in SFb. rewrite forallb_forall in SFb. apply SFb. apply In_first_nb. auto.
  - destruct (str_eqb a b) eqn:Eab.
    + destruct Hj as [Hj|[]]. inversion Hj; subst j. unfold g1. rewrite (name_of_add_owned_new _ _ _ _ F1).
      apply str_eqb_eq in Eab. rewrite (Hab Eab). reflexivity.
    + assert (E2 : str_eqb xa b = false) by (apply str_eqb_neq; congruence). rewrite E2 in Hj. destruct Hj.
Qed.
End Ports2.

(* the side conditions of peer's units from their parts *)
Lemma ports2_ok_sp g a b ia ib na nb :
  has_id g ia = false -> has_id g ib = false -> str_eqb ia ib = false -> cls_is g a KNS = true -> cls_is g b KNS = true ->
  sibling_free g a Connects KCP (Some na) = true -> sibling_free g b Connects KCP (Some nb) = true -> str_eqb a b = false ->
  ports2_ok g a b (mk ia KCP (Some sServicePort) na false) (mk ib KCP (Some sServicePort) nb false) = true.
Proof.
  intros Fa Fb Nab Ca Cb Sa Sb Eab. unfold ports2_ok, fresh. cbn [nid ncls nname mk]. rewrite Fa, Fb, Nab, Ca, Cb, Sa, Sb, Eab. reflexivity.
Qed.
Lemma peering2_ok_link g a b pa pb lid lname ltype :
  ports2_ok g a b pa pb = true -> has_id g lid = false -> str_eqb (nid pa) lid = false -> str_eqb (nid pb) lid = false ->
  type_allowed KLink ltype = true -> name_free g KLink (Some lname) = true ->
  peering2_ok g a b pa pb (mk lid KLink (Some ltype) lname false) = true.
Proof.
  intros P Fl Na Nb Tl NF. unfold ports2_ok in P. repeat (apply andb_true_iff in P as [P ?]).
  assert (Nl : new_node_ok (mk lid KLink (Some ltype) lname false) = true)
    by (unfold new_node_ok, mk; rewrite (type_allowed_vocab KLink ltype lid lname false Tl); reflexivity).
  unfold peering2_ok, fresh. cbn [nid ncls nname mk]. rewrite Fl, Na, Nb.
  repeat first [assumption | apply andb_true_iff; split]; reflexivity.
Qed.

Section Peering2.
Variables (g : graph) (a b : str) (pa pb l : node).
Hypothesis W : WF g.
Hypothesis OK : peering2_ok g a b pa pb l = true.
Local Notation xa := (nid pa).
Local Notation xb := (nid pb).
Local Notation lk := (nid l).
Let ep := fun z => str_eqb z xa || str_eqb z xb.
Let g1 := add_owned g pa a Connects.
Let g2 := add_owned g1 pb b Connects.
Let g5 := add_link_edge (add_link_edge (g_add_node g2 l) lk xa) lk xb.

Lemma p2_ports : ports2_ok g a b pa pb = true.
Proof.
  unfold peering2_ok in OK. repeat (apply andb_true_iff in OK as [OK ?]).
  unfold ports2_ok. repeat first [assumption | apply andb_true_iff; split].
Qed.
Lemma p2_link_parts :
  has_id g lk = false /\ xa <> lk /\ xb <> lk /\ new_node_ok l = true /\ ncls l = KLink /\ name_free g KLink (nname l) = true.
Proof.
  unfold peering2_ok, fresh in OK. do 19 (apply andb_true_iff in OK as [OK ?]).
  repeat split; first [assumption | apply negb_true_iff; assumption | apply str_eqb_neq, negb_true_iff; assumption | apply cls_eqb_eq; assumption].
Qed.
Let W0 := WF_WFr_ep ep g W.
Let ok1 := pt_ok1 g a b pa pb p2_ports.
Let ok2 := pt_ok2 ep g a b pa pb W p2_ports.
Lemma p2_W1 : WFr no_exempt ep g1.
Proof. apply (pt_W1 ep g a b pa pb W p2_ports). unfold ep. rewrite str_eqb_refl. reflexivity. Qed.
Lemma p2_W2 : WFr no_exempt ep g2.
Proof. apply WFr_add_owned; [exact p2_W1 | exact ok2 | intros _ _; unfold ep; rewrite str_eqb_refl; apply orb_true_r]. Qed.

Lemma p2_a_ne : a <> xa /\ a <> xb /\ a <> lk /\ b <> xa /\ b <> xb /\ b <> lk.
Proof.
  destruct (pt_parts g a b pa pb p2_ports) as [F1 [F2 [_ [_ [_ [_ [_ [_ [_ [Ca [Cb _]]]]]]]]]]]. destruct p2_link_parts as [F3 _].
  apply cls_is_has_id in Ca. apply cls_is_has_id in Cb.
  repeat split; intro E; rewrite <- E in *; congruence.
Qed.

Lemma p2_fresh_l2 : has_id g2 lk = false.
Proof.
  destruct p2_link_parts as [F3 [Nal [Nbl _]]]. unfold g2, g1. rewrite !has_id_add_owned, F3. simpl.
  apply orb_false_iff. split; apply str_eqb_neq; assumption.
Qed.

Lemma p2_nolink_xa j r : In (j, r) (nbrs g2 xa) -> cls_is g2 j KLink = false.
Proof.
  destruct (pt_parts g a b pa pb p2_ports) as [_ [_ [Nab [_ [_ [_ [_ [_ [_ [Ca _]]]]]]]]]]. destruct p2_a_ne as [A1 [A2 [_ [B1 _]]]].
  unfold g2. rewrite (ao_nbrs _ _ _ _ _ p2_W1 ok2).
  unfold g1 at 1. rewrite (ao_nbrs_xR _ _ _ _ _ W0 ok1).
  assert (E1 : str_eqb b xa = false) by (apply str_eqb_neq; exact B1).
  assert (E2 : str_eqb xb xa = false) by (apply str_eqb_neq; congruence). rewrite E1, E2.
  intros [H|[]]. inversion H; subst j. rewrite (ao_cls_old _ _ _ _ _ _ A2). unfold g1. rewrite (ao_cls_old _ _ _ _ _ _ A1).
  apply (cls_is_unique _ _ _ _ Ca). discriminate.
Qed.
Lemma p2_nolink_xb j r : In (j, r) (nbrs g2 xb) -> cls_is g2 j KLink = false.
Proof.
  destruct (pt_parts g a b pa pb p2_ports) as [_ [_ [_ [_ [_ [_ [_ [_ [_ [_ [Cb _]]]]]]]]]]]. destruct p2_a_ne as [_ [_ [_ [B1 [B2 _]]]]].
  unfold g2. rewrite (ao_nbrs_xR _ _ _ _ _ p2_W1 ok2).
  intros [H|[]]. inversion H; subst j. rewrite (ao_cls_old _ _ _ _ _ _ B2). unfold g1. rewrite (ao_cls_old _ _ _ _ _ _ B1).
  apply (cls_is_unique _ _ _ _ Cb). discriminate.
Qed.

Lemma p2_lp : link_pair_ok ep g2 l xa xb.
Proof.
  destruct (pt_parts g a b pa pb p2_ports) as [_ [_ [Nab [_ [_ [C1 [_ [C2 _]]]]]]]]. destruct p2_link_parts as [_ [_ [_ [N3 [C3 NF]]]]].
  constructor; try assumption.
  - exact p2_W2.
  - exact p2_fresh_l2.
  - change (name_free (g_add_node (g_add_edge (g_add_node g pa) a Connects xa) pb) KLink (nname l) = true).
    rewrite name_free_add_other by (rewrite C2; reflexivity).
    change (name_free (g_add_node g pa) KLink (nname l) = true). rewrite name_free_add_other; [exact NF | rewrite C1; reflexivity].
  - unfold g2. rewrite (ao_cls_old _ _ _ _ _ _ Nab). unfold g1. rewrite (ao_cls_newR _ _ _ _ ok1), C1. reflexivity.
  - unfold g2. rewrite (ao_cls_newR _ _ _ _ ok2), C2. reflexivity.
  - unfold ep. rewrite str_eqb_refl. apply orb_true_r.
  - unfold ep. rewrite str_eqb_refl, !orb_true_r. reflexivity.
Qed.

Theorem WF_add_peering2 : WF (add_peering2 g a b pa pb l).
Proof.
  change (WF g5).
  apply WF_WFr. apply (WFr_discharge_ep _ _ _ (lp_W _ _ _ _ _ p2_lp)). intros n Hn _ He _ _. unfold ep in He.
  apply orb_true_iff in He as [He|He]; apply str_eqb_eq in He; rewrite He.
  - rewrite (lp_peers _ _ _ _ _ p2_lp xa xb (or_introl (conj eq_refl eq_refl)) p2_nolink_xa). reflexivity.
  - rewrite (lp_peers _ _ _ _ _ p2_lp xb xa (or_intror (conj eq_refl eq_refl)) p2_nolink_xb). reflexivity.
Qed.
End Peering2.

