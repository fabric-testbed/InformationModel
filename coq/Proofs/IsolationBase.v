(* C04: facts about association lists keyed by N, about the nx.Graph primitives of Model/Store.v
   ([search], [find_node], [set_node], ...) and about [view] under each primitive; what a graph-object
   method may do to the nx.Graph ([pg_write]).  Rests on Base/ListFacts.v and Base/Assoc.v only. *)
From Coq Require Import List NArith Bool.
From FIM Require Import Base.ListFacts Base.Assoc Model.Store.
Import ListNotations.
Open Scope N_scope.

Lemma memN_In x l : memN x l = true <-> In x l.
Proof. apply (existsb_eqb_In N.eqb N.eqb_eq). Qed.

Lemma memN_false x l : memN x l = false <-> ~ In x l.
Proof. apply (existsb_eqb_notIn N.eqb N.eqb_eq). Qed.

Lemma filter_filter_irrelevant {A} (f h : A -> bool) l :
  (forall x, In x l -> h x = false -> f x = false) -> filter f (filter h l) = filter f l.
Proof. intro H. apply filter_filter_sub. intros x Hx Ef. destruct (h x) eqn:Eh; [reflexivity|]. rewrite (H x Hx Eh) in Ef. discriminate. Qed.

Lemma map_fst_filter_fst {A B} (p : A -> bool) (l : list (A * B)) :
  map fst (filter (fun n => p (fst n)) l) = filter p (map fst l).
Proof. symmetry. apply filter_map_comm. Qed.

Lemma is_pv_inj v a b : is_pv v a = true -> is_pv v b = true -> a = b.
Proof.
  destruct v; simpl; try discriminate. intros H1 H2.
  apply N.eqb_eq in H1, H2. congruence.
Qed.

Lemma has_val_inj ps k a b : has_val ps k a = true -> has_val ps k b = true -> a = b.
Proof.
  unfold has_val. destruct (aget k ps); try discriminate. apply is_pv_inj.
Qed.

Lemma in_g_other g g' n : in_g g n = true -> g <> g' -> in_g g' n = false.
Proof.
  unfold in_g. intros H Hne. destruct (has_val (snd n) k_graphid g') eqn:E; [|reflexivity].
  exfalso. apply Hne. eapply has_val_inj; eauto.
Qed.

Lemma has_val_aset_other ps p v k x : p <> k -> has_val (aset p v ps) k x = has_val ps k x.
Proof. intro H. unfold has_val. rewrite aget_aset_other by congruence. reflexivity. Qed.

Lemma has_val_aremove_other ps p k x : p <> k -> has_val (aremove p ps) k x = has_val ps k x.
Proof. intro H. unfold has_val. rewrite aget_aremove_other by congruence. reflexivity. Qed.

Lemma has_val_aupdate_notin ps upd k x : ahas k upd = false -> has_val (aupdate upd ps) k x = has_val ps k x.
Proof.
  intro H. unfold has_val. rewrite aget_aupdate_notin; [reflexivity|].
  unfold ahas in H. destruct (aget k upd); [discriminate | reflexivity].
Qed.

Lemma blank_in_g g n c : has_val (blank_attrs g n c) k_graphid g = true.
Proof. unfold blank_attrs, has_val. rewrite aget_aset_same. simpl. apply N.eqb_refl. Qed.

Lemma map_fst_set_node id ps l : map fst (set_node id ps l) = map fst l.
Proof.
  induction l as [|[i q] r IH]; simpl; [reflexivity|].
  destruct (N.eqb i id) eqn:E; simpl; [|now rewrite IH].
  apply N.eqb_eq in E. now subst.
Qed.

Lemma filter_set_node (f : node -> bool) id ps ps' l :
  aget id l = Some ps -> f (id, ps) = false -> f (id, ps') = false ->
  filter f (set_node id ps' l) = filter f l.
Proof.
  induction l as [|[i q] r IH]; simpl; [reflexivity|].
  intros Hget Hf Hf'. rewrite N.eqb_sym in Hget.
  destruct (N.eqb i id) eqn:E.
  - apply N.eqb_eq in E; subst i. inversion Hget; subst q. simpl. now rewrite Hf, Hf'.
  - simpl. destruct (f (i, q)); [f_equal|]; now apply IH.
Qed.

Lemma aget_set_node id ps l k :
  aget k (set_node id ps l) = if N.eqb k id then (match aget id l with Some _ => Some ps | None => None end)
                              else aget k l.
Proof.
  induction l as [|[i q] r IH]; simpl.
  - now destruct (N.eqb k id).
  - destruct (N.eqb i id) eqn:E; simpl.
    + apply N.eqb_eq in E; subst i. rewrite N.eqb_refl.
      destruct (N.eqb k id) eqn:E2; reflexivity.
    + destruct (N.eqb k i) eqn:E3.
      * apply N.eqb_eq in E3; subst k. rewrite E. reflexivity.
      * rewrite IH. destruct (N.eqb k id) eqn:E2; [|reflexivity].
        apply N.eqb_eq in E2; subst k. rewrite N.eqb_sym, E. reflexivity.
Qed.

Lemma set_node_app_fresh id ps q l : aget id l = None -> set_node id ps (l ++ [(id, q)]) = l ++ [(id, ps)].
Proof.
  induction l as [|[i r] l IH]; simpl; [now rewrite N.eqb_refl|].
  rewrite N.eqb_sym. destruct (N.eqb i id); [discriminate | intro H; now rewrite IH].
Qed.

Lemma edges_ok_In ig a b ps :
  edges_ok ig = true -> In (a, b, ps) (iedges ig) -> ahas a (inodes ig) = true /\ ahas b (inodes ig) = true.
Proof.
  unfold edges_ok. rewrite forallb_forall. intros H Hin. now apply andb_true_iff, (H (a, b, ps)).
Qed.

Lemma search_In G preds x :
  In x (search G preds) <-> exists ps, In (x, ps) (gn G) /\ matches preds ps = true.
Proof.
  unfold search. rewrite in_map_iff. split.
  - intros [[i ps] [E H]]. simpl in E; subst i. apply filter_In in H. eauto.
  - intros [ps H]. exists (x, ps). split; [reflexivity | now apply filter_In].
Qed.

Lemma search_sound G preds x :
  NoDup (map fst (gn G)) -> In x (search G preds) ->
  exists ps, nx_node G x = Some ps /\ matches preds ps = true.
Proof.
  intros Hnd Hin. apply search_In in Hin as [ps [Hin Hm]]. exists ps. split; [|exact Hm].
  now apply NoDup_In_aget.
Qed.

Lemma matches_cons k v preds ps : matches ((k, v) :: preds) ps = has_val ps k v && matches preds ps.
Proof. reflexivity. Qed.

Lemma search_graphid_ids_in G g : search G [(k_graphid, g)] = ids_in G g.
Proof.
  unfold search, ids_in. f_equal. apply filter_ext. intros [i ps].
  unfold matches, in_g. simpl. now rewrite andb_true_r.
Qed.

Lemma In_ids_in G g i : In i (ids_in G g) <-> exists ps, In (i, ps) (gn G) /\ in_g g (i, ps) = true.
Proof.
  rewrite <- search_graphid_ids_in, search_In. unfold matches, in_g. simpl.
  split; intros [ps H]; exists ps; now rewrite andb_true_r in *.
Qed.

Lemma find_node_search G g n id : find_node G g n = Some id -> In id (search G [(k_nodeid, n); (k_graphid, g)]).
Proof.
  unfold find_node. destruct (search G _) as [|x [|y r]]; try discriminate. intros [= ->]. now left.
Qed.

Lemma find_node_sound G g n id :
  NoDup (map fst (gn G)) -> find_node G g n = Some id ->
  exists ps, nx_node G id = Some ps /\ in_g g (id, ps) = true /\ has_val ps k_nodeid n = true.
Proof.
  intros Hnd H. destruct (search_sound G _ id Hnd (find_node_search G g n id H)) as [ps [H1 H2]].
  exists ps. split; [exact H1|]. simpl in H2. rewrite andb_true_r in H2.
  apply andb_true_iff in H2 as [Ha Hb]. unfold in_g. simpl. now split.
Qed.

Lemma find_node_in G g n id : find_node G g n = Some id -> In id (ids_in G g).
Proof.
  intro H. apply find_node_search, search_In in H as [ps [Hin Hm]]. apply In_ids_in. exists ps. split; [exact Hin|].
  simpl in Hm. rewrite andb_true_r in Hm. now apply andb_true_iff in Hm.
Qed.

Lemma find_link_first G g a b ia ib ps : find_link G g a b = Some (ia, ib, ps) -> find_node G g a = Some ia.
Proof.
  unfold find_link. destruct (find_node G g a) as [x|]; [|discriminate].
  destruct (find_node G g b) as [y|]; [|discriminate].
  destruct (nx_edge G x y); [|discriminate]. intro H; inversion H; now subst.
Qed.

(* with unique internal ids, no node belongs to two graphs *)
Lemma ids_in_disjoint G g g' i :
  NoDup (map fst (gn G)) -> g <> g' -> In i (ids_in G g) -> memN i (ids_in G g') = false.
Proof.
  intros Hnd Hne Hi. apply memN_false. intro Hi'.
  apply In_ids_in in Hi as [ps [H1 H2]]. apply In_ids_in in Hi' as [ps' [H1' H2']].
  apply (NoDup_In_aget _ _ _ Hnd) in H1, H1'. rewrite H1 in H1'. inversion H1'; subst ps'.
  rewrite (in_g_other g g' _ H2 Hne) in H2'. discriminate.
Qed.

Lemma view_same_filter G' G g' :
  filter (in_g g') (gn G') = filter (in_g g') (gn G) -> ge G' = ge G -> view G' g' = view G g'.
Proof. intros H1 H2. unfold view, ids_in. now rewrite H1, H2. Qed.

Lemma view_set_node G id ps ps' g' :
  nx_node G id = Some ps -> in_g g' (id, ps) = false -> in_g g' (id, ps') = false ->
  view (nx_set_node G id ps') g' = view G g'.
Proof.
  intros Hget H1 H2. apply view_same_filter; [|reflexivity].
  apply (filter_set_node (in_g g') id ps ps' (gn G) Hget H1 H2).
Qed.

Lemma view_app_nodes G ns g' :
  (forall n, In n ns -> in_g g' n = false) -> view (mkG (gn G ++ ns) (ge G)) g' = view G g'.
Proof.
  intro H. apply view_same_filter; [|reflexivity]. cbn [gn].
  now rewrite filter_app, (filter_none _ _ H), app_nil_r.
Qed.

Lemma in_ids_false_l I a b ps : memN a I = false -> in_ids I (a, b, ps) = false.
Proof. intro H. unfold in_ids. now rewrite H. Qed.
Lemma in_ids_false_r I a b ps : memN b I = false -> in_ids I (a, b, ps) = false.
Proof. intro H. unfold in_ids. rewrite H. apply andb_false_r. Qed.

Lemma edge_is_in_ids_false I a b e : memN a I = false -> edge_is a b e = true -> in_ids I e = false.
Proof.
  destruct e as [[x y] ps]. unfold edge_is. intros Hm H.
  apply orb_true_iff in H as [H|H]; apply andb_true_iff in H as [H1 H2];
    apply N.eqb_eq in H1, H2; subst.
  - now apply in_ids_false_l.
  - now apply in_ids_false_r.
Qed.

Lemma filter_set_edge I a b ps l :
  memN a I = false -> filter (in_ids I) (set_edge a b ps l) = filter (in_ids I) l.
Proof.
  intro Hm. induction l as [|[[x y] q] r IH]; [reflexivity|].
  cbn [set_edge]. destruct (edge_is a b (x, y, q)) eqn:E.
  - cbn [fst snd filter].
    rewrite (edge_is_in_ids_false I a b (x, y, q) Hm E).
    rewrite (edge_is_in_ids_false I a b (x, y, ps) Hm E). reflexivity.
  - cbn [filter]. destruct (in_ids I (x, y, q)); [f_equal|]; exact IH.
Qed.

Lemma view_set_edge G a b ps g' :
  memN a (ids_in G g') = false -> view (nx_set_edge G a b ps) g' = view G g'.
Proof.
  intro H. unfold view, nx_set_edge, ids_in. simpl. f_equal. now apply filter_set_edge.
Qed.

Lemma view_append_edge G a b attrs g' :
  memN a (ids_in G g') = false -> view (mkG (gn G) (ge G ++ [(a, b, attrs)])) g' = view G g'.
Proof.
  intro H. unfold view. cbn [gn ge].
  change (ids_in (mkG (gn G) (ge G ++ [(a, b, attrs)])) g') with (ids_in G g').
  f_equal. rewrite filter_app. cbn [filter]. rewrite (in_ids_false_l _ a b attrs H). apply app_nil_r.
Qed.

Lemma view_add_edge G a b attrs g' :
  memN a (ids_in G g') = false -> view (nx_add_edge G a b attrs) g' = view G g'.
Proof.
  intro H. unfold nx_add_edge. destruct (nx_edge G a b).
  - now apply view_set_edge.
  - now apply view_append_edge.
Qed.

Lemma view_filter G (pn : node -> bool) (pe : edge -> bool) g' :
  (forall n, pn n = false -> memN (fst n) (ids_in G g') = false) ->
  (forall a b ps, pe (a, b, ps) = false -> memN a (ids_in G g') = false \/ memN b (ids_in G g') = false) ->
  view (mkG (filter pn (gn G)) (filter pe (ge G))) g' = view G g'.
Proof.
  intros Hn He.
  assert (E : filter (in_g g') (filter pn (gn G)) = filter (in_g g') (gn G)).
  { apply filter_filter_irrelevant. intros [i ps] Hin Hp. apply Hn, memN_false in Hp.
    destruct (in_g g' (i, ps)) eqn:Eg; [|reflexivity]. exfalso. apply Hp, In_ids_in. eauto. }
  unfold view, ids_in. cbn [gn ge]. rewrite E. f_equal. apply filter_filter_irrelevant.
  intros [[a b] ps] _ Hp. destruct (He a b ps Hp); [now apply in_ids_false_l | now apply in_ids_false_r].
Qed.

Lemma view_remove_nodes G ids g' :
  (forall i, In i ids -> memN i (ids_in G g') = false) ->
  view (nx_remove_nodes G ids) g' = view G g'.
Proof.
  intro H. apply view_filter.
  - intros n Hp. apply H, memN_In. now apply negb_false_iff in Hp.
  - intros a b ps Hp. apply negb_false_iff, orb_true_iff in Hp.
    destruct Hp as [Hp|Hp]; apply memN_In, H in Hp; auto.
Qed.

Lemma view_remove_node G id g' :
  memN id (ids_in G g') = false -> view (nx_remove_node G id) g' = view G g'.
Proof.
  intro H. apply view_filter.
  - intros n Hp. apply negb_false_iff, N.eqb_eq in Hp. now subst.
  - intros a b ps Hp. apply negb_false_iff, orb_true_iff in Hp.
    destruct Hp as [Hp|Hp]; apply N.eqb_eq in Hp; subst; auto.
Qed.

Lemma nx_add_node_fresh G id attrs :
  nx_node G id = None -> nx_add_node G id attrs = mkG (gn G ++ [(id, attrs)]) (ge G).
Proof. intro H. unfold nx_add_node. now rewrite H. Qed.

Lemma nx_node_add_fresh G id attrs : nx_node G id = None -> nx_node (nx_add_node G id attrs) id = Some attrs.
Proof. intro Hn. rewrite nx_add_node_fresh by exact Hn. now apply aget_app_new. Qed.

Lemma pg_add_node_fresh G g newid n c ps G' :
  nx_node G newid = None -> pg_add_node G g newid n c ps = Some G' ->
  G' = mkG (gn G ++ [(newid, match ps with
                             | Some u => aupdate u (blank_attrs g n c)
                             | None => blank_attrs g n c
                             end)]) (ge G).
Proof.
  intros Hn H. unfold pg_add_node in H.
  destruct (search G [(k_graphid, g); (k_nodeid, n)]); [|discriminate].
  destruct ps as [u|]; [rewrite (nx_node_add_fresh G newid _ Hn) in H|];
    rewrite nx_add_node_fresh in H by exact Hn; inversion H; [|reflexivity].
  unfold nx_set_node. cbn [gn ge]. now rewrite set_node_app_fresh.
Qed.

Lemma pg_add_node_ge G g newid n c ps G' : pg_add_node G g newid n c ps = Some G' -> ge G' = ge G.
Proof.
  unfold pg_add_node. destruct (search G [(k_graphid, g); (k_nodeid, n)]); [|discriminate].
  assert (E : ge (nx_add_node G newid (blank_attrs g n c)) = ge G)
    by (unfold nx_add_node; now destruct (nx_node G newid)).
  destruct ps as [u|]; [destruct (nx_node _ newid)|]; intro H; inversion H; exact E.
Qed.

(* The three single-node setters are one guarded update, as [with_link] is for the link setters. *)
Definition with_node (G : nxg) (g n : N) (guard : bool) (f : props -> props) : nxg * res :=
  if guard then (G, Err EQuery) else
  match find_node G g n with
  | None => (G, Err EQuery)
  | Some id => match nx_node G id with
               | None => (G, Err EOther)
               | Some ps => (nx_set_node G id (f ps), Ok RUnit)
               end
  end.

Lemma pg_update_node_eq G g n p v : pg_update_node G g n p v = with_node G g n (N.eqb p k_class) (aset p v).
Proof. reflexivity. Qed.
Lemma pg_unset_node_eq G g n p :
  pg_unset_node G g n p = with_node G g n (N.eqb p k_class || memN p no_unset) (aremove p).
Proof. unfold pg_unset_node, with_node. now destruct (N.eqb p k_class). Qed.
Lemma pg_update_node_props_eq G g n u : pg_update_node_props G g n u = with_node G g n (ahas k_class u) (aupdate u).
Proof. reflexivity. Qed.

(* Every mutator of graph g leaves the nx.Graph alone or performs ONE primitive write, on a node or link
   it located through g's own lookups; [Q old new] is what is known of a rewritten property dictionary.
   Invariants are proved once per primitive and hold of every method ([mutator] lists the nine operations
   that run one). *)
Inductive pg_write (Q : props -> props -> Prop) (g : N) (G : nxg) : nxg -> Prop :=
| W_none : pg_write Q g G G
| W_node n id ps ps' : find_node G g n = Some id -> nx_node G id = Some ps -> Q ps ps' ->
    pg_write Q g G (nx_set_node G id ps')
| W_nodes l p v : find_all G g = Some l -> (forall ps, Q ps (aset p v ps)) ->
    pg_write Q g G (mkG (upd_nodes l p v (gn G)) (ge G))
| W_edge a b ia ib ps ps' : find_link G g a b = Some (ia, ib, ps) -> pg_write Q g G (nx_set_edge G ia ib ps')
| W_link a b ia ib ps : find_node G g a = Some ia -> find_node G g b = Some ib ->
    pg_write Q g G (nx_add_edge G ia ib ps)
| W_del n id : find_node G g n = Some id -> pg_write Q g G (nx_remove_node G id).

Section Writes.
Variable Q : props -> props -> Prop.
Variables (G : nxg) (g : N).

Lemma with_node_write n gd f : (gd = false -> forall ps, Q ps (f ps)) -> pg_write Q g G (fst (with_node G g n gd f)).
Proof.
  intro HQ. unfold with_node. destruct gd; [constructor|].
  destruct (find_node G g n) as [id|] eqn:Ef; [|constructor].
  destruct (nx_node G id) as [ps|] eqn:En; [|constructor]. eapply W_node; eauto.
Qed.

Lemma update_nodes_write p v : (forall ps, Q ps (aset p v ps)) -> pg_write Q g G (fst (pg_update_nodes G g p v)).
Proof.
  intro HQ. unfold pg_update_nodes. destruct (find_all G g) as [l|] eqn:E; [|constructor].
  destruct (N.eqb p k_class); [constructor | now apply W_nodes].
Qed.

Lemma with_link_write a b k gd f : pg_write Q g G (fst (with_link G g a b k gd f)).
Proof.
  unfold with_link. destruct gd; [constructor|].
  destruct (find_link G g a b) as [[[ia ib] ps]|] eqn:E; [|constructor].
  destruct (has_val ps k_class k); [eapply W_edge; eauto | constructor].
Qed.

Lemma add_link_write a r b ps : pg_write Q g G (fst (pg_add_link G g a r b ps)).
Proof.
  unfold pg_add_link. destruct (find_node G g a) as [ia|] eqn:Ea; [|constructor].
  destruct (find_node G g b) as [ib|] eqn:Eb; [|constructor].
  destruct ps as [u|]; [destruct (ahas k_class u); [constructor|]|]; eapply W_link; eauto.
Qed.

Lemma delete_node_write n : pg_write Q g G (fst (pg_delete_node G g n)).
Proof.
  unfold pg_delete_node. destruct (find_node G g n) as [id|] eqn:E; [eapply W_del; eauto | constructor].
Qed.

End Writes.

(* the nine operations that apply one of these methods to the graph of [target o] *)
Definition mutator (o : op) (G : nxg) : option (nxg * res) :=
  match o with
  | ODelNode g n => Some (pg_delete_node G g n)
  | OAddLink g a r b ps => Some (pg_add_link G g a r b ps)
  | OUpdNode g n p v => Some (pg_update_node G g n p v)
  | OUnsetNode g n p => Some (pg_unset_node G g n p)
  | OUpdNodes g p v => Some (pg_update_nodes G g p v)
  | OUpdNodeProps g n ps => Some (pg_update_node_props G g n ps)
  | OUpdLink g a b k p v => Some (pg_update_link G g a b k p v)
  | OUnsetLink g a b k p => Some (pg_unset_link G g a b k p)
  | OUpdLinkProps g a b k ps => Some (pg_update_link_props G g a b k ps)
  | _ => None
  end.

Lemma sstep_mutator s o x : mutator o (sg s) = Some x -> sstep s o = lift s x.
Proof. destruct o; intros [= <-]; reflexivity. Qed.

(* what the operation must guarantee of the property dictionaries it rewrites *)
Definition rewrites (Q : props -> props -> Prop) (o : op) : Prop :=
  match o with
  | OUpdNode _ _ p v | OUpdNodes _ p v => forall ps, Q ps (aset p v ps)
  | OUnsetNode _ _ p => memN p no_unset = false -> forall ps, Q ps (aremove p ps)
  | OUpdNodeProps _ _ u => forall ps, Q ps (aupdate u ps)
  | _ => True
  end.

Lemma mutator_write Q o G x : mutator o G = Some x -> rewrites Q o -> pg_write Q (target o) G (fst x).
Proof.
  destruct o; intros [= <-] HQ; cbn [target rewrites] in *.
  - apply delete_node_write.
  - apply add_link_write.
  - apply with_node_write. auto.
  - rewrite pg_unset_node_eq. apply with_node_write. intro E. apply HQ. now apply orb_false_iff in E.
  - now apply update_nodes_write.
  - apply with_node_write. auto.
  - apply with_link_write.
  - apply with_link_write.
  - apply with_link_write.
Qed.

Lemma mutator_write_any o G x : mutator o G = Some x -> pg_write (fun _ _ => True) (target o) G (fst x).
Proof. intro H. apply (mutator_write _ o G x H). destruct o; cbn; auto. Qed.

Lemma s_merge_cases G g n g2 pol :
  fst (s_merge G g n g2 pol) = G \/
  exists u v ps, g <> g2 /\ find_node G g n = Some u /\ find_node G g2 n = Some v /\
                 fst (s_merge G g n g2 pol) = nx_set_node (strip_contraction u (contract G u v)) u ps.
Proof.
  unfold s_merge. destruct (N.eqb g g2) eqn:Eg; [now left|]. apply N.eqb_neq in Eg.
  destruct (negb (pg_graph_exists G g2)); [now left|].
  destruct (find_node G g n) as [u|]; [|now left]. destruct (find_node G g2 n) as [v|]; [|now left].
  destruct (nx_node G u) as [mine|]; [|now left]. destruct (nx_node G v) as [other|]; [|now left].
  destruct pol as [p|]; [destruct (merge_props p mine other mine) as [np|]; [|now left]|];
    right; eexists u, v, _; repeat split; assumption || reflexivity.
Qed.

Lemma find_all_ids_in G g l : find_all G g = Some l -> l = ids_in G g.
Proof.
  unfold find_all. rewrite search_graphid_ids_in. destruct (ids_in G g); [discriminate | now intros [= <-]].
Qed.

Lemma in_g_stamp g l n : In n (stamp g l) -> in_g g n = true.
Proof.
  intro H. apply in_map_iff in H as [[i ps] [<- _]]. unfold in_g, has_val. cbn [snd].
  rewrite aget_aset_same. apply N.eqb_refl.
Qed.

Lemma remove_graph_no_nodes G g : filter (in_g g) (gn (nx_remove_nodes G (search G [(k_graphid, g)]))) = [].
Proof.
  apply filter_none. intros [i ps] Hin. apply filter_In in Hin as [Hin Hp].
  rewrite search_graphid_ids_in in Hp. apply negb_true_iff, memN_false in Hp.
  destruct (in_g g (i, ps)) eqn:E; [|reflexivity]. exfalso. apply Hp, In_ids_in. eauto.
Qed.
