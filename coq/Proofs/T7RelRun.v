(* C07 - the removal programs, run: on a graph with distinct ids and no dangling edges (`sane`) every query succeeds,
   and a sequence of delete_node calls is the removal of a set. *)
From Coq Require Import List Bool Lia.
From FIM Require Import Base.Str Model.T7Graph Model.T7Ops Model.T7WF Model.T7Steps Model.T7Rel Proofs.T7Tables Proofs.T7WFRefl
     Proofs.T7Frame Proofs.T7Api.
Import ListNotations.

Definition sane (g : graph) : Prop := NoDup (map nid (gnodes g)) /\ (forall e, In e (gedges g) -> edge_ends_P g e).
Lemma WFr_sane eo ep g : WFr eo ep g -> sane g.
Proof. intros W. split; [apply (r_ids _ _ _ W) | apply (r_edge_ends _ _ _ W)]. Qed.

Lemma sane_remove_set g d : sane g -> sane (remove_set g d).
Proof.
  intros [ND E]. split.
  - unfold remove_set. simpl. induction (gnodes g) as [|n l IH]; simpl; [constructor|].
    inversion ND; subst. destruct (negb (d (nid n))); simpl; [|auto]. constructor; [|auto].
    intro Hin. apply H1. apply in_map_iff in Hin as [z [Ez Hz]]. apply filter_In in Hz as [Hz _]. rewrite <- Ez. apply in_map. exact Hz.
  - intros e He. unfold remove_set in He. simpl in He. apply filter_In in He as [He Hd].
    apply andb_true_iff in Hd as [Da Db]. destruct (E _ He) as [[na [A1 A2]] [nb [B1 B2]]].
    split; [exists na | exists nb]; (split; [|assumption]); unfold remove_set; simpl; apply filter_In; (split; [assumption|]); congruence.
Qed.

Lemma q_first_nb_ok x r k s : sane (sg s) -> has_id (sg s) x = true -> q_first_nb x r k s = (s, Ok (first_nb (sg s) x r k)).
Proof.
  intros [ND _] H. destruct (find1_ok x s ND H) as [n E]. unfold q_first_nb, bind, getg, ret. rewrite E. reflexivity.
Qed.

Lemma filterM_pure {A} (f : A -> M bool) (F : A -> bool) l s :
  (forall a, In a l -> f a s = (s, Ok (F a))) -> filterM f l s = (s, Ok (filter F l)).
Proof.
  induction l as [|a l IH]; simpl; intro H; [reflexivity|].
  unfold bind. rewrite (H a (or_introl eq_refl)). rewrite IH by (intros; apply H; right; assumption). unfold ret.
  destruct (F a); reflexivity.
Qed.
Lemma mapM_pure {A B} (f : A -> M B) (F : A -> B) l s :
  (forall a, In a l -> f a s = (s, Ok (F a))) -> mapM f l s = (s, Ok (map F l)).
Proof.
  induction l as [|a l IH]; simpl; intro H; [reflexivity|].
  unfold bind. rewrite (H a (or_introl eq_refl)). rewrite IH by (intros; apply H; right; assumption). reflexivity.
Qed.
Lemma concatM_pure {A B} (f : A -> M (list B)) (F : A -> list B) l s :
  (forall a, In a l -> f a s = (s, Ok (F a))) -> concatM f l s = (s, Ok (flat_map F l)).
Proof.
  intro H. unfold concatM, bind. rewrite (mapM_pure f F l s H). unfold ret. rewrite flat_map_concat_map. reflexivity.
Qed.

Lemma remove_set_twice g d1 d2 : remove_set (remove_set g d1) d2 = remove_set g (fun y => d1 y || d2 y).
Proof.
  unfold remove_set. simpl. f_equal.
  - induction (gnodes g) as [|n l IH]; simpl; [reflexivity|]. destruct (d1 (nid n)); simpl; [exact IH|]. destruct (d2 (nid n)); simpl; [exact IH | f_equal; exact IH].
  - induction (gedges g) as [|e l IH]; simpl; [reflexivity|].
    destruct (d1 (ea e)); simpl; [exact IH|]. destruct (d1 (eb e)); simpl; [rewrite ?andb_false_r; exact IH|].
    destruct (negb (d2 (ea e)) && negb (d2 (eb e))); simpl; [f_equal; exact IH | exact IH].
Qed.
Lemma remove_set_ext g d1 d2 : (forall y, d1 y = d2 y) -> remove_set g d1 = remove_set g d2.
Proof.
  intro H. unfold remove_set. f_equal.
  - apply filter_ext. intro n. rewrite H. reflexivity.
  - apply filter_ext. intro e. rewrite !H. reflexivity.
Qed.
Lemma remove_set_none g : remove_set g (fun _ => false) = g.
Proof.
  unfold remove_set. destruct g as [ns es]. simpl. f_equal; apply filter_id; reflexivity.
Qed.

Lemma has_id_remove_keep g d y : has_id g y = true -> d y = false -> has_id (remove_set g d) y = true.
Proof.
  intros H Hd. apply has_id_In in H as [n [Hn E]]. apply has_id_In. exists n. split; [|exact E].
  unfold remove_set. simpl. apply filter_In. split; [exact Hn|]. rewrite E, Hd. reflexivity.
Qed.

Lemma delete_node_ok x s : sane (sg s) -> has_id (sg s) x = true ->
  delete_node x s = (mkSt (remove_set (sg s) (fun y => str_eqb y x)) (sdr s), Ok tt).
Proof.
  intros [ND _] H. destruct (find1_ok x s ND H) as [n E]. unfold delete_node, bind, getg, putg. rewrite E. reflexivity.
Qed.

Lemma del_seq : forall l s, sane (sg s) -> NoDup l -> (forall x, In x l -> has_id (sg s) x = true) ->
  for_each l delete_node s = (mkSt (remove_set (sg s) (fun y => mem_str y l)) (sdr s), Ok tt).
Proof.
  induction l as [|x l IH]; intros s Hs ND Hx; simpl.
  - unfold ret. rewrite remove_set_none. destruct s; reflexivity.
  - inversion ND; subst. unfold bind. rewrite (delete_node_ok x s Hs (Hx x (or_introl eq_refl))).
    rewrite IH; simpl.
    + rewrite remove_set_twice. reflexivity.
    + apply sane_remove_set. exact Hs.
    + exact H2.
    + intros z Hz. apply has_id_remove_keep; [apply Hx; right; exact Hz|]. apply str_eqb_neq. intro E. subst. contradiction.
Qed.

Lemma mem_str_dedup x l : mem_str x (dedup l) = mem_str x l.
Proof.
  induction l as [|y l IH]; simpl; [reflexivity|]. destruct (mem_str y l) eqn:E; simpl.
  - rewrite IH. destruct (str_eqb x y) eqn:Exy; [|reflexivity]. apply str_eqb_eq in Exy. subst. rewrite E. reflexivity.
  - rewrite IH. reflexivity.
Qed.
Lemma NoDup_dedup l : NoDup (dedup l).
Proof.
  induction l as [|y l IH]; simpl; [constructor|]. destruct (mem_str y l) eqn:E; [exact IH|].
  constructor; [|exact IH]. intro H. apply mem_str_In in H. rewrite mem_str_dedup in H. congruence.
Qed.
Lemma In_dedup x l : In x (dedup l) <-> In x l.
Proof. rewrite <- !mem_str_In. rewrite mem_str_dedup. tauto. Qed.
