(* C02: from_props (to_props a) = normalize a, generically from the table check.
   Nothing here computes on the regenerated tables: the lemmas are stated for any kind k whose tables
   pass `tables_symmetric k`; only Proofs/Sliver2Tables.v evaluates that check (by vm_compute). *)
From Coq Require Import List String NArith Bool.
From FIM Require Import Base.Str Model.Sliver2Kinds Gen.PropMap Model.Sliver2Map Model.Sliver2WF
  Proofs.Sliver2Assoc.
Import ListNotations.

(* the lemmas of this file must not depend on the CONTENT of the regenerated tables *)
Local Opaque enums type_enum to_base from_base to_specific from_specific setters getters init_attrs
  sliver_property_to_graph no_unset_properties child_keys node_id_prop.

Definition gp (te : to_entry) : string := snd (fst te).
Definition attr_of (te : to_entry) : string := fst (fst te).

Lemma to_props_entries_spec a : forall T acc P,
  NoDup (map gp T) -> to_props_entries T a acc = Ok P ->
  (forall te, In te T -> exists o, to_entry_val a te = Ok o /\
      alookup (gp te) P = match o with Some p => Some p | None => alookup (gp te) acc end)
  /\ (forall g, ~ In g (map gp T) -> alookup g P = alookup g acc).
Proof.
  induction T as [|t r IH]; intros acc P ND H; simpl in *.
  - inversion H; subst. split; [intros ? []| reflexivity].
  - inversion ND as [|? ? NI ND']; subst.
    destruct (to_entry_val a t) as [o|e] eqn:Et; simpl in H; [|discriminate].
    set (acc' := match o with Some p => aset (snd (fst t)) p acc | None => acc end) in *.
    destruct (IH acc' P ND' H) as [IH1 IH2].
    assert (Hacc' : forall g, g <> gp t -> alookup g acc' = alookup g acc).
    { intros g Hg. unfold acc'. destruct o; [|reflexivity].
      apply alookup_aset_other. intro E. apply Hg. symmetry. exact E. }
    split.
    + intros te [Hte|Hte].
      * subst te. exists o. split; [exact Et|].
        rewrite (IH2 (gp t) NI). unfold acc'. destruct o; [|reflexivity].
        apply alookup_aset_same.
      * destruct (IH1 te Hte) as [o' [Ho' Hl]]. exists o'. split; [exact Ho'|].
        rewrite Hl. destruct o'; [reflexivity|].
        apply Hacc'. intro E. apply NI. rewrite <- E. apply in_map. exact Hte.
    + intros g Hg. rewrite IH2 by (intro; apply Hg; right; assumption).
      apply Hacc'. intro E. apply Hg. left. symmetry. exact E.
Qed.

Lemma to_props_entries_ok a : forall T acc,
  (forall te, In te T -> is_ok (to_entry_val a te) = true) -> exists P, to_props_entries T a acc = Ok P.
Proof.
  induction T as [|t r IH]; intros acc H; simpl.
  - eexists; reflexivity.
  - assert (Ht := H t (or_introl eq_refl)).
    destruct (to_entry_val a t) as [o|e]; simpl in *; [|discriminate].
    apply IH. intros te Hte. apply H. right. exact Hte.
Qed.

Lemma to_props_keys a : forall T acc P,
  to_props_entries T a acc = Ok P -> forall g, In g (akeys P) -> In g (akeys acc) \/ In g (map gp T).
Proof.
  induction T as [|t r IH]; intros acc P H g Hg; simpl in *.
  - inversion H; subst. left; exact Hg.
  - destruct (to_entry_val a t) as [o|e]; simpl in H; [|discriminate].
    destruct (IH _ _ H g Hg) as [Hin|Hin]; [|right; right; exact Hin].
    destruct o as [p|]; [|left; exact Hin].
    destruct (string_dec g (snd (fst t))) as [E|N]; [right; left; symmetry; exact E|].
    left. destruct (alookup_in_keys g _ Hin) as [v Hv].
    rewrite alookup_aset_other in Hv by (intro E; apply N; symmetry; exact E).
    apply alookup_some_in in Hv. apply (in_map fst) in Hv. exact Hv.
Qed.

Lemma from_step_eq k d acc fe :
  from_step k d acc fe =
  bind acc (fun cur => bind (from_val k d fe) (fun xv => Ok (aset (fst xv) (snd xv) cur))).
Proof.
  destruct fe as [[kw g] dc]. unfold from_step, from_val. simpl.
  destruct acc as [cur|e]; simpl; [|reflexivity].
  destruct (find_setter k kw) as [[x st]|]; simpl; [|reflexivity].
  destruct (dec_val k dc (pget g d)); simpl; [|reflexivity].
  destruct (apply_setter st a); reflexivity.
Qed.

Lemma fold_from_err k d : forall F e, fold_left (from_step k d) F (Err e) = Err e.
Proof. induction F as [|f r IH]; intro e; simpl; [reflexivity|]. rewrite from_step_eq. simpl. apply IH. Qed.

Lemma fold_from_spec k d : forall F cur r,
  fold_left (from_step k d) F (Ok cur) = Ok r ->
  exists xs, Forall2 (fun fe xv => from_val k d fe = Ok xv) F xs /\ r = asets xs cur.
Proof.
  induction F as [|f F IH]; intros cur r H; simpl in H.
  - inversion H; subst. exists []. split; [constructor | reflexivity].
  - rewrite from_step_eq in H. simpl in H.
    destruct (from_val k d f) as [xv|e] eqn:Ef; simpl in H.
    + destruct (IH _ _ H) as [xs [HF Hr]]. exists (xv :: xs). split; [constructor; assumption | exact Hr].
    + rewrite fold_from_err in H. discriminate.
Qed.

Lemma fold_from_build k d : forall F xs cur,
  Forall2 (fun fe xv => from_val k d fe = Ok xv) F xs ->
  fold_left (from_step k d) F (Ok cur) = Ok (asets xs cur).
Proof.
  induction F as [|f F IH]; intros xs cur H; inversion H; subst; simpl; [reflexivity|].
  rewrite from_step_eq. simpl. rewrite H2. simpl. apply IH. assumption.
Qed.

Definition out_str (o : option pval) : option str :=
  match o with Some (Some s) => Some s | _ => None end.

Definition expected (dc : dec) (ov : option fval) : option fval :=
  match ov with
  | Some v => Some v
  | None => match dc with DFromJson c NKWrap => Some (FObj c None) | _ => None end
  end.

(* which encoder / decoder / setter triples are inverse: by cases on the rows of inv_ok; each row is
   computation once the val_ok side condition of that row has been rewritten in *)
Lemma core_primary k a x g e dc st o ov :
  (forall y, e <> EImagePair y) ->
  inv_ok (RPrimary e) dc st = true ->
  val_ok k (RPrimary e) dc st a x = true ->
  alookup x a = Some ov ->
  to_entry_val a (x, g, e) = Ok o ->
  bind (dec_val k dc (out_str o)) (apply_setter st) = Ok (expected dc ov).
Proof.
  intros Hnp Hinv Hval Hx Hto.
  unfold val_ok, aget in Hval. rewrite Hx in Hval.
  unfold to_entry_val in Hto. rewrite Hx in Hto.
  destruct e; try (exfalso; eapply Hnp; reflexivity);
  destruct dc as [ |c nk|en| |df|c|i|i]; simpl in Hinv; try discriminate;
  destruct st as [[c'|]| | | |[c'|]]; simpl in Hinv; try discriminate.
  all: destruct ov as [v|]; [destruct v|]; simpl in Hval, Hto; try discriminate.
  all: try (destruct df; try discriminate).
  all: try (match type of Hto with context [match ?c with Some _ => _ | None => _ end] => destruct c end).
  all: inversion Hto; subst o; simpl.
  all: try match goal with cn : option str |- _ => destruct cn end.
  all: unfold json_text_ok, not_json_const in *.
  all: repeat match goal with
       | H : (_ && _) = true |- _ => apply andb_true_iff in H as [? ?]
       | H : String.eqb _ _ = true |- _ => apply String.eqb_eq in H; subst
       | H : negb (str_eqb _ _) = true |- _ => apply negb_true_iff in H
       | H : is_member _ _ = true |- _ => rewrite H
       | H : str_eqb _ _ = false |- _ => rewrite H
       end.
  all: simpl; rewrite ?String.eqb_refl; try reflexivity.
  all: try (destruct nk; try discriminate; simpl; rewrite ?String.eqb_refl; reflexivity).
  all: try (destruct b; reflexivity).
Qed.

Lemma no_comma_cons c s : no_comma (c :: s) = true -> N.eqb c comma = false /\ no_comma s = true.
Proof.
  unfold no_comma. simpl. intro H. apply negb_true_iff in H. apply orb_false_iff in H as [H1 H2].
  rewrite N.eqb_sym. split; [exact H1 | rewrite H2; reflexivity].
Qed.

Lemma split_comma_nocomma s : forall cur, no_comma s = true -> split_comma s cur = [rev cur ++ s].
Proof.
  induction s as [|c s IH]; intros cur H; simpl.
  - rewrite app_nil_r. reflexivity.
  - apply no_comma_cons in H as [H1 H2]. rewrite H1. rewrite IH by exact H2.
    simpl. rewrite <- app_assoc. reflexivity.
Qed.

Lemma split_comma_pair r t : forall cur, no_comma r = true -> no_comma t = true ->
  split_comma (r ++ comma :: t) cur = [rev cur ++ r; t].
Proof.
  induction r as [|c r IH]; intros cur Hr Ht; simpl.
  - rewrite ?N.eqb_refl. rewrite app_nil_r. rewrite split_comma_nocomma by exact Ht. reflexivity.
  - apply no_comma_cons in Hr as [H1 H2]. rewrite H1. rewrite IH by assumption.
    simpl. rewrite <- app_assoc. reflexivity.
Qed.

Lemma rsplit_nocomma t : no_comma t = true -> rsplit_comma t = None.
Proof.
  induction t as [|c t IH]; intro H; [reflexivity|].
  apply no_comma_cons in H as [H1 H2]. simpl. rewrite (IH H2). rewrite H1. reflexivity.
Qed.

Lemma rsplit_pair r t : no_comma t = true -> rsplit_comma (r ++ comma :: t) = Some (r, t).
Proof.
  intro Ht. induction r as [|c r IH]; simpl.
  - rewrite (rsplit_nocomma t Ht). reflexivity.
  - rewrite IH. reflexivity.
Qed.

(* the image pair: p and q are written as one text "r,t"; half i of it decodes to p's, resp. q's value *)
Lemma core_pair k a p q g dc o i :
  match aget p a, aget q a with
  | None, None => true
  | Some (FStr r), Some (FStr t) => pair_text_ok dc r && no_comma t
  | _, _ => false
  end = true ->
  to_entry_val a (p, g, EImagePair q) = Ok o ->
  dc = DSplitComma i \/ dc = DRSplitComma i -> i = 0 \/ i = 1 ->
  dec_val k dc (out_str o) = Ok (match i with 0 => aget p a | _ => aget q a end).
Proof.
  unfold aget, to_entry_val. intros Hval Hto Hdc Hi.
  destruct (alookup p a) as [[[r| | | | | | ]|]|]; destruct (alookup q a) as [[[t| | | | | | ]|]|];
    try discriminate Hval; simpl in Hto; inversion Hto; subst o.
  2-5: destruct Hdc as [-> | ->]; destruct Hi as [-> | ->]; reflexivity.
  apply andb_true_iff in Hval as [Hr Ht].
  destruct Hdc as [-> | ->]; simpl in Hr |- *.
  - rewrite (split_comma_pair r t [] Hr Ht). destruct Hi as [-> | ->]; reflexivity.
  - rewrite (rsplit_pair r t Ht). destruct Hi as [-> | ->]; reflexivity.
Qed.

Lemma core_pair_primary k a x y g dc st o ov :
  inv_ok (RPrimary (EImagePair y)) dc st = true ->
  val_ok k (RPrimary (EImagePair y)) dc st a x = true ->
  alookup x a = Some ov ->
  to_entry_val a (x, g, EImagePair y) = Ok o ->
  bind (dec_val k dc (out_str o)) (apply_setter st) = Ok (expected dc ov).
Proof.
  intros Hinv Hval Hx Hto.
  assert (Hov : aget x a = ov) by (unfold aget; rewrite Hx; reflexivity).
  destruct dc as [ |c nk|en| |df|c|i|i]; simpl in Hinv; try discriminate.
  all: destruct i; [|discriminate]; destruct st as [[c'|]| | | |[c'|]]; simpl in Hinv; try discriminate.
  all: rewrite (core_pair k a x y g _ o 0 Hval Hto); auto; rewrite Hov; destruct ov; reflexivity.
Qed.

Lemma core_pair_partner k a x x0 g dc st o ov :
  inv_ok (RPartner x0) dc st = true ->
  val_ok k (RPartner x0) dc st a x = true ->
  alookup x a = Some ov ->
  to_entry_val a (x0, g, EImagePair x) = Ok o ->
  bind (dec_val k dc (out_str o)) (apply_setter st) = Ok (expected dc ov).
Proof.
  intros Hinv Hval Hx Hto.
  assert (Hov : aget x a = ov) by (unfold aget; rewrite Hx; reflexivity).
  destruct dc as [ |c nk|en| |df|c|i|i]; simpl in Hinv; try discriminate.
  all: destruct i as [|[|i]]; try discriminate; destruct st as [[c'|]| | | |[c'|]]; simpl in Hinv; try discriminate.
  all: rewrite (core_pair k a x0 x g _ o 1 Hval Hto); auto; rewrite Hov; destruct ov; reflexivity.
Qed.

Lemma list_eqb_string_eq : forall a b, list_eqb String.eqb a b = true -> a = b.
Proof. apply list_eqb_eq. intros x y. apply String.eqb_eq. Qed.

Lemma find_unique {A} (f : A -> option string) (l : list A) x a :
  NoDup (flat_map (fun b => match f b with Some y => [y] | None => [] end) l) ->
  In a l -> f a = Some x ->
  find (fun b => match f b with Some y => String.eqb y x | None => false end) l = Some a.
Proof.
  induction l as [|b l IH]; simpl; intros ND Hin Hf; [contradiction|].
  destruct Hin as [E|Hin].
  - subst b. rewrite Hf. rewrite String.eqb_refl. reflexivity.
  - destruct (f b) as [y|] eqn:Eb.
    + simpl in ND. inversion ND as [|? ? NI ND']; subst.
      destruct (String.eqb y x) eqn:E.
      * apply String.eqb_eq in E. subst y. exfalso. apply NI.
        apply in_flat_map. exists a. split; [exact Hin|]. rewrite Hf. left. reflexivity.
      * apply IH; assumption.
    + apply IH; assumption.
Qed.

Lemma bind_pair {A B} (m : res A) (f : A -> res B) (x : string) w :
  bind m f = Ok w -> bind m (fun v => bind (f v) (fun v' => Ok (x, v'))) = Ok (x, w).
Proof. destruct m; simpl; [|discriminate]. intro H. rewrite H. reflexivity. Qed.

Lemma pget_out g P o :
  alookup g P = match o with Some p => Some p | None => None end -> pget g P = out_str o.
Proof. unfold pget. intro H. rewrite H. destruct o as [[s|]|]; reflexivity. Qed.

Lemma to_entry_ok k a x g e dc st ov :
  val_ok k (RPrimary e) dc st a x = true -> alookup x a = Some ov ->
  is_ok (to_entry_val a (x, g, e)) = true.
Proof.
  intros Hval Hx. unfold val_ok, aget in Hval. unfold to_entry_val. rewrite Hx in *.
  destruct e.
  7: { destruct ov as [[r| | | | | | ]|]; try discriminate.
       - destruct (alookup partner a) as [[[t| | | | | | ]|]|]; try discriminate. reflexivity.
       - destruct (alookup partner a) as [[vy|]|]; reflexivity. }
  all: destruct dc as [ |c nk|en| |df|c|i|i]; try discriminate;
       destruct st as [[c'|]| | | |[c'|]]; try discriminate;
       destruct ov as [[]|]; try discriminate; try reflexivity.
Qed.

Lemma alookup_normalize k (a : attrs) x ov :
  alookup x a = Some ov ->
  alookup x (normalize k a) = Some (match ov with Some v => Some v | None => absent_reads k x end).
Proof.
  unfold normalize. induction a as [|[x' o'] r IH]; simpl; intro H; [discriminate|].
  destruct (String.eqb x x') eqn:E.
  - apply String.eqb_eq in E. subst. inversion H; subst. reflexivity.
  - apply IH. exact H.
Qed.

Lemma normalize_keys k (a : attrs) : akeys (normalize k a) = akeys a.
Proof. unfold normalize, akeys. rewrite map_map. simpl. reflexivity. Qed.

Lemma to_entry_none_ok a x g e : alookup x a = Some None -> is_ok (to_entry_val a (x, g, e)) = true.
Proof.
  intro Hx. unfold to_entry_val. rewrite Hx. destruct e; try reflexivity.
Qed.

Lemma wf_parts k a : attrs_wf k a = true ->
  akeys a = data_attrs k /\ (forall x, In x (data_attrs k) -> attr_ok k a x = true).
Proof.
  intro Hwf. unfold attrs_wf in Hwf. apply andb_true_iff in Hwf as [H1 H2]. split.
  - apply list_eqb_string_eq. exact H1.
  - intros x Hx. rewrite forallb_forall in H2. apply (H2 x Hx).
Qed.

Section RoundTrip.
  Variable k : kind.
  Variable a : attrs.
  Hypothesis Hsym : tables_symmetric k = true.
  Hypothesis Hkeys : akeys a = data_attrs k.

  Lemma sym_parts :
    NoDup (data_attrs k) /\ NoDup (map gp (to_table k)) /\ NoDup (map attr_of (to_table k)) /\ NoDup (targets k)
    /\ (forall fe, In fe (from_table k) -> exists x, target k fe = Some x /\ In x (data_attrs k))
    /\ (forall te, In te (to_table k) -> In (attr_of te) (data_attrs k))
    /\ (forall te, In te (to_table k) -> partner_ok k te = true)
    /\ (forall x, In x (data_attrs k) -> entry_ok k x = true).
  Proof.
    pose proof Hsym as Hs. unfold tables_symmetric in Hs. repeat rewrite andb_true_iff in Hs.
    destruct Hs as [[[[[[[[S1 S2] S3] S4] S5] S6] S7] S8] S9].
    split; [apply nodupb_NoDup; exact S1|].
    split; [apply nodupb_NoDup; exact S2|].
    split; [apply nodupb_NoDup; exact S3|].
    split; [apply nodupb_NoDup; exact S4|].
    split; [|split; [|split]].
    - intros fe Hfe. rewrite forallb_forall in S5. specialize (S5 fe Hfe).
      destruct (target k fe) as [x|]; [|discriminate]. exists x. split; [reflexivity|]. apply mem_true_iff. exact S5.
    - intros te Hte. rewrite forallb_forall in S6. apply mem_true_iff. apply (S6 te Hte).
    - intros te Hte. rewrite forallb_forall in S7. apply (S7 te Hte).
    - intros x Hx. rewrite forallb_forall in S8. apply (S8 x Hx).
  Qed.

  Lemma to_for_primary x g e :
    to_for k x = Some (g, RPrimary e) -> In (x, g, e) (to_table k).
  Proof.
    unfold to_for. destruct (find (fun te => String.eqb (fst (fst te)) x) (to_table k)) as [[[x' g'] e']|] eqn:Ef.
    - intro H. inversion H; subst. apply find_some in Ef as [Hin He]. simpl in He.
      apply String.eqb_eq in He. subst. exact Hin.
    - destruct (find (is_partner_of x) (to_table k)) as [[[x0 g0] e0]|]; intro H; discriminate.
  Qed.

  Lemma to_for_partner x g x0 :
    to_for k x = Some (g, RPartner x0) -> In (x0, g, EImagePair x) (to_table k).
  Proof.
    unfold to_for. destruct (find (fun te => String.eqb (fst (fst te)) x) (to_table k)) as [[[x' g'] e']|] eqn:Ef.
    - intro H. discriminate.
    - destruct (find (is_partner_of x) (to_table k)) as [[[x1 g1] e1]|] eqn:Ep; intro H; [|discriminate].
      inversion H; subst. apply find_some in Ep as [Hin He]. unfold is_partner_of in He. simpl in He.
      destruct e1; try discriminate. apply String.eqb_eq in He. subst. exact Hin.
  Qed.

  Lemma in_to_table_to_for x g e : In (x, g, e) (to_table k) -> to_for k x = Some (g, RPrimary e).
  Proof.
    intro Hin. destruct sym_parts as [_ [_ [NDa _]]].
    unfold to_for.
    assert (F : find (fun te => match Some (attr_of te) with Some y => String.eqb y x | None => false end) (to_table k)
                = Some (x, g, e)).
    { apply (find_unique (fun te => Some (attr_of te))); [|exact Hin|reflexivity].
      clear - NDa. induction (to_table k) as [|t r IH]; simpl in *; [constructor|].
      inversion NDa; subst. constructor; [|apply IH; assumption].
      intro Hc. apply H1. clear - Hc. induction r as [|u r IH]; simpl in *; [contradiction|].
      destruct Hc as [Hc|Hc]; [left; exact Hc | right; apply IH; exact Hc]. }
    change (find (fun te => String.eqb (fst (fst te)) x) (to_table k) = Some (x, g, e)) in F.
    rewrite F. reflexivity.
  Qed.

  Lemma from_for_of_entry fe x :
    In fe (from_table k) -> target k fe = Some x ->
    exists st, find_setter k (fst (fst fe)) = Some (x, st) /\ from_for k x = Some (snd (fst fe), snd fe, st).
  Proof.
    intros Hin Ht. destruct sym_parts as [_ [_ [_ [NDt _]]]].
    unfold from_for. unfold targets in NDt.
    rewrite (find_unique (target k) (from_table k) x fe NDt Hin Ht).
    destruct fe as [[kw g] dc]. simpl. unfold target in Ht. simpl in Ht.
    destruct (find_setter k kw) as [[x' st]|]; [|discriminate].
    inversion Ht; subst. exists st. split; reflexivity.
  Qed.

  (* the entries of the three tables that concern the attribute a from-entry assigns: same graph
     property on both sides, inverse encoder / decoder / setter *)
  Lemma entry_attr fe : In fe (from_table k) ->
    exists x r st, target k fe = Some x /\ In x (data_attrs k) /\
      find_setter k (fst (fst fe)) = Some (x, st) /\ from_for k x = Some (snd (fst fe), snd fe, st) /\
      to_for k x = Some (snd (fst fe), r) /\ inv_ok r (snd fe) st = true.
  Proof.
    intro Hin. destruct sym_parts as [_ [_ [_ [_ [Hfrom [_ [_ Hent]]]]]]].
    destruct (Hfrom fe Hin) as [x [Htx Hxd]].
    destruct (from_for_of_entry fe x Hin Htx) as [st [Hfs Hff]].
    assert (He := Hent x Hxd). unfold entry_ok in He. rewrite Hff in He.
    destruct (to_for k x) as [[g r]|] eqn:Etf; [|discriminate He].
    apply andb_true_iff in He as [Hg Hinv]. apply String.eqb_eq in Hg. subst g.
    exists x, r, st. repeat split; assumption.
  Qed.

  Lemma attr_entries x : In x (data_attrs k) ->
    exists fe r st, In fe (from_table k) /\ target k fe = Some x /\
      find_setter k (fst (fst fe)) = Some (x, st) /\ from_for k x = Some (snd (fst fe), snd fe, st) /\
      to_for k x = Some (snd (fst fe), r) /\ inv_ok r (snd fe) st = true.
  Proof.
    intro Hx.
    assert (Hfe : exists fe, In fe (from_table k) /\ target k fe = Some x).
    { destruct sym_parts as [_ [_ [_ [_ [_ [_ [_ Hent]]]]]]].
      assert (He := Hent x Hx). unfold entry_ok, from_for in He.
      destruct (to_for k x) as [[g1 r1]|]; [|discriminate He].
      destruct (find (fun fe => match target k fe with Some y => String.eqb y x | None => false end) (from_table k))
        as [fe|] eqn:Efind; [|discriminate He].
      apply find_some in Efind as [Hfe Ht]. exists fe. split; [exact Hfe|].
      destruct (target k fe) as [y|]; [|discriminate Ht]. apply String.eqb_eq in Ht. subst y. reflexivity. }
    destruct Hfe as [fe [Hfe Ht]]. destruct (entry_attr fe Hfe) as [y [r [st [Hty H]]]].
    rewrite Ht in Hty. inversion Hty; subst y. exists fe, r, st. tauto.
  Qed.

  Lemma to_props_defined_weak :
    (forall x, In x (data_attrs k) -> aget x a = None \/ attr_ok k a x = true) ->
    exists P', to_props k a = Ok P'.
  Proof.
    intro Hweak.
    destruct sym_parts as [NDd [NDg [NDa [NDt [Hfrom [Hto [Hpart Hent]]]]]]].
    unfold to_props. apply to_props_entries_ok. intros [[x g] e] Hte.
    assert (Hxd := Hto _ Hte). unfold attr_of in Hxd. simpl in Hxd.
    destruct (alookup_in_keys x a) as [ov Hov]; [rewrite Hkeys; exact Hxd|].
    destruct (Hweak x Hxd) as [Hn|Hattr_x].
    - unfold aget in Hn. rewrite Hov in Hn. subst ov. eapply to_entry_none_ok. exact Hov.
    - unfold attr_ok in Hattr_x.
      rewrite (in_to_table_to_for x g e Hte) in Hattr_x.
      destruct (from_for k x) as [[[g2 dc] st]|]; [|discriminate].
      eapply to_entry_ok; eauto.
  Qed.

  Variable P : props.
  Hypothesis HP : to_props k a = Ok P.

  (* the graph property of attribute x, as to_props wrote (or did not write) it *)
  Lemma written_entry x g r : to_for k x = Some (g, r) ->
    exists o, alookup g P = match o with Some p => Some p | None => None end /\
      match r with
      | RPrimary e => to_entry_val a (x, g, e) = Ok o
      | RPartner x0 => to_entry_val a (x0, g, EImagePair x) = Ok o
      end.
  Proof.
    intro Etf. destruct sym_parts as [_ [NDg _]]. unfold to_props in HP.
    destruct (to_props_entries_spec a (to_table k) [] P NDg HP) as [Hspec _].
    destruct r as [e|x0]; [apply to_for_primary in Etf | apply to_for_partner in Etf];
      destruct (Hspec _ Etf) as [o [Ho Hl]]; exists o; split; assumption.
  Qed.

  Definition read_back (fe : from_entry) : string * option fval :=
    match target k fe with
    | Some x => (x, match aget x a with Some v => Some v | None => absent_reads k x end)
    | None => (EmptyString, None)
    end.

  Lemma from_val_rd fe :
    In fe (from_table k) -> (forall x, target k fe = Some x -> attr_ok k a x = true) ->
    from_val k P fe = Ok (read_back fe).
  Proof.
    intros Hin Hattr.
    destruct (entry_attr fe Hin) as [x [r [st [Htx [Hxd [Hfs [Hff [Etf Hinv]]]]]]]].
    assert (Hattr_x := Hattr x Htx). unfold attr_ok in Hattr_x. rewrite Hff, Etf in Hattr_x.
    destruct (alookup_in_keys x a) as [ov Hov]; [rewrite Hkeys; exact Hxd|].
    unfold read_back. rewrite Htx. unfold aget. rewrite Hov.
    unfold absent_reads. rewrite Hff.
    unfold from_val. rewrite Hfs.
    destruct fe as [[kw g] dc]. simpl in *.
    change (match ov with Some v => Some v | None => match dc with
            | DFromJson c NKWrap => Some (FObj c None) | _ => None end end) with (expected dc ov).
    apply bind_pair. destruct (written_entry x g r Etf) as [o [Hl Ho]]. rewrite (pget_out g P o Hl).
    destruct r as [e|x0]; [|eapply core_pair_partner; eauto].
    destruct e; try (eapply core_primary; eauto; intros y Hy; discriminate).
    eapply core_pair_primary; eauto.
  Qed.

  Lemma map_rd_keys : akeys (map read_back (from_table k)) = targets k.
  Proof.
    destruct sym_parts as [_ [_ [_ [_ [Hfrom _]]]]].
    unfold targets, akeys. induction (from_table k) as [|fe F IH]; simpl; [reflexivity|].
    destruct (Hfrom fe (or_introl eq_refl)) as [x [Hx _]]. unfold read_back at 1. rewrite Hx. simpl.
    f_equal. apply IH. intros fe' H'. apply Hfrom. right. exact H'.
  Qed.

  Hypothesis Hattr : forall x, In x (data_attrs k) -> attr_ok k a x = true.

  Lemma from_props_value : from_props k P = Ok (asets (map read_back (from_table k)) (blank k)).
  Proof.
    unfold from_props. apply fold_from_build.
    assert (H : forall fe, In fe (from_table k) -> from_val k P fe = Ok (read_back fe)).
    { intros fe Hfe. apply from_val_rd; [exact Hfe|]. intros x Hx. apply Hattr.
      destruct sym_parts as [_ [_ [_ [_ [Hfrom _]]]]]. destruct (Hfrom fe Hfe) as [x' [Hx' Hd]].
      rewrite Hx in Hx'. inversion Hx'; subst. exact Hd. }
    induction (from_table k) as [|fe F IH]; simpl; constructor.
    - apply H. left; reflexivity.
    - apply IH. intros fe' H'. apply H. right; exact H'.
  Qed.

  Lemma roundtrip_value : asets (map read_back (from_table k)) (blank k) = normalize k a.
  Proof.
    destruct sym_parts as [NDd [NDg [NDa [NDt [Hfrom [Hto [Hpart Hent]]]]]]].
    assert (HK : akeys (asets (map read_back (from_table k)) (blank k)) = akeys (blank k)).
    { apply asets_keys. intros xv Hxv. apply in_map_iff in Hxv as [fe [E Hfe]]. subst xv.
      destruct (Hfrom fe Hfe) as [x [Hx Hd]]. unfold read_back. rewrite Hx. simpl. exact Hd. }
    apply assoc_ext.
    - rewrite HK, normalize_keys, Hkeys. reflexivity.
    - rewrite HK. exact NDd.
    - intros x Hx. rewrite HK in Hx. change (In x (data_attrs k)) in Hx.
      destruct (attr_entries x Hx) as [fe [_ [_ [Hfe [Ety _]]]]].
      destruct (alookup_in_keys x a) as [ov Hov]; [rewrite Hkeys; exact Hx|].
      rewrite (alookup_normalize k a x ov Hov).
      apply asets_lookup_in.
      + rewrite map_rd_keys. exact NDt.
      + apply in_map_iff. exists fe. split; [|exact Hfe]. unfold read_back. rewrite Ety. unfold aget. rewrite Hov. reflexivity.
  Qed.

End RoundTrip.

(* from_props (to_props a) is the normalized a, for every class whose tables pass the check *)
Theorem props_roundtrip_generic k a :
  tables_symmetric k = true -> attrs_wf k a = true ->
  bind (to_props k a) (from_props k) = Ok (normalize k a).
Proof.
  intros Hs Hw. destruct (wf_parts k a Hw) as [Hk Ha].
  destruct (to_props_defined_weak k a Hs Hk) as [P HP]; [intros x Hx; right; apply Ha; exact Hx|].
  rewrite HP. simpl.
  rewrite (from_props_value k a Hs Hk P HP Ha). f_equal. apply roundtrip_value; assumption.
Qed.

Lemma normalize_normal k a : is_normal k a = true -> normalize k a = a.
Proof.
  unfold is_normal, normalize. induction a as [|[x o] r IH]; simpl; intro H; [reflexivity|].
  apply andb_true_iff in H as [H1 H2]. rewrite IH by exact H2. f_equal.
  destruct o; [reflexivity|]. destruct (absent_reads k x); [discriminate | reflexivity].
Qed.

Lemma normalize_absent_none k a :
  absent_none k = true -> akeys a = data_attrs k -> normalize k a = a.
Proof.
  intros Hn Hk. unfold absent_none in Hn. rewrite forallb_forall in Hn. rewrite <- Hk in Hn. clear Hk.
  unfold normalize. induction a as [|[x o] r IH]; simpl; [reflexivity|].
  rewrite IH by (intros y Hy; apply Hn; right; exact Hy). f_equal.
  destruct o; [reflexivity|]. specialize (Hn x (or_introl eq_refl)).
  destruct (absent_reads k x); [discriminate | reflexivity].
Qed.

Theorem props_roundtrip_exact_generic k a :
  tables_symmetric k = true -> absent_none k = true -> attrs_wf k a = true ->
  bind (to_props k a) (from_props k) = Ok a.
Proof.
  intros Hs Hn Hw. rewrite (props_roundtrip_generic k a Hs Hw).
  rewrite (normalize_absent_none k a Hn); [reflexivity|]. apply (wf_parts k a Hw).
Qed.
