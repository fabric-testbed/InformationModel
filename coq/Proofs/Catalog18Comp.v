(* C18, components: generate_component against the regenerated component catalogue.
   Generic lemmas about the interface loop (position j of the result is the loop body at index j), then the
   finite facts about the catalogue (every entry and every alias is found by the look-up loop, every Type is
   a ComponentType member, the combined enumeration lists exactly the entries) by vm_compute. *)
From Coq Require Import List ZArith Bool Lia String.
From FIM Require Import Base.Str Gen.Catalog Model.Catalog18.
Import ListNotations.
Open Scope Z_scope.

(* ---------- boolean equality of catalogue entries ---------- *)
Lemma str_eqb_true a b : str_eqb a b = true -> a = b.
Proof. apply str_eqb_eq. Qed.

Definition port_eqb (a b : str * Z) : bool := str_eqb (fst a) (fst b) && (snd a =? snd b).
Lemma port_eqb_true a b : port_eqb a b = true -> a = b.
Proof.
  destruct a, b. unfold port_eqb. cbn [fst snd]. intro E. apply andb_true_iff in E. destruct E as [E1 E2].
  apply str_eqb_eq in E1. apply Z.eqb_eq in E2. congruence.
Qed.

Definition centry_eqb (a b : comp_entry) : bool :=
  str_eqb (e_model a) (e_model b) && list_eqb str_eqb (e_also a) (e_also b) && str_eqb (e_type a) (e_type b)
  && str_eqb (e_details a) (e_details b) && opt_eqb (list_eqb port_eqb) (e_ifs a) (e_ifs b).
Lemma centry_eqb_true a b : centry_eqb a b = true -> a = b.
Proof.
  destruct a as [[[[m a] t] d] i], b as [[[[m' a'] t'] d'] i']. unfold centry_eqb.
  cbn [e_model e_also e_type e_details e_ifs]. intro E.
  repeat (apply andb_true_iff in E; let E' := fresh "E" in destruct E as [E E']).
  apply str_eqb_eq in E. apply str_eqb_eq in E1. apply str_eqb_eq in E2.
  apply (list_eqb_eq str_eqb str_eqb_true) in E3.
  apply (opt_eqb_eq _ (list_eqb_eq port_eqb port_eqb_true)) in E0.
  congruence.
Qed.

(* ---------- the interface loop ---------- *)
Lemma gen_ifaces_ok name ct ports : forall idx ids labs ifs,
  gen_ifaces name ct ports idx ids labs = Ok ifs ->
  List.length ifs = List.length ports /\
  forall j p, nth_error ports j = Some p ->
    exists i, nth_error ifs j = Some i /\ gen_iface name ct p (idx + j) ids labs = Ok i.
Proof.
  induction ports as [|p0 ports IH]; intros idx ids labs ifs H; simpl in H.
  - inversion H; subst. split; [reflexivity|]. intros [|j] p Hj; discriminate.
  - destruct (gen_iface name ct p0 idx ids labs) as [i0|c] eqn:E0; [|discriminate].
    destruct (gen_ifaces name ct ports (Datatypes.S idx) ids labs) as [r|c] eqn:Er; [|discriminate].
    inversion H; subst. destruct (IH _ _ _ _ Er) as [IHl IHn]. split; [simpl; congruence|].
    intros [|j] p Hj; simpl in Hj.
    + inversion Hj; subst. exists i0. split; [reflexivity|]. rewrite Nat.add_0_r. exact E0.
    + destruct (IHn j p Hj) as [i [Hi Hg]]. exists i. split; [exact Hi|].
      rewrite <- Nat.add_succ_comm. exact Hg.
Qed.

Lemma gen_ifaces_total name ct ports : forall idx ids labs,
  (forall j p, nth_error ports j = Some p -> exists i, gen_iface name ct p (idx + j) ids labs = Ok i) ->
  exists ifs, gen_ifaces name ct ports idx ids labs = Ok ifs.
Proof.
  induction ports as [|p0 ports IH]; intros idx ids labs H; simpl; [eexists; reflexivity|].
  destruct (H O p0 eq_refl) as [i0 E0]. rewrite Nat.add_0_r in E0. rewrite E0.
  destruct (IH (Datatypes.S idx) ids labs) as [r Er].
  - intros j p Hj. destruct (H (Datatypes.S j) p Hj) as [i Hi]. exists i. rewrite Nat.add_succ_comm. exact Hi.
  - rewrite Er. eexists; reflexivity.
Qed.

(* well-formed id / label arguments for a component with these ports: exactly the calls the code accepts *)
Definition args_wf (ports : list (str * Z)) (ids : option (list str)) (labs : option (list lab)) : bool :=
  match ids, labs with
  | None, None => true
  | None, Some l => (List.length ports <=? List.length l)%nat
  | Some li, Some l => Nat.eqb (List.length li) (List.length ports) && Nat.eqb (List.length l) (List.length ports)
  | Some _, None => false
  end.

(* what position j of the result must be *)
Definition iface_spec (name ct : str) (p : str * Z) (j : nat) (ids : option (list str)) (labs : option (list lab))
           (i : iface) : Prop :=
  if_name i = name ++ S"-" ++ fst p /\
  if_kind i = kind_of (Some ct) /\
  if_bw i = (if str_eqb ct (S"SharedNIC") then 0 else snd p) /\
  match ids with
  | Some l => exists s, nth_error l j = Some s /\ if_id i = IdGiven s
  | None => if_id i = IdFresh
  end /\
  match labs with
  | Some l => exists lb, nth_error l j = Some lb /\ if_tag i = Some (lab_tag lb) /\ if_bdf i = lab_bdf lb /\
                         if_local i = local_of (lab_bdf lb) (fst p) /\ if_unit i = units_of (lab_bdf lb)
  | None => if_tag i = None /\ if_bdf i = BNone /\ if_local i = LStr (fst p) /\ if_unit i = 1
  end.

Lemma gen_iface_spec name ct p j ids labs :
  match ids with Some l => (j < List.length l)%nat | None => True end ->
  match labs with Some l => (j < List.length l)%nat | None => True end ->
  exists i, gen_iface name (Some ct) p j ids labs = Ok i /\ iface_spec name ct p j ids labs i.
Proof.
  intros Hi Hl. unfold gen_iface.
  assert (Eid : exists id, match ids with
                           | Some l => match nth_error l j with Some i => Ok (IdGiven i) | None => Err (S"IndexError") end
                           | None => Ok IdFresh end = Ok id /\
                           match ids with Some l => exists s, nth_error l j = Some s /\ id = IdGiven s | None => id = IdFresh end).
  { destruct ids as [l|]; [|eexists; split; reflexivity].
    destruct (nth_error l j) as [s|] eqn:E; [|apply nth_error_None in E; lia].
    eexists; split; [reflexivity|]. exists s; split; reflexivity. }
  destruct Eid as [id [-> Hid]].
  destruct labs as [l|].
  - destruct (nth_error l j) as [lb|] eqn:E; [|apply nth_error_None in E; lia].
    eexists; split; [reflexivity|]. unfold iface_spec; cbn [if_name if_kind if_bw if_id if_tag if_bdf if_local if_unit is_type].
    repeat split; try reflexivity; try exact Hid. exists lb. split; [exact E|repeat split; reflexivity].
  - eexists; split; [reflexivity|]. unfold iface_spec; cbn [if_name if_kind if_bw if_id if_tag if_bdf if_local if_unit is_type units_of local_of].
    repeat split; try reflexivity; exact Hid.
Qed.

(* ---------- a whole component, for any catalogue in which the entry is found and its Type is a member ---------- *)
Definition ns_spec (e : comp_entry) (name : str) (nsid parent : option str) (ns : nsv) : Prop :=
  ns_id ns = match nsid with Some i => IdGiven i | None => IdFresh end /\
  ns_name ns = match parent with
               | Some p => p ++ S"-" ++ name ++ (if str_eqb (e_type e) (S"FPGA") then S"-l2p4" else S"-l2ovs")
               | None => name ++ (if str_eqb (e_type e) (S"FPGA") then S"-l2p4" else S"-l2ovs")
               end /\
  ns_type ns = (if str_eqb (e_type e) (S"FPGA") then S"P4" else S"OVS") /\
  ns_layer ns = S"L2".

Definition comp_spec (e : comp_entry) (name : str) (nsid : option str) (ids : option (list str))
           (labs : option (list lab)) (parent : option str) (c : comp) : Prop :=
  c_name c = name /\ c_model c = e_model e /\ c_type c = Some (e_type e) /\ c_details c = e_details e /\
  match e_ifs e with
  | None => c_ns c = None
  | Some ports =>
      exists ns, c_ns c = Some ns /\ ns_spec e name nsid parent ns /\
        List.length (ns_ifs ns) = List.length ports /\
        forall j p, nth_error ports j = Some p ->
          exists i, nth_error (ns_ifs ns) j = Some i /\ iface_spec name (e_type e) p j ids labs i
  end.

Definition entry_args_wf (e : comp_entry) (ids : option (list str)) (labs : option (list lab)) : bool :=
  match e_ifs e with Some ports => args_wf ports ids labs | None => true end.

Lemma gen_from_entry_spec e name nsid ids labs parent :
  type_from_str (e_type e) = Some (e_type e) ->
  entry_args_wf e ids labs = true ->
  exists c, gen_from_entry e name nsid ids labs parent = Ok c /\ comp_spec e name nsid ids labs parent c.
Proof.
  intros Ht Hwf. unfold gen_from_entry, comp_spec, entry_args_wf in *. rewrite Ht.
  destruct (e_ifs e) as [ports|].
  - assert (Hlen : match ids with
                   | None => Ok tt
                   | Some l => if negb (Nat.eqb (List.length l) (List.length ports)) then Err (S"RuntimeError")
                               else match labs with
                                    | None => Err (S"TypeError")
                                    | Some ll => if negb (Nat.eqb (List.length ll) (List.length ports)) then Err (S"RuntimeError") else Ok tt
                                    end
                   end = Ok tt).
    { unfold args_wf in Hwf. destruct ids as [li|]; [|reflexivity]. destruct labs as [l|]; [|discriminate].
      apply andb_true_iff in Hwf. destruct Hwf as [H1 H2]. rewrite H1, H2. reflexivity. }
    rewrite Hlen.
    assert (Hidx : forall j p, nth_error ports j = Some p ->
                    exists i, gen_iface name (Some (e_type e)) p (0 + j) ids labs = Ok i /\
                              iface_spec name (e_type e) p j ids labs i).
    { intros j p Hj. assert (Hlt : (j < List.length ports)%nat) by (apply nth_error_Some; congruence).
      simpl. apply gen_iface_spec.
      - unfold args_wf in Hwf. destruct ids as [li|]; [|exact I]. destruct labs as [l|]; [|discriminate].
        apply andb_true_iff in Hwf. destruct Hwf as [H1 _]. apply Nat.eqb_eq in H1. lia.
      - unfold args_wf in Hwf. destruct labs as [l|]; [|exact I]. destruct ids as [li|].
        + apply andb_true_iff in Hwf. destruct Hwf as [_ H2]. apply Nat.eqb_eq in H2. lia.
        + apply Nat.leb_le in Hwf. lia. }
    destruct (gen_ifaces_total name (Some (e_type e)) ports 0 ids labs) as [ifs Eifs].
    { intros j p Hj. destruct (Hidx j p Hj) as [i [Hi _]]. exists i. exact Hi. }
    rewrite Eifs. eexists. split; [reflexivity|]. cbn [c_name c_model c_type c_details c_ns].
    repeat split. eexists. split; [reflexivity|].
    destruct (gen_ifaces_ok _ _ _ _ _ _ _ Eifs) as [Hl Hn].
    split; [unfold ns_spec, is_type; cbn [ns_id ns_name ns_type ns_layer]; repeat split|].
    split; [cbn [ns_ifs]; exact Hl|]. cbn [ns_ifs].
    intros j p Hj. destruct (Hn j p Hj) as [i [Hi Hg]]. exists i. split; [exact Hi|].
    destruct (Hidx j p Hj) as [i' [Hi' Hs]]. rewrite Hg in Hi'. inversion Hi'; subst. exact Hs.
  - eexists. split; [reflexivity|]. cbn [c_name c_model c_type c_details c_ns]. repeat split.
Qed.

Theorem gen_component_spec cat e name nsid ids labs parent :
  find_entry cat (e_model e) (e_type e) = Some e ->
  type_from_str (e_type e) = Some (e_type e) ->
  entry_args_wf e ids labs = true ->
  exists c, gen_component cat name (ByTypeModel (Some (e_type e)) (Some (e_model e))) nsid ids labs parent = Ok c /\
            comp_spec e name nsid ids labs parent c.
Proof.
  intros Hf Ht Hwf. unfold gen_component. rewrite Hf. apply gen_from_entry_spec; assumption.
Qed.

(* an alias names the same component *)
Theorem gen_component_alias cat e a name nsid ids labs parent :
  find_entry cat a (e_type e) = Some e ->
  gen_component cat name (ByTypeModel (Some (e_type e)) (Some a)) nsid ids labs parent
  = gen_from_entry e name nsid ids labs parent.
Proof. intro Hf. unfold gen_component. rewrite Hf. reflexivity. Qed.

(* the combined model_type argument selects the entry's own (Model, Type) *)
Theorem gen_component_model_type cat e v name nsid ids labs parent :
  (0 < v)%N -> nth_error cat (N.to_nat (v - 1)) = Some e ->
  gen_component cat name (ByModelType v) nsid ids labs parent
  = gen_component cat name (ByTypeModel (Some (e_type e)) (Some (e_model e))) nsid ids labs parent.
Proof.
  intros Hv Hn. unfold gen_component. apply N.ltb_lt in Hv. rewrite Hv, Hn. reflexivity.
Qed.

(* ---------- finite facts about the regenerated catalogue ---------- *)
Definition entry_found (cat : list comp_entry) (e : comp_entry) : bool :=
  opt_eqb centry_eqb (find_entry cat (e_model e) (e_type e)) (Some e)
  && forallb (fun a => opt_eqb centry_eqb (find_entry cat a (e_type e)) (Some e)) (e_also e)
  && mem_str (e_type e) comp_types.

Lemma comp_catalog_found_b : forallb (entry_found comp_catalog) comp_catalog = true.
Proof. vm_cast_no_check (eq_refl true). Qed.

Theorem comp_catalog_found : forall e, In e comp_catalog ->
  find_entry comp_catalog (e_model e) (e_type e) = Some e /\
  (forall a, In a (e_also e) -> find_entry comp_catalog a (e_type e) = Some e) /\
  type_from_str (e_type e) = Some (e_type e).
Proof.
  intros e He. pose proof comp_catalog_found_b as H. rewrite forallb_forall in H. specialize (H e He).
  unfold entry_found in H. apply andb_true_iff in H. destruct H as [H H3]. apply andb_true_iff in H. destruct H as [H1 H2].
  split; [|split].
  - apply (opt_eqb_eq _ centry_eqb_true). exact H1.
  - intros a Ha. rewrite forallb_forall in H2. apply (opt_eqb_eq _ centry_eqb_true). apply H2. exact Ha.
  - unfold type_from_str. rewrite H3. reflexivity.
Qed.

Theorem component_matches_catalogue : forall e, In e comp_catalog ->
  forall name nsid ids labs parent, entry_args_wf e ids labs = true ->
  exists c, gen_component comp_catalog name (ByTypeModel (Some (e_type e)) (Some (e_model e))) nsid ids labs parent = Ok c /\
            comp_spec e name nsid ids labs parent c.
Proof.
  intros e He name nsid ids labs parent Hwf. destruct (comp_catalog_found e He) as [H1 [_ H3]].
  apply gen_component_spec; assumption.
Qed.

Theorem component_alias_matches_catalogue : forall e a, In e comp_catalog -> In a (e_also e) ->
  forall name nsid ids labs parent,
  gen_component comp_catalog name (ByTypeModel (Some (e_type e)) (Some a)) nsid ids labs parent
  = gen_component comp_catalog name (ByTypeModel (Some (e_type e)) (Some (e_model e))) nsid ids labs parent.
Proof.
  intros e a He Ha name nsid ids labs parent. destruct (comp_catalog_found e He) as [H1 [H2 _]].
  rewrite (gen_component_alias _ e a); [|apply H2; exact Ha].
  rewrite (gen_component_alias _ e (e_model e)); [reflexivity|exact H1].
Qed.

Theorem component_model_type_matches_catalogue : forall i e, nth_error comp_catalog i = Some e ->
  forall name nsid ids labs parent,
  gen_component comp_catalog name (ByModelType (N.of_nat (Datatypes.S i))) nsid ids labs parent
  = gen_component comp_catalog name (ByTypeModel (Some (e_type e)) (Some (e_model e))) nsid ids labs parent.
Proof.
  intros i e Hn name nsid ids labs parent. apply gen_component_model_type; [lia|].
  replace (N.to_nat (N.of_nat (Datatypes.S i) - 1)) with i by lia. exact Hn.
Qed.

(* look-ups that must fail *)
Theorem component_unknown_raises : forall cat name m t nsid ids labs parent,
  (forall e, In e cat -> entry_matches m t e = false) ->
  gen_component cat name (ByTypeModel (Some t) (Some m)) nsid ids labs parent = Err (S"CatalogException").
Proof.
  intros cat name m t nsid ids labs parent H. unfold gen_component, find_entry.
  destruct (find (entry_matches m t) cat) as [e|] eqn:E; [|reflexivity].
  apply find_some in E. destruct E as [He Hm]. rewrite (H e He) in Hm. discriminate.
Qed.

(* ---------- unit counts ---------- *)
(* the count the property asks for: the number of devices behind the interface *)
Definition units_spec (b : bdf_t) : Z := match b with BList l => Z.of_nat (List.length l) | _ => 1 end.

Theorem units_all : forall b, units_of b = units_spec b.
Proof. intros [|s|l]; reflexivity. Qed.

(* ---------- the combined type-model enumeration ---------- *)
Fixpoint expected_members_from (i : nat) (cat : list comp_entry) : list (str * N * option comp_entry) :=
  match cat with
  | [] => []
  | e :: r => (type_model_name e, N.of_nat (Datatypes.S i), Some e) :: expected_members_from (Datatypes.S i) r
  end.
Definition expected_members (cat : list comp_entry) := expected_members_from 0 cat.

Definition member_eqb (a b : str * N * option comp_entry) : bool :=
  str_eqb (fst (fst a)) (fst (fst b)) && N.eqb (snd (fst a)) (snd (fst b)) && opt_eqb centry_eqb (snd a) (snd b).
Lemma member_eqb_true a b : member_eqb a b = true -> a = b.
Proof.
  destruct a as [[k v] e], b as [[k' v'] e']. unfold member_eqb. cbn [fst snd]. intro E.
  apply andb_true_iff in E. destruct E as [E E3]. apply andb_true_iff in E. destruct E as [E1 E2].
  apply str_eqb_eq in E1. apply N.eqb_eq in E2. apply (opt_eqb_eq _ centry_eqb_true) in E3. congruence.
Qed.

Lemma expected_members_nth cat : forall i0 i e, nth_error cat i = Some e ->
  nth_error (expected_members_from i0 cat) i = Some (type_model_name e, N.of_nat (Datatypes.S (i0 + i)), Some e).
Proof.
  induction cat as [|x cat IH]; intros i0 [|i] e H; simpl in *; try discriminate.
  - inversion H; subst. rewrite Nat.add_0_r. reflexivity.
  - rewrite (IH (Datatypes.S i0) i e H). rewrite <- Nat.add_succ_comm. reflexivity.
Qed.
Lemma expected_members_length cat : forall i0, List.length (expected_members_from i0 cat) = List.length cat.
Proof. induction cat as [|x cat IH]; intro i0; simpl; [reflexivity|]. rewrite IH. reflexivity. Qed.

Lemma enum_exact_b : list_eqb member_eqb (enum_members comp_catalog) (expected_members comp_catalog) = true.
Proof. vm_cast_no_check (eq_refl true). Qed.

Theorem enum_exact :
  List.length (enum_members comp_catalog) = List.length comp_catalog /\
  forall i e, nth_error comp_catalog i = Some e ->
    nth_error (enum_members comp_catalog) i = Some (type_model_name e, N.of_nat (Datatypes.S i), Some e).
Proof.
  pose proof (list_eqb_eq member_eqb member_eqb_true _ _ enum_exact_b) as H. rewrite H. split.
  - apply expected_members_length.
  - intros i e Hn. apply (expected_members_nth comp_catalog 0 i e Hn).
Qed.
