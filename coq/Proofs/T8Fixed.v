(* C08: service-side ports go with the interfaces of a removed element, sub-interfaces included (the disconnect loop,
   invariants JL and DI; the six element removals seen as one program shape, elem_run); unpeer only along a peering;
   disconnect only removes a service port; remove_link refuses a peering link; the cached handle lists never influence the
   model; unpeer as rewritten by proposed_fixes/C08-6.  Rests on T8Sound/T8SoundTop (what may be deleted), T8Top (what is
   deleted), T8Handles. *)
From Coq Require Import List NArith Bool.
From FIM Require Import Model.T8Graph Model.T8Ops Proofs.T8Frame Proofs.T8Query Proofs.T8Hoare Proofs.T8Sound
     Proofs.T8SoundTop Proofs.T8Complete Proofs.T8Closed Proofs.T8Top Proofs.T8Inv Proofs.T8Handles.
Import ListNotations.

Section Fixed.
Variable g0 : graph.

(* LJ D ("links justified"): a deleted two-ended link has lost one of its ends (links are never deleted on their own
   here).  JL s, below, is LJ of the trace of a state that is consistent with g0. *)
Definition LJ (D : list N) : Prop := forall l a b, link2 g0 l a b -> In l D -> In a D \/ In b D.

Lemma remove_cp_LJ n dp s s' :
  cons g0 s -> LJ (snd s) -> class_of g0 n = CCP -> remove_cp_and_links n dp s = (inl tt, s') -> LJ (snd s').
Proof.
  intros C L Hn E. destruct (remove_cp_ok g0 n dp s s' C E) as [_ [_ H]].
  intros l a b Hl Hin. apply H in Hin. destruct Hin as [Hin|Hin].
  - pose proof Hl as [Hcl [_ Hm]].
    apply cp_del_list_In in Hin. destruct Hin as [Hin|Hin].
    + (* l in the family: the family holds connection points only *)
      exfalso. destruct (cp_family_class (fst s) n dp l Hin) as [->|Hc]; [congruence|].
      unfold cp_family in Hin. rewrite dedup_In in Hin. destruct Hin as [<-|Hin]; [congruence|].
      apply filter_In in Hin. destruct Hin as [Hin _]. rewrite C in Hin.
      apply first_neighbor_restrict in Hin; [|discriminate]. destruct Hin as [Hin _].
      apply first_neighbor_In in Hin. destruct Hin as [_ Hin]. congruence.
    + apply cp_links_In in Hin. destruct Hin as [i [Hi [Hli _]]].
      assert (Hic : class_of g0 i = CCP).
      { destruct (cp_family_class (fst s) n dp i Hi) as [->|Hc]; [exact Hn|].
        unfold cp_family in Hi. rewrite dedup_In in Hi. destruct Hi as [<-|Hi]; [exact Hn|].
        apply filter_In in Hi. destruct Hi as [Hi _]. rewrite C in Hi.
        apply first_neighbor_restrict in Hi; [|discriminate]. destruct Hi as [Hi _].
        apply (cpn_class g0 n). exact Hi. }
      rewrite C in Hli. apply first_neighbor_restrict in Hli; [|discriminate]. destruct Hli as [Hli _].
      assert (Hil : In i (cpn g0 l)) by (apply (first_neighbor_sym g0 i l RConnects CLink CCP); assumption).
      assert (Hid : In i (snd s')).
      { apply H. left. apply cp_del_list_In. left. exact Hi. }
      apply Hm in Hil. destruct Hil as [->| ->]; auto.
  - destruct (L l a b Hl Hin) as [Ha|Hb]; [left | right]; apply H; right; assumption.
Qed.

(* a two-ended link from ii to sp that is still there makes sp a peer of ii in the current graph *)
Lemma link2_peer s l ii sp :
  cons g0 s -> link2 g0 l ii sp -> ~ In ii (snd s) -> ~ In l (snd s) -> ~ In sp (snd s) ->
  In sp (peer_cps (fst s) ii).
Proof.
  intros C [Hcl [Hne Hm]] Hi Hl Hs. unfold peer_cps. apply in_flat_map. exists l. split.
  - rewrite C. apply first_neighbor_restrict; [discriminate|]. split; [|auto].
    apply (first_neighbor_sym g0 l ii RConnects CCP CLink); [apply Hm; auto | exact Hcl].
  - apply removeN_In. split; [|congruence]. rewrite C. apply nbrs_cls_restrict; [discriminate|]. split; [|auto].
    assert (Hs' : In sp (cpn g0 l)) by (apply Hm; auto).
    unfold cpn in Hs'. apply first_neighbor_In in Hs'. destruct Hs' as [A B].
    apply nbrs_cls_In. split; [exists RConnects; exact A | exact B].
Qed.

(* disconnect_interface that returns: what it deleted, and that every ServicePort peer of i is now deleted *)
Lemma disconnect_interface_ok i s r s' :
  cons g0 s -> disconnect_interface i s = (inl r, s') ->
  cons g0 s' /\ ~ In i (snd s) /\
  (forall sp, In sp (peer_cps (fst s) i) -> type_of (fst s) sp = T_ServicePort -> In sp (snd s')) /\
  ((snd s' = snd s /\ r = None) \/
   exists x, r = Some x /\ In x (peer_cps (fst s) i) /\ type_of (fst s) x = T_ServicePort /\
             remove_cp_and_links x true s = (inl tt, s')).
Proof.
  intros C E. unfold disconnect_interface in E. apply bind_need_node_ok in E. destruct E as [x0 [F E]].
  apply bind_get_ok in E. destruct (cons_has g0 s i C (find_has _ _ _ F)) as [Hid _].
  pose proof (get_peers_typed_all (fst s) i T_ServicePort) as Hall.
  destruct (get_peers_typed (fst s) i T_ServicePort) as [[|x [|y rr]]|] eqn:Eg; try discriminate.
  - apply ret_ok in E. destruct E as [-> ->]. split; [exact C|]. split; [exact Hid|]. split; [|left; auto].
    intros sp Hsp Ht. destruct (Hall [] sp eq_refl Hsp Ht).
  - apply bind_ok in E. destruct E as [[] [s2 [E1 E]]]. apply ret_ok in E. destruct E as [-> ->].
    destruct (get_peers_typed_In _ _ _ _ x Eg (or_introl eq_refl)) as [Hp Ht].
    split; [apply (cons_to g0 _ _ _ _ (Inv_remove_cp x true) C E1)|]. split; [exact Hid|]. split.
    + intros sp Hsp Hts. destruct (Hall [x] sp eq_refl Hsp Hts) as [<-|[]]. apply (del_remove_cp g0 x true _ _ C E1).
    + right. exists x. auto.
  - apply ret_ok in E. destruct E as [-> ->]. split; [exact C|]. split; [exact Hid|]. split; [|left; auto].
    intros sp Hsp Ht. destruct (Hall [] sp eq_refl Hsp Ht).
Qed.

(* the loop's version: it returns without effect or after disconnect_interface i *)
Lemma disconnect_peers_of_ok i s s' :
  cons g0 s -> disconnect_peers_of i s = (inl tt, s') ->
  cons g0 s' /\ ~ In i (snd s) /\
  (forall sp, In sp (peer_cps (fst s) i) -> type_of (fst s) sp = T_ServicePort -> In sp (snd s')) /\
  (snd s' = snd s \/
   exists x, In x (peer_cps (fst s) i) /\ type_of (fst s) x = T_ServicePort /\
             remove_cp_and_links x true s = (inl tt, s')).
Proof.
  intros C E. unfold disconnect_peers_of in E. apply bind_need_node_ok in E. destruct E as [x0 [F E]].
  apply bind_get_ok in E. destruct (cons_has g0 s i C (find_has _ _ _ F)) as [Hid _].
  pose proof (get_peers_typed_all (fst s) i T_ServicePort) as Hall.
  destruct (get_peers_typed (fst s) i T_ServicePort) as [[|x [|y rr]]|] eqn:Eg; try discriminate.
  1,3: apply ret_ok in E; destruct E as [_ ->]; split; [exact C|]; split; [exact Hid|]; split; [|left; auto];
       intros sp Hsp Ht; destruct (Hall [] sp eq_refl Hsp Ht).
  apply bind_get_ok in E. destruct (first_neighbor (fst s) x RConnects CNS) as [|q [|q' rq]]; try discriminate.
  apply bind_ok in E. destruct E as [r [s2 [E1 E]]]. apply ret_ok in E. destruct E as [_ ->].
  destruct (disconnect_interface_ok i s r s2 C E1) as [C2 [_ [Hb Hc]]].
  split; [exact C2|]. split; [exact Hid|]. split; [exact Hb|].
  destruct Hc as [[Hc _]|[x' [_ Hx]]]; [left; exact Hc | right; exists x'; exact Hx].
Qed.

Definition JL (s : st) : Prop := cons g0 s /\ LJ (snd s).
(* Rart ii s (the result about artefacts for ii): the service port across a two-ended link from ii is deleted *)
Definition Rart (ii : N) (s : st) : Prop :=
  forall l sp, link2 g0 l ii sp -> type_of g0 sp = T_ServicePort -> In sp (snd s).

Lemma peers_step ii s s' :
  JL s -> disconnect_peers_of ii s = (inl tt, s') -> JL s' /\ Rart ii s' /\ (forall x, In x (snd s) -> In x (snd s')).
Proof.
  intros [C L] E. destruct (disconnect_peers_of_ok ii s s' C E) as [C' [Hid [Hb Hc]]].
  assert (Hsub : forall x, In x (snd s) -> In x (snd s')).
  { intros x Hx. apply (ext_to g0 _ _ _ _ x (Inv_disconnect_peers_of ii) C E Hx). }
  split; [split; [exact C'|]|split; [|exact Hsub]].
  - destruct Hc as [Hc|[x [Hx1 [_ Hx3]]]]; [rewrite Hc; exact L|].
    apply (remove_cp_LJ x true s s' C L); [|exact Hx3]. apply (peer_cps_class g0 s ii x C Hx1).
  - intros l sp Hl Ht.
    destruct (in_dec N.eq_dec sp (snd s)) as [Hsd|Hsd]; [apply Hsub; exact Hsd|].
    destruct (in_dec N.eq_dec l (snd s)) as [Hld|Hld].
    + destruct (L l ii sp Hl Hld) as [H|H]; [contradiction | apply Hsub; exact H].
    + apply Hb.
      * apply (link2_peer s l ii sp C Hl Hid Hld Hsd).
      * rewrite C. rewrite type_of_restrict; [exact Ht | apply memN_false; exact Hsd].
Qed.

Lemma peers_loop l s s' :
  JL s -> for_each_set disconnect_peers_of l s = (inl tt, s') ->
  JL s' /\ (forall ii, In ii l -> Rart ii s') /\ (forall x, In x (snd s) -> In x (snd s')).
Proof.
  intros HJ E. apply for_each_set_ok in E.
  set (Jl := fun t : st => JL t /\ forall x, In x (snd s) -> In x (snd t)).
  assert (H : Jl s' /\ forall ii, In ii l -> Rart ii s').
  { apply (for_each_ok_all disconnect_peers_of Jl Rart l) with (s := s); [| | |exact E].
    - intros ii t1 t2 _ [A B] Et. destruct (peers_step ii t1 t2 A Et) as [A' [R' S']].
      split; [split; [exact A' | intros x Hx; apply S'; apply B; exact Hx] | exact R'].
    - intros ii y t1 t2 _ [A _] HR Et. destruct (peers_step y t1 t2 A Et) as [_ [_ S']].
      intros l0 sp Hl Ht. apply S'. apply (HR l0 sp Hl Ht).
    - split; [exact HJ | auto]. }
  destruct H as [[A B] R]. auto.
Qed.

Lemma JL_init : JL (g0, []).
Proof. split; [apply cons_init | intros l a b _ []]. Qed.

(* the disconnect loop of _disconnect_from_services over the interface list L.  DI: every connection point it has
   deleted so far is the ServicePort peer of an interface of L, or next to such a peer.  `free L ii`: ii is neither -
   the interfaces of the element are not connected to each other - so ii is still there at its turn (not skipped). *)
Definition DI (L D : list N) : Prop :=
  forall z, In z D -> class_of g0 z = CCP ->
    exists jj p, In jj L /\ In p (peer_cps g0 jj) /\ type_of g0 p = T_ServicePort /\ (z = p \/ In z (cpn g0 p)).
Definition free (L : list N) (ii : N) : Prop :=
  forall jj, In jj L ->
    ~ In ii (peer_cps g0 jj) /\ forall p, In p (peer_cps g0 jj) -> type_of g0 p = T_ServicePort -> ~ In ii (cpn g0 p).

Lemma peers_step_DI L ii s s' :
  cons g0 s -> DI L (snd s) -> In ii L -> disconnect_peers_of ii s = (inl tt, s') -> DI L (snd s').
Proof.
  intros C HD Hii E. destruct (disconnect_peers_of_ok ii s s' C E) as [_ [_ [_ Hc]]].
  destruct Hc as [Hc|[x [Hx1 [Hx2 Hx3]]]]; [rewrite Hc; exact HD|].
  pose proof (Sound_remove_cp g0 x true s C) as H. rewrite Hx3 in H.
  assert (Hp : In x (peer_cps g0 ii)) by (rewrite C in Hx1; apply (peer_cps_mono g0 (snd s)); exact Hx1).
  assert (Ht : type_of g0 x = T_ServicePort).
  { rewrite C in Hx2. destruct (type_of_restrict_eq g0 (snd s) x _ Hx2 ltac:(discriminate)) as [A _]. exact A. }
  intros z Hz Hzc. destruct (H z Hz) as [Hz'|HU]; [apply (HD z Hz' Hzc)|].
  exists ii, x. split; [exact Hii|]. split; [exact Hp|]. split; [exact Ht|].
  destruct (U_cp_cases g0 x true z HU) as [->|[[_ Hn]|Hl]]; [left; reflexivity | right; exact Hn | congruence].
Qed.

Lemma step_art L ii s s' :
  JL s -> DI L (snd s) -> In ii L -> disconnect_step ii s = (inl tt, s') ->
  JL s' /\ DI L (snd s') /\ (forall x, In x (snd s) -> In x (snd s')) /\ (free L ii -> Rart ii s').
Proof.
  intros HJ HD Hii E. unfold disconnect_step in E.
  apply bind_ok in E. destruct E as [b [s1 [E1 E]]]. apply get_ok in E1. destruct E1 as [-> ->].
  destruct (has_node (fst s) ii && cls_eqb (class_of (fst s) ii) CCP) eqn:Eb.
  - destruct (peers_step ii s s' HJ E) as [A [B S']]. pose proof HJ as [C _].
    split; [exact A|]. split; [apply (peers_step_DI L ii s s' C HD Hii E)|]. split; [exact S' | intros _; exact B].
  - apply ret_ok in E. destruct E as [_ ->]. split; [exact HJ|]. split; [exact HD|]. split; [auto|].
    intros Hf l sp Hl Ht. exfalso. pose proof HJ as [C _].
    assert (Hc : class_of g0 ii = CCP).
    { destruct Hl as [_ [_ Hm]]. apply (cpn_class g0 l). apply Hm. auto. }
    pose proof (gone_in_D g0 s ii CCP C Hc ltac:(discriminate) Eb) as Hd.
    destruct (HD ii Hd Hc) as [jj [p [Hjj [Hp [Htp [->|Hn]]]]]].
    + exact (proj1 (Hf jj Hjj) Hp).
    + exact (proj2 (Hf jj Hjj) p Hp Htp Hn).
Qed.

Lemma disc_loop L s s' :
  JL s -> DI L (snd s) -> for_each_set disconnect_step L s = (inl tt, s') ->
  JL s' /\ (forall ii, In ii L -> free L ii -> Rart ii s') /\ (forall x, In x (snd s) -> In x (snd s')).
Proof.
  intros HJ HD E. apply for_each_set_ok in E.
  set (Jl := fun t : st => JL t /\ DI L (snd t) /\ forall x, In x (snd s) -> In x (snd t)).
  assert (H : Jl s' /\ forall ii, In ii L -> (fun ii t => free L ii -> Rart ii t) ii s').
  { apply (for_each_ok_all disconnect_step Jl (fun ii t => free L ii -> Rart ii t) L) with (s := s); [| | |exact E].
    - intros ii t1 t2 Hii [A [D B]] Et. destruct (step_art L ii t1 t2 A D Hii Et) as [A' [D' [S' R']]].
      split; [split; [exact A' | split; [exact D' | intros x Hx; apply S'; apply B; exact Hx]] | exact R'].
    - intros ii y t1 t2 Hy [A [D _]] HR Et. destruct (step_art L y t1 t2 A D Hy Et) as [_ [_ [S' _]]].
      intros Hf l0 sp Hl Ht. apply S'. apply (HR Hf l0 sp Hl Ht).
    - split; [exact HJ | split; [exact HD | auto]]. }
  destruct H as [[A [_ B]] R]. auto.
Qed.

Lemma DI_init L : DI L [].
Proof. intros z []. Qed.

End Fixed.

(* the interfaces an operation disconnects before removing: the interfaces of the element and the
   sub-interfaces of its dedicated ports *)
Definition disc_ifs (g : graph) (o : op) (ii : N) : Prop :=
  match o with
  | ORemoveNode nm | ORemoveSwitch nm =>
      exists n, In n (topo_nodes g nm) /\ In ii (disc_list g (node_interface_list g n))
  | ORemoveFacility nm =>
      exists n, In n (by_name g CNode nm) /\ In ii (disc_list g (node_interface_list g n))
  | ORemoveComponent n c =>
      exists c', In c' (first_neighbor g n RHas CComp) /\ name_of g c' = c /\
                 In ii (disc_list g (comp_interface_list g c'))
  | ORemoveNsTopo nm =>
      exists s, In s (by_name g CNS nm) /\ In ii (disc_list g (cpn g s))
  | ONodeRemoveNs n sn =>
      exists s, In s (first_neighbor g n RHas CNS) /\ name_of g s = sn /\ In ii (disc_list g (cpn g s))
  | ORemoveChild p nm => In ii (cpn g p) /\ name_of g ii = nm
  | ODisconnect _ i => ii = i
  | _ => False
  end.

(* The element removals (node, facility, switch, component, service through the topology or through its node) have one
   shape: the name addresses a unique candidate e, the interfaces of e and the sub-interfaces of its dedicated ports are
   disconnected, then e is removed at graph level. *)
Definition elem_sel (g : graph) (o : op) : option (list N) :=
  match o with
  | ORemoveNode nm | ORemoveSwitch nm => Some (topo_nodes g nm)
  | ORemoveFacility nm => Some (by_name g CNode nm)
  | ORemoveNsTopo nm => Some (by_name g CNS nm)
  | ORemoveComponent n c => Some (child_by_name g (first_neighbor g n RHas CComp) c)
  | ONodeRemoveNs n sn => Some (child_by_name g (first_neighbor g n RHas CNS) sn)
  | _ => None
  end.
Definition elem_ifs (g : graph) (o : op) (e : N) : list N :=
  match o with
  | ORemoveNode _ | ORemoveSwitch _ | ORemoveFacility _ => node_interface_list g e
  | ORemoveComponent _ _ => comp_interface_list g e
  | _ => cpn g e
  end.
Definition elem_rest (o : op) (e : N) : M unit :=
  match o with
  | ORemoveNode nm | ORemoveSwitch nm | ORemoveFacility nm =>
      bind (m_get (fun g => by_name g CNode nm)) (fun all => bind (uniq all EQuery EQuery) remove_node_graph)
  | ORemoveComponent _ _ => remove_component e
  | _ => remove_ns e
  end.

Lemma elem_disc_ifs g o cands e ii :
  elem_sel g o = Some cands -> In e cands -> In ii (disc_list g (elem_ifs g o e)) -> disc_ifs g o ii.
Proof.
  destruct o; simpl; intros [= <-] He Hii; try (exists e; auto; fail);
    apply child_by_name_In in He; exists e; tauto.
Qed.

Lemma disc_ifs_elem g o ii : disc_ifs g o ii ->
  (exists cands e, elem_sel g o = Some cands /\ In e cands /\ In ii (disc_list g (elem_ifs g o e))) \/
  match o with ORemoveChild _ _ | ODisconnect _ _ => True | _ => False end.
Proof.
  destruct o; simpl; auto; intros [e H]; left; eexists; exists e; (split; [reflexivity|]);
    rewrite ?child_by_name_In; tauto.
Qed.

Lemma Inv_elem_rest o e : Inv (elem_rest o e).
Proof.
  destruct o; simpl; auto 10 with inv.
Qed.

(* a returning element removal: the candidate is unique, the disconnect loop runs from the initial state, the
   graph-level removal follows *)
Lemma elem_run ex o cs g r s' cands :
  exec ex o cs (g, []) = (inl r, s') -> elem_sel g o = Some cands ->
  exists e s1, cands = [e] /\ for_each_set disconnect_step (disc_list g (elem_ifs g o e)) (g, []) = (inl tt, s1) /\
               elem_rest o e s1 = (inl tt, s').
Proof.
  intros E Hs. destruct o; simpl in Hs; try discriminate; injection Hs as <-; simpl in E;
    apply bind_ret_ok in E; destruct E as [[] E].
  - apply get_uniq_ok in E. destruct E as [n [Hc E]]. exists n.
    destruct (disc_then_ok (fun g => node_interface_list g n) _ _ _ E) as [s1 H]. eauto.
  - apply get_uniq_ok in E. destruct E as [n [Hc E]]. exists n.
    apply bind_get_ok, bind_guard_ok in E. destruct E as [_ E].
    destruct (disc_then_ok (fun g => node_interface_list g n) _ _ _ E) as [s1 H]. eauto.
  - apply get_uniq_ok in E. destruct E as [n0 [_ E]].
    apply bind_get_ok, bind_guard_ok in E. destruct E as [_ E].
    apply get_uniq_ok in E. destruct E as [n [Hc E]]. exists n.
    destruct (disc_then_ok (fun g => node_interface_list g n) _ _ _ E) as [s1 H]. eauto.
  - apply get_uniq_ok in E. destruct E as [n [Hc E]]. exists n.
    destruct (disc_then_ok (fun g => cpn g n) _ _ _ E) as [s1 H]. eauto.
  - apply bind_need_class_ok in E. destruct E as [_ [_ E]]. apply get_uniq_ok in E. destruct E as [c [Hc E]]. exists c.
    destruct (disc_then_ok (fun g => comp_interface_list g c) _ _ _ E) as [s1 H]. eauto.
  - apply bind_need_node_ok in E. destruct E as [x0 [_ E]]. apply bind_guard_ok in E. destruct E as [_ E].
    apply get_uniq_ok in E. destruct E as [s0 [Hc E]]. exists s0.
    destruct (disc_then_ok (fun g => cpn g s0) _ _ _ E) as [s1 H]. eauto.
Qed.

(* the element's interfaces are not connected to each other: ii is not across a link from (nor next to a ServicePort
   across a link from) another interface the operation disconnects.  Not needed where a single interface is handled. *)
Definition self_peer_free (g : graph) (o : op) (ii : N) : Prop :=
  match o with
  | ORemoveChild _ _ | ODisconnect _ _ => True
  | _ => forall jj, disc_ifs g o jj ->
           ~ In ii (peer_cps g jj) /\
           forall p, In p (peer_cps g jj) -> type_of g p = T_ServicePort -> ~ In ii (cpn g p)
  end.

(* "... and the peering artefacts created for it (the service-side port ...)": on normal return, the
   ServicePort across a two-ended link from any interface the operation disconnects is deleted *)
Theorem artefact_ports_deleted ex o cs g r g' tr :
  run (exec ex o cs) g = (inl r, (g', tr)) ->
  forall ii l sp, disc_ifs g o ii -> self_peer_free g o ii ->
                  link2 g l ii sp -> type_of g sp = T_ServicePort -> In sp tr.
Proof.
  intros E ii l sp Hd Hsf Hl Ht. destruct (disc_ifs_elem g o ii Hd) as [[cands [e [Hs [He Hii]]]]|Hs].
  - destruct (elem_run ex o cs g r _ cands E Hs) as [e' [s1 [-> [L1 E2]]]]. destruct He as [<-|[]].
    destruct (disc_loop g _ _ _ (JL_init g) (DI_init g _) L1) as [[C1 _] [HR _]].
    apply (ext_to g _ _ _ _ sp (Inv_elem_rest o e') C1 E2). refine (HR ii Hii _ l sp Hl Ht).
    intros jj Hjj. pose proof (elem_disc_ifs g o _ e' jj Hs (or_introl eq_refl) Hjj) as Hdj.
    destruct o; try discriminate; apply Hsf; exact Hdj.
  - destruct o; try contradiction; unfold run in E; simpl in E.
    + (* disconnect_interface *)
      simpl in Hd. subst ii. apply bind_ok in E. destruct E as [c [s1 [E E2]]]. apply ret_ok in E2. destruct E2 as [_ <-].
      unfold api_disconnect in E. apply bind_ok in E. destruct E as [rr [s1 [E E2]]].
      assert (Hs1 : s1 = (g', tr)) by (destruct rr; apply ret_ok in E2; destruct E2 as [_ E2]; symmetry; exact E2).
      subst s1.
      destruct (disconnect_interface_ok g i (g, []) rr (g', tr) (cons_init g) E) as [_ [Hid [Hb _]]].
      apply Hb; [|exact Ht]. apply (link2_peer g (g, []) l i sp (cons_init g) Hl); simpl; auto.
    + (* remove_child_interface *)
      apply bind_ok in E. destruct E as [c [s1 [E E2]]]. apply ret_ok in E2. destruct E2 as [_ <-].
      destruct (api_remove_child_ok p iname _ _ _ _ E) as [_ [i [s1 [Hi [E0 [E1 _]]]]]].
      destruct Hd as [Hx1 Hx2]. assert (Hxc : In ii [i]) by (rewrite <- Hi; apply child_by_name_In; auto).
      destruct Hxc as [<-|[]].
      destruct (peers_step g i _ _ (JL_init g) E0) as [[C1 _] [HR _]].
      apply (ext_to g _ _ _ _ sp (Inv_remove_cp i false) C1 E1). apply (HR l sp Hl Ht).
Qed.

Lemma dedup_pairs_In p l : In p (dedup_pairs l) -> In p l.
Proof.
  induction l as [|q l IH]; simpl; [tauto|].
  destruct (existsb (pair_eqb q) l); [intros H; right; apply IH; exact H|].
  intros [<-|H]; [left; reflexivity | right; apply IH; exact H].
Qed.

Lemma chains4_In g a b x y :
  In (x, y) (chains4 g a b) ->
  exists m, In x (cn g a) /\ In m (cn g x) /\ In y (cn g m) /\ In b (cn g y).
Proof.
  unfold chains4. intros Hp. apply in_flat_map in Hp. destruct Hp as [x' [Hx Hp]].
  apply in_flat_map in Hp. destruct Hp as [m [Hm Hp]].
  apply in_flat_map in Hp. destruct Hp as [y' [Hy Hp]].
  destruct (reach1 g y' b) eqn:Er; [|destruct Hp]. destruct Hp as [Hp|[]]. inversion Hp; subst x' y'.
  exists m. repeat split; try assumption. apply memN_In. exact Er.
Qed.

Lemma unpeer_ends_In g a b l xy : unpeer_ends g a b = Some l -> In xy l -> In xy (chains4 g a b).
Proof.
  unfold unpeer_ends. destruct (N.eqb a b || reach1 g a b || reach2 g a b || reach3 g a b); [discriminate|].
  destruct (dedup_pairs (chains4 g a b)) as [|p r] eqn:E; [discriminate|].
  intros H Hin. inversion H; subst l. apply dedup_pairs_In. rewrite E. exact Hin.
Qed.

(* unpeer of two services that are not joined by service - ServicePort - link - ServicePort - service (a chain of
   four `connects` edges whose inner ends are both ServicePorts) raises and deletes nothing *)
Theorem unpeer_only_peered ex a b cs g r g' tr :
  run (exec ex (OUnpeer a b) cs) g = (r, (g', tr)) ->
  (forall x m y, In x (cn g a) -> In m (cn g x) -> In y (cn g m) -> In b (cn g y) ->
                 ~ (type_of g x = T_ServicePort /\ type_of g y = T_ServicePort)) ->
  (exists e, r = inr e) /\ tr = [] /\ g' = g.
Proof.
  intros E H.
  unfold run in E. simpl in E. unfold bind, api_unpeer, bind, need_node, m_read, m_get in E. simpl in E.
  destruct (find_node g a); [|inversion E; eauto].
  destruct (find_node g b); [|inversion E; eauto].
  simpl in E. destruct (unpeer_ends g a b) as [[|[x y] [|xy' l]]|] eqn:Hu; simpl in E;
    try (inversion E; eauto; fail).
  - (* one candidate: its ends are not both service ports *)
    assert (Hb : both_sp g (x, y) = false).
    { destruct (both_sp g (x, y)) eqn:Eb; [|reflexivity]. exfalso.
      unfold both_sp in Eb. simpl in Eb. apply andb_true_iff in Eb. destruct Eb as [E1 E2].
      apply N.eqb_eq in E1. apply N.eqb_eq in E2.
      destruct (chains4_In g a b x y (unpeer_ends_In g a b _ (x, y) Hu (or_introl eq_refl))) as [m [A [B [C D]]]].
      apply (H x m y A B C D). auto. }
    unfold api_unpeer_checked, bind, m_get, guard in E. simpl in E. rewrite Hb in E. simpl in E.
    inversion E. eauto.
  - match type of E with context [if ?c then _ else _] => destruct c end; simpl in E; inversion E; eauto.
Qed.

(* whatever disconnect_interface deletes is a ServicePort peering with the interface, a connection point
   next to that port, or a link attached to them - never another node interface *)
Theorem disconnect_only_service_port ex s i cs g r g' tr :
  run (exec ex (ODisconnect s i) cs) g = (r, (g', tr)) ->
  forall x, In x tr ->
  exists p, In p (peer_cps g i) /\ type_of g p = T_ServicePort /\ U_cp g p true x.
Proof. intros E x Hx. exact (sound_exec ex (ODisconnect s i) cs g r g' tr E x Hx). Qed.

(* Topology.remove_link (fix 65db950): a link that carries a ServicePort was made by connect_interface / peer;
   the call raises and nothing changes *)
Theorem remove_link_refuses_peering_link ex nm cs g r g' tr :
  run (exec ex (ORemoveLink nm) cs) g = (r, (g', tr)) ->
  (forall l, In l (by_name g CLink nm) -> link_has_service_port g l = true) ->
  (exists e, r = inr e) /\ tr = [] /\ g' = g.
Proof.
  intros E H. unfold run in E. simpl in E. unfold bind, api_remove_link, bind, m_get, uniq in E. simpl in E.
  destruct (by_name g CLink nm) as [|l [|l' r0]] eqn:Eb; simpl in E; try (inversion E; eauto; fail).
  rewrite (H l (or_introl eq_refl)) in E. simpl in E. inversion E; eauto.
Qed.

(* the handle's cached list never influences what happens to the model *)
Definition err_of {A} (r : A + exn) : option exn := match r with inl _ => None | inr e => Some e end.
Definition same_eff {A B} (r : (A + exn) * st) (r' : (B + exn) * st) : Prop :=
  snd r = snd r' /\ err_of (fst r) = err_of (fst r').

Lemma same_eff_refl {A} (r : (A + exn) * st) : same_eff r r.
Proof. split; reflexivity. Qed.

Lemma same_eff_ret {A B} (a : A) (b : B) s : same_eff (ret a s) (ret b s).
Proof. split; reflexivity. Qed.

Lemma same_eff_bind {A B B'} (m : M A) (f : A -> M B) (f' : A -> M B') :
  (forall x s, same_eff (f x s) (f' x s)) -> forall s, same_eff (bind m f s) (bind m f' s).
Proof. intros H s. unfold bind. destruct (m s) as [[x|e] s1]; [apply H | split; reflexivity]. Qed.

Lemma same_eff_then_ret {A A' B B'} (m : M A) (m' : M A') (h : A -> B) (h' : A' -> B') s :
  same_eff (m s) (m' s) -> same_eff (bind m (fun x => ret (h x)) s) (bind m' (fun x => ret (h' x)) s).
Proof.
  unfold bind, ret, same_eff. destruct (m s) as [[x|e] s1], (m' s) as [[x'|e'] s1']; simpl;
    intros [H1 H2]; split; try assumption; try discriminate; reflexivity.
Qed.

Lemma eff_api_disconnect i c c' s : same_eff (api_disconnect i c s) (api_disconnect i c' s).
Proof.
  unfold api_disconnect. apply same_eff_bind. intros r t. destruct r; apply same_eff_ret.
Qed.

Lemma eff_api_remove_interface ex s0 nm c c' s :
  same_eff (api_remove_interface ex s0 nm c s) (api_remove_interface ex s0 nm c' s).
Proof. unfold api_remove_interface. repeat (apply same_eff_bind; intros). apply same_eff_ret. Qed.

Lemma eff_api_remove_child p nm c c' s :
  same_eff (api_remove_child p nm c s) (api_remove_child p nm c' s).
Proof. unfold api_remove_child. repeat (apply same_eff_bind; intros). apply same_eff_ret. Qed.

Lemma eff_api_unpeer a b ca cb ca' cb' s :
  same_eff (api_unpeer a b ca cb s) (api_unpeer a b ca' cb' s).
Proof.
  unfold api_unpeer. apply same_eff_bind. intros _ s1. apply same_eff_bind. intros _ s2.
  apply same_eff_bind. intros e s3. destruct e as [[|xy [|xy' l]]|]; try apply same_eff_refl.
  unfold api_unpeer_checked, api_unpeer_with. repeat (apply same_eff_bind; intros). apply same_eff_ret.
Qed.

Lemma eff_api_unpeer6 a b ca cb ca' cb' s :
  same_eff (api_unpeer6 a b ca cb s) (api_unpeer6 a b ca' cb' s).
Proof.
  unfold api_unpeer6. apply same_eff_bind. intros x s1. apply same_eff_bind. intros _ s2.
  apply same_eff_bind. intros ps s3. destruct ps as [|p ps']; [apply same_eff_refl|].
  apply same_eff_bind. intros _ s4. apply same_eff_ret.
Qed.

Theorem cache_independent ex o cs cs' g : same_eff (run (exec ex o cs) g) (run (exec ex o cs') g).
Proof.
  unfold run. destruct o; simpl;
    try (apply same_eff_bind; intros; apply same_eff_ret).
  - apply (same_eff_then_ret _ _ (fun c => [c]) (fun c => [c])). apply eff_api_disconnect.
  - apply (same_eff_then_ret _ _ (fun cc => [fst cc; snd cc]) (fun cc => [fst cc; snd cc])). apply eff_api_unpeer.
  - apply (same_eff_then_ret _ _ (fun cc => [fst cc; snd cc]) (fun cc => [fst cc; snd cc])). apply eff_api_unpeer6.
  - apply (same_eff_then_ret _ _ (fun c => [c]) (fun c => [c])). apply eff_api_remove_interface.
  - apply (same_eff_then_ret _ _ (fun c => [c]) (fun c => [c])). apply eff_api_remove_child.
Qed.

(* unpeer as rewritten by proposed_fixes/C08-6 (operation OUnpeer6) *)

Lemma class_has g x c : class_of g x = c -> c <> COther -> has_node g x = true.
Proof. unfold class_of, has_node. destruct (find_node g x); [reflexivity | intros <- H; exfalso; apply H; reflexivity]. Qed.

Lemma has_node_delete g n x : x <> n -> has_node (delete g n) x = has_node g x.
Proof.
  intros H. replace (delete g n) with (restrict g [n]).
  - rewrite has_node_restrict. simpl. destruct (N.eqb x n) eqn:E; [apply N.eqb_eq in E; contradiction | reflexivity].
  - rewrite <- (restrict_nil g) at 2. symmetry. apply delete_restrict.
Qed.

Lemma for_each_delete_succeeds l : forall (s : st),
  NoDup l -> (forall x, In x l -> has_node (fst s) x = true) -> exists s', for_each m_delete l s = (inl tt, s').
Proof.
  induction l as [|a l IH]; intros s Hn Hh; simpl.
  - exists s. reflexivity.
  - unfold bind, m_delete. rewrite (Hh a (or_introl eq_refl)). inversion Hn as [|? ? Ha Hn']; subst.
    apply (IH (delete (fst s) a, a :: snd s) Hn'). intros x Hx. simpl.
    rewrite has_node_delete; [apply Hh; right; exact Hx | intros ->; exact (Ha Hx)].
Qed.

Lemma cp_del_list_has g n dp x : has_node g n = true -> In x (cp_del_list g n dp) -> has_node g x = true.
Proof.
  intros Hn Hx. apply cp_del_list_In in Hx. destruct Hx as [Hx|Hx].
  - unfold cp_family in Hx. rewrite dedup_In in Hx. destruct Hx as [<-|Hx]; [exact Hn|].
    apply filter_In in Hx. destruct Hx as [Hx _]. apply first_neighbor_In in Hx. destruct Hx as [_ Hx].
    apply (class_has g x CCP Hx). discriminate.
  - apply cp_links_In in Hx. destruct Hx as [i [_ [Hx _]]]. apply first_neighbor_In in Hx. destruct Hx as [_ Hx].
    apply (class_has g x CLink Hx). discriminate.
Qed.

(* remove_cp_and_links on a node that is there always returns normally *)
Lemma remove_cp_succeeds n dp (s : st) : has_node (fst s) n = true -> exists s', remove_cp_and_links n dp s = (inl tt, s').
Proof.
  intros Hn. unfold remove_cp_and_links, bind, m_nonempty, need_node, m_read, m_get.
  assert (Hne : gnodes (fst s) <> []).
  { unfold has_node, find_node in Hn. destruct (gnodes (fst s)); [discriminate | discriminate]. }
  destruct (gnodes (fst s)) eqn:Eg; [contradiction|]. simpl.
  unfold has_node in Hn. destruct (find_node (fst s) n) eqn:Ef; [|discriminate]. simpl.
  unfold for_each_set.
  destruct (for_each_delete_succeeds (cp_del_list (fst s) n dp) s) as [s' Hs'].
  - unfold cp_del_list. apply dedup_NoDup.
  - intros x Hx. apply (cp_del_list_has (fst s) n dp x); [unfold has_node; rewrite Ef; reflexivity | exact Hx].
  - exists s'. rewrite Hs'. reflexivity.
Qed.

Lemma remove_if_there_succeeds c (s : st) : exists s', remove_if_there c s = (inl tt, s').
Proof.
  unfold remove_if_there, bind, m_get. simpl.
  destruct (has_node (fst s) c && cls_eqb (class_of (fst s) c) CCP) eqn:Eb.
  - apply andb_true_iff in Eb. destruct Eb as [Hh _]. apply remove_cp_succeeds. exact Hh.
  - exists s. reflexivity.
Qed.

Lemma for_each_succeeds {A} (f : A -> M unit) l :
  (forall x s, exists s', f x s = (inl tt, s')) -> forall s, exists s', for_each f l s = (inl tt, s').
Proof.
  intros H. induction l as [|a l IH]; intros s; simpl; [exists s; reflexivity|].
  unfold bind. destruct (H a s) as [s1 E]. rewrite E. apply IH.
Qed.

(* unpeer (C08-6) succeeds exactly when a peering pair exists *)
Theorem unpeer6_succeeds_iff ex a b cs g :
  class_of g a = CNS ->
  ((exists cs' g' tr, run (exec ex (OUnpeer6 a b) cs) g = (inl cs', (g', tr))) <-> unpeer_pairs g a b <> []).
Proof.
  intros Ha. assert (Hh : has_node g a = true) by (apply (class_has g a CNS Ha); discriminate).
  unfold run. simpl. unfold bind at 1. unfold api_unpeer6, bind, need_node, m_read, m_get, guard. simpl.
  unfold has_node in Hh. unfold class_of in Ha. destruct (find_node g a) as [xa|] eqn:Ef; [|discriminate].
  rewrite Ha. simpl.
  destruct (unpeer_pairs g a b) as [|p0 ps'] eqn:U; simpl.
  - split; [intros [cs' [g' [tr E]]]; discriminate | intros H; exfalso; apply H; reflexivity].
  - split; [intros _; discriminate|]. intros _.
    destruct (for_each_succeeds remove_if_there (unpeer6_ends (p0 :: ps')) remove_if_there_succeeds (g, [])) as [s' E].
    unfold for_each_set. rewrite E. simpl. destruct s' as [g' tr]. unfold ret. eauto.
Qed.

(* without a peering pair: "do not peer", nothing changes *)
Theorem unpeer6_not_peered ex a b cs g r g' tr :
  run (exec ex (OUnpeer6 a b) cs) g = (r, (g', tr)) -> unpeer_pairs g a b = [] ->
  (exists e, r = inr e) /\ tr = [] /\ g' = g.
Proof.
  intros E U. unfold run in E. simpl in E. unfold bind, api_unpeer6, bind, need_node, m_read, m_get, guard in E. simpl in E.
  destruct (find_node g a) as [xa|]; [|inversion E; eauto]. simpl in E.
  destruct (cls_eqb (ncls xa) CNS || cls_eqb (ncls xa) CLink); simpl in E; [|inversion E; eauto].
  rewrite U in E. simpl in E. inversion E; eauto.
Qed.

(* it removes exactly the peering: every end of every pair is deleted (normal return), and whatever is deleted is such
   an end, a connection point next to one, or a link attached to them; the two-ended links go by links2_exec *)
Theorem unpeer6_removes_exactly ex a b cs g r g' tr :
  run (exec ex (OUnpeer6 a b) cs) g = (inl r, (g', tr)) ->
  (forall xy, In xy (unpeer_pairs g a b) -> In (fst xy) tr /\ In (snd xy) tr) /\
  (forall x, In x tr -> exists xy, In xy (unpeer_pairs g a b) /\ (U_cp g (fst xy) true x \/ U_cp g (snd xy) true x)).
Proof.
  intros E. split.
  - intros xy Hxy. split; apply (target_exec _ _ _ _ _ _ _ E); simpl; exists xy; auto.
  - intros x Hx. exact (sound_exec _ _ _ _ _ _ _ E x Hx).
Qed.
