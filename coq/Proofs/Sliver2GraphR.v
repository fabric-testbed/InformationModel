(* C02, graph route: what the readers see - in graph_of t, and in a graph grown by t (Section Grown) -
   every sliver's node, and as neighbours of a sliver exactly its kids of the requested class, in
   order; what was in the graph before keeps its records and neighbours.  Rests on Sliver2GraphW. *)
From Coq Require Import List String Bool.
From FIM Require Import Base.ListFacts Base.Str Model.Sliver2Kinds Gen.PropMap Model.Sliver2Deep
  Model.Sliver2DeepWF Model.Sliver2Graph Model.Sliver2GraphWF Proofs.Sliver2GraphW.
Import ListNotations.

Local Opaque enums type_enum to_base from_base to_specific from_specific setters getters init_attrs
  sliver_property_to_graph no_unset_properties child_keys node_id_prop add_interface_descends all_tables_ok.

Lemma id_inj (l : list tree) u v :
  NoDup (map id_of l) -> In u l -> In v l -> id_of u = id_of v -> u = v.
Proof.
  induction l as [|x l IH]; simpl; intros ND Hu Hv E; [contradiction|].
  inversion ND as [|? ? NI ND']; subst.
  destruct Hu as [Hu|Hu]; destruct Hv as [Hv|Hv]; subst.
  - reflexivity.
  - exfalso. apply NI. rewrite E. apply in_map. exact Hv.
  - exfalso. apply NI. rewrite <- E. apply in_map. exact Hu.
  - apply IH; assumption.
Qed.

Lemma existsb_id_false x ids : ~ In x ids -> existsb (str_eqb x) ids = false.
Proof. apply (existsb_eqb_notIn str_eqb str_eqb_eq). Qed.

Lemma existsb_id_true x ids : In x ids -> existsb (str_eqb x) ids = true.
Proof. apply (existsb_eqb_In str_eqb str_eqb_eq). Qed.

Definition iskid (u v : tree) : bool := existsb (str_eqb (id_of v)) (map id_of (kids u)).

Definition forest (l : list tree) : list tree := flat_map subtrees l.

Lemma forest_cons c l : forest (c :: l) = subtrees c ++ forest l.
Proof. reflexivity. Qed.

Lemma forest_app l1 l2 : forest (l1 ++ l2) = forest l1 ++ forest l2.
Proof. unfold forest. apply flat_map_app. Qed.

Lemma in_forest_head c l : In c l -> In c (forest l).
Proof. intro H. apply in_flat_map. exists c. split; [exact H|]. rewrite subtrees_eq. left. reflexivity. Qed.

(* among the slivers of a forest, those whose id is the id of a root are the roots, in order *)
Lemma forest_filter (P : tree -> bool) : forall l,
  NoDup (map id_of (forest l)) ->
  filter (fun v => existsb (str_eqb (id_of v)) (map id_of l) && P v) (forest l) = filter P l.
Proof.
  induction l as [|c l IH]; intro ND; [reflexivity|].
  rewrite forest_cons in *. rewrite map_app in ND. rewrite (subtrees_eq c) in *. simpl in ND.
  rewrite filter_app. cbn [filter app map existsb]. rewrite str_eqb_refl. cbn [orb andb].
  assert (NDtail : NoDup (map id_of (forest l))).
  { inversion ND as [|? ? _ ND']; subst. apply (NoDup_app_r _ _ ND'). }
  assert (Hdesc : filter (fun v => (str_eqb (id_of v) (id_of c) || existsb (str_eqb (id_of v)) (map id_of l)) && P v)
                         (flat_map subtrees (kids c)) = []).
  { apply filter_none. intros d Hd.
    assert (H1 : str_eqb (id_of d) (id_of c) = false).
    { apply str_eqb_neq. intro E. inversion ND as [|? ? NI _]; subst. apply NI. rewrite <- E.
      apply in_or_app. left. apply in_map. exact Hd. }
    assert (H2 : existsb (str_eqb (id_of d)) (map id_of l) = false).
    { apply existsb_id_false. intro Hc. apply in_map_iff in Hc as [k [Ek Hk]].
      inversion ND as [|? ? _ ND']; subst.
      apply (NoDup_app_disj _ _ (id_of d) ND'); [apply in_map; exact Hd|].
      rewrite <- Ek. apply in_map. apply in_forest_head. exact Hk. }
    rewrite H1, H2. reflexivity. }
  assert (Htail : filter (fun v => (str_eqb (id_of v) (id_of c) || existsb (str_eqb (id_of v)) (map id_of l)) && P v)
                         (forest l) = filter P l).
  { rewrite <- (IH NDtail). apply filter_ext_in. intros v Hv.
    assert (H1 : str_eqb (id_of v) (id_of c) = false).
    { apply str_eqb_neq. intro E. inversion ND as [|? ? NI _]; subst. apply NI. rewrite <- E.
      apply in_or_app. right. apply in_map. exact Hv. }
    rewrite H1. reflexivity. }
  rewrite Hdesc, Htail. destruct (P c); reflexivity.
Qed.

Lemma subtrees_forest t : subtrees t = t :: forest (kids t).
Proof. apply subtrees_eq. Qed.

Lemma kid_ids_in u c : In u (subtrees c) -> forall x, In x (map id_of (kids u)) -> In x (map id_of (subtrees c)).
Proof.
  intros Hu x Hx. apply in_map_iff in Hx as [k [E Hk]]. subst x. apply in_map.
  apply (subtrees_trans c u k Hu). apply in_kids_subtrees. exact Hk.
Qed.

Lemma kid_ids_strict c : forall x, In x (map id_of (kids c)) -> In x (map id_of (forest (kids c))).
Proof.
  intros x Hx. apply in_map_iff in Hx as [k [E Hk]]. subst x. apply in_map. apply in_forest_head. exact Hk.
Qed.

Lemma kid_ids_below t u : In u (forest (kids t)) ->
  forall x, In x (map id_of (kids u)) -> In x (map id_of (forest (kids t))).
Proof.
  intros Hu x Hx. unfold forest in Hu. apply in_flat_map in Hu as [c [Hc Hu]].
  apply (kid_ids_in u c Hu) in Hx. apply in_map_iff in Hx as [v [E Hv]]. subst x. apply in_map.
  apply in_flat_map. exists c. split; assumption.
Qed.

(* among all slivers of the tree, those whose id is the id of a kid of u are the kids of u, in order *)
Lemma filter_children (P : tree -> bool) : forall t,
  NoDup (map id_of (subtrees t)) -> forall u, In u (subtrees t) ->
  filter (fun v => iskid u v && P v) (subtrees t) = filter P (kids u).
Proof.
  apply (kids_ind (fun t => NoDup (map id_of (subtrees t)) -> forall u, In u (subtrees t) ->
           filter (fun v => iskid u v && P v) (subtrees t) = filter P (kids u))).
  intros t IH ND u Hu. rewrite subtrees_forest in *. simpl in ND.
  inversion ND as [|? ? NI ND']; subst.
  destruct Hu as [E|Hu].
  - subst u. cbn [filter]. unfold iskid at 1.
    rewrite existsb_id_false by (intro Hc; apply NI; apply kid_ids_strict; exact Hc).
    cbn [andb]. unfold iskid. apply forest_filter. exact ND'.
  - cbn [filter]. unfold iskid at 1.
    rewrite existsb_id_false by (intro Hc; apply NI; apply (kid_ids_below t u Hu); exact Hc).
    cbn [andb].
    assert (Hu' := Hu). unfold forest in Hu'. apply in_flat_map in Hu' as [c [Hc Huc]].
    destruct (in_split c (kids t) Hc) as [l1 [l2 El]].
    rewrite El in ND' |- *. rewrite forest_app, forest_cons in ND' |- *. rewrite !map_app in ND'.
    rewrite !filter_app.
    assert (NDc : NoDup (map id_of (subtrees c))).
    { apply NoDup_app_r in ND'. apply NoDup_app_l in ND'. exact ND'. }
    assert (H1 : filter (fun v => iskid u v && P v) (forest l1) = []).
    { apply filter_none. intros v Hv. unfold iskid. rewrite existsb_id_false; [reflexivity|].
      intro Hk. apply (kid_ids_in u c Huc) in Hk.
      apply (NoDup_app_disj _ _ (id_of v) ND'); [apply in_map; exact Hv | apply in_or_app; left; exact Hk]. }
    assert (H2 : filter (fun v => iskid u v && P v) (forest l2) = []).
    { apply filter_none. intros v Hv. unfold iskid. rewrite existsb_id_false; [reflexivity|].
      intro Hk. apply (kid_ids_in u c Huc) in Hk. apply NoDup_app_r in ND'.
      apply (NoDup_app_disj _ _ (id_of v) ND'); [exact Hk | apply in_map; exact Hv]. }
    rewrite H1, H2. rewrite app_nil_r. cbn [app].
    apply (IH c Hc NDc u Huc).
Qed.

Lemma in_edges_of : forall t e, In e (edges_of t) <->
  exists p c, In p (subtrees t) /\ In c (kids p) /\ e = link_to p c.
Proof.
  apply (kids_ind (fun t => forall e, In e (edges_of t) <->
           exists p c, In p (subtrees t) /\ In c (kids p) /\ e = link_to p c)).
  intros t IH e. rewrite edges_of_eq. split.
  - intro H. apply in_flat_map in H as [c [Hc H]]. destruct H as [E|H].
    + exists t, c. split; [rewrite subtrees_eq; left; reflexivity|]. split; [exact Hc | symmetry; exact E].
    + apply (IH c Hc) in H as [p [c' [Hp [Hc' E]]]]. exists p, c'. split; [|split; assumption].
      apply (subtrees_trans t c p); [apply in_kids_subtrees; exact Hc | exact Hp].
  - intros [p [c [Hp [Hc E]]]]. rewrite subtrees_eq in Hp. destruct Hp as [Ep|Hp].
    + subst p. apply in_flat_map. exists c. split; [exact Hc | left; symmetry; exact E].
    + apply in_flat_map in Hp as [k [Hk Hp]]. apply in_flat_map. exists k. split; [exact Hk|].
      right. apply (IH k Hk). exists p, c. auto.
Qed.

Section Reading.
  Variable t : tree.
  Hypothesis ND : NoDup (map id_of (subtrees t)).
  Let G := graph_of t.

  Lemma gids_G : gids G = map id_of (subtrees t).
  Proof. unfold G, graph_of, gids. simpl. apply ids_rec. Qed.

  Lemma find_in_G u : In u (subtrees t) -> find_node G (id_of u) = Some (rec_of u).
  Proof.
    intro Hu. change (id_of u) with (g_id (rec_of u)). apply find_node_in.
    - rewrite gids_G. exact ND.
    - unfold G, graph_of. simpl. apply in_map. exact Hu.
  Qed.

  Lemma adjacent_iff u v rel : In u (subtrees t) -> In v (subtrees t) ->
    adjacent_via G (id_of u) rel (id_of v) = true <->
    (In v (kids u) /\ relk (t_kind v) = rel) \/ (In u (kids v) /\ relk (t_kind u) = rel).
  Proof.
    intros Hu Hv. unfold adjacent_via. rewrite existsb_exists. split.
    - intros [[[x r] y] [He Hc]]. unfold G, graph_of in He. simpl in He.
      apply in_edges_of in He as [p [c [Hp [Hc' E]]]]. unfold link_to in E. inversion E; subst x r y.
      assert (Hcs : In c (subtrees t)) by (apply (subtrees_trans t p c Hp); apply in_kids_subtrees; exact Hc').
      apply andb_true_iff in Hc as [Hr Hxy]. apply String.eqb_eq in Hr.
      apply orb_true_iff in Hxy as [Hxy|Hxy]; apply andb_true_iff in Hxy as [H1 H2];
        apply str_eqb_eq in H1; apply str_eqb_eq in H2.
      + left. rewrite (id_inj _ p u ND Hp Hu H1) in *. rewrite (id_inj _ c v ND Hcs Hv H2) in *. auto.
      + right. rewrite (id_inj _ c u ND Hcs Hu H1) in *. rewrite (id_inj _ p v ND Hp Hv H2) in *. auto.
    - intros [[Hk Hr]|[Hk Hr]].
      + exists (link_to u v). split.
        * unfold G, graph_of. simpl. apply in_edges_of. exists u, v. auto.
        * unfold link_to. rewrite Hr, String.eqb_refl, !str_eqb_refl. reflexivity.
      + exists (link_to v u). split.
        * unfold G, graph_of. simpl. apply in_edges_of. exists v, u. auto.
        * unfold link_to. rewrite Hr, String.eqb_refl, !str_eqb_refl. simpl. apply orb_true_r.
  Qed.

  (* the neighbours of u of class L via rel are its kids of that class, provided its parent is not one *)
  Lemma neighbours u rel L : In u (subtrees t) ->
    (forall v, In v (subtrees t) -> In u (kids v) -> relk (t_kind u) = rel -> class_label (t_kind v) <> L) ->
    get_first_neighbor G (id_of u) rel L =
    Ok (map id_of (filter (fun c => String.eqb (class_label (t_kind c)) L && String.eqb (relk (t_kind c)) rel) (kids u))).
  Proof.
    intros Hu Hpar. unfold get_first_neighbor. rewrite (find_in_G u Hu).
    change (g_nodes G) with (map rec_of (subtrees t)). rewrite filter_map_comm. rewrite map_map.
    change (fun x => g_id (rec_of x)) with id_of. f_equal. f_equal.
    rewrite <- (filter_children _ t ND u Hu).
    apply filter_ext_in. intros v Hv. cbn [g_label g_id rec_of].
    destruct (String.eqb (class_label (t_kind v)) L) eqn:EL.
    - change (graph_of t) with G. destruct (adjacent_via G (id_of u) rel (id_of v)) eqn:EA.
      + apply (adjacent_iff u v rel Hu Hv) in EA. destruct EA as [[Hk Hr]|[Hk Hr]].
        * unfold iskid. rewrite existsb_id_true by (apply in_map; exact Hk).
          rewrite Hr, String.eqb_refl. reflexivity.
        * exfalso. apply String.eqb_eq in EL. apply (Hpar v Hv Hk Hr EL).
      + cbn [andb]. symmetry. apply andb_false_iff.
        destruct (iskid u v) eqn:EK; [right|left; reflexivity].
        destruct (String.eqb (relk (t_kind v)) rel) eqn:ER; [|reflexivity].
        exfalso. apply String.eqb_eq in ER. unfold iskid in EK. apply existsb_exists in EK as [x [Hx Ex]].
        apply str_eqb_eq in Ex. apply in_map_iff in Hx as [k [Ek Hk]].
        assert (Hks : In k (subtrees t)) by (apply (subtrees_trans t u k Hu); apply in_kids_subtrees; exact Hk).
        assert (k = v) by (apply (id_inj _ k v ND Hks Hv); congruence). subst k.
        assert (adjacent_via G (id_of u) rel (id_of v) = true)
          by (apply (adjacent_iff u v rel Hu Hv); left; auto).
        congruence.
    - cbn [andb]. rewrite andb_false_r. reflexivity.
  Qed.
End Reading.

Lemma find_node_app_old g N E x : In x (gids g) -> find_node (gapp g N E) x = find_node g x.
Proof.
  intro Hx. unfold find_node, gapp. cbn [g_nodes]. unfold gids in Hx.
  induction (g_nodes g) as [|n l IH]; simpl in *; [contradiction|].
  destruct (str_eqb (g_id n) x) eqn:E0; [reflexivity|].
  apply IH. destruct Hx as [Hx|Hx]; [|exact Hx]. subst. rewrite str_eqb_refl in E0. discriminate E0.
Qed.

Definition edge_hits (x : str) (rel : string) (y : str) (e : gedge) : bool :=
  let '(a, r, b) := e in
  String.eqb r rel && ((str_eqb a x && str_eqb b y) || (str_eqb b x && str_eqb a y)).

Lemma adjacent_is_existsb g x rel y : adjacent_via g x rel y = existsb (edge_hits x rel y) (g_edges g).
Proof. unfold adjacent_via, edge_hits. reflexivity. Qed.

Lemma edge_hits_ends x rel y a r b :
  edge_hits x rel y (a, r, b) = true -> r = rel /\ (a = x /\ b = y \/ b = x /\ a = y).
Proof.
  unfold edge_hits. intro H. apply andb_true_iff in H as [Hr H]. apply String.eqb_eq in Hr.
  split; [exact Hr|]. apply orb_true_iff in H as [H|H]; apply andb_true_iff in H as [H1 H2];
    apply str_eqb_eq in H1; apply str_eqb_eq in H2; auto.
Qed.

(* edges whose ends all lie in ids do not reach a node outside ids *)
Lemma edges_miss (E : list gedge) ids x rel y :
  (forall a r b, In (a, r, b) E -> In a ids /\ In b ids) ->
  ~ In x ids \/ ~ In y ids -> existsb (edge_hits x rel y) E = false.
Proof.
  intros HE Hout. destruct (existsb (edge_hits x rel y) E) eqn:Ex; [|reflexivity].
  apply existsb_exists in Ex as [[[a r] b] [He Hh]]. destruct (HE a r b He) as [Ha Hb].
  apply edge_hits_ends in Hh as [_ [[E1 E2]|[E1 E2]]]; subst; tauto.
Qed.

Section Grown.
  Variables (g0 : graph) (parent : option tree) (t : tree).
  Hypothesis Hg0 : good g0.
  Hypothesis NDall : NoDup (gids g0 ++ map id_of (subtrees t)).
  Hypothesis Hpar : parent_in g0 parent.
  Let G' := grown g0 parent t.

  Lemma NDt : NoDup (map id_of (subtrees t)).
  Proof. apply (NoDup_app_r _ _ NDall). Qed.

  Lemma new_not_old x : In x (map id_of (subtrees t)) -> ~ In x (gids g0).
  Proof. intros Hn Ho. exact (NoDup_app_disj _ _ x NDall Ho Hn). Qed.

  Lemma find_in_grown u : In u (subtrees t) -> find_node G' (id_of u) = Some (rec_of u).
  Proof.
    intro Hu. change (id_of u) with (g_id (rec_of u)). apply find_node_in.
    - unfold G'. rewrite gids_grown. exact NDall.
    - unfold G', grown, gapp. cbn [g_nodes]. apply in_or_app. right. apply in_map. exact Hu.
  Qed.

  Lemma old_edges_miss x rel y :
    ~ In x (gids g0) \/ ~ In y (gids g0) -> existsb (edge_hits x rel y) (g_edges g0) = false.
  Proof. apply edges_miss. exact (good_closed g0 Hg0). Qed.

  Lemma tree_edges_miss x rel y :
    ~ In x (map id_of (subtrees t)) \/ ~ In y (map id_of (subtrees t)) ->
    existsb (edge_hits x rel y) (edges_of t) = false.
  Proof. apply edges_miss. apply edges_of_ids. Qed.

  (* the link to the parent joins the parent and the root, nothing else *)
  Lemma plink_hits x rel y : existsb (edge_hits x rel y) (plink parent t) = true ->
    exists pt, parent = Some pt /\ relk (t_kind t) = rel /\
               (id_of pt = x /\ id_of t = y \/ id_of t = x /\ id_of pt = y).
  Proof.
    destruct parent as [pt|]; [|discriminate]. simpl. rewrite orb_false_r. intro H.
    apply edge_hits_ends in H. exists pt. split; [reflexivity | exact H].
  Qed.

  Lemma adjacent_grown x rel y :
    adjacent_via G' x rel y =
    existsb (edge_hits x rel y) (g_edges g0) || existsb (edge_hits x rel y) (plink parent t)
    || existsb (edge_hits x rel y) (edges_of t).
  Proof.
    rewrite adjacent_is_existsb. unfold G', grown, gapp. cbn [g_edges]. rewrite !existsb_app. apply orb_assoc.
  Qed.

  Lemma adjacent_inside u v rel : In u (subtrees t) -> In v (subtrees t) ->
    adjacent_via G' (id_of u) rel (id_of v) = adjacent_via (graph_of t) (id_of u) rel (id_of v).
  Proof.
    intros Hu Hv. rewrite adjacent_grown.
    rewrite old_edges_miss by (left; apply new_not_old; apply in_map; exact Hu).
    destruct (existsb (edge_hits (id_of u) rel (id_of v)) (plink parent t)) eqn:Hpl; [|reflexivity].
    exfalso. apply plink_hits in Hpl as [pt [Ep [_ [[E _]|[_ E]]]]];
      [apply (new_not_old (id_of u)) | apply (new_not_old (id_of v))];
      try (apply in_map; assumption); rewrite <- E; exact (Hpar pt Ep).
  Qed.

  (* the neighbours of a sliver of the new tree: those it has in the tree alone, provided the node the
     tree hangs under is not of the requested class via the requested relation *)
  Lemma neighbours_grown u rel L : In u (subtrees t) ->
    (forall pt n, parent = Some pt -> find_node g0 (id_of pt) = Some n -> u = t ->
                  relk (t_kind t) = rel -> g_label n <> L) ->
    get_first_neighbor G' (id_of u) rel L = get_first_neighbor (graph_of t) (id_of u) rel L.
  Proof.
    intros Hu Hroot. unfold get_first_neighbor. rewrite (find_in_grown u Hu).
    rewrite (find_in_G t NDt u Hu). f_equal. f_equal.
    change (g_nodes G') with (g_nodes g0 ++ map rec_of (subtrees t)). rewrite filter_app.
    assert (Hunew := new_not_old _ (in_map id_of _ u Hu)).
    assert (Hold : filter (fun n => String.eqb (g_label n) L && adjacent_via G' (id_of u) rel (g_id n)) (g_nodes g0) = []).
    { apply filter_none. intros n Hn.
      destruct (String.eqb (g_label n) L) eqn:EL; [|reflexivity]. cbn [andb].
      assert (Hnold : In (g_id n) (gids g0)) by (apply in_map; exact Hn).
      rewrite adjacent_grown. rewrite old_edges_miss by (left; exact Hunew).
      rewrite tree_edges_miss by (right; intro Hc; exact (new_not_old _ Hc Hnold)).
      rewrite orb_false_r. cbn [orb].
      destruct (existsb (edge_hits (id_of u) rel (g_id n)) (plink parent t)) eqn:Hpl; [|reflexivity].
      exfalso. apply plink_hits in Hpl as [pt [Ep [Er [[E _]|[Etu Epn]]]]].
      - apply Hunew. rewrite <- E. exact (Hpar pt Ep).
      - apply String.eqb_eq in EL.
        assert (Hroot_t : In t (subtrees t)) by (rewrite subtrees_eq; left; reflexivity).
        assert (Eu : u = t) by (apply (id_inj _ u t NDt Hu Hroot_t); symmetry; exact Etu).
        assert (Hfn : find_node g0 (id_of pt) = Some n).
        { rewrite Epn. apply find_node_in; [exact (good_nodup g0 Hg0) | exact Hn]. }
        exact (Hroot pt n Ep Hfn Eu Er EL). }
    rewrite Hold. cbn [app].
    unfold graph_of. cbn [g_nodes].
    apply filter_ext_in. intros n Hn. apply in_map_iff in Hn as [v [E Hv]]. subst n.
    cbn [g_id rec_of g_label]. rewrite (adjacent_inside u v rel Hu Hv). reflexivity.
  Qed.

  (* the neighbours of u of class L via rel are its kids of that class, provided its parent - inside
     the tree or, for the root, in the old graph - is not of that class via that relation *)
  Lemma neighbours_new u rel L : In u (subtrees t) ->
    (forall v, In v (subtrees t) -> In u (kids v) -> relk (t_kind u) = rel -> class_label (t_kind v) <> L) ->
    (forall pt n, parent = Some pt -> find_node g0 (id_of pt) = Some n -> u = t ->
                  relk (t_kind t) = rel -> g_label n <> L) ->
    get_first_neighbor G' (id_of u) rel L =
    Ok (map id_of (filter (fun c => String.eqb (class_label (t_kind c)) L && String.eqb (relk (t_kind c)) rel) (kids u))).
  Proof. intros Hu Hin Hout. rewrite (neighbours_grown u rel L Hu Hout). exact (neighbours t NDt u rel L Hu Hin). Qed.

  (* FRAME: nothing that was in the graph changes, except that the node the tree hangs under gains the
     tree's root as a neighbour *)
  Lemma frame_find x : In x (gids g0) -> find_node G' x = find_node g0 x.
  Proof. intro Hx. unfold G', grown. apply find_node_app_old. exact Hx. Qed.

  Lemma frame_neighbours x rel L : In x (gids g0) ->
    (forall pt, parent = Some pt -> id_of pt <> x) ->
    get_first_neighbor G' x rel L = get_first_neighbor g0 x rel L.
  Proof.
    intros Hx Hnp. unfold get_first_neighbor. rewrite (frame_find x Hx).
    destruct (find_node g0 x) as [nx|]; [|reflexivity]. f_equal. f_equal.
    change (g_nodes G') with (g_nodes g0 ++ map rec_of (subtrees t)). rewrite filter_app.
    assert (Hxn : ~ In x (map id_of (subtrees t))) by (intro Hc; exact (new_not_old x Hc Hx)).
    assert (Hpl : forall y, existsb (edge_hits x rel y) (plink parent t) = false).
    { intro y. destruct (existsb (edge_hits x rel y) (plink parent t)) eqn:Hpl; [|reflexivity].
      exfalso. apply plink_hits in Hpl as [pt [Ep [_ [[E _]|[E _]]]]]; [exact (Hnp pt Ep E)|].
      apply Hxn. rewrite <- E. rewrite subtrees_eq. left. reflexivity. }
    assert (Hnew : filter (fun n => String.eqb (g_label n) L && adjacent_via G' x rel (g_id n)) (map rec_of (subtrees t)) = []).
    { apply filter_none. intros n Hn. apply in_map_iff in Hn as [v [E Hv]]. subst n. cbn [g_id rec_of g_label].
      rewrite adjacent_grown. rewrite old_edges_miss by (right; apply new_not_old; apply in_map; exact Hv).
      rewrite Hpl. rewrite tree_edges_miss by (left; exact Hxn). rewrite andb_false_r. reflexivity. }
    rewrite Hnew. rewrite app_nil_r.
    apply filter_ext_in. intros n Hn. rewrite adjacent_grown. rewrite Hpl.
    rewrite tree_edges_miss by (left; exact Hxn). rewrite !orb_false_r. rewrite <- adjacent_is_existsb. reflexivity.
  Qed.
End Grown.
