(* C10: validation is a function of the current slice, and its own side effect (the recorded sites, also the
   partial ones of a FAILING validation) never changes its verdict: validating again gives the same outcome
   and the same sites.  Sessions (mutations interleaved with validations on one topology) are memoryless. *)
From Coq Require Import List String NArith.
From FIM Require Import Base.C10Types Model.Validate10 Model.C10Spec Proofs.Validate10Lemmas.
Import ListNotations.
Open Scope Z_scope.
Open Scope list_scope.

Section Generic.
Variable T : tables.
Variable cf es : bool.

Lemma check_props_with_site : forall r s a eps x, check_props r (with_site s a) eps x = check_props r s eps x.
Proof. reflexivity. Qed.

Lemma validate_service_stable : forall s a res,
  validate_service T es s = (a, res) -> validate_service T es (with_site s a) = (a, res).
Proof.
  intros s a res. rewrite !validate_service_eq. cbn [with_site s_type s_site s_ifaces].
  destruct (assoc _ _) as [r|]; [|intros [= <- <-]; reflexivity].
  destruct (node_ifaces _) as [eps|]; [|intros [= <- <-]; reflexivity].
  destruct (count_bad _ _ _); [intros [= <- <-]; reflexivity|].
  destruct (site_phase T es r (s_site s) eps) as [b|e] eqn:E; intros [= <- <-].
  - rewrite (site_phase_stable _ _ _ _ _ _ E). reflexivity.
  - rewrite E. reflexivity.
Qed.

Lemma validate_services_length : forall l sts res, validate_services T es l = (sts, res) -> List.length sts = List.length l.
Proof.
  induction l as [|s r IH]; intros sts res; simpl.
  - intros H. inversion H. reflexivity.
  - destruct (validate_service T es s) as [st rs]. destruct rs as [|e].
    + destruct (validate_services T es r) as [sts' res'] eqn:E. intros H. inversion H. simpl. f_equal. eapply IH. reflexivity.
    + intros H. inversion H. simpl. rewrite map_length. reflexivity.
Qed.

Lemma record_own_sites : forall l, map s_site (record_sites l (map s_site l)) = map s_site l.
Proof. induction l as [|s r IH]; simpl; [reflexivity|]. rewrite IH. reflexivity. Qed.

Lemma validate_services_stable : forall l sts res,
  validate_services T es l = (sts, res) -> validate_services T es (record_sites l sts) = (sts, res).
Proof.
  induction l as [|s r IH]; intros sts res; simpl.
  - intros H. inversion H. reflexivity.
  - destruct (validate_service T es s) as [st rs] eqn:Es. apply validate_service_stable in Es. destruct rs as [|e].
    + destruct (validate_services T es r) as [sts' res'] eqn:Er. intros H. inversion H. subst. simpl.
      rewrite Es. rewrite (IH sts' res eq_refl). reflexivity.
    + intros H. inversion H. subst. simpl. rewrite Es. rewrite record_own_sites. reflexivity.
Qed.

Lemma instance_limited_recorded : forall l sts,
  existsb (instance_limited T) (record_sites l sts) = existsb (instance_limited T) l.
Proof.
  induction l as [|s r IH]; intros [|a t]; simpl; try reflexivity. rewrite IH. reflexivity.
Qed.

Theorem validate_stable : forall sl sts res,
  validate T cf es sl = (sts, res) -> validate T cf es (recorded sl sts) = (sts, res).
Proof.
  intros [nodes svcs] sts res. unfold validate, recorded. cbn [sl_nodes sl_services].
  destruct (check_all (validate_node T) (filter (visible cf) nodes)) as [|e].
  - destruct (validate_services T es svcs) as [sts' res'] eqn:E. apply validate_services_stable in E.
    destruct res' as [|e'].
    + destruct (existsb (instance_limited T) svcs) eqn:Ei; intros H; inversion H; subst;
        rewrite E, instance_limited_recorded, Ei; reflexivity.
    + intros H. inversion H. subst. rewrite E. reflexivity.
  - intros H. inversion H. subst. rewrite record_own_sites. reflexivity.
Qed.

End Generic.

Theorem validate_cur_stable : forall sl sts res,
  validate_cur sl = (sts, res) -> validate_cur (recorded sl sts) = (sts, res).
Proof. intros sl sts res. apply validate_stable. Qed.

(* the outcomes of the validations after a prefix of a session are those of a fresh session started from the
   slice as it is at that moment: nothing else is remembered *)
Theorem session_memoryless : forall pre post st,
  session st (pre ++ post) = session st pre ++ session (state_after st pre) post.
Proof.
  induction pre as [|[f|] r IH]; intros post st; simpl; [reflexivity | apply IH | rewrite IH; reflexivity].
Qed.

Lemma record_sites_twice : forall l sts, record_sites (record_sites l sts) sts = record_sites l sts.
Proof. induction l as [|s r IH]; intros [|a t]; simpl; [reflexivity..|]. f_equal. apply IH. Qed.

(* validating twice in a row: the second outcome equals the first, and the slice is left as after the first *)
Theorem session_revalidate : forall st,
  session st [Validate; Validate] = [validate_cur st; validate_cur st] /\
  state_after st [Validate; Validate] = state_after st [Validate].
Proof.
  intros st. simpl. unfold vstep. destruct (validate_cur st) as [sts res] eqn:E. simpl.
  rewrite (validate_cur_stable st sts res E). simpl.
  split; [reflexivity|]. unfold recorded. simpl. f_equal. apply record_sites_twice.
Qed.

(* a concrete session: a valid two-site L2STS, validated; a node moved to a third site; validated again: rejected *)
Definition ex_sts (c : N) : slice :=
  mk_slice []
   [mk_asvc "L2STS" None [] [mk_if "ServicePort" None (Some [mk_ep "DedicatedPort" (Some (Some 1%N))]);
                             mk_if "ServicePort" None (Some [mk_ep "DedicatedPort" (Some (Some 2%N))]);
                             mk_if "ServicePort" None (Some [mk_ep "DedicatedPort" (Some (Some c))])]].
Theorem example_session :
  map snd (session (ex_sts 2%N) [Validate; Mutate (fun _ => ex_sts 3%N); Validate; Mutate (fun _ => ex_sts 1%N); Validate])
  = [Ok; Err ETopology; Ok].
Proof. vm_compute. reflexivity. Qed.

(* a service with a DECLARED site 1 is emptied and connected again on a node at site 2: rejected (the declared site
   survives the disconnection; only set_property or validate's inference ever write it) *)
Definition ex_bridge (sites : list N) : slice :=
  mk_slice [] [mk_asvc "L2Bridge" (Some 1%N) []
                 (map (fun a => mk_if "ServicePort" None (Some [mk_ep "DedicatedPort" (Some (Some a))])) sites)].
Theorem example_reconnect :
  map snd (session (ex_bridge [1%N]) [Validate; Mutate (fun _ => ex_bridge []); Validate;
                                      Mutate (fun _ => ex_bridge [2%N]); Validate;
                                      Mutate (fun _ => ex_bridge [1%N; 1%N]); Validate])
  = [Ok; Err ETopology; Err ETopology; Ok].
Proof. vm_compute. reflexivity. Qed.
