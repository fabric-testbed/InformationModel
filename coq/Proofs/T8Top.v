(* C08: when an operation returns normally, the element it addresses is in the trace (rests on T8Complete for one
   call of remove_cp_and_links).  Del_first, Del_later, Del_delete are the rules of the judgment Del; del_<program>
   is Del of that program. *)
From Coq Require Import List NArith Bool.
From FIM Require Import Model.T8Graph Model.T8Ops Proofs.T8Frame Proofs.T8Query Proofs.T8Hoare Proofs.T8Sound
     Proofs.T8Complete Proofs.T8Closed.
Import ListNotations.

Definition targets (g : graph) (o : op) (x : N) : Prop :=
  match o with
  | ORemoveNode nm | ORemoveFacility nm | ORemoveSwitch nm => In x (by_name g CNode nm)
  | ORemoveLink nm => In x (by_name g CLink nm)
  | ORemoveNsTopo nm => In x (by_name g CNS nm)
  | ORemoveComponent n c => In x (first_neighbor g n RHas CComp) /\ name_of g x = c
  | ONodeRemoveNs n s => In x (first_neighbor g n RHas CNS) /\ name_of g x = s
  | ODisconnect _ i => get_peers_typed g i T_ServicePort = Some [x]
  | OUnpeer a b => exists xy, unpeer_ends g a b = Some [xy] /\ (x = fst xy \/ x = snd xy)
  | OUnpeer6 a b => exists xy, In xy (unpeer_pairs g a b) /\ (x = fst xy \/ x = snd xy)
  | ORemoveInterface s nm => In x (cpn g s) /\ name_of g x = nm
  | ORemoveChild p nm => In x (cpn g p) /\ name_of g x = nm
  | OPrune | OPrune7 | OPrune8 | OPrune9 => False
  end.

Lemma child_by_name_uniq g l nm c x : child_by_name g l nm = [c] -> In x l -> name_of g x = nm -> x = c.
Proof.
  intros Hc Hx Hn. assert (H : In x (child_by_name g l nm)) by (apply filter_In; split; [exact Hx | apply N.eqb_eq; exact Hn]).
  rewrite Hc in H. destruct H as [<-|[]]. reflexivity.
Qed.

Section Top.
Variable g0 : graph.

Lemma ext_to {A} (m : M A) s r s' x : Inv m -> cons g0 s -> m s = (r, s') -> In x (snd s) -> In x (snd s').
Proof. intros Im C E Hx. destruct (Inv_cons_eq g0 m s r s' Im C E) as [_ Hext]. apply (ext_In s s' x Hext Hx). Qed.

Lemma cons_to {A} (m : M A) s r s' : Inv m -> cons g0 s -> m s = (r, s') -> cons g0 s'.
Proof. intros Im C E. destruct (Inv_cons_eq g0 m s r s' Im C E) as [H _]. exact H. Qed.

(* Del n m: a normal return of m from a consistent state has n in its trace.  In a sequence it is enough that one
   step deletes n, the others only extend the trace. *)
Definition Del (n : N) (m : M unit) : Prop :=
  forall s s', cons g0 s -> m s = (inl tt, s') -> In n (snd s').

Lemma Del_first n (m : M unit) (f : unit -> M unit) :
  Inv m -> (forall u, Inv (f u)) -> Del n m -> Del n (bind m f).
Proof.
  intros Im If Hm s s' C E. apply bind_ok in E. destruct E as [[] [s1 [E1 E2]]].
  apply (ext_to _ _ _ _ n (If tt) (cons_to _ _ _ _ Im C E1) E2). apply (Hm s s1 C E1).
Qed.

Lemma Del_later {A} n (m : M A) (f : A -> M unit) : Inv m -> (forall x, Del n (f x)) -> Del n (bind m f).
Proof.
  intros Im Hf s s' C E. apply bind_ok in E. destruct E as [x [s1 [E1 E2]]].
  apply (Hf x s1 s' (cons_to _ _ _ _ Im C E1) E2).
Qed.

Lemma Del_delete n : Del n (m_delete n).
Proof. intros s s' _ E. apply delete_ok in E. destruct E as [_ ->]. left. reflexivity. Qed.

Lemma del_remove_cp n dp : Del n (remove_cp_and_links n dp).
Proof.
  intros s s' C E. destruct (remove_cp_ok g0 n dp s s' C E) as [_ [_ H]]. apply H. left.
  apply cp_del_list_In. left. apply in_family_cur.
Qed.

Lemma del_remove_ns n : Del n (remove_ns n).
Proof.
  unfold remove_ns. apply Del_later; [auto with inv | intros _]. apply Del_later; [auto with inv | intros ifs].
  apply Del_first; auto with inv. apply Del_delete.
Qed.

Lemma del_remove_ns_disconnecting n : Del n (remove_ns_disconnecting n).
Proof.
  unfold remove_ns_disconnecting. apply Del_later; [auto with inv | intros ifs].
  apply Del_later; [auto with inv | intros _]. apply del_remove_ns.
Qed.

Lemma del_remove_component n : Del n (remove_component n).
Proof.
  unfold remove_component. apply Del_later; [auto with inv | intros _]. apply Del_later; [auto with inv | intros nss].
  apply Del_first; auto with inv. apply Del_delete.
Qed.

Lemma del_remove_node_graph n : Del n (remove_node_graph n).
Proof.
  unfold remove_node_graph. apply Del_later; [auto with inv | intros _]. apply Del_later; [auto with inv | intros comps].
  apply Del_later; [auto with inv | intros _]. apply Del_later; [auto with inv | intros nss].
  apply Del_first; auto with inv. apply Del_delete.
Qed.

Lemma del_remove_link_graph n : Del n (remove_link_graph n).
Proof. unfold remove_link_graph. apply Del_later; [auto with inv | intros _]. apply Del_delete. Qed.

(* "look the name up, the result is unique, remove it": every element of that name in g0 ends up deleted *)
Lemma del_by_name_tail c nm (rm : N -> M unit) s s' x :
  (forall n, Inv (rm n)) -> (forall n, Del n (rm n)) -> cons g0 s ->
  bind (m_get (fun g => by_name g c nm)) (fun all => bind (uniq all EQuery EQuery) rm) s = (inl tt, s') ->
  In x (by_name g0 c nm) -> In x (snd s').
Proof.
  intros Irm Hrm C E Hx. apply get_uniq_ok in E. destruct E as [n [Hall E]].
  destruct (in_dec N.eq_dec x (snd s)) as [Hd|Hd]; [apply (ext_to _ _ _ _ x (Irm n) C E Hd)|].
  assert (Hxn : In x (by_name (fst s) c nm)) by (rewrite C; apply by_name_restrict; auto).
  rewrite Hall in Hxn. destruct Hxn as [<-|[]]. apply (Hrm n s s' C E).
Qed.

Lemma Inv_node_tail nm n :
  Inv (bind (m_get (fun g => disc_list g (node_interface_list g n))) (fun ifs =>
       bind (for_each_set disconnect_step ifs) (fun _ =>
       bind (m_get (fun g => by_name g CNode nm)) (fun all =>
       bind (uniq all EQuery EQuery) (fun n' => remove_node_graph n'))))).
Proof. auto 10 with inv. Qed.

Lemma del_node_tail nm n s s' x :
  cons g0 s ->
  bind (m_get (fun g => disc_list g (node_interface_list g n))) (fun ifs =>
  bind (for_each_set disconnect_step ifs) (fun _ =>
  bind (m_get (fun g => by_name g CNode nm)) (fun all =>
  bind (uniq all EQuery EQuery) (fun n' => remove_node_graph n')))) s = (inl tt, s') ->
  In x (by_name g0 CNode nm) -> In x (snd s').
Proof.
  intros C E Hx. apply bind_get_ok, bind_ok in E. destruct E as [[] [s1 [E1 E]]].
  pose proof (cons_to _ _ _ _ (Inv_for_each_set _ _ Inv_disconnect_step) C E1) as C1.
  apply (del_by_name_tail CNode nm remove_node_graph s1 s' x Inv_remove_node_graph del_remove_node_graph C1 E Hx).
Qed.

Lemma del_api_remove_node nm x : In x (by_name g0 CNode nm) -> Del x (api_remove_node nm).
Proof. intros Hx s s' C E. apply get_uniq_ok in E. destruct E as [n [_ E]]. apply (del_node_tail nm n s s' x C E Hx). Qed.

Lemma del_api_remove_facility nm x : In x (by_name g0 CNode nm) -> Del x (api_remove_facility nm).
Proof.
  intros Hx s s' C E. apply get_uniq_ok in E. destruct E as [n [_ E]]. apply bind_get_ok, bind_guard_ok in E.
  apply (del_node_tail nm n s s' x C (proj2 E) Hx).
Qed.

Lemma del_api_remove_component n cname c :
  In c (first_neighbor g0 n RHas CComp) -> name_of g0 c = cname -> Del c (api_remove_component n cname).
Proof.
  intros Hc Hnm s s' C E. apply bind_need_class_ok in E. destruct E as [Hh [_ E]].
  apply get_uniq_ok in E. destruct E as [c' [Hu E]].
  assert (I : forall c', Inv (bind (m_get (fun g => disc_list g (comp_interface_list g c'))) (fun ifs =>
                              bind (for_each_set disconnect_step ifs) (fun _ => remove_component c'))))
    by (intros; auto with inv).
  destruct (in_dec N.eq_dec c (snd s)) as [Hd|Hd]; [apply (ext_to _ _ _ _ c (I c') C E Hd)|].
  destruct (cons_has g0 s n C Hh) as [Hnd _]. rewrite C in Hu.
  rewrite (child_by_name_uniq _ _ _ _ c Hu); [| apply first_neighbor_restrict; [discriminate | auto]
                                               | rewrite name_of_restrict; [exact Hnm | apply memN_false, Hd]].
  revert C E. apply Del_later; [auto with inv | intros ifs]. apply Del_later; [auto with inv | intros _].
  apply del_remove_component.
Qed.

Lemma del_remove_if_there c : class_of g0 c = CCP -> Del c (remove_if_there c).
Proof.
  intros Hc s s' C E. apply bind_get_ok in E.
  destruct (has_node (fst s) c && cls_eqb (class_of (fst s) c) CCP) eqn:Eb.
  - apply (del_remove_cp c true s s' C E).
  - apply ret_ok in E. destruct E as [_ ->]. apply (gone_in_D g0 s c CCP C Hc ltac:(discriminate) Eb).
Qed.

Lemma del_unpeer6_loop l s s' :
  cons g0 s -> (forall c, In c l -> class_of g0 c = CCP) ->
  for_each_set remove_if_there l s = (inl tt, s') -> forall c, In c l -> In c (snd s').
Proof.
  intros C Hl E. apply for_each_set_ok in E.
  apply (for_each_ok_all remove_if_there (cons g0) (fun c t => In c (snd t)) l) with (s := s); [| |exact C|exact E].
  - intros c t1 t2 Hc C1 Et. split; [apply (cons_to _ _ _ _ (Inv_remove_if_there c) C1 Et)|].
    apply (del_remove_if_there c (Hl c Hc) t1 t2 C1 Et).
  - intros c y t1 t2 _ C1 Hin Et. apply (ext_to _ _ _ _ c (Inv_remove_if_there y) C1 Et Hin).
Qed.

End Top.

Lemma unpeer_pairs_class g a b xy : In xy (unpeer_pairs g a b) -> class_of g (fst xy) = CCP /\ class_of g (snd xy) = CCP.
Proof.
  unfold unpeer_pairs. intros H. apply in_flat_map in H. destruct H as [x [Hx H]].
  destruct (N.eqb (type_of g x) T_ServicePort); [|destruct H].
  apply in_flat_map in H. destruct H as [y [Hy H]].
  destruct (N.eqb (type_of g y) T_ServicePort && list_eqb8 N.eqb (first_neighbor g y RConnects CNS) [b]); [|destruct H].
  destruct H as [<-|[]]. simpl. split.
  - apply first_neighbor_In in Hx. tauto.
  - apply (peer_cps_class g (g, []) x y (cons_init g)). exact Hy.
Qed.

(* The look-ups that pick the addressed element run before anything is deleted, on g itself; what follows them
   is a sequence one of whose steps deletes the element found. *)
Theorem target_exec ex o cs g r g' tr :
  run (exec ex o cs) g = (inl r, (g', tr)) -> forall x, targets g o x -> In x tr.
Proof.
  unfold run. pose proof (cons_init g) as C0. destruct o; simpl; intros E x Hx.
  - (* remove_node *)
    apply bind_ret_ok in E. destruct E as [[] E]. apply (del_api_remove_node g name x Hx _ _ C0 E).
  - (* remove_facility *)
    apply bind_ret_ok in E. destruct E as [[] E]. apply (del_api_remove_facility g name x Hx _ _ C0 E).
  - (* remove_switch *)
    apply bind_ret_ok in E. destruct E as [[] E]. apply get_uniq_ok in E. destruct E as [n [_ E]].
    apply bind_get_ok, bind_guard_ok in E. apply (del_api_remove_node g name x Hx _ _ C0 (proj2 E)).
  - (* remove_link *)
    apply bind_ret_ok in E. destruct E as [[] E].
    refine (del_by_name_tail g CLink name _ _ _ x _ _ C0 E Hx); intros n.
    + unfold remove_link_graph. auto 10 with inv.
    + apply Del_later; [auto with inv | intros sp]. apply Del_later; [auto with inv | intros _]. apply del_remove_link_graph.
  - (* remove_network_service *)
    apply bind_ret_ok in E. destruct E as [[] E].
    exact (del_by_name_tail g CNS name _ _ _ x Inv_remove_ns_disconnecting (del_remove_ns_disconnecting g) C0 E Hx).
  - (* remove_component *)
    apply bind_ret_ok in E. destruct E as [[] E]. apply (del_api_remove_component g n cname x (proj1 Hx) (proj2 Hx) _ _ C0 E).
  - (* node.remove_network_service *)
    apply bind_ret_ok in E. destruct E as [[] E]. apply bind_need_node_ok in E. destruct E as [x0 [_ E]].
    apply bind_guard_ok in E. destruct E as [_ E]. apply get_uniq_ok in E. destruct E as [s [Hs E]]. destruct Hx as [Hx1 Hx2].
    rewrite (child_by_name_uniq _ _ _ _ x Hs Hx1 Hx2). apply (del_remove_ns_disconnecting g s _ _ C0 E).
  - (* disconnect_interface *)
    apply bind_ret_ok in E. destruct E as [c E]. apply bind_ok in E. destruct E as [rr [s1 [E E2]]].
    assert (Hs1 : s1 = (g', tr)) by (destruct rr; apply ret_ok in E2; destruct E2 as [_ E2]; symmetry; exact E2). subst s1.
    apply bind_need_node_ok in E. destruct E as [x0 [_ E]]. apply bind_get_ok in E. simpl in E. rewrite Hx in E.
    apply (bind_ret_ok _ (fun _ => Some x)) in E. destruct E as [[] E]. apply (del_remove_cp g x true _ _ C0 E).
  - (* unpeer *)
    apply bind_ret_ok in E. destruct E as [cc E].
    apply bind_need_node_ok in E. destruct E as [x0 [_ E]]. apply bind_need_node_ok in E. destruct E as [x1 [_ E]].
    apply bind_get_ok in E. simpl in E. destruct Hx as [xy [Hu Hx]]. rewrite Hu in E.
    apply bind_get_ok, bind_guard_ok in E. destruct E as [_ E]. apply bind_ok in E. destruct E as [[] [s1 [E1 E]]].
    apply bind_ret_ok in E. destruct E as [[] E]. pose proof (cons_to g _ _ _ _ (Inv_remove_cp _ _) C0 E1) as C1.
    destruct Hx as [->| ->].
    + apply (ext_to g _ _ _ _ _ (Inv_remove_cp _ _) C1 E). apply (del_remove_cp g _ true _ _ C0 E1).
    + apply (del_remove_cp g _ true _ _ C1 E).
  - (* unpeer, C08-6 *)
    apply bind_ret_ok in E. destruct E as [cc E].
    apply bind_need_node_ok in E. destruct E as [x0 [_ E]]. apply bind_guard_ok in E. destruct E as [_ E].
    apply bind_get_ok in E. simpl in E. destruct Hx as [xy [Hxy Hx]].
    destruct (unpeer_pairs g a b) as [|p0 ps'] eqn:U; [destruct Hxy|].
    apply bind_ret_ok in E. destruct E as [[] E]. apply (del_unpeer6_loop g _ _ _ C0) with (c := x) in E; [exact E| |].
    + intros c Hc. unfold unpeer6_ends in Hc. rewrite dedup_In, in_app_iff, !in_map_iff, <- U in Hc.
      destruct Hc as [[q [<- Hq]]|[q [<- Hq]]]; apply (unpeer_pairs_class g a b q Hq).
    + unfold unpeer6_ends. rewrite dedup_In, in_app_iff, !in_map_iff. destruct Hx as [->| ->]; [left | right]; exists xy; auto.
  - (* remove_interface *)
    apply bind_ret_ok in E. destruct E as [c E]. apply bind_guard_ok in E. destruct E as [_ E].
    apply bind_need_node_ok in E. destruct E as [x0 [_ E]]. apply bind_guard_ok in E. destruct E as [_ E].
    apply get_uniq_ok in E. destruct E as [i [Hi E]]. destruct Hx as [Hx1 Hx2].
    rewrite (child_by_name_uniq _ _ _ _ x Hi Hx1 Hx2). apply bind_ret_ok in E. destruct E as [[] E].
    apply (del_remove_cp g i true _ _ C0 E).
  - (* remove_child_interface *)
    apply bind_ret_ok in E. destruct E as [c E]. apply bind_need_node_ok in E. destruct E as [x0 [_ E]].
    apply bind_guard_ok in E. destruct E as [_ E]. apply bind_guard_ok in E. destruct E as [_ E].
    apply get_uniq_ok in E. destruct E as [i [Hi E]]. destruct Hx as [Hx1 Hx2].
    rewrite (child_by_name_uniq _ _ _ _ x Hi Hx1 Hx2). apply bind_ok in E. destruct E as [[] [s1 [E0 E]]].
    apply bind_ret_ok in E. destruct E as [[] E].
    apply (del_remove_cp g i false _ _ (cons_to g _ _ _ _ (Inv_disconnect_peers_of i) C0 E0) E).
  - destruct Hx.
  - destruct Hx.
  - destruct Hx.
  - destruct Hx.
Qed.
