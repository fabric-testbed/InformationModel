(* C07 - removals, the node-level calls: remove_node / remove_facility / remove_switch / Node.remove_component are the
   disconnection phase over the interface list of the node (component), then the run of T7Rem3.v, then `finish`. *)
From Coq Require Import List Bool Lia.
From FIM Require Import Base.Str Model.T7Graph Model.T7Ops Model.T7WF Model.T7Steps Proofs.T7Tables Proofs.T7WFRefl Proofs.T7Frame
     Proofs.T7Units Proofs.T7Api Proofs.T7RelRun Proofs.T7Api4 Proofs.T7Rem Proofs.T7Rem2 Proofs.T7Rem3.
Import ListNotations.

Definition CPs (g : graph) (x : str) : list str := map snd (second_nb g x Has KNS KCP).

Lemma CPs_flat g x : CPs g x = flat_map (fun sv => filter (fun k => negb (str_eqb k x)) (any_nb g sv KCP)) (first_nb g x Has KNS).
Proof.
  unfold CPs, second_nb. induction (first_nb g x Has KNS) as [|l L IH]; simpl; [reflexivity|].
  rewrite map_app, IH, map_map. simpl. rewrite map_id. reflexivity.
Qed.

Lemma any_nb_connects g sv : ns_cp_connects g = true -> cls_is g sv KNS = true -> any_nb g sv KCP = first_nb g sv Connects KCP.
Proof.
  intros X C. unfold any_nb, first_nb. f_equal. apply filter_ext_in. intros [j r] Hin. simpl.
  destruct (cls_is g j KCP) eqn:Cj; [|rewrite andb_false_r; reflexivity]. rewrite andb_true_r. symmetry.
  apply In_nbrs in Hin as [e [He [Er Hends]]]. unfold ns_cp_connects in X. rewrite forallb_forall in X. specialize (X e He).
  rewrite Er in X. destruct Hends as [[E1 E2]|[E1 E2]]; rewrite E1, E2, C, Cj in X; simpl in X; rewrite ?orb_true_r in X; exact X.
Qed.

Lemma In_CPs g x i : ns_cp_connects g = true -> cls_is g x KCP = false ->
  In i (CPs g x) <-> exists sv, In sv (first_nb g x Has KNS) /\ In i (first_nb g sv Connects KCP).
Proof.
  intros X Cx. rewrite CPs_flat, in_flat_map. split.
  - intros [sv [Hsv Hi]]. exists sv. split; [exact Hsv|]. apply filter_In in Hi as [Hi _].
    rewrite (any_nb_connects g sv X) in Hi; [exact Hi | apply In_first_nb in Hsv; tauto].
  - intros [sv [Hsv Hi]]. exists sv. split; [exact Hsv|]. apply filter_In. split.
    + rewrite (any_nb_connects g sv X); [exact Hi | apply In_first_nb in Hsv; tauto].
    + apply negb_true_iff. apply str_eqb_neq. intro Ex. subst i. apply In_first_nb in Hi as [_ Hi]. congruence.
Qed.

Lemma conn_points_of_run x s k : sane (sg s) -> cls_is (sg s) x k = true -> existsb (cls_eqb k) [KNode; KComp; KComposite] = true ->
  conn_points_of x s = (s, Ok (CPs (sg s) x)).
Proof.
  intros Hs C Hk. unfold conn_points_of. unfold bind at 1. rewrite (check_class_run x [KNode; KComp; KComposite] s k Hs C Hk).
  destruct (find1_run x s Hs (cls_is_has_id _ _ _ C)) as [n [E _]].
  unfold q_second_nb, bind. rewrite E. reflexivity.
Qed.
Lemma components_of_run x s : sane (sg s) -> cls_is (sg s) x KNode = true ->
  components_of x s = (s, Ok (first_nb (sg s) x Has KComp)).
Proof.
  intros Hs C. unfold components_of. unfold bind at 1. rewrite (check_class_run x [KNode] s KNode Hs C eq_refl).
  apply q_first_nb_ok; [exact Hs | eapply cls_is_has_id; eauto].
Qed.
Lemma node_interface_list_run x s : sane (sg s) -> cls_is (sg s) x KNode = true ->
  node_interface_list x s = (s, Ok (CPs (sg s) x ++ flat_map (CPs (sg s)) (first_nb (sg s) x Has KComp))).
Proof.
  intros Hs C. unfold node_interface_list. unfold bind at 1. rewrite (conn_points_of_run x s KNode Hs C eq_refl).
  unfold bind at 1. rewrite (components_of_run x s Hs C). unfold bind at 1.
  rewrite (concatM_pure conn_points_of (CPs (sg s)) _ s); [reflexivity|].
  intros c Hc. apply (conn_points_of_run c s KComp Hs); [apply In_first_nb in Hc; tauto | reflexivity].
Qed.

Lemma FOP_filter_le1 {A} (R : A -> A -> Prop) (P : A -> bool) l :
  ForallOrdPairs R l -> (forall a b, In a l -> In b l -> P a = true -> P b = true -> R a b -> False) -> length (filter P l) <= 1.
Proof.
  induction l as [|a l IH]; simpl; intros F H; [lia|]. inversion F as [|? ? Hall Hrest]; subst.
  assert (IH' : length (filter P l) <= 1) by (apply IH; [exact Hrest | intros x y Hx Hy; apply H; right; assumption]).
  destruct (P a) eqn:Pa; [|exact IH']. simpl.
  destruct (filter P l) as [|b l'] eqn:Ef; [simpl; lia|]. exfalso.
  assert (Hb : In b (filter P l)) by (rewrite Ef; left; reflexivity). apply filter_In in Hb as [Hb Pb].
  rewrite Forall_forall in Hall. apply (H a b); [left; reflexivity | right; exact Hb | exact Pa | exact Pb | apply Hall; exact Hb].
Qed.

Lemma node_name_unique g n name : WF g -> In n (gnodes g) -> ncls n = KNode -> nname n = Some name -> nodes_named g KNode name = [n].
Proof.
  intros W Hn Kn Nn. unfold nodes_named.
  assert (Le : length (filter (fun m => cls_eqb (ncls m) KNode && ostr_eqb (nname m) (Some name)) (gnodes g)) <= 1).
  { apply (FOP_filter_le1 _ _ _ (wf_names _ W)). intros a b _ _ Pa Pb Hc.
    apply andb_true_iff in Pa as [Ka Na]. apply andb_true_iff in Pb as [Kb Nb]. apply cls_eqb_eq in Ka. apply cls_eqb_eq in Kb.
    apply ostr_eqb_eq in Na. apply ostr_eqb_eq in Nb. unfold name_clash, scope_of in Hc. rewrite Ka, Kb, Na, Nb, str_eqb_refl in Hc.
    simpl in Hc. discriminate Hc. }
  assert (Hin : In n (filter (fun m => cls_eqb (ncls m) KNode && ostr_eqb (nname m) (Some name)) (gnodes g))).
  { apply filter_In. split; [exact Hn|]. rewrite Kn, Nn. simpl. apply str_eqb_refl. }
  destruct (filter _ (gnodes g)) as [|a [|b l]]; simpl in *; [contradiction | | lia]. destruct Hin as [->|[]]. reflexivity.
Qed.

Lemma filter_comm {A} (P Q : A -> bool) l : filter P (filter Q l) = filter Q (filter P l).
Proof. induction l as [|a l IH]; simpl; [reflexivity|]. destruct (P a) eqn:Pa; destruct (Q a) eqn:Qa; simpl; rewrite ?Pa, ?Qa, IH; reflexivity. Qed.

Lemma find_node_by_name_run g0 d n name s : WF g0 -> sg s = remove_set g0 d -> In n (gnodes g0) -> d (nid n) = false ->
  ncls n = KNode -> nname n = Some name -> find_node_by_name name KNode s = (s, Ok (nid n)).
Proof.
  intros W G Hn Dn Kn Nn. unfold find_node_by_name, bind, getg. rewrite G. unfold nodes_named, remove_set. simpl.
  rewrite filter_comm. fold (nodes_named g0 KNode name). rewrite (node_name_unique g0 n name W Hn Kn Nn). simpl. rewrite Dn. reflexivity.
Qed.

(* after the disconnection loop (which deletes service ports and links only) over a list that holds the interfaces of sv *)
Lemma NsReady_from_phase g0 E d1 ifs sv :
  WF g0 -> subs_under_dedicated g0 = true -> cls_is g0 sv KNS = true -> sane (remove_set g0 d1) ->
  E sv = true -> (forall i, In i ifs -> E i = true) -> (forall x, In x (first_nb g0 sv Connects KCP) -> In x ifs) ->
  (forall c z, In c (loop_list g0 ifs) -> d1 c = false -> In z (peers (remove_set g0 d1) c) -> typ_is g0 z sServicePort = false) ->
  NsReady g0 E d1 sv.
Proof.
  intros W X Cs Sn Es Ei Hin N1. split; [exact Es|]. split; [intros i Hi; apply Ei, Hin, Hi|].
  exact (NoSP_from_phase g0 E d1 ifs sv W X Cs Sn Hin N1).
Qed.
Lemma PortsGone_Kl g0 d : (forall y, d y = true -> sp_or_link g0 y) -> PortsGone g0 d.
Proof. intros K sv i Cs Ds _. rewrite (sp_or_link_keeps g0 d KNS sv K Cs) in Ds; discriminate. Qed.

(* Node.interface_list: the interfaces of the node's own services and of the services of its components *)
Lemma node_ifs_spec g x i : ns_cp_connects g = true -> cls_is g x KNode = true ->
  In i (CPs g x ++ flat_map (CPs g) (first_nb g x Has KComp)) <->
  exists sv, In sv (first_nb g x Has KNS ++ flat_map (fun c => first_nb g c Has KNS) (first_nb g x Has KComp)) /\
             In i (first_nb g sv Connects KCP).
Proof.
  intros X2 Cx.
  assert (Cc : forall c, In c (first_nb g x Has KComp) -> cls_is g c KCP = false)
    by (intros c Hc; apply In_first_nb in Hc as [_ Hc]; apply (cls_is_unique _ _ _ _ Hc); discriminate).
  rewrite in_app_iff, (In_CPs g x i X2 (cls_is_unique _ _ _ KCP Cx ltac:(discriminate))). split.
  - intros [[sv [A B]]|Hi]; [exists sv; split; [apply in_or_app; left; exact A | exact B]|].
    apply in_flat_map in Hi as [c [Hc Hi]]. apply (In_CPs g c i X2 (Cc c Hc)) in Hi as [sv [A B]].
    exists sv. split; [apply in_or_app; right; apply in_flat_map; exists c; auto | exact B].
  - intros [sv [A B]]. apply in_app_or in A as [A|A]; [left; exists sv; auto|]. right.
    apply in_flat_map in A as [c [Hc A]]. apply in_flat_map. exists c. split; [exact Hc|].
    apply (In_CPs g c i X2 (Cc c Hc)). exists sv. auto.
Qed.

Lemma remove_node_core fl hint n name s s' r :
  WF (sg s) -> subs_under_dedicated (sg s) = true -> ns_cp_connects (sg s) = true -> one_sp_peer (sg s) = true ->
  fl_skip_gone fl = true -> In n (gnodes (sg s)) -> ncls n = KNode -> nname n = Some name ->
  (ifs <- node_interface_list (nid n) ;; (disconnect_loop fl hint ifs ;;; (x <- find_node_by_name name KNode ;; remove_network_node x))) s = (s', r) ->
  WF (sg s').
Proof.
  intros W X X2 P FL Hn Kn Nn H. set (g0 := sg s) in *. set (x := nid n) in *.
  assert (Cx : cls_is g0 x KNode = true) by (unfold x; rewrite (cls_is_node g0 n _ (wf_ids _ W) Hn), Kn; reflexivity).
  pose proof (WF_WFr g0) as WR. apply WR in W as Wr. pose proof (WFr_sane _ _ _ Wr) as Sn0.
  unfold bind at 1 in H. rewrite (node_interface_list_run x s Sn0 Cx) in H. fold g0 in H.
  set (COMPS := first_nb g0 x Has KComp) in *.
  set (ifs := CPs g0 x ++ flat_map (CPs g0) COMPS) in *.
  set (NSSall := first_nb g0 x Has KNS ++ flat_map (fun c => first_nb g0 c Has KNS) COMPS).
  assert (Cc : forall c, In c COMPS -> cls_is g0 c KComp = true) by (intros c Hc; apply In_first_nb in Hc; tauto).
  assert (Csv : forall sv, In sv NSSall -> cls_is g0 sv KNS = true).
  { intros sv Hsv. unfold NSSall in Hsv. apply in_app_or in Hsv as [Hsv|Hsv]; [apply In_first_nb in Hsv; tauto|].
    apply in_flat_map in Hsv as [c [_ Hsv]]. apply In_first_nb in Hsv. tauto. }
  pose proof (fun i => node_ifs_spec g0 x i X2 Cx) as Hifs. fold COMPS ifs NSSall in Hifs.
  assert (Cifs : forall i, In i ifs -> cls_is g0 i KCP = true).
  { intros i Hi. apply Hifs in Hi as [sv [_ Hi]]. apply In_first_nb in Hi. tauto. }
  set (E := fun y => str_eqb y x || mem_str y COMPS || mem_str y NSSall || mem_str y ifs).
  assert (EN : forall y, E y = true -> cls_is g0 y KLink = false).
  { intros y Hy. unfold E in Hy. repeat (apply orb_true_iff in Hy as [Hy|Hy]).
    - apply str_eqb_eq in Hy. subst y. apply (cls_is_unique _ _ _ _ Cx). discriminate.
    - apply mem_str_In in Hy. apply (cls_is_unique _ _ _ _ (Cc y Hy)). discriminate.
    - apply mem_str_In in Hy. apply (cls_is_unique _ _ _ _ (Csv y Hy)). discriminate.
    - apply mem_str_In in Hy. apply (cls_is_unique _ _ _ _ (Cifs y Hy)). discriminate. }
  assert (Eifs : forall i, In i ifs -> E i = true).
  { intros i Hi. unfold E. apply mem_str_In in Hi. rewrite Hi. apply orb_true_r. }
  assert (Ensv : forall sv, In sv NSSall -> E sv = true).
  { intros sv Hsv. unfold E. apply mem_str_In in Hsv. rewrite Hsv. rewrite orb_true_r. reflexivity. }
  destruct (disconnect_phase g0 W X P E EN fl hint ifs s eq_refl FL Cifs (fun i Hi _ => Eifs i Hi)) as [d1 [R1 [I1 [K1 N1]]]].
  unfold bind at 1 in H. rewrite R1 in H.
  set (s1 := mkSt (remove_set g0 d1) (sdr s)) in *.
  assert (Dx : d1 x = false) by (apply (sp_or_link_keeps g0 d1 KNode x K1 Cx); discriminate).
  unfold bind at 1 in H. rewrite (find_node_by_name_run g0 d1 n name s1 W eq_refl Hn Dx Kn Nn) in H. fold x in H.
  assert (Ready : forall sv, In sv NSSall -> NsReady g0 E d1 sv).
  { intros sv Hsv. apply (NsReady_from_phase g0 E d1 ifs sv W X (Csv sv Hsv) (InvD_sane _ _ _ _ I1) (Ensv sv Hsv) Eifs); [|exact N1].
    intros i Hi. apply Hifs. exists sv. auto. }
  destruct (remove_node_run g0 W E d1 s1 x I1 (cls_is_has_id _ _ _ Cx) Dx Cx) as [d2 [R2 [I2 [S2 [D2x [D2c [D2s PG2]]]]]]].
  - intros c Hc. split; [unfold E; apply mem_str_In in Hc; fold COMPS in Hc; rewrite Hc, orb_true_r; reflexivity|].
    intros sv Hsv. apply Ready. unfold NSSall. apply in_or_app. right. apply in_flat_map. exists c. auto.
  - intros sv Hsv. apply Ready. unfold NSSall. apply in_or_app. left. exact Hsv.
  - simpl in R2, I2. rewrite R2 in H. inversion H; subst s' r. simpl.
    assert (Dsv : forall sv, In sv NSSall -> d2 sv = true).
    { intros sv Hsv. unfold NSSall in Hsv. apply in_app_or in Hsv as [Hsv|Hsv]; [apply D2s; exact Hsv|].
      apply in_flat_map in Hsv as [c [Hc Hsv]].
      assert (Dc : d1 c = false) by (apply (sp_or_link_keeps g0 d1 KComp c K1 (Cc c Hc)); discriminate).
      destruct (D2c c Hc Dc) as [_ Q]. apply Q. exact Hsv. }
    pose proof (PortsGone_Kl g0 d1 K1) as PG1.
    apply (finish g0 E d2 _ I2). intros y Hy _. unfold E in Hy. repeat (apply orb_true_iff in Hy as [Hy|Hy]).
    + apply str_eqb_eq in Hy. subst y. exact D2x.
    + apply mem_str_In in Hy. assert (Dc : d1 y = false) by (apply (sp_or_link_keeps g0 d1 KComp y K1 (Cc y Hy)); discriminate).
      destruct (D2c y Hy Dc) as [Q _]. exact Q.
    + apply mem_str_In in Hy. apply Dsv. exact Hy.
    + apply mem_str_In in Hy. apply Hifs in Hy as [sv [Hsv Hi]]. apply (PG2 PG1 sv y (Csv sv Hsv) (Dsv sv Hsv) Hi).
Qed.

Lemma find_view_node name (P : node -> bool) g n :
  find (has_name name) (filter (fun m => cls_eqb (ncls m) KNode && P m) (gnodes g)) = Some n ->
  In n (gnodes g) /\ ncls n = KNode /\ nname n = Some name.
Proof.
  intro H. apply find_some in H as [H1 H2]. apply filter_In in H1 as [H1 H3]. apply andb_true_iff in H3 as [H3 _].
  split; [exact H1|]. split; [apply cls_eqb_eq; exact H3|]. unfold has_name in H2. apply ostr_eqb_eq. exact H2.
Qed.

(* Topology.remove_node *)
Theorem api_t_remove_node fl hint name s s' r :
  WF (sg s) -> subs_under_dedicated (sg s) = true -> ns_cp_connects (sg s) = true -> one_sp_peer (sg s) = true ->
  fl_skip_gone fl = true -> t_remove_node fl hint name s = (s', r) -> WF (sg s').
Proof.
  intros W X X2 P FL H. unfold t_remove_node in H. unfold bind at 1 in H. unfold getg at 1 in H.
  destruct (find (has_name name) (nodes_view (sg s))) as [n|] eqn:F; [|apply raise_inv in H as [-> _]; exact W].
  unfold nodes_view in F. apply find_view_node in F as [Hn [Kn Nn]].
  eapply remove_node_core; eauto.
Qed.

(* Topology.remove_facility *)
Theorem api_t_remove_facility fl hint name s s' r :
  WF (sg s) -> subs_under_dedicated (sg s) = true -> ns_cp_connects (sg s) = true -> one_sp_peer (sg s) = true ->
  fl_skip_gone fl = true -> t_remove_facility fl hint name s = (s', r) -> WF (sg s').
Proof.
  intros W X X2 P FL H. unfold t_remove_facility in H.
  peelw H W. peelw H W. peelw H W.
  unfold bind at 1 in H. unfold getg at 1 in H.
  match type of H with context [find ?f ?l] => destruct (find f l) as [n|] eqn:F end; [|apply raise_inv in H as [-> _]; exact W].
  unfold facilities_view in F. apply find_view_node in F as [Hn [Kn Nn]].
  eapply remove_node_core; eauto.
Qed.

(* Topology.remove_switch *)
Theorem api_t_remove_switch fl hint name s s' r :
  WF (sg s) -> subs_under_dedicated (sg s) = true -> ns_cp_connects (sg s) = true -> one_sp_peer (sg s) = true ->
  fl_skip_gone fl = true -> t_remove_switch fl hint name s = (s', r) -> WF (sg s').
Proof.
  intros W X X2 P FL H. unfold t_remove_switch in H.
  peelw H W. peelw H W. peelw H W.
  eapply api_t_remove_node; eauto.
Qed.

Lemma reads_components_of x : reads (components_of x).
Proof. unfold components_of. auto 8 with reads. Qed.
#[export] Hint Resolve reads_components_of : reads.
(* Node.remove_component *)
Theorem api_node_remove_component fl hint nd name s s' r :
  WF (sg s) -> subs_under_dedicated (sg s) = true -> ns_cp_connects (sg s) = true -> one_sp_peer (sg s) = true ->
  fl_skip_gone fl = true -> node_remove_component fl hint nd name s = (s', r) -> WF (sg s').
Proof.
  intros W X X2 P FL H. unfold node_remove_component in H.
  peelw H W. peelw H W. rename a into c, Hm into Hc.
  set (g0 := sg s) in *.
  assert (Cc : cls_is g0 c KComp = true) by (apply In_first_nb in Hc; tauto).
  pose proof (WF_WFr g0) as WR. apply WR in W as Wr. pose proof (WFr_sane _ _ _ Wr) as Sn0.
  unfold bind at 1 in H. rewrite (conn_points_of_run c s KComp Sn0 Cc eq_refl) in H. fold g0 in H.
  set (ifs := CPs g0 c) in *. set (NSS := first_nb g0 c Has KNS).
  assert (Csv : forall sv, In sv NSS -> cls_is g0 sv KNS = true) by (intros sv Hsv; apply In_first_nb in Hsv; tauto).
  assert (Hifs : forall i, In i ifs <-> exists sv, In sv NSS /\ In i (first_nb g0 sv Connects KCP)).
  { intro i. apply (In_CPs g0 c i X2). apply (cls_is_unique _ _ _ _ Cc). discriminate. }
  assert (Cifs : forall i, In i ifs -> cls_is g0 i KCP = true).
  { intros i Hi. apply Hifs in Hi as [sv [_ Hi]]. apply In_first_nb in Hi. tauto. }
  set (E := fun y => str_eqb y c || mem_str y NSS || mem_str y ifs).
  assert (EN : forall y, E y = true -> cls_is g0 y KLink = false).
  { intros y Hy. unfold E in Hy. repeat (apply orb_true_iff in Hy as [Hy|Hy]).
    - apply str_eqb_eq in Hy. subst y. apply (cls_is_unique _ _ _ _ Cc). discriminate.
    - apply mem_str_In in Hy. apply (cls_is_unique _ _ _ _ (Csv y Hy)). discriminate.
    - apply mem_str_In in Hy. apply (cls_is_unique _ _ _ _ (Cifs y Hy)). discriminate. }
  assert (Eifs : forall i, In i ifs -> E i = true).
  { intros i Hi. unfold E. apply mem_str_In in Hi. rewrite Hi. apply orb_true_r. }
  destruct (disconnect_phase g0 W X P E EN fl hint ifs s eq_refl FL Cifs (fun i Hi _ => Eifs i Hi)) as [d1 [R1 [I1 [K1 N1]]]].
  unfold bind at 1 in H. rewrite R1 in H.
  set (s1 := mkSt (remove_set g0 d1) (sdr s)) in *.
  assert (Dc : d1 c = false) by (apply (sp_or_link_keeps g0 d1 KComp c K1 Cc); discriminate).
  destruct (remove_comp_run g0 W E d1 s1 c I1 (cls_is_has_id _ _ _ Cc) Dc Cc) as [d2 [R2 [I2 [S2 [D2c [D2s [PG2 _]]]]]]].
  - intros sv Hsv. apply (NsReady_from_phase g0 E d1 ifs sv W X (Csv sv Hsv) (InvD_sane _ _ _ _ I1)); [| exact Eifs | | exact N1].
    + unfold E. apply mem_str_In in Hsv. fold NSS in Hsv. rewrite Hsv, orb_true_r. reflexivity.
    + intros i Hi. apply Hifs. exists sv. auto.
  - simpl in R2, I2. rewrite R2 in H. inversion H; subst s' r. simpl.
    pose proof (PortsGone_Kl g0 d1 K1) as PG1.
    apply (finish g0 E d2 _ I2). intros y Hy _. unfold E in Hy. repeat (apply orb_true_iff in Hy as [Hy|Hy]).
    + apply str_eqb_eq in Hy. subst y. exact D2c.
    + apply mem_str_In in Hy. apply D2s. exact Hy.
    + apply mem_str_In in Hy. apply Hifs in Hy as [sv [Hsv Hi]]. apply (PG2 PG1 sv y (Csv sv Hsv) (D2s sv Hsv) Hi).
Qed.
