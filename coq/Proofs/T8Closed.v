(* C08: after a removal that returns normally, the set of deleted ids is CLOSED under
   containment: a deleted node takes its components and services with it, a deleted component its
   services, a deleted service its ports, a deleted port the sub-interfaces that hang on it alone (CI),
   a deleted connection point its two-ended links (LI).  Together with "the addressed element is
   deleted" this gives: everything the element owns is deleted.  Rests on T8Complete.
   The clauses on the trace D: NIc (a deleted Network service takes its Interfaces), CoIc (a deleted Component its
   services), NoIc (a deleted Node its components and services); J4 = J2 + these three.  CoIc, NoIc and J4 take a
   set X of ids exempted from the clause; every use in the development takes the empty set. *)
From Coq Require Import List NArith Bool.
From FIM Require Import Model.T8Graph Model.T8Ops Proofs.T8Frame Proofs.T8Query Proofs.T8Hoare Proofs.T8Sound
     Proofs.T8Complete.
Import ListNotations.

(* PresJ of a program follows its syntax once the procedures that delete are dealt with: a hint database used
   like `inv` of T8Frame *)
Create HintDb presj discriminated.
#[export] Hint Constants Opaque : presj.

(* every operation except remove_child_interface (parents are kept on purpose), unpeer (no check
   that the path ends are connection points) and the two later prune variants (not treated) *)
Definition closing (o : op) : bool :=
  match o with ORemoveChild _ _ | OUnpeer _ _ | OPrune8 | OPrune9 => false | _ => true end.

Section Closed.
Variable g0 : graph.

Definition NIc (D : list N) : Prop :=
  forall s i, In s D -> class_of g0 s = CNS -> In i (cpn g0 s) -> In i D.
Definition CoIc (X : N -> Prop) (D : list N) : Prop :=
  forall c s, In c D -> ~ X c -> class_of g0 c = CComp -> In s (first_neighbor g0 c RHas CNS) -> In s D.
Definition NoIc (X : N -> Prop) (D : list N) : Prop :=
  forall n y, In n D -> ~ X n -> class_of g0 n = CNode ->
              (In y (first_neighbor g0 n RHas CComp) \/ In y (first_neighbor g0 n RHas CNS)) -> In y D.
Definition J4 (X : N -> Prop) (s : st) : Prop :=
  J2 g0 s /\ NIc (snd s) /\ CoIc X (snd s) /\ NoIc X (snd s).

(* x has its children in D *)
Definition good (D : list N) (x : N) : Prop :=
  (class_of g0 x = CNS -> forall i, In i (cpn g0 x) -> In i D) /\
  (class_of g0 x = CComp -> forall s, In s (first_neighbor g0 x RHas CNS) -> In s D) /\
  (class_of g0 x = CNode ->
   forall y, (In y (first_neighbor g0 x RHas CComp) \/ In y (first_neighbor g0 x RHas CNS)) -> In y D).

Lemma good_leaf D x : class_of g0 x = CCP \/ class_of g0 x = CLink -> good D x.
Proof. intros [H|H]; repeat split; intros H'; congruence. Qed.

Lemma good_mono (D D' : list N) x : (forall y, In y D -> In y D') -> good D x -> good D' x.
Proof. intros H [A [B C]]. repeat split; intros Hc y Hy; apply H; [apply A | apply B | apply C]; assumption. Qed.

Lemma J4_transfer X s s' :
  J4 X s -> J2 g0 s' -> (forall x, In x (snd s) -> In x (snd s')) ->
  (forall x, In x (snd s') -> In x (snd s) \/ good (snd s') x) -> J4 X s'.
Proof.
  intros [_ [HN [HC HO]]] HJ Hsub Hnew. split; [exact HJ|]. split; [|split].
  - intros s0 i Hs Hc Hi. destruct (Hnew s0 Hs) as [H|[H _]]; [apply Hsub; apply (HN s0 i H Hc Hi) | apply H; assumption].
  - intros c s0 Hc Hx Hcl Hs. destruct (Hnew c Hc) as [H|[_ [H _]]];
      [apply Hsub; apply (HC c s0 H Hx Hcl Hs) | apply H; assumption].
  - intros n y Hn Hx Hcl Hy. destruct (Hnew n Hn) as [H|[_ [_ H]]];
      [apply Hsub; apply (HO n y H Hx Hcl Hy) | apply H; assumption].
Qed.

Lemma J4_cons X s : J4 X s -> cons g0 s.
Proof. intros [[C _] _]. exact C. Qed.

Lemma cur_fn s x r c y : cons g0 s -> c <> COther ->
  (In y (first_neighbor (fst s) x r c) <-> In y (first_neighbor g0 x r c) /\ ~ In x (snd s) /\ ~ In y (snd s)).
Proof. intros C Hc. rewrite C. apply first_neighbor_restrict. exact Hc. Qed.

(* A removal procedure is described without reference to the ids that were deleted before it ran: when it
   returns, LI and CI still hold, its argument is gone, and each id it added has its children in the final trace.
   The closure of the whole trace follows for any J4. *)
Definition grows (m : M unit) (n : N) : Prop :=
  forall s s', J2 g0 s -> m s = (inl tt, s') ->
    J2 g0 s' /\ In n (snd s') /\ (forall x, In x (snd s) -> In x (snd s')) /\
    (forall x, In x (snd s') -> In x (snd s) \/ good (snd s') x).

Lemma grows_J4 X m n s s' :
  grows m n -> J4 X s -> m s = (inl tt, s') -> J4 X s' /\ In n (snd s') /\ (forall x, In x (snd s) -> In x (snd s')).
Proof.
  intros Hm HJ E. destruct (Hm s s' (proj1 HJ) E) as [A [B [C D]]].
  split; [apply (J4_transfer X s s' HJ A C D) | auto].
Qed.

Lemma grows_loop (f : N -> M unit) l s s' :
  (forall i, In i l -> grows (f i) i) -> J2 g0 s -> for_each_set f l s = (inl tt, s') ->
  J2 g0 s' /\ (forall i, In i l -> In i (snd s')) /\ (forall x, In x (snd s) -> In x (snd s')) /\
  (forall x, In x (snd s') -> In x (snd s) \/ good (snd s') x).
Proof.
  intros Hf HJ E. apply for_each_set_ok in E.
  set (Jl := fun t : st => J2 g0 t /\ (forall x, In x (snd s) -> In x (snd t)) /\
                           (forall x, In x (snd t) -> In x (snd s) \/ good (snd t) x)).
  assert (L : Jl s' /\ forall i, In i l -> In i (snd s')).
  { apply (for_each_ok_all f Jl (fun i t => In i (snd t)) l) with (s := s); [| | |exact E].
    - intros i t1 t2 Hi [A [B G]] Et. destruct (Hf i Hi t1 t2 A Et) as [A' [Hi' [Hs G']]].
      split; [|exact Hi']. split; [exact A'|]. split; [intros x Hx; apply Hs, B, Hx|].
      intros x Hx. destruct (G' x Hx) as [H|H]; [|right; exact H].
      destruct (G x H) as [H'|H']; [left; exact H' | right; apply (good_mono _ _ x Hs H')].
    - intros x y t1 t2 Hy [A _] Hx Et. destruct (Hf y Hy t1 t2 A Et) as [_ [_ [Hs _]]]. apply Hs, Hx.
    - split; [exact HJ|]. split; auto. }
  destruct L as [[A [B G]] Hl]. auto.
Qed.

(* the shape shared by the three containers: the element itself, then its children of one kind, read off the graph
   before, one by one; every such child of g0 ends up in the trace *)
Lemma delete_kids_grows n r kc (f : N -> M unit) s s' :
  J2 g0 s -> class_of g0 n <> CCP -> kc <> COther ->
  (forall i, In i (first_neighbor g0 n r kc) -> grows (f i) i) ->
  bind (m_delete n) (fun _ => for_each_set f (first_neighbor (fst s) n r kc)) s = (inl tt, s') ->
  J2 g0 s' /\ In n (snd s') /\ (forall x, In x (snd s) -> In x (snd s')) /\
  (forall i, In i (first_neighbor g0 n r kc) -> In i (snd s')) /\
  (forall x, In x (snd s') -> In x (snd s) \/ x = n \/ good (snd s') x).
Proof.
  intros HJ Hn Hk Hf E. pose proof HJ as [C _]. apply bind_ok in E. destruct E as [[] [s2 [E1 E]]].
  destruct (delete_J2 g0 n s tt s2 HJ Hn E1) as [HJ2 HD].
  apply delete_ok in E1. destruct E1 as [Hh _]. destruct (cons_has g0 s n C Hh) as [Hnd _].
  assert (Hf' : forall i, In i (first_neighbor (fst s) n r kc) -> grows (f i) i).
  { intros i Hi. apply (cur_fn s n r kc i C Hk) in Hi. apply Hf, Hi. }
  destruct (grows_loop f _ s2 s' Hf' HJ2 E) as [A [B [S G]]]. rewrite HD in S, G.
  assert (S' : forall x, In x (snd s) -> In x (snd s')) by (intros x Hx; apply S; right; exact Hx).
  split; [exact A|]. split; [apply S; left; reflexivity|]. split; [exact S'|]. split.
  - intros i Hi. destruct (in_dec N.eq_dec i (snd s)) as [Hd|Hd]; [apply S', Hd|].
    apply B. apply (cur_fn s n r kc i C Hk). auto.
  - intros x Hx. destruct (G x Hx) as [[<-|H]|H]; auto.
Qed.

Lemma cp_del_list_class s n x :
  cons g0 s -> class_of g0 n = CCP -> In x (cp_del_list (fst s) n true) -> class_of g0 x = CCP \/ class_of g0 x = CLink.
Proof.
  intros C Hn Hx. apply cp_del_list_In in Hx. destruct Hx as [Hx|Hx].
  - unfold cp_family in Hx. rewrite dedup_In in Hx. destruct Hx as [<-|Hx]; [left; exact Hn|].
    apply filter_In in Hx. destruct Hx as [Hx _]. apply (cur_fn s _ _ _ _ C) in Hx; [|discriminate].
    left. apply (cpn_class g0 n), Hx.
  - apply cp_links_In in Hx. destruct Hx as [i [_ [Hx _]]]. apply (cur_fn s _ _ _ _ C) in Hx; [|discriminate].
    right. destruct Hx as [Hx _]. apply first_neighbor_In in Hx. tauto.
Qed.

Lemma remove_cp_grows n : class_of g0 n = CCP -> grows (remove_cp_and_links n true) n.
Proof.
  intros Hn s s' HJ E. pose proof HJ as [C _]. destruct (remove_cp_ok g0 n true s s' C E) as [_ [_ H]].
  split; [apply (remove_cp_CI g0 n s s' HJ Hn E)|].
  split; [apply H; left; apply cp_del_list_In; left; apply in_family_cur|].
  split; [intros x Hx; apply H; right; exact Hx|].
  intros x Hx. apply H in Hx. destruct Hx as [Hx|Hx]; [right | left; exact Hx].
  apply good_leaf, (cp_del_list_class s n x C Hn Hx).
Qed.

Lemma remove_ns_grows n : grows (remove_ns n) n.
Proof.
  intros s s' HJ E. pose proof HJ as [C _].
  apply bind_need_class_ok in E. destruct E as [Hh [Hc E]]. apply bind_get_ok in E.
  destruct (cons_has g0 s n C Hh) as [Hnd _]. rewrite (cons_class g0 s n C Hnd) in Hc.
  destruct (delete_kids_grows n RConnects CCP _ s s' HJ ltac:(congruence) ltac:(discriminate)
              (fun i Hi => remove_cp_grows i (cpn_class g0 n i Hi)) E) as [A [B [S [K G]]]].
  split; [exact A|]. split; [exact B|]. split; [exact S|].
  intros x Hx. destruct (G x Hx) as [H|[->|H]]; auto. right.
  split; [|split]; try (intros H'; congruence). intros _. exact K.
Qed.

Lemma remove_component_grows c : grows (remove_component c) c.
Proof.
  intros s s' HJ E. pose proof HJ as [C _].
  apply bind_need_class_ok in E. destruct E as [Hh [Hc E]]. apply bind_get_ok in E.
  destruct (cons_has g0 s c C Hh) as [Hcd _]. rewrite (cons_class g0 s c C Hcd) in Hc.
  destruct (delete_kids_grows c RHas CNS _ s s' HJ ltac:(congruence) ltac:(discriminate)
              (fun i _ => remove_ns_grows i) E) as [A [B [S [K G]]]].
  split; [exact A|]. split; [exact B|]. split; [exact S|].
  intros x Hx. destruct (G x Hx) as [H|[->|H]]; auto. right.
  split; [|split]; try (intros H'; congruence). intros _. exact K.
Qed.

Lemma remove_node_graph_grows n : grows (remove_node_graph n) n.
Proof.
  intros s s' HJ E. pose proof HJ as [C _].
  apply bind_need_class_ok in E. destruct E as [Hh [Hc E]]. apply bind_get_ok, bind_ok in E. destruct E as [[] [s1 [E1 E]]].
  destruct (cons_has g0 s n C Hh) as [Hnd _]. rewrite (cons_class g0 s n C Hnd) in Hc.
  destruct (grows_loop remove_component _ s s1 (fun i _ => remove_component_grows i) HJ E1) as [HJ1 [L1 [S1 G1]]].
  apply bind_get_ok in E.
  destruct (delete_kids_grows n RHas CNS _ s1 s' HJ1 ltac:(congruence) ltac:(discriminate)
              (fun i _ => remove_ns_grows i) E) as [A [B [S [K G]]]].
  split; [exact A|]. split; [exact B|]. split; [intros x Hx; apply S, S1, Hx|].
  intros x Hx. destruct (G x Hx) as [H|[->|H]]; [| |right; exact H].
  { destruct (G1 x H) as [H'|H']; [left; exact H' | right; apply (good_mono _ _ x S H')]. }
  right. split; [|split]; try (intros H'; congruence).
  intros _ y [Hy|Hy]; [|apply K, Hy].
  destruct (in_dec N.eq_dec y (snd s)) as [Hd|Hd]; [apply S, S1, Hd|].
  apply S, L1. apply (cur_fn s n RHas CComp y C); [discriminate | auto].
Qed.

Lemma remove_ns_J4 X n s s' :
  J4 X s -> remove_ns n s = (inl tt, s') ->
  J4 X s' /\ In n (snd s') /\ (forall x, In x (snd s) -> In x (snd s')).
Proof. apply (grows_J4 X _ n s s' (remove_ns_grows n)). Qed.

Lemma remove_component_J4 X c s s' :
  J4 X s -> remove_component c s = (inl tt, s') ->
  J4 X s' /\ In c (snd s') /\ (forall x, In x (snd s) -> In x (snd s')).
Proof. apply (grows_J4 X _ c s s' (remove_component_grows c)). Qed.

Definition PresJ {A} (X : N -> Prop) (m : M A) : Prop :=
  forall s r s', J4 X s -> m s = (inl r, s') -> J4 X s' /\ (forall x, In x (snd s) -> In x (snd s')).

Lemma PresJ_pure {A} X (m : M A) : Pure m -> PresJ X m.
Proof.
  intros H s r s' HJ E. assert (Hs : s' = s) by (rewrite <- (H s), E; reflexivity). rewrite Hs. auto.
Qed.
Lemma PresJ_bind {A B} X (m : M A) (f : A -> M B) :
  PresJ X m -> (forall x s s1, J4 X s -> m s = (inl x, s1) -> PresJ X (f x)) -> PresJ X (bind m f).
Proof.
  intros Hm Hf s r s' HJ E. apply bind_ok in E. destruct E as [x [s1 [E1 E2]]].
  destruct (Hm s x s1 HJ E1) as [HJ1 Hs1]. destruct (Hf x s s1 HJ E1 s1 r s' HJ1 E2) as [HJ' Hs'].
  split; [exact HJ' | intros y Hy; apply Hs'; apply Hs1; exact Hy].
Qed.
Lemma PresJ_bind' {A B} X (m : M A) (f : A -> M B) :
  PresJ X m -> (forall x, PresJ X (f x)) -> PresJ X (bind m f).
Proof. intros Hm Hf. apply PresJ_bind; [exact Hm | intros x s s1 _ _; apply Hf]. Qed.
Lemma PresJ_bind_get {A B} X (q : graph -> A) (f : A -> M B) :
  (forall s, J4 X s -> PresJ X (f (q (fst s)))) -> PresJ X (bind (m_get q) f).
Proof.
  intros Hf. apply PresJ_bind; [apply PresJ_pure, Pure_get|]. intros x s s1 HJ E.
  apply get_ok in E. destruct E as [-> ->]. apply Hf. exact HJ.
Qed.
Lemma PresJ_for_each_set {A} X (f : A -> M unit) l : (forall x, In x l -> PresJ X (f x)) -> PresJ X (for_each_set f l).
Proof.
  intros Hf s r s' HJ E. destruct r. apply for_each_set_ok in E.
  set (Jl := fun st : st => J4 X st /\ forall x, In x (snd s) -> In x (snd st)).
  apply (for_each_ok_inv f Jl l) with (s := s); [| |exact E].
  - intros x t1 t2 Hx [HA HB] Et. destruct (Hf x Hx t1 tt t2 HA Et) as [HA' HB'].
    split; [exact HA' | intros y Hy; apply HB'; apply HB; exact Hy].
  - split; [exact HJ | auto].
Qed.
Lemma PresJ_get_uniq {B} X (q : graph -> list N) e1 e2 (f : N -> M B) :
  (forall s n, J4 X s -> q (fst s) = [n] -> PresJ X (f n)) ->
  PresJ X (bind (m_get q) (fun x => bind (uniq x e1 e2) f)).
Proof.
  intros H s r s' HJ E. apply get_uniq_ok in E. destruct E as [n [Hq E]]. exact (H s n HJ Hq s r s' HJ E).
Qed.

Lemma PresJ_grows X m n : grows m n -> PresJ X m.
Proof. intros Hm s r s' HJ E. destruct r. destruct (grows_J4 X m n s s' Hm HJ E) as [A [_ B]]. auto. Qed.

Lemma PresJ_remove_cp X i : class_of g0 i = CCP -> PresJ X (remove_cp_and_links i true).
Proof. intros Hi. apply (PresJ_grows X _ i), remove_cp_grows, Hi. Qed.
Lemma PresJ_remove_ns X n : PresJ X (remove_ns n).
Proof. apply (PresJ_grows X _ n), remove_ns_grows. Qed.
Lemma PresJ_remove_component X n : PresJ X (remove_component n).
Proof. apply (PresJ_grows X _ n), remove_component_grows. Qed.
Lemma PresJ_remove_node_graph X n : PresJ X (remove_node_graph n).
Proof. apply (PresJ_grows X _ n), remove_node_graph_grows. Qed.

Lemma PresJ_remove_cp_at X (q : graph -> N) :
  (forall s, J4 X s -> class_of g0 (q (fst s)) = CCP) ->
  forall s r s', J4 X s -> remove_cp_and_links (q (fst s)) true s = (inl r, s') ->
                 J4 X s' /\ (forall x, In x (snd s) -> In x (snd s')).
Proof. intros Hq s r s' HJ. apply (PresJ_remove_cp X _ (Hq s HJ) s r s' HJ). Qed.

Lemma PresJ_remove_link_graph X n : PresJ X (remove_link_graph n).
Proof.
  intros s r s' HJ E. apply bind_need_class_ok in E. destruct E as [Hh [Hc E]].
  pose proof (J4_cons X s HJ) as C. destruct (cons_has g0 s n C Hh) as [Hnd _]. rewrite (cons_class g0 s n C Hnd) in Hc.
  destruct (delete_J2 g0 n s r s' (proj1 HJ) ltac:(congruence) E) as [HJ2' HD].
  assert (Hsub : forall x, In x (snd s) -> In x (snd s')) by (intros x Hx; rewrite HD; right; exact Hx).
  split; [|exact Hsub]. apply (J4_transfer X s s' HJ HJ2' Hsub).
  intros x Hx. rewrite HD in Hx. destruct Hx as [<-|Hx]; [right; apply good_leaf; right; exact Hc | left; exact Hx].
Qed.

(* PresJ_remove_cp has the side condition `class_of g0 i = CCP`: a proof below that first puts such a fact into
   the context (Hx, Hi) relies on auto taking it from there *)
#[local] Hint Resolve PresJ_bind' PresJ_for_each_set PresJ_remove_cp PresJ_remove_ns PresJ_remove_component PresJ_remove_node_graph
  PresJ_remove_link_graph : presj.
#[local] Hint Extern 0 (PresJ _ _) => (apply PresJ_pure; solve [auto with pure]) : presj.
#[local] Hint Extern 3 (PresJ _ _) => match goal with |- PresJ _ (match ?x with _ => _ end) => destruct x end : presj.

Lemma peer_cps_class s i x : cons g0 s -> In x (peer_cps (fst s) i) -> class_of g0 x = CCP.
Proof.
  intros C H. unfold peer_cps in H. apply in_flat_map in H. destruct H as [l [_ H]].
  apply removeN_In in H. destruct H as [H _]. rewrite C in H.
  apply nbrs_cls_restrict in H; [|discriminate]. destruct H as [H _]. apply nbrs_cls_In in H. tauto.
Qed.

Lemma PresJ_disconnect_interface X i : PresJ X (disconnect_interface i).
Proof.
  unfold disconnect_interface. apply PresJ_bind'; [auto with presj | intros _].
  apply PresJ_bind_get. intros s HJ.
  destruct (get_peers_typed (fst s) i T_ServicePort) as [[|x [|y r]]|] eqn:E; auto with presj.
  assert (Hx : class_of g0 x = CCP).
  { destruct (get_peers_typed_In _ _ _ _ x E (or_introl eq_refl)) as [Hp _].
    apply (peer_cps_class s i x (J4_cons X s HJ) Hp). }
  auto with presj.
Qed.
#[local] Hint Resolve PresJ_disconnect_interface : presj.

Lemma PresJ_disconnect_peers_of X i : PresJ X (disconnect_peers_of i).
Proof. unfold disconnect_peers_of. auto 10 with presj. Qed.
#[local] Hint Resolve PresJ_disconnect_peers_of : presj.

Lemma PresJ_disconnect_step X i : PresJ X (disconnect_step i).
Proof. unfold disconnect_step. auto with presj. Qed.
#[local] Hint Resolve PresJ_disconnect_step : presj.

Lemma PresJ_api_remove_node X nm : PresJ X (api_remove_node nm).
Proof. unfold api_remove_node. auto 10 with presj. Qed.
Lemma PresJ_api_remove_facility X nm : PresJ X (api_remove_facility nm).
Proof. unfold api_remove_facility. auto 12 with presj. Qed.
#[local] Hint Resolve PresJ_api_remove_node PresJ_api_remove_facility : presj.
Lemma PresJ_remove_ns_disconnecting X s : PresJ X (remove_ns_disconnecting s).
Proof. unfold remove_ns_disconnecting. auto with presj. Qed.
#[local] Hint Resolve PresJ_remove_ns_disconnecting : presj.
Lemma PresJ_api_remove_component X n c : PresJ X (api_remove_component n c).
Proof. unfold api_remove_component. auto 10 with presj. Qed.
#[local] Hint Resolve PresJ_api_remove_component : presj.

Lemma child_by_name_class s p nm i :
  cons g0 s -> In i (child_by_name (fst s) (first_neighbor (fst s) p RConnects CCP) nm) -> class_of g0 i = CCP.
Proof.
  intros C H. unfold child_by_name in H. apply filter_In in H. destruct H as [H _].
  apply (cur_fn s p RConnects CCP i C) in H; [|discriminate]. destruct H as [H _].
  apply (cpn_class g0 p). exact H.
Qed.

Lemma PresJ_api_remove_interface X ex s0 iname c : PresJ X (api_remove_interface ex s0 iname c).
Proof.
  unfold api_remove_interface. do 3 (apply PresJ_bind'; [auto with presj | intros ?]).
  apply PresJ_get_uniq. intros s i HJ E.
  assert (Hi : class_of g0 i = CCP).
  { apply (child_by_name_class s s0 iname i (J4_cons X s HJ)). rewrite E. left. reflexivity. }
  auto with presj.
Qed.

Lemma PresJ_remove_if_there X c : PresJ X (remove_if_there c).
Proof.
  unfold remove_if_there. apply PresJ_bind_get. intros s HJ.
  destruct (has_node (fst s) c && cls_eqb (class_of (fst s) c) CCP) eqn:Eb; [|apply PresJ_pure, Pure_ret].
  apply PresJ_remove_cp, (there_class g0 s c (J4_cons X s HJ) Eb).
Qed.
#[local] Hint Resolve PresJ_remove_if_there : presj.

Lemma PresJ_api_prune X : PresJ X api_prune.
Proof.
  unfold api_prune. do 3 (apply PresJ_bind'; [auto with presj | intros ?]).
  apply PresJ_bind_get. intros s0 HJ0.
  assert (Hi : forall i, In i (dedup (filter (marked (fst s0)) (flat_map (ns_interfaces (fst s0)) (prune_all_nss (fst s0))))) ->
                         class_of g0 i = CCP).
  { intros i Hi. rewrite dedup_In in Hi. apply filter_In in Hi. destruct Hi as [Hi _].
    apply in_flat_map in Hi. destruct Hi as [s [_ Hi]]. unfold ns_interfaces in Hi.
    apply (cur_fn s0 s RConnects CCP i (J4_cons X s0 HJ0)) in Hi; [|discriminate]. apply (cpn_class g0 s), Hi. }
  auto 10 with presj.
Qed.

Lemma PresJ_prune_if7 X i : PresJ X (prune_if7 i).
Proof.
  unfold prune_if7, exists_as. apply PresJ_bind_get. intros s HJ.
  destruct (has_node (fst s) i && cls_eqb (class_of (fst s) i) CCP) eqn:Eb; [|apply PresJ_pure, Pure_ret].
  pose proof (there_class g0 s i (J4_cons X s HJ) Eb) as Hi. auto 10 with presj.
Qed.
#[local] Hint Resolve PresJ_prune_if7 : presj.

#[local] Hint Resolve PresJ_api_remove_interface PresJ_api_prune : presj.

Lemma PresJ_exec X ex o cs : closing o = true -> PresJ X (exec ex o cs).
Proof.
  destruct o; try discriminate; intros _; cbn [exec];
    unfold api_remove_switch, api_remove_link, api_remove_ns_topo, api_node_remove_ns, api_disconnect, api_unpeer6,
      api_prune7, prune_node7, prune_comp7, prune_ns7;
    auto 16 with presj.
Qed.

End Closed.

Definition Closed (g : graph) (D : list N) : Prop :=
  LI g D /\ CI g D /\ NIc g D /\ CoIc g (fun _ => False) D /\ NoIc g (fun _ => False) D.

Lemma J4_init g : J4 g (fun _ => False) (g, []).
Proof.
  split; [split; [|split] | split; [|split]].
  - apply cons_init.
  - intros l i j _ [].
  - intros i x [].
  - intros s i [].
  - intros c s [].
  - intros n y [].
Qed.

Lemma PresJ_run {A} g (m : M A) r g' tr :
  PresJ g (fun _ => False) m -> run m g = (inl r, (g', tr)) -> Closed g tr.
Proof.
  intros Hm E. unfold run in E. destruct (Hm (g, []) r (g', tr) (J4_init g) E) as [[[_ [HL HK]] [HA [HB HC]]] _].
  simpl in *. repeat split; assumption.
Qed.

Theorem closed_exec ex o cs g r g' tr :
  closing o = true -> run (exec ex o cs) g = (inl r, (g', tr)) -> Closed g tr.
Proof. intros Hc. apply PresJ_run, PresJ_exec, Hc. Qed.

(* closedness + "the element is deleted" = "everything the element owns is deleted" *)
Lemma closed_O_ns g D s x : Closed g D -> In s D -> class_of g s = CNS -> O_ns g s x -> In x D.
Proof.
  intros [_ [K [Nc _]]] Hs Hc [->|[i [Hi Hx]]]; [exact Hs|].
  assert (Hid : In i D) by (apply (Nc s i Hs Hc Hi)).
  destruct Hx as [->|[_ Hx]]; [exact Hid | apply (K i x Hid Hx)].
Qed.

Lemma closed_O_comp g D c x : Closed g D -> In c D -> class_of g c = CComp -> O_comp g c x -> In x D.
Proof.
  intros HC Hc Hcl [->|[s [Hs Hx]]]; [exact Hc|].
  pose proof HC as [_ [_ [_ [Co _]]]].
  assert (Hsd : In s D) by (apply (Co c s Hc (fun H => H) Hcl Hs)).
  apply (closed_O_ns g D s x HC Hsd); [|exact Hx]. apply first_neighbor_In in Hs. tauto.
Qed.

Lemma closed_O_node g D n x : Closed g D -> In n D -> class_of g n = CNode -> O_node g n x -> In x D.
Proof.
  intros HC Hn Hcl [->|[[c [Hc Hx]]|[s [Hs Hx]]]]; [exact Hn| |];
    pose proof HC as [_ [_ [_ [_ No]]]].
  - assert (Hcd : In c D) by (apply (No n c Hn (fun H => H) Hcl); left; exact Hc).
    apply (closed_O_comp g D c x HC Hcd); [|exact Hx]. apply first_neighbor_In in Hc. tauto.
  - assert (Hsd : In s D) by (apply (No n s Hn (fun H => H) Hcl); right; exact Hs).
    apply (closed_O_ns g D s x HC Hsd); [|exact Hx]. apply first_neighbor_In in Hs. tauto.
Qed.

Lemma closed_O_cp g D i x : Closed g D -> In i D -> O_cp g i true x -> In x D.
Proof. intros [_ [K _]] Hi [->|[_ Hx]]; [exact Hi | apply (K i x Hi Hx)]. Qed.
