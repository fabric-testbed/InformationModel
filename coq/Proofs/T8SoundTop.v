(* C08: what the four variants of prune may delete (A_prune..A_prune9), and "nothing else is deleted" for `exec`
   (rests on T8Sound). *)
From Coq Require Import List NArith Bool.
From FIM Require Import Model.T8Graph Model.T8Ops Proofs.T8Frame Proofs.T8Query Proofs.T8Hoare Proofs.T8Sound.
Import ListNotations.

(* what prune may delete: what removing a marked node / a marked component of a node / a marked service /
   a marked interface of a service may delete *)
Definition A_prune (g : graph) (x : N) : Prop :=
  (exists n, In n (prune_nodes g) /\ marked g n = true /\ A_node g (name_of g n) x) \/
  (exists c n, In (c, n) (prune_comps g) /\ marked g c = true /\ A_comp g n (name_of g c) x) \/
  (exists s, In s (prune_all_nss g) /\ marked g s = true /\ U_ns g s x) \/
  (exists s i, In s (prune_all_nss g) /\ In i (cpn g s) /\ marked g i = true /\ U_cp g i true x).

Definition A_prune7 (g : graph) (x : N) : Prop :=
  (exists n, In n (prune_nodes g) /\ marked g n = true /\ A_node g (name_of g n) x) \/
  (exists c n, In (c, n) (prune_comps g) /\ marked g c = true /\ A_comp g n (name_of g c) x) \/
  (exists s, In s (prune_all_nss g) /\ marked g s = true /\ A_ns g s x) \/
  (exists s i, In s (prune_all_nss g) /\ In i (cpn g s) /\ marked g i = true /\
               (U_cp g i true x \/ exists j, In j (disc_list g [i]) /\ U_disc g j x)).

Definition A_prune8 (g : graph) (x : N) : Prop :=
  (exists n, In n (prune_nodes g) /\ marked g n = true /\ A_node g (name_of g n) x) \/
  (exists c n, In (c, n) (prune_comps g) /\ marked g c = true /\ A_comp g n (name_of g c) x) \/
  (exists s, In s (prune_all_nss g) /\ marked g s = true /\ A_ns g s x) \/
  (exists s j i, In s (prune_all_nss g) /\ In j (cpn g s) /\ In i (disc_list g [j]) /\ marked g i = true /\
                 ((if N.eqb (type_of g i) T_SubInterface then U_cp g i false x else U_cp g i true x) \/
                  exists k, In k (disc_list g [i]) /\ U_disc g k x)).

(* C08-9: Facility nodes are visited too (removed with remove_facility, which may delete what remove_node may) *)
Definition A_prune9 (g : graph) (x : N) : Prop :=
  (exists n, In n (all_of_class g CNode) /\ marked g n = true /\ A_node g (name_of g n) x) \/
  (exists c n, In (c, n) (prune_comps g) /\ marked g c = true /\ A_comp g n (name_of g c) x) \/
  (exists s, In s (prune_all_nss g) /\ marked g s = true /\ A_ns g s x) \/
  (exists s j i, In s (prune_all_nss g) /\ In j (cpn g s) /\ In i (disc_list g [j]) /\ marked g i = true /\
                 ((if N.eqb (type_of g i) T_SubInterface then U_cp g i false x else U_cp g i true x) \/
                  exists k, In k (disc_list g [i]) /\ U_disc g k x)).

Definition allowed (g : graph) (o : op) (x : N) : Prop :=
  match o with
  | ORemoveNode nm | ORemoveFacility nm | ORemoveSwitch nm => A_node g nm x
  | ORemoveLink nm => In x (by_name g CLink nm)
  | ORemoveNsTopo nm => exists s, In s (by_name g CNS nm) /\ A_ns g s x
  | ORemoveComponent n c => A_comp g n c x
  | ONodeRemoveNs n sname => exists s, In s (first_neighbor g n RHas CNS) /\ name_of g s = sname /\ A_ns g s x
  | ODisconnect _ i => U_disc g i x
  | OUnpeer a b => exists xy, unpeer_ends g a b = Some [xy] /\ (U_cp g (fst xy) true x \/ U_cp g (snd xy) true x)
  | OUnpeer6 a b => exists xy, In xy (unpeer_pairs g a b) /\ (U_cp g (fst xy) true x \/ U_cp g (snd xy) true x)
  | ORemoveInterface s iname => exists i, In i (cpn g s) /\ name_of g i = iname /\ U_cp g i true x
  | ORemoveChild p iname => exists i, In i (cpn g p) /\ name_of g i = iname /\ (U_cp g i false x \/ U_disc g i x)
  | OPrune => A_prune g x
  | OPrune7 => A_prune7 g x
  | OPrune8 => A_prune8 g x
  | OPrune9 => A_prune9 g x
  end.

(* the four variants of prune are one program: four reads of the marked elements, then four loops *)
Definition prune_prog {X Y} (ns : graph -> list X) (cs : graph -> list Y) (is_ : graph -> list N)
    (pn : X -> M unit) (pc : Y -> M unit) (ps pi : N -> M unit) : M unit :=
  ns_ <- m_get ns ;; cs_ <- m_get cs ;;
  ss <- m_get (fun g => dedup (filter (marked g) (prune_all_nss g))) ;;
  is' <- m_get is_ ;;
  for_each_set pn ns_ ;;; for_each_set pc cs_ ;;; for_each_set ps ss ;;; for_each_set pi is'.

Lemma api_prune_prog :
  api_prune = prune_prog (fun g => map (name_of g) (filter (marked g) (prune_nodes g)))
                (fun g => map (fun cn => (name_of g (fst cn), snd cn)) (filter (fun cn => marked g (fst cn)) (prune_comps g)))
                (fun g => dedup (filter (marked g) (flat_map (ns_interfaces g) (prune_all_nss g))))
                api_remove_node (fun cn => api_remove_component (snd cn) (fst cn)) remove_ns
                (fun i => remove_cp_and_links i true).
Proof. reflexivity. Qed.

Lemma api_prune7_prog :
  api_prune7 = prune_prog (fun g => map (fun n => (name_of g n, n)) (filter (marked g) (prune_nodes g)))
                 (fun g => map (fun cn => (name_of g (fst cn), cn)) (filter (fun cn => marked g (fst cn)) (prune_comps g)))
                 (fun g => dedup (filter (marked g) (flat_map (ns_interfaces g) (prune_all_nss g))))
                 prune_node7 prune_comp7 prune_ns7 prune_if7.
Proof. reflexivity. Qed.

Lemma api_prune8_prog :
  api_prune8 = prune_prog (fun g => map (fun n => (name_of g n, n)) (filter (marked g) (prune_nodes g)))
                 (fun g => map (fun cn => (name_of g (fst cn), cn)) (filter (fun cn => marked g (fst cn)) (prune_comps g)))
                 (fun g => dedup (filter (marked g)
                            (flat_map (with_children g) (flat_map (ns_interfaces g) (prune_all_nss g)))))
                 prune_node7 prune_comp7 prune_ns7 prune_if8.
Proof. reflexivity. Qed.

Lemma api_prune9_prog :
  api_prune9 = prune_prog (fun g => map (fun n => (name_of g n, n)) (filter (marked g) (all_of_class g CNode)))
                 (fun g => map (fun cn => (name_of g (fst cn), cn)) (filter (fun cn => marked g (fst cn)) (prune_comps g)))
                 (fun g => dedup (filter (marked g)
                            (flat_map (with_children g) (flat_map (ns_interfaces g) (prune_all_nss g)))))
                 prune_node9 prune_comp7 prune_ns7 prune_if8.
Proof. reflexivity. Qed.

Section Top.
Variable g0 : graph.

Lemma marked_restrict d n : marked (restrict g0 d) n = true -> marked g0 n = true /\ ~ In n d.
Proof.
  unfold marked. rewrite find_node_restrict. destruct (memN n d) eqn:E; [discriminate|].
  intros H. split; [exact H | apply memN_false; exact E].
Qed.

Lemma prune_nodes_mono d n : In n (prune_nodes (restrict g0 d)) -> In n (prune_nodes g0) /\ ~ In n d.
Proof.
  unfold prune_nodes. intros H. apply filter_In in H. destruct H as [H1 H2].
  apply all_of_class_restrict in H1. destruct H1 as [H1 Hd]. split; [|exact Hd].
  apply filter_In. split; [exact H1|]. rewrite type_of_restrict in H2; [exact H2 | apply memN_false; exact Hd].
Qed.

Lemma prune_comps_mono d c n :
  In (c, n) (prune_comps (restrict g0 d)) -> In (c, n) (prune_comps g0) /\ ~ In c d.
Proof.
  unfold prune_comps. rewrite !in_flat_map. intros [m [Hm H]].
  apply in_map_iff in H. destruct H as [c' [E H]]. inversion E; subst c' m.
  apply first_neighbor_restrict in H; [|discriminate]. destruct H as [H [_ Hd]].
  split; [|exact Hd]. exists n. split; [apply (prune_nodes_mono d); exact Hm|].
  apply in_map_iff. exists c. auto.
Qed.

Lemma prune_seen_mono d s : In s (prune_seen_nss (restrict g0 d)) -> In s (prune_seen_nss g0) /\ ~ In s d.
Proof.
  unfold prune_seen_nss. rewrite !in_flat_map. intros [[c n] [Hcn H]]. simpl in H.
  apply first_neighbor_restrict in H; [|discriminate]. destruct H as [H [_ Hd]].
  split; [|exact Hd]. exists (c, n). split; [apply (prune_comps_mono d); exact Hcn | exact H].
Qed.

Lemma prune_all_nss_In g s : In s (prune_all_nss g) <-> In s (prune_seen_nss g) \/ In s (all_of_class g CNS).
Proof.
  unfold prune_all_nss, prune_other_nss. rewrite in_app_iff, filter_In, negb_true_iff. split.
  - intros [H|[H _]]; auto.
  - intros [H|H]; [left; exact H|].
    destruct (memN s (prune_seen_nss g)) eqn:E; [left; apply memN_In; exact E | right; auto].
Qed.

Lemma prune_all_nss_mono d s : In s (prune_all_nss (restrict g0 d)) -> In s (prune_all_nss g0) /\ ~ In s d.
Proof.
  rewrite !prune_all_nss_In. intros [H|H].
  - apply prune_seen_mono in H. tauto.
  - apply all_of_class_restrict in H. tauto.
Qed.

Lemma Sound_prune_prog {X Y} (P : N -> Prop) (ns : graph -> list X) (cs : graph -> list Y) is_ pn pc ps pi :
  (forall x, Inv (pn x)) -> (forall y, Inv (pc y)) -> (forall s, Inv (ps s)) -> (forall i, Inv (pi i)) ->
  (forall d x, In x (ns (restrict g0 d)) -> Sound g0 P (pn x)) ->
  (forall d y, In y (cs (restrict g0 d)) -> Sound g0 P (pc y)) ->
  (forall s, In s (prune_all_nss g0) -> marked g0 s = true -> Sound g0 P (ps s)) ->
  (forall d i, In i (is_ (restrict g0 d)) -> Sound g0 P (pi i)) ->
  Sound g0 P (prune_prog ns cs is_ pn pc ps pi).
Proof.
  intros In_ Ic Is Ii Hn Hc Hs Hi. unfold prune_prog.
  apply Sound_bind_get. intros d1. apply Sound_bind_get. intros d2.
  apply Sound_bind_get. intros d3. apply Sound_bind_get. intros d4.
  apply Sound_bind'; [auto with inv | apply Sound_for_each_set; intros x Hx; split; [apply In_ | apply (Hn d1 x Hx)] | intros _].
  apply Sound_bind'; [auto with inv | apply Sound_for_each_set; intros y Hy; split; [apply Ic | apply (Hc d2 y Hy)] | intros _].
  apply Sound_bind'; [auto with inv | apply Sound_for_each_set; intros s Hs'; split; [apply Is|] | intros _].
  { rewrite dedup_In in Hs'. apply filter_In in Hs'. destruct Hs' as [A B].
    apply Hs; [apply (prune_all_nss_mono d3 s A) | apply (marked_restrict d3 s B)]. }
  apply Sound_for_each_set. intros i Hi'. split; [apply Ii | apply (Hi d4 i Hi')].
Qed.

(* a marked member of a collection that only shrinks under deletions was a marked member at the start, and a
   survivor keeps its name *)
Lemma marked_member (L : graph -> list N) d n :
  (forall n, In n (L (restrict g0 d)) -> In n (L g0) /\ ~ In n d) ->
  In n (filter (marked (restrict g0 d)) (L (restrict g0 d))) ->
  In n (L g0) /\ marked g0 n = true /\ name_of (restrict g0 d) n = name_of g0 n.
Proof.
  intros HL H. apply filter_In in H. destruct H as [H Hm]. destruct (HL n H) as [A Hd].
  split; [exact A|]. split; [apply (marked_restrict d n Hm) | apply name_of_restrict, memN_false, Hd].
Qed.

Lemma marked_comp d c n :
  In (c, n) (filter (fun cn => marked (restrict g0 d) (fst cn)) (prune_comps (restrict g0 d))) ->
  In (c, n) (prune_comps g0) /\ marked g0 c = true /\ name_of (restrict g0 d) c = name_of g0 c.
Proof.
  intros H. apply filter_In in H. destruct H as [H Hm]. destruct (prune_comps_mono d c n H) as [A Hd].
  split; [exact A|]. split; [apply (marked_restrict d c Hm) | apply name_of_restrict, memN_false, Hd].
Qed.

(* the phases of the variants; P is the set the variant may delete, the first hypothesis its relevant part *)
Section Phases.
Variable P : N -> Prop.

Lemma Sound_prune_nodes (L : graph -> list N) (body : N -> M unit) d n :
  (forall n, In n (L (restrict g0 d)) -> In n (L g0) /\ ~ In n d) ->
  (forall n x, In n (L g0) -> marked g0 n = true -> A_node g0 (name_of g0 n) x -> P x) ->
  (forall nm, Sound g0 (A_node g0 nm) (body nm)) ->
  In n (filter (marked (restrict g0 d)) (L (restrict g0 d))) -> Sound g0 P (body (name_of (restrict g0 d) n)).
Proof.
  intros HL HP Hb Hn. destruct (marked_member L d n HL Hn) as [A [B ->]].
  apply (Sound_weaken g0 (A_node g0 (name_of g0 n))); [|apply Hb]. intros x. apply HP; assumption.
Qed.

Lemma Sound_prune_comps d c n :
  (forall c n x, In (c, n) (prune_comps g0) -> marked g0 c = true -> A_comp g0 n (name_of g0 c) x -> P x) ->
  In (c, n) (filter (fun cn => marked (restrict g0 d) (fst cn)) (prune_comps (restrict g0 d))) ->
  Sound g0 P (api_remove_component n (name_of (restrict g0 d) c)).
Proof.
  intros HP Hc. destruct (marked_comp d c n Hc) as [A [B ->]].
  apply (Sound_weaken g0 (A_comp g0 n (name_of g0 c))); [|apply Sound_api_remove_component].
  intros x. apply HP; assumption.
Qed.

Lemma Sound_prune_node7 d nn :
  (forall n x, In n (prune_nodes g0) -> marked g0 n = true -> A_node g0 (name_of g0 n) x -> P x) ->
  In nn (map (fun n => (name_of (restrict g0 d) n, n)) (filter (marked (restrict g0 d)) (prune_nodes (restrict g0 d)))) ->
  Sound g0 P (prune_node7 nn).
Proof.
  intros HP H. apply in_map_iff in H. destruct H as [n [<- Hn]]. apply Sound_guarded.
  apply (Sound_prune_nodes prune_nodes api_remove_node d n (prune_nodes_mono d) HP (Sound_api_remove_node g0) Hn).
Qed.

Lemma Sound_prune_node9 d nn :
  (forall n x, In n (all_of_class g0 CNode) -> marked g0 n = true -> A_node g0 (name_of g0 n) x -> P x) ->
  In nn (map (fun n => (name_of (restrict g0 d) n, n)) (filter (marked (restrict g0 d)) (all_of_class (restrict g0 d) CNode))) ->
  Sound g0 P (prune_node9 nn).
Proof.
  intros HP H. apply in_map_iff in H. destruct H as [n [<- Hn]]. apply Sound_guarded.
  refine (Sound_prune_nodes (fun g => all_of_class g CNode)
            (fun nm => bind (m_get (fun g => type_of g n)) (fun t => if N.eqb t T_Facility then api_remove_facility nm else api_remove_node nm))
            d n _ HP _ Hn).
  - intros n'. apply all_of_class_restrict.
  - intros nm. apply Sound_bind_get. intros d'.
    destruct (N.eqb _ T_Facility); [apply Sound_api_remove_facility | apply Sound_api_remove_node].
Qed.

Lemma Sound_prune_comp7 d cn :
  (forall c n x, In (c, n) (prune_comps g0) -> marked g0 c = true -> A_comp g0 n (name_of g0 c) x -> P x) ->
  In cn (map (fun cn => (name_of (restrict g0 d) (fst cn), cn))
             (filter (fun cn => marked (restrict g0 d) (fst cn)) (prune_comps (restrict g0 d)))) ->
  Sound g0 P (prune_comp7 cn).
Proof.
  intros HP H. apply in_map_iff in H. destruct H as [[c n] [<- Hc]]. apply Sound_guarded, (Sound_prune_comps d c n HP Hc).
Qed.

Lemma Sound_prune_ns7 s : (forall x, A_ns g0 s x -> P x) -> Sound g0 P (prune_ns7 s).
Proof. intros HP. apply Sound_guarded, (Sound_weaken g0 (A_ns g0 s) P _ HP), Sound_remove_ns_disconnecting. Qed.

Lemma Sound_prune_if7 i :
  (forall x, U_cp g0 i true x \/ (exists j, In j (disc_list g0 [i]) /\ U_disc g0 j x) -> P x) ->
  Sound g0 P (prune_if7 i).
Proof.
  intros HP. apply Sound_guarded. apply (Sound_disc_then g0 P (fun _ => [i])).
  - auto.
  - intros j x Hj Hx. apply HP. right. exists j. auto.
  - apply (Sound_weaken g0 (U_cp g0 i true)); [auto | apply Sound_remove_cp].
Qed.

(* a sub-interface goes without the port above it.  When i is already gone the type read is 0 and the call asks for
   the parents too, but then it raises before deleting anything *)
Lemma Sound_remove_cp_typed i :
  Sound g0 (fun x => if N.eqb (type_of g0 i) T_SubInterface then U_cp g0 i false x else U_cp g0 i true x)
    (bind (m_get (fun g => negb (N.eqb (type_of g i) T_SubInterface))) (fun dp => remove_cp_and_links i dp)).
Proof.
  intros st0 Hst0 x Hx. unfold bind, m_get in Hx. simpl in Hx.
  destruct (in_dec N.eq_dec i (snd st0)) as [Hd|Hd].
  - left. assert (Hh : has_node (fst st0) i = false).
    { rewrite Hst0, has_node_restrict, (proj2 (memN_In i (snd st0)) Hd). reflexivity. }
    revert Hx. generalize (negb (N.eqb (type_of (fst st0) i) T_SubInterface)). intros dp Hx.
    unfold remove_cp_and_links, bind, m_nonempty, need_node, m_read in Hx.
    unfold has_node in Hh. destruct (gnodes (fst st0)); simpl in Hx; [exact Hx|].
    destruct (find_node (fst st0) i); [discriminate|]. exact Hx.
  - assert (Ety : type_of (fst st0) i = type_of g0 i) by (rewrite Hst0; apply type_of_restrict, memN_false, Hd).
    rewrite Ety in Hx. destruct (N.eqb (type_of g0 i) T_SubInterface); apply (Sound_remove_cp g0 i _ st0 Hst0 x Hx).
Qed.

Lemma Sound_prune_if8 i :
  (forall x, (if N.eqb (type_of g0 i) T_SubInterface then U_cp g0 i false x else U_cp g0 i true x) \/
             (exists k, In k (disc_list g0 [i]) /\ U_disc g0 k x) -> P x) ->
  Sound g0 P (prune_if8 i).
Proof.
  intros HP. apply Sound_guarded. apply (Sound_disc_then g0 P (fun _ => [i])).
  - auto.
  - intros j x Hj Hx. apply HP. right. exists j. auto.
  - apply (Sound_weaken g0 _ P _ (fun x H => HP x (or_introl H))), Sound_remove_cp_typed.
Qed.

End Phases.

(* the marked interfaces the last loop visits: ports of the services, and (C08-8) their sub-interfaces *)
Lemma marked_if7 d i :
  In i (dedup (filter (marked (restrict g0 d)) (flat_map (ns_interfaces (restrict g0 d)) (prune_all_nss (restrict g0 d))))) ->
  exists s, In s (prune_all_nss g0) /\ In i (cpn g0 s) /\ marked g0 i = true.
Proof.
  rewrite dedup_In, filter_In, in_flat_map. intros [[s [Hs Hi]] Hm]. exists s.
  split; [apply (prune_all_nss_mono d s Hs)|]. split; [|apply (marked_restrict d i Hm)].
  apply (fn_mono g0 d) in Hi; [exact Hi | discriminate].
Qed.

Lemma marked_if8 d i :
  In i (dedup (filter (marked (restrict g0 d)) (flat_map (with_children (restrict g0 d))
         (flat_map (ns_interfaces (restrict g0 d)) (prune_all_nss (restrict g0 d)))))) ->
  exists s j, In s (prune_all_nss g0) /\ In j (cpn g0 s) /\ In i (disc_list g0 [j]) /\ marked g0 i = true.
Proof.
  rewrite dedup_In, filter_In, in_flat_map. intros [[j [Hj Hi]] Hm]. apply in_flat_map in Hj. destruct Hj as [s [Hs Hj]].
  exists s, j. split; [apply (prune_all_nss_mono d s Hs)|]. split; [apply (fn_mono g0 d) in Hj; [exact Hj | discriminate]|].
  split; [|apply (marked_restrict d i Hm)].
  apply (disc_list_mono g0 d [j] [j] i (fun _ H => H)). unfold disc_list. simpl. rewrite app_nil_r. exact Hi.
Qed.

Lemma Sound_api_prune : Sound g0 (A_prune g0) api_prune.
Proof.
  rewrite api_prune_prog. apply Sound_prune_prog; auto with inv.
  - intros d nm H. apply in_map_iff in H. destruct H as [n [<- Hn]].
    apply (Sound_prune_nodes _ prune_nodes api_remove_node d n (prune_nodes_mono d)); [|apply Sound_api_remove_node | exact Hn].
    intros n' x A B C. left. exists n'. auto.
  - intros d cn H. apply in_map_iff in H. destruct H as [[c n] [<- Hc]]. apply (Sound_prune_comps _ d c n); [|exact Hc].
    intros c' n' x A B C. right. left. exists c', n'. auto.
  - intros s A B. apply (Sound_weaken g0 (U_ns g0 s)); [|apply Sound_remove_ns].
    intros x Hx. right. right. left. exists s. auto.
  - intros d i H. destruct (marked_if7 d i H) as [s [A [B C]]].
    apply (Sound_weaken g0 (U_cp g0 i true)); [|apply Sound_remove_cp].
    intros x Hx. right. right. right. exists s, i. auto.
Qed.

Lemma Sound_api_prune7 : Sound g0 (A_prune7 g0) api_prune7.
Proof.
  rewrite api_prune7_prog. apply Sound_prune_prog; auto with inv.
  - intros d nn. apply Sound_prune_node7. intros n x A B C. left. exists n. auto.
  - intros d cn. apply Sound_prune_comp7. intros c n x A B C. right. left. exists c, n. auto.
  - intros s A B. apply Sound_prune_ns7. intros x Hx. right. right. left. exists s. auto.
  - intros d i H. destruct (marked_if7 d i H) as [s [A [B C]]]. apply Sound_prune_if7.
    intros x Hx. right. right. right. exists s, i. auto.
Qed.

Lemma Sound_api_prune8 : Sound g0 (A_prune8 g0) api_prune8.
Proof.
  rewrite api_prune8_prog. apply Sound_prune_prog; auto with inv.
  - intros d nn. apply Sound_prune_node7. intros n x A B C. left. exists n. auto.
  - intros d cn. apply Sound_prune_comp7. intros c n x A B C. right. left. exists c, n. auto.
  - intros s A B. apply Sound_prune_ns7. intros x Hx. right. right. left. exists s. auto.
  - intros d i H. destruct (marked_if8 d i H) as [s [j [A [B [C D]]]]]. apply Sound_prune_if8.
    intros x Hx. right. right. right. exists s, j, i. auto.
Qed.

Lemma Sound_api_prune9 : Sound g0 (A_prune9 g0) api_prune9.
Proof.
  rewrite api_prune9_prog. apply Sound_prune_prog; auto with inv.
  - intros d nn. apply Sound_prune_node9. intros n x A B C. left. exists n. auto.
  - intros d cn. apply Sound_prune_comp7. intros c n x A B C. right. left. exists c, n. auto.
  - intros s A B. apply Sound_prune_ns7. intros x Hx. right. right. left. exists s. auto.
  - intros d i H. destruct (marked_if8 d i H) as [s [j [A [B [C D]]]]]. apply Sound_prune_if8.
    intros x Hx. right. right. right. exists s, j, i. auto.
Qed.

Lemma Sound_remove_if_there c : Sound g0 (U_cp g0 c true) (remove_if_there c).
Proof. apply Sound_guarded, Sound_remove_cp. Qed.

Lemma unpeer6_ends_In ps c : In c (unpeer6_ends ps) -> exists xy, In xy ps /\ (c = fst xy \/ c = snd xy).
Proof.
  unfold unpeer6_ends. rewrite dedup_In, in_app_iff, !in_map_iff.
  intros [[xy [E H]]|[xy [E H]]]; exists xy; split; auto.
Qed.

(* What a run from the initial state deletes.  The reads that come before the first deletion see g0 itself, so a
   set described through them (the path of unpeer) can be used as it stands. *)
Definition Sound0 {A} (P : N -> Prop) (m : M A) : Prop := forall x, In x (snd (snd (run m g0))) -> P x.

Lemma Sound0_of {A} P (m : M A) : Sound g0 P m -> Sound0 P m.
Proof.
  intros Hm x Hx. destruct (Hm (g0, []) (cons_init g0) x Hx) as [[]|H]. exact H.
Qed.

Lemma Sound0_first {A B} P (m : M A) (f : A -> M B) :
  Pure m -> (forall y, fst (run m g0) = inl y -> Sound0 P (f y)) -> Sound0 P (bind m f).
Proof.
  intros H Hf x. unfold run, bind. pose proof (H (g0, [])) as Hs. pose proof (Hf) as Hf'. unfold run in Hf'.
  destruct (m (g0, [])) as [[y|e] s1]; simpl in Hs; subst s1; [apply (Hf' y eq_refl) | intros []].
Qed.

Lemma Sound0_bind_ret {A B} P (m : M A) (h : A -> B) : Sound0 P m -> Sound0 P (bind m (fun x => ret (h x))).
Proof. intros Hm x Hx. apply Hm. unfold run, bind in *. destruct (m (g0, [])) as [[y|e] s1]; exact Hx. Qed.

End Top.

Lemma Sound0_exec ex o cs g : Sound0 g (allowed g o) (exec ex o cs).
Proof.
  destruct o; cbn [exec allowed]; apply Sound0_bind_ret.
  - apply Sound0_of, Sound_api_remove_node.
  - apply Sound0_of, Sound_api_remove_facility.
  - apply Sound0_of, Sound_api_remove_switch.
  - apply Sound0_of, Sound_api_remove_link.
  - apply Sound0_of, Sound_api_remove_ns_topo.
  - apply Sound0_of, Sound_api_remove_component.
  - apply Sound0_of, Sound_api_node_remove_ns.
  - apply Sound0_of, Sound_api_disconnect.
  - unfold api_unpeer, allowed. apply Sound0_first; [auto with pure | intros x0 _]. apply Sound0_first; [auto with pure | intros x1 _].
    apply Sound0_first; [auto with pure | intros e He]. simpl in He. injection He as <-.
    destruct (unpeer_ends g a b) as [[|xy [|xy' l]]|]; try (apply Sound0_of, Sound_fail).
    + apply Sound0_of. apply (Sound_weaken g (fun x => U_cp g (fst xy) true x \/ U_cp g (snd xy) true x));
        [|apply Sound_api_unpeer_checked]. intros x Hx. exists xy. auto.
    + apply Sound0_first; [auto with pure | intros b0 _]. destruct b0; apply Sound0_of, Sound_fail.
  - unfold api_unpeer6, allowed. apply Sound0_first; [auto with pure | intros xa _]. apply Sound0_first; [auto with pure | intros u _].
    apply Sound0_first; [auto with pure | intros ps Hps]. simpl in Hps. injection Hps as <-.
    destruct (unpeer_pairs g a b) as [|p0 ps']; [apply Sound0_of, Sound_fail|].
    apply Sound0_of, Sound_bind_ret; [auto with inv|].
    apply Sound_for_each_set. intros c Hc. split; [apply Inv_remove_if_there|].
    apply (Sound_weaken g (U_cp g c true)); [|apply Sound_remove_if_there].
    intros x Hx. destruct (unpeer6_ends_In _ c Hc) as [xy [Hxy [->| ->]]]; exists xy; auto.
  - apply Sound0_of, Sound_api_remove_interface.
  - apply Sound0_of, Sound_api_remove_child.
  - apply Sound0_of, Sound_api_prune.
  - apply Sound0_of, Sound_api_prune7.
  - apply Sound0_of, Sound_api_prune8.
  - apply Sound0_of, Sound_api_prune9.
Qed.

Theorem sound_exec ex o cs g r g' tr :
  run (exec ex o cs) g = (r, (g', tr)) -> forall x, In x tr -> allowed g o x.
Proof. intros E x Hx. apply (Sound0_exec ex o cs g x). rewrite E. exact Hx. Qed.
