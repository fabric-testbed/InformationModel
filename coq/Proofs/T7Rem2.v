(* C07 - removals, the loops: the reading steps as runs (they cannot fail in a sane graph all of whose elements carry a
   name), static facts of a well-formed graph about services and their interfaces, and - in Section Removal, over the
   invariant InvD of T7Rem.v - the disconnection loop (step_disconnect_one, disconnect_loop_run, disconnect_phase) and the
   removal of one service (ports_loop_run, remove_ns_run). *)
From Coq Require Import List Bool Arith Lia.
From FIM Require Import Base.Str Model.T7Graph Model.T7Ops Model.T7WF Model.T7Steps Model.T7Rel Proofs.T7Tables Proofs.T7WFRefl
     Proofs.T7Frame Proofs.T7Units Proofs.T7Api Proofs.T7RelUnits Proofs.T7RelRun Proofs.T7Api4 Proofs.T7Api6
     Proofs.T7Rem.
Import ListNotations.

Definition named (g : graph) : Prop := forall n, In n (gnodes g) -> exists nm, nname n = Some nm.
Lemma WFr_named eo ep g : WFr eo ep g -> named g.
Proof. intros W n Hn. destruct (r_fields _ _ _ W n Hn) as [t [nm [_ H]]]. eauto. Qed.

Lemma find1_run x s : sane (sg s) -> has_id (sg s) x = true ->
  exists n, find1 x s = (s, Ok n) /\ find_nodes (sg s) x = [n] /\ In n (gnodes (sg s)) /\ nid n = x.
Proof.
  intros [ND _] H. destruct (find_nodes_single _ _ ND H) as [n E]. exists n.
  split; [unfold find1, bind, getg; rewrite E; reflexivity|]. split; [exact E|].
  assert (Hin : In n (find_nodes (sg s) x)) by (rewrite E; left; reflexivity).
  unfold find_nodes in Hin. apply filter_In in Hin as [A B]. apply str_eqb_eq in B. auto.
Qed.

Lemma type_is_run x t s : sane (sg s) -> has_id (sg s) x = true -> type_is x t s = (s, Ok (typ_is (sg s) x t)).
Proof.
  intros Hs H. destruct (find1_run x s Hs H) as [n [E [F _]]].
  unfold type_is, type_of_handle, props, bind. rewrite E. unfold ret, typ_is, typ_of. rewrite F. reflexivity.
Qed.

Lemma check_class_run x ks s k : sane (sg s) -> cls_is (sg s) x k = true -> existsb (cls_eqb k) ks = true ->
  check_class x ks s = (s, Ok tt).
Proof.
  intros Hs C Hk. destruct (find1_run x s Hs (cls_is_has_id _ _ _ C)) as [n [E [F _]]].
  unfold check_class, props, bind. rewrite E.
  assert (ncls n = k) by (unfold cls_is, cls_of in C; rewrite F in C; apply cls_eqb_eq; exact C). subst k.
  rewrite Hk. reflexivity.
Qed.

Lemma find_peers_run i s : sane (sg s) -> has_id (sg s) i = true ->
  find_peers i s = (s, Ok (match raw_peers (sg s) i with [] => None | l => Some l end)).
Proof.
  intros Hs Hi. destruct (find1_run i s Hs Hi) as [n [E _]].
  unfold find_peers, q_second_nb, bind. rewrite E. unfold getg, ret, raw_peers.
  destruct (second_nb (sg s) i Connects KLink KCP); reflexivity.
Qed.
Lemma get_peers_run i t s : sane (sg s) -> named (sg s) -> has_id (sg s) i = true ->
  get_peers i t s = (s, Ok (match raw_peers (sg s) i with [] => None | l => Some (filter (peer_filter (sg s) t) l) end)).
Proof.
  intros Hs Hn Hi. unfold get_peers. unfold bind at 1. rewrite (find_peers_run i s Hs Hi).
  destruct (raw_peers (sg s) i) as [|y l'] eqn:Er; [reflexivity|].
  unfold bind at 1.
  rewrite (filterM_pure _ (peer_filter (sg s) t) (y :: l') s); [reflexivity|].
  intros p Hp. rewrite <- Er in Hp. pose proof (raw_peers_cls _ _ _ Hp) as Cp.
  destruct (find1_run p s Hs (cls_is_has_id _ _ _ Cp)) as [m [Em [Fm [Hm Im]]]].
  unfold props, bind. rewrite Em. destruct (Hn m Hm) as [nm Enm]. rewrite Enm. simpl.
  assert (Km : cls_eqb (ncls m) KCP = true) by (unfold cls_is, cls_of in Cp; rewrite Fm in Cp; exact Cp).
  rewrite Km. simpl. unfold ret. f_equal. f_equal. unfold peer_filter, typ_is, typ_of. rewrite Fm. destruct t; reflexivity.
Qed.

Lemma name_prop_run n s nm : nname n = Some nm -> name_prop n s = (s, Ok nm).
Proof. intro H. unfold name_prop. rewrite H. reflexivity. Qed.

(* get_parent when there is exactly one such neighbour *)
Lemma get_parent_run x r k s o : sane (sg s) -> named (sg s) -> has_id (sg s) x = true ->
  first_nb (sg s) x r k = [o] -> exists nm, get_parent x r k s = (s, Ok (Some (nm, o))).
Proof.
  intros Hs Hn Hx Ho. unfold get_parent. unfold bind at 1. rewrite (q_first_nb_ok x r k s Hs Hx), Ho.
  assert (Hoi : has_id (sg s) o = true).
  { eapply (first_nb_has_id (sg s) x r k o); [apply Hs | rewrite Ho; left; reflexivity]. }
  destruct (find1_run o s Hs Hoi) as [m [Em [_ [Hm _]]]]. destruct (Hn m Hm) as [nm Enm].
  exists nm. unfold props, bind. rewrite Em, (name_prop_run m s nm Enm). reflexivity.
Qed.

(* disconnect_one on an interface with at most one service-port peer, that peer being a port of a service *)
Lemma disconnect_one_ok i s :
  sane (sg s) -> named (sg s) -> has_id (sg s) i = true ->
  match sp_peers (sg s) i with
  | [] => disconnect_one i s = (s, Ok tt)
  | [p] => typ_is (sg s) p sSubInterface = false -> (exists own, first_nb (sg s) p Connects KNS = [own]) ->
           disconnect_one i s = remove_cp_and_links p true s
  | _ => True
  end.
Proof.
  intros Hs Hn His.
  assert (GP : get_peers i (Some sServicePort) s =
               (s, Ok (match raw_peers (sg s) i with [] => None | _ => Some (sp_peers (sg s) i) end)))
    by (rewrite (get_peers_run i (Some sServicePort) s Hs Hn His); unfold sp_peers; destruct (raw_peers (sg s) i); reflexivity).
  destruct (sp_peers (sg s) i) as [|p [|q l]] eqn:Esp; [| | exact I].
  - unfold disconnect_one. unfold bind at 1. rewrite GP. destruct (raw_peers (sg s) i); reflexivity.
  - intros Tsub [own Eown].
    assert (Hps : has_id (sg s) p = true).
    { assert (Hp : In p (sp_peers (sg s) i)) by (rewrite Esp; left; reflexivity).
      apply filter_In in Hp as [Hp _]. eapply cls_is_has_id, raw_peers_cls, Hp. }
    assert (Er : raw_peers (sg s) i <> []) by (intro Q; unfold sp_peers in Esp; rewrite Q in Esp; discriminate Esp).
    destruct (get_parent_run p Connects KNS s own Hs Hn Hps Eown) as [nm Egp].
    unfold disconnect_one. unfold bind at 1. rewrite GP. destruct (raw_peers (sg s) i) as [|r0 rl]; [contradiction|].
    unfold bind at 1. unfold parent_of_iface. unfold bind at 1. rewrite (type_is_run p sSubInterface s Hs Hps), Tsub.
    unfold bind at 1. rewrite Egp. unfold ret at 1.
    unfold disconnect_interface. unfold bind at 1. rewrite GP. reflexivity.
Qed.

Section Static.
Variable g : graph.
Hypothesis W : WF g.

Lemma cls_node n k : In n (gnodes g) -> cls_is g (nid n) k = cls_eqb (ncls n) k.
Proof. intro H. apply cls_is_node; [apply (wf_ids _ W) | exact H]. Qed.

Lemma cp_struct x : cls_is g x KCP = true ->
  length (cp_owners g x) = 1 /\
  (forall j, In j (first_nb g x Connects KCP) -> typ_is g x sSubInterface <> typ_is g j sSubInterface) /\
  (typ_is g x sServicePort = true -> length (peers g x) = 1).
Proof.
  intro C. destruct (cp_structR _ _ _ _ (proj1 (WF_WFr g) W) C eq_refl) as [A [B C3]]. auto.
Qed.

Lemma port_owner s x : cls_is g s KNS = true -> In x (first_nb g s Connects KCP) -> In s (cp_owners g x).
Proof.
  intros Cs Hx. assert (Hs : In s (first_nb g x Connects KNS)) by (eapply first_nb_sym; eauto).
  apply In_first_nb in Hs as [Hs _]. unfold cp_owners. apply In_nb_where. exists Connects. split; [exact Hs|].
  rewrite Cs. reflexivity.
Qed.

Lemma kcp_parent_owner x c :
  In c (first_nb g x Connects KCP) -> cls_is g x KCP = true -> typ_is g c sSubInterface = true -> typ_is g x sSubInterface = false ->
  In x (cp_owners g c).
Proof.
  intros Hc Cx Tc Tx. assert (Hx : In x (first_nb g c Connects KCP)) by (eapply first_nb_sym; eauto).
  apply In_first_nb in Hx as [Hx _]. unfold cp_owners. apply In_nb_where. exists Connects. split; [exact Hx|].
  rewrite Tc, Cx, Tx. simpl. apply orb_true_r.
Qed.

(* two interfaces each owned by a service are never joined directly *)
Lemma ns_ports_nonadjacent s1 s2 x1 x2 :
  cls_is g s1 KNS = true -> cls_is g s2 KNS = true ->
  In x1 (first_nb g s1 Connects KCP) -> In x2 (first_nb g s2 Connects KCP) -> ~ In x2 (first_nb g x1 Connects KCP).
Proof.
  intros C1 C2 H1 H2 Hadj.
  assert (K1 : cls_is g x1 KCP = true) by (apply In_first_nb in H1; tauto).
  assert (K2 : cls_is g x2 KCP = true) by (apply In_first_nb in H2; tauto).
  destruct (cp_struct x1 K1) as [L1 [Sh1 _]]. destruct (cp_struct x2 K2) as [L2 _].
  specialize (Sh1 x2 Hadj).
  pose proof (port_owner s1 x1 C1 H1) as O1. pose proof (port_owner s2 x2 C2 H2) as O2.
  assert (Hadj' : In x1 (first_nb g x2 Connects KCP)) by (eapply first_nb_sym; eauto).
  destruct (typ_is g x2 sSubInterface) eqn:T2; destruct (typ_is g x1 sSubInterface) eqn:T1; try congruence.
  - pose proof (kcp_parent_owner x1 x2 Hadj K1 T2 T1) as O3.
    assert (s2 = x1) by (eapply len1_same; [| exact O2 | exact O3]; lia). subst s2.
    rewrite (cls_is_unique _ _ _ KCP C2) in K1; [discriminate | discriminate].
  - pose proof (kcp_parent_owner x2 x1 Hadj' K2 T1 T2) as O3.
    assert (s1 = x2) by (eapply len1_same; [| exact O1 | exact O3]; lia). subst s1.
    rewrite (cls_is_unique _ _ _ KCP C1) in K2; [discriminate | discriminate].
Qed.

(* the interfaces joined to an interface owned by a service are its sub-interfaces, and hang off it alone *)
Lemma own_port_children s x c :
  cls_is g s KNS = true -> In x (first_nb g s Connects KCP) -> In c (first_nb g x Connects KCP) ->
  typ_is g x sSubInterface = false /\ typ_is g c sSubInterface = true /\ first_nb g c Connects KCP = [x].
Proof.
  intros Cs Hx Hc.
  assert (Kx : cls_is g x KCP = true) by (apply In_first_nb in Hx; tauto).
  assert (Kc : cls_is g c KCP = true) by (apply In_first_nb in Hc; tauto).
  destruct (cp_struct x Kx) as [Lx [Shx _]]. specialize (Shx c Hc).
  assert (Hxc : In x (first_nb g c Connects KCP)) by (eapply first_nb_sym; eauto).
  destruct (typ_is g x sSubInterface) eqn:Tx.
  - exfalso. assert (Tc : typ_is g c sSubInterface = false) by (destruct (typ_is g c sSubInterface); congruence).
    pose proof (kcp_parent_owner c x Hxc Kc Tx Tc) as O3. pose proof (port_owner s x Cs Hx) as O1.
    assert (s = c) by (eapply len1_same; [| exact O1 | exact O3]; lia). subst s.
    rewrite (cls_is_unique _ _ _ KCP Cs) in Kc; [discriminate | discriminate].
  - assert (Tc : typ_is g c sSubInterface = true) by (destruct (typ_is g c sSubInterface); congruence).
    split; [reflexivity|]. split; [exact Tc|].
    pose proof (sub_cp_nbrs_le _ _ _ _ (proj1 (WF_WFr g) W) Kc eq_refl Tc) as Le.
    destruct (first_nb g c Connects KCP) as [|a [|b l]]; simpl in *; [contradiction | | lia].
    destruct Hxc as [<-|[]]. reflexivity.
Qed.

(* the elements that have the service s as an owner are its interfaces *)
Lemma in_scope_ns s n : cls_is g s KNS = true -> In n (gnodes g) -> In s (scope_of g n) -> In (nid n) (first_nb g s Connects KCP).
Proof.
  intros Cs Hn H. unfold scope_of in H. destruct (ncls n) eqn:Kn; try destruct H.
  - exfalso. unfold comp_owners in H. apply In_nb_where in H as [r [_ P]]. apply andb_true_iff in P as [_ P].
    rewrite !(cls_is_unique _ _ _ _ Cs) in P; [discriminate P | discriminate | discriminate].
  - exfalso. unfold ns_owners in H. apply In_nb_where in H as [r [_ P]]. apply andb_true_iff in P as [_ P].
    rewrite !(cls_is_unique _ _ _ _ Cs) in P; [discriminate P | discriminate | discriminate | discriminate].
  - unfold cp_owners in H. apply In_nb_where in H as [r [Hadj P]]. apply andb_true_iff in P as [Pr _]. apply rel_eqb_eq in Pr. subst r.
    assert (Kc : cls_is g (nid n) KCP = true) by (rewrite (cls_node n _ Hn), Kn; reflexivity).
    apply In_first_nb. split; [apply nbrs_sym; exact Hadj | exact Kc].
Qed.
End Static.

Lemma raw_peers_flat g i :
  raw_peers g i = flat_map (fun l => filter (fun k => negb (str_eqb k i)) (any_nb g l KCP)) (first_nb g i Connects KLink).
Proof.
  unfold raw_peers, second_nb. induction (first_nb g i Connects KLink) as [|l L IH]; simpl; [reflexivity|].
  rewrite map_app, IH, map_map. simpl. rewrite map_id. reflexivity.
Qed.

Lemma filter3_len {A} (f a b : A -> bool) X : length (filter f (filter a (filter b X))) <= length (filter f (filter a X)).
Proof.
  induction X as [|x X IH]; simpl; [lia|]. destruct (b x); simpl; destruct (a x); simpl; try destruct (f x); simpl; lia.
Qed.

Lemma sp_peers_mono g d i : d i = false -> length (sp_peers (remove_set g d) i) <= length (sp_peers g i).
Proof.
  intro Hi. unfold sp_peers. rewrite !raw_peers_flat, (first_nb_remove g d i _ _ Hi).
  induction (first_nb g i Connects KLink) as [|l L IH]; simpl; [lia|].
  rewrite filter_app, app_length. destruct (d l) eqn:Dl; simpl; [lia|].
  rewrite filter_app, app_length. apply Nat.add_le_mono; [|exact IH].
  rewrite (any_nb_remove g d l _ Dl).
  rewrite (filter_ext_in (peer_filter (remove_set g d) (Some sServicePort)) (peer_filter g (Some sServicePort))).
  - apply filter3_len.
  - intros p Hp. apply filter_In in Hp as [Hp _]. apply filter_In in Hp as [_ Hp]. apply negb_true_iff in Hp.
    unfold peer_filter. apply (rs_typ g d _ _ Hp).
Qed.

Lemma nonsub_owners g p : typ_is g p sSubInterface = false -> cp_owners g p = first_nb g p Connects KNS.
Proof.
  intro T. unfold cp_owners, nb_where, first_nb. f_equal. apply filter_ext. intros [j r]. simpl. rewrite T. simpl.
  rewrite orb_false_r. reflexivity.
Qed.

Lemma sp_no_children g p : WF g -> subs_under_dedicated g = true -> cls_is g p KCP = true -> typ_is g p sServicePort = true ->
  first_nb g p Connects KCP = [].
Proof. intros W X C T. apply WF_WFr in W. exact (x1_serviceport_no_children _ _ _ _ W X C eq_refl T). Qed.

Lemma one_sp_peer_spec g x : one_sp_peer g = true -> NoDup (map nid (gnodes g)) -> cls_is g x KCP = true -> length (sp_peers g x) <= 1.
Proof.
  intros P ND C. pose proof (cls_is_has_id _ _ _ C) as Hh. apply has_id_In in Hh as [n [Hn En]].
  unfold one_sp_peer in P. rewrite forallb_forall in P. specialize (P n Hn).
  rewrite <- En, (cls_is_node g n _ ND Hn) in C. rewrite C in P. simpl in P. apply Nat.leb_le in P. rewrite En in P. exact P.
Qed.

Lemma remove_set_more g d1 d2 : (forall y, d1 y = true -> d2 y = true) -> remove_set g d2 = remove_set (remove_set g d1) d2.
Proof.
  intro H. rewrite remove_set_twice. apply remove_set_ext. intro y. destruct (d1 y) eqn:E; [rewrite (H y E); reflexivity | reflexivity].
Qed.

(* neighbour lists have no repetitions: one edge per unordered pair *)
Lemma nb_of_ends x e j r : In (j, r) (nb_of x e) -> same_ends e x j = true.
Proof.
  unfold nb_of, same_ends. destruct (str_eqb (ea e) x) eqn:E1.
  - intros [H|[]]. inversion H; subst. rewrite ?str_eqb_refl. reflexivity.
  - destruct (str_eqb (eb e) x) eqn:E2; [|intros []]. intros [H|[]]. inversion H; subst. rewrite ?str_eqb_refl, ?E2. simpl. rewrite ?orb_true_r. reflexivity.
Qed.
Lemma same_ends_trans e e' x j : same_ends e x j = true -> same_ends e' x j = true -> same_ends e' (ea e) (eb e) = true.
Proof.
  unfold same_ends. intros H H'.
  apply orb_true_iff in H as [H|H]; apply andb_true_iff in H as [A B]; apply str_eqb_eq in A; apply str_eqb_eq in B; subst;
  apply orb_true_iff in H' as [H'|H']; apply andb_true_iff in H' as [A' B']; rewrite A', B'; simpl; auto using orb_true_r.
Qed.

Lemma nbrs_NoDup g x : edges_distinct (gedges g) -> NoDup (map fst (nbrs g x)).
Proof.
  rewrite nbrs_def. unfold edges_distinct. induction (gedges g) as [|e l IH]; simpl; intro H; [constructor|].
  inversion H as [|? ? Hall Hrest]; subst. rewrite map_app. specialize (IH Hrest).
  assert (Hnot : forall j r, In (j, r) (nb_of x e) -> ~ In j (map fst (flat_map (nb_of x) l))).
  { intros j r Hj Hin. apply in_map_iff in Hin as [[j' r'] [Ej Hin]]. simpl in Ej. subst j'.
    apply in_flat_map in Hin as [e' [He' Hin]]. rewrite Forall_forall in Hall. specialize (Hall e' He').
    rewrite (same_ends_trans e e' x j (nb_of_ends _ _ _ _ Hj) (nb_of_ends _ _ _ _ Hin)) in Hall. discriminate. }
  unfold nb_of in *. destruct (str_eqb (ea e) x); simpl in *.
  - constructor; [apply (Hnot (eb e) (erel e)); left; reflexivity | exact IH].
  - destruct (str_eqb (eb e) x); simpl in *; [|exact IH].
    constructor; [apply (Hnot (ea e) (erel e)); left; reflexivity | exact IH].
Qed.
Lemma first_nb_NoDup g x r k : edges_distinct (gedges g) -> NoDup (first_nb g x r k).
Proof. intro H. unfold first_nb. apply NoDup_map_filter. apply nbrs_NoDup. exact H. Qed.

Lemma In_dedup_keep_aux a : forall l seen, In a (dedup_keep_aux seen l) <-> In a l /\ ~ In a seen.
Proof.
  induction l as [|x l IH]; intro seen; simpl; [tauto|].
  destruct (mem_str x seen) eqn:M.
  - rewrite IH. apply mem_str_In in M. split; [tauto|]. intros [[<-|H] Hn]; [contradiction | auto].
  - assert (Hx : ~ In x seen) by (intro X; apply mem_str_In in X; congruence).
    simpl. rewrite IH. simpl. split.
    + intros [<-|[H Hn]]; [auto|]. split; [auto|]. intro X. apply Hn. right. exact X.
    + intros [[<-|H] Hn]; [auto|]. destruct (str_eq_dec x a) as [->|Ne]; [auto|]. right. split; [exact H|]. intros [X|X]; auto.
Qed.
Lemma In_order_by hint l a : In a (order_by hint l) <-> In a l.
Proof.
  unfold order_by. rewrite in_app_iff, !filter_In. unfold dedup_keep. rewrite In_dedup_keep_aux. split.
  - intros [[_ H]|[H _]]; [apply mem_str_In; exact H | exact H].
  - intro H. destruct (mem_str a hint) eqn:M.
    + left. split; [split; [apply mem_str_In; exact M | intros []] | apply mem_str_In; exact H].
    + right. split; [exact H | reflexivity].
Qed.

Lemma children_of_handle_run i s : sane (sg s) -> cls_is (sg s) i KCP = true ->
  children_of_handle i s = (s, Ok (if typ_is (sg s) i sDedicatedPort then first_nb (sg s) i Connects KCP else [])).
Proof.
  intros Hs C. pose proof (cls_is_has_id _ _ _ C) as Hi. unfold children_of_handle. unfold bind at 1.
  rewrite (type_is_run i sDedicatedPort s Hs Hi). destruct (typ_is (sg s) i sDedicatedPort); [|reflexivity].
  unfold child_cps. unfold bind at 1. rewrite (check_class_run i [KCP] s KCP Hs C eq_refl). apply q_first_nb_ok; assumption.
Qed.

Section Removal.
Variable g0 : graph.
Hypothesis W0 : WF g0.
Hypothesis X0 : subs_under_dedicated g0 = true.
Hypothesis P0 : one_sp_peer g0 = true.
Variable E : str -> bool.
Hypothesis E_nolink : forall y, E y = true -> cls_is g0 y KLink = false.

(* what the loop deletes: service ports and links *)
Definition sp_or_link (y : str) : Prop := (cls_is g0 y KCP = true /\ typ_is g0 y sServicePort = true) \/ cls_is g0 y KLink = true.

Lemma sp_or_link_keeps d k y : (forall y, d y = true -> sp_or_link y) -> cls_is g0 y k = true -> k <> KCP -> k <> KLink -> d y = false.
Proof.
  intros HK C H1 H2. destruct (d y) eqn:D; [|reflexivity]. exfalso.
  destruct (HK y D) as [[C' _]|C']; rewrite (cls_is_unique _ _ _ _ C) in C'; congruence.
Qed.

Lemma state_eta d s : InvD g0 E d s -> mkSt (remove_set g0 d) (sdr s) = s.
Proof. intros [G _]. destruct s as [gs ds]; simpl in G |- *; subst gs; reflexivity. Qed.

(* a service port that is still there keeps its service *)
Lemma sp_owner_alive d s p :
  InvD g0 E d s -> (forall y, d y = true -> sp_or_link y) -> d p = false -> cls_is g0 p KCP = true -> typ_is g0 p sServicePort = true ->
  typ_is (sg s) p sSubInterface = false /\ exists own, first_nb (sg s) p Connects KNS = [own].
Proof.
  intros [G _] HK Dp Cp0 Tp0.
  assert (Tsub0 : typ_is g0 p sSubInterface = false) by (apply (typ_is_excl _ _ _ _ Tp0); reflexivity).
  rewrite G, (rs_typ g0 d _ _ Dp), (first_nb_remove g0 d p _ _ Dp). split; [exact Tsub0|].
  destruct (cp_struct g0 W0 p Cp0) as [L1 _]. rewrite (nonsub_owners g0 p Tsub0) in L1.
  destruct (first_nb g0 p Connects KNS) as [|own [|b l]] eqn:Eo; simpl in L1; try lia. exists own. simpl.
  assert (Co : cls_is g0 own KNS = true) by (assert (X : In own (first_nb g0 p Connects KNS)) by (rewrite Eo; left; reflexivity); apply In_first_nb in X; tauto).
  rewrite (sp_or_link_keeps d KNS own HK Co); [reflexivity | discriminate | discriminate].
Qed.

(* one round of the disconnection loop, and the shape every run lemma below has: from the deletion set d to some d' that
   contains it, reached by a run that returns, with the invariant kept; here d' still holds service ports and links only,
   i itself survives and has no service-port peer left *)
Lemma step_disconnect_one d s i :
  InvD g0 E d s -> (forall y, d y = true -> sp_or_link y) ->
  has_id g0 i = true -> d i = false -> cls_is g0 i KCP = true ->
  (typ_is g0 i sServicePort = true -> E i = true) ->
  exists d', disconnect_one i s = (mkSt (remove_set g0 d') (sdr s), Ok tt) /\ InvD g0 E d' (mkSt (remove_set g0 d') (sdr s)) /\
     (forall y, d y = true -> d' y = true) /\ (forall y, d' y = true -> sp_or_link y) /\ d' i = false /\
     (forall z, In z (peers (remove_set g0 d') i) -> typ_is g0 z sServicePort = false).
Proof.
  intros I HK Hi Di Ci Ei. pose proof I as [G W].
  pose proof (InvD_sane _ _ _ _ I) as Hs. pose proof (WFr_named _ _ _ W) as Hn.
  assert (His : has_id (sg s) i = true) by (eapply alive_has_id; eauto).
  assert (Alive : forall z, In z (peers (sg s) i) -> d z = false).
  { intros z Hz. pose proof (peers_cls _ _ _ Hz) as Cz. apply cls_is_has_id in Cz. rewrite G in Cz. apply has_id_remove_inv in Cz. tauto. }
  assert (Len : length (sp_peers (sg s) i) <= 1).
  { rewrite G. etransitivity; [apply (sp_peers_mono g0 d i Di)|]. apply one_sp_peer_spec; [exact P0 | apply (wf_ids _ W0) | exact Ci]. }
  pose proof (disconnect_one_ok i s Hs Hn His) as Run.
  destruct (sp_peers (sg s) i) as [|p [|q l]] eqn:Esp; [| | simpl in Len; lia].
  { exists d. rewrite Run, (state_eta d s I). split; [reflexivity|]. split; [exact I|]. split; [auto|]. split; [exact HK|]. split; [exact Di|].
    rewrite <- G. intros z Hz. destruct (typ_is g0 z sServicePort) eqn:Tz; [|reflexivity]. exfalso.
    assert (Hzs : In z (sp_peers (sg s) i)).
    { apply filter_In. split; [apply peers_in_raw; exact Hz|]. simpl. rewrite G, (rs_typ g0 d _ _ (Alive z Hz)). exact Tz. }
    rewrite Esp in Hzs. destruct Hzs. }
  (* exactly one service-port peer p *)
  assert (Hp : In p (sp_peers (sg s) i)) by (rewrite Esp; left; reflexivity).
  unfold sp_peers in Hp. apply filter_In in Hp as [Hraw Tp]. simpl in Tp.
  pose proof (raw_peers_cls _ _ _ Hraw) as Cp. pose proof (cls_is_has_id _ _ _ Cp) as Hps.
  destruct (has_id_alive _ _ _ _ _ I Hps) as [Hp0 Dp].
  assert (Cp0 : cls_is g0 p KCP = true) by (rewrite G, (rs_cls g0 d _ _ Dp) in Cp; exact Cp).
  assert (Tp0 : typ_is g0 p sServicePort = true) by (rewrite G, (rs_typ g0 d _ _ Dp) in Tp; exact Tp).
  assert (Hpi : In p (peers (sg s) i)).
  { eapply raw_in_peers; [exact W | | exact Cp | exact Hraw].
    intros l Hl. destruct (E l) eqn:El; [|reflexivity]. exfalso.
    apply In_first_nb in Hl as [_ Cl]. pose proof (cls_is_has_id _ _ _ Cl) as Hl'. destruct (has_id_alive _ _ _ _ _ I Hl') as [_ Dl].
    rewrite G, (rs_cls g0 d _ _ Dl), (E_nolink l El) in Cl. discriminate. }
  assert (Cis : cls_is (sg s) i KCP = true) by (rewrite G, (rs_cls g0 d _ _ Di); exact Ci).
  assert (NCp : first_nb (sg s) p Connects KCP = []).
  { rewrite G, (first_nb_remove g0 d p _ _ Dp), (sp_no_children g0 p W0 X0 Cp0 Tp0). reflexivity. }
  destruct (sp_owner_alive d s p I HK Dp Cp0 Tp0) as [Tsub Own]. rewrite (Run Tsub Own).
  (* p's only peer is i *)
  assert (Pp : forall z, In z (peers (sg s) p) -> z = i).
  { intros z Hz. assert (Hz0 : In z (peers g0 p)) by (rewrite G in Hz; apply (peers_remove_sub g0 d p z Dp) in Hz; tauto).
    assert (Hi0 : In i (peers g0 p)).
    { rewrite G in Hpi. apply (peers_remove_sub g0 d i p Di) in Hpi as [Hpi _]. apply peers_sym; assumption. }
    destruct (cp_struct g0 W0 p Cp0) as [_ [_ L3]]. specialize (L3 Tp0).
    eapply len1_same; [| exact Hz0 | exact Hi0]. lia. }
  destruct (step_remove_cp g0 W0 E d s p I Hp0 Dp Cp0) as [R I'].
  { intros c z Hc Hz Tz. rewrite NCp in Hc. destruct Hc as [->|[]]. rewrite (Pp z Hz) in *. apply Ei. exact Tz. }
  set (d' := fun y => d y || mem_str y (D_cp (sg s) p true)) in *.
  destruct (sp_peer_removed (sg s) i p Cis Hpi NCp Esp) as [Dpi Gone].
  exists d'. split; [exact R|]. split; [exact I'|].
  split; [intros y Hy; unfold d'; rewrite Hy; reflexivity|].
  split.
  { intros y Hy. unfold d' in Hy. apply orb_true_iff in Hy as [Hy|Hy]; [apply HK; exact Hy|].
    destruct (D_cp_alone _ _ _ _ (cp_extra_nochild _ _ _ NCp) Hy) as [->|C]; [left; auto|]. right.
    pose proof (cls_is_has_id _ _ _ C) as Hy'. destruct (has_id_alive _ _ _ _ _ I Hy') as [_ Dy].
    rewrite G, (rs_cls g0 d _ _ Dy) in C. exact C. }
  split; [unfold d'; rewrite Di, Dpi; reflexivity|].
  intros z Hz. unfold d' in Hz. rewrite <- remove_set_twice, <- G in Hz. destruct (Gone z Hz) as [Hz0 Tz].
  rewrite G, (rs_typ g0 d _ _ (Alive z Hz0)) in Tz. exact Tz.
Qed.
Lemma disconnect_loop_run : forall L d s,
  InvD g0 E d s -> (forall y, d y = true -> sp_or_link y) ->
  (forall i, In i L -> has_id g0 i = true /\ cls_is g0 i KCP = true /\ (typ_is g0 i sServicePort = true -> E i = true)) ->
  exists d', for_each L (fun i => ex <- cp_exists i ;; if ex then disconnect_one i else ret tt) s
               = (mkSt (remove_set g0 d') (sdr s), Ok tt) /\
     InvD g0 E d' (mkSt (remove_set g0 d') (sdr s)) /\ (forall y, d y = true -> d' y = true) /\ (forall y, d' y = true -> sp_or_link y) /\
     (forall i z, In i L -> d' i = false -> In z (peers (remove_set g0 d') i) -> typ_is g0 z sServicePort = false).
Proof.
  induction L as [|i L IH]; intros d s I HK HL; simpl.
  - exists d. unfold ret. rewrite (state_eta d s I). split; [reflexivity|]. split; [exact I|]. split; [auto|]. split; [exact HK|].
    intros i z [].
  - destruct (HL i (or_introl eq_refl)) as [Hi [Ci Ei]]. pose proof I as [G W].
    unfold bind at 1 2. rewrite (cp_exists_run i s (r_ids _ _ _ W)).
    assert (Step : exists d1, (if cls_is (sg s) i KCP then disconnect_one i else ret tt) s = (mkSt (remove_set g0 d1) (sdr s), Ok tt) /\
              InvD g0 E d1 (mkSt (remove_set g0 d1) (sdr s)) /\ (forall y, d y = true -> d1 y = true) /\ (forall y, d1 y = true -> sp_or_link y) /\
              (d1 i = false -> forall z, In z (peers (remove_set g0 d1) i) -> typ_is g0 z sServicePort = false)).
    { destruct (d i) eqn:Di.
      - assert (C : cls_is (sg s) i KCP = false).
        { destruct (cls_is (sg s) i KCP) eqn:C; [|reflexivity]. apply cls_is_has_id in C.
          destruct (has_id_alive _ _ _ _ _ I C) as [_ X]. congruence. }
        rewrite C. exists d. unfold ret. rewrite (state_eta d s I). split; [reflexivity|]. split; [exact I|]. split; [auto|]. split; [exact HK|].
        intro X. congruence.
      - assert (C : cls_is (sg s) i KCP = true) by (rewrite G, (rs_cls g0 d _ _ Di); exact Ci). rewrite C.
        destruct (step_disconnect_one d s i I HK Hi Di Ci Ei) as [d1 [R [I1 [S1 [K1 [_ N1]]]]]].
        exists d1. split; [exact R|]. split; [exact I1|]. split; [exact S1|]. split; [exact K1|]. intros _. exact N1. }
    destruct Step as [d1 [R [I1 [S1 [K1 N1]]]]]. rewrite R.
    destruct (IH d1 (mkSt (remove_set g0 d1) (sdr s)) I1 K1 (fun j Hj => HL j (or_intror Hj))) as [d' [R' [I' [S' [K' N']]]]].
    simpl in R', I'. exists d'. split; [exact R'|]. split; [exact I'|]. split; [auto|]. split; [exact K'|].
    intros j z [<-|Hj] Dj Hz; [|eapply N'; eauto].
    assert (D1 : d1 i = false) by (destruct (d1 i) eqn:X; [rewrite (S' _ X) in Dj; discriminate | reflexivity]).
    rewrite (remove_set_more g0 d1 d' S') in Hz. apply (peers_remove_sub _ d' i z Dj) in Hz as [Hz _].
    exact (N1 D1 z Hz).
Qed.
(* the reading steps of the removal programs on an element that is still there *)
Lemma alive_check_class d s x k : InvD g0 E d s -> d x = false -> cls_is g0 x k = true -> check_class x [k] s = (s, Ok tt).
Proof.
  intros I Dx C. pose proof I as [G _]. apply (check_class_run x [k] s k (InvD_sane _ _ _ _ I)); [|simpl; rewrite cls_eqb_refl; reflexivity].
  rewrite G, (rs_cls g0 d _ _ Dx). exact C.
Qed.
Lemma alive_first_nb d s x r k : InvD g0 E d s -> has_id g0 x = true -> d x = false ->
  q_first_nb x r k s = (s, Ok (first_nb (sg s) x r k)) /\
  forall y, In y (first_nb (sg s) x r k) <-> In y (first_nb g0 x r k) /\ d y = false.
Proof.
  intros I Hx Dx. pose proof I as [G _]. split; [apply q_first_nb_ok; [apply (InvD_sane _ _ _ _ I) | eapply alive_has_id; eauto]|].
  intro y. rewrite G, (first_nb_remove g0 d x _ _ Dx), filter_In, negb_true_iff. tauto.
Qed.

(* in the graph g, every service-port peer of the interface x, and of the interfaces hanging off x, is scheduled for deletion *)
Definition NoSP (g : graph) (x : str) : Prop :=
  forall c z, (c = x \/ In c (first_nb g x Connects KCP)) -> In z (peers g c) -> typ_is g0 z sServicePort = true -> E z = true.
Lemma NoSP_mono d d' x : (forall y, d y = true -> d' y = true) -> d' x = false ->
  NoSP (remove_set g0 d) x -> NoSP (remove_set g0 d') x.
Proof.
  intros Sd Dx H c z Hc Hz Tz. rewrite (remove_set_more g0 d d' Sd) in Hc, Hz.
  assert (Dc : d' c = false).
  { destruct Hc as [->|Hc]; [exact Dx|]. rewrite (first_nb_remove _ d' x _ _ Dx) in Hc. apply filter_In in Hc as [_ Hc].
    apply negb_true_iff in Hc. exact Hc. }
  apply (peers_remove_sub _ d' c z Dc) in Hz as [Hz _].
  apply (H c z); [|exact Hz | exact Tz].
  destruct Hc as [->|Hc]; [left; reflexivity|]. right. rewrite (first_nb_remove _ d' x _ _ Dx) in Hc. apply filter_In in Hc. tauto.
Qed.

(* what remove_cp_and_links x deletes, in terms of the graph before the call *)
Lemma D_cp_members d s x y :
  InvD g0 E d s -> d x = false -> cls_is g0 x KCP = true -> mem_str y (D_cp (sg s) x true) = true ->
  y = x \/ In y (first_nb g0 x Connects KCP) \/ cls_is g0 y KLink = true.
Proof.
  intros I Dx Cx Hy. pose proof I as [G W].
  assert (Cxs : cls_is (sg s) x KCP = true) by (rewrite G, (rs_cls g0 d _ _ Dx); exact Cx).
  destruct (rc_del_inv (sg s) no_exempt x true Cxs (or_introl eq_refl) y Hy) as [[Hy' _]|[_ C]].
  - unfold cp_ifs in Hy'. apply (proj1 (In_dedup _ _)) in Hy'. destruct Hy' as [<-|Hy']; [left; reflexivity|].
    right. left. unfold cp_extra in Hy'. apply filter_In in Hy' as [Hy' _].
    rewrite G, (first_nb_remove g0 d x _ _ Dx) in Hy'. apply filter_In in Hy'. tauto.
  - right. right. pose proof (cls_is_has_id _ _ _ C) as Hy'. destruct (has_id_alive _ _ _ _ _ I Hy') as [_ Dy].
    rewrite G, (rs_cls g0 d _ _ Dy) in C. exact C.
Qed.

Lemma ports_loop_run : forall L d s,
  InvD g0 E d s -> NoDup L ->
  (forall x, In x L -> has_id g0 x = true /\ d x = false /\ cls_is g0 x KCP = true) ->
  (forall x y, In x L -> In y L -> x <> y -> ~ In y (first_nb g0 x Connects KCP)) ->
  (forall x, In x L -> NoSP (sg s) x) ->
  exists d', for_each L (fun i => remove_cp_and_links i true) s = (mkSt (remove_set g0 d') (sdr s), Ok tt) /\
    InvD g0 E d' (mkSt (remove_set g0 d') (sdr s)) /\ (forall y, d y = true -> d' y = true) /\ (forall x, In x L -> d' x = true) /\
    (forall y, d' y = true -> d y = true \/ In y L \/ (exists x, In x L /\ In y (first_nb g0 x Connects KCP)) \/ cls_is g0 y KLink = true).
Proof.
  induction L as [|x L IH]; intros d s I ND HL NA NS; simpl.
  - exists d. unfold ret. rewrite (state_eta d s I). split; [reflexivity|]. split; [exact I|]. split; [auto|]. split; [intros x []|]. auto.
  - destruct (HL x (or_introl eq_refl)) as [Hx [Dx Cx]]. inversion ND as [|? ? Hnot ND']; subst. pose proof I as [G W].
    destruct (step_remove_cp g0 W0 E d s x I Hx Dx Cx) as [R I1].
    { exact (NS x (or_introl eq_refl)). }
    set (d1 := fun y => d y || mem_str y (D_cp (sg s) x true)) in *.
    unfold bind at 1. rewrite R.
    assert (S1 : forall y, d y = true -> d1 y = true) by (intros y Hy; unfold d1; rewrite Hy; reflexivity).
    assert (Keep : forall y, In y L -> d1 y = false).
    { intros y Hy. destruct (HL y (or_intror Hy)) as [_ [Dy Cy]]. unfold d1. rewrite Dy. simpl.
      destruct (mem_str y (D_cp (sg s) x true)) eqn:M; [|reflexivity]. exfalso.
      destruct (D_cp_members d s x y I Dx Cx M) as [->|[Hadj|C]].
      - contradiction.
      - apply (NA x y); [left; reflexivity | right; exact Hy | intro; subst; contradiction | exact Hadj].
      - rewrite (cls_is_unique _ _ _ KLink Cy) in C; [discriminate | discriminate]. }
    destruct (IH d1 (mkSt (remove_set g0 d1) (sdr s)) I1 ND') as [d' [R' [I' [S' [A' M']]]]].
    + intros y Hy. destruct (HL y (or_intror Hy)) as [Hy0 [_ Cy]]. split; [exact Hy0|]. split; [apply Keep; exact Hy | exact Cy].
    + intros a b Ha Hb. apply NA; right; assumption.
    + intros y Hy. simpl. apply (NoSP_mono d d1 y S1 (Keep y Hy)). rewrite <- G. apply NS. right. exact Hy.
    + simpl in R', I'. exists d'. split; [exact R'|]. split; [exact I'|]. split; [auto|]. split.
      * intros y [<-|Hy]; [|apply A'; exact Hy]. apply S'. unfold d1. rewrite (x_in_D_cp (sg s) x true). apply orb_true_r.
      * intros y Hy. destruct (M' y Hy) as [Hy1|[Hy1|[[a [Ha Hy1]]|Hy1]]].
        -- unfold d1 in Hy1. apply orb_true_iff in Hy1 as [Hy1|Hy1]; [left; exact Hy1|].
           destruct (D_cp_members d s x y I Dx Cx Hy1) as [->|[Hadj|C]].
           ++ right. left. left. reflexivity.
           ++ right. right. left. exists x. split; [left; reflexivity | exact Hadj].
           ++ right. right. right. exact C.
        -- right. left. right. exact Hy1.
        -- right. right. left. exists a. split; [right; exact Ha | exact Hy1].
        -- right. right. right. exact Hy1.
Qed.
Lemma remove_ns_run d s sv :
  InvD g0 E d s -> has_id g0 sv = true -> d sv = false -> cls_is g0 sv KNS = true ->
  (forall x, In x (first_nb g0 sv Connects KCP) -> E x = true) ->
  (forall x c z, In x (first_nb g0 sv Connects KCP) -> d x = false -> (c = x \/ In c (first_nb (sg s) x Connects KCP)) ->
                 In z (peers (sg s) c) -> typ_is g0 z sServicePort = true -> E z = true) ->
  exists d', remove_ns_with_cps_and_links sv s = (mkSt (remove_set g0 d') (sdr s), Ok tt) /\
    InvD g0 E d' (mkSt (remove_set g0 d') (sdr s)) /\ (forall y, d y = true -> d' y = true) /\ d' sv = true /\
    (forall x, In x (first_nb g0 sv Connects KCP) -> d' x = true) /\
    (forall y, d' y = true -> d y = true \/ y = sv \/ In y (first_nb g0 sv Connects KCP) \/
                              (exists x, In x (first_nb g0 sv Connects KCP) /\ In y (first_nb g0 x Connects KCP)) \/ cls_is g0 y KLink = true).
Proof.
  intros I Hs Ds Cs HE NS. pose proof I as [G W].
  destruct (alive_first_nb d s sv Connects KCP I Hs Ds) as [Q HL].
  unfold remove_ns_with_cps_and_links. unfold bind at 1. rewrite (alive_check_class d s sv KNS I Ds Cs). unfold bind at 1. rewrite Q.
  set (L := first_nb (sg s) sv Connects KCP) in *.
  destruct (step_delete_owner g0 E d s sv I Hs Ds) as [R1 I1].
  { apply (cls_is_unique _ _ _ _ Cs). discriminate. }
  { apply (cls_is_unique _ _ _ _ Cs). discriminate. }
  { intros n Hn Hsc. apply HE. apply (in_scope_ns g0 W0 sv n Cs Hn Hsc). }
  set (d1 := fun y => d y || str_eqb y sv) in *.
  unfold bind at 1. rewrite R1.
  assert (S1 : forall y, d y = true -> d1 y = true) by (intros y Hy; unfold d1; rewrite Hy; reflexivity).
  assert (KL : forall x, In x L -> has_id g0 x = true /\ d1 x = false /\ cls_is g0 x KCP = true).
  { intros x Hx. apply HL in Hx as [Hx Dx]. apply In_first_nb in Hx as [_ Cx]. split; [eapply cls_is_has_id; eauto|]. split; [|exact Cx].
    unfold d1. rewrite Dx. simpl. apply str_eqb_neq. intro Ex. subst x. rewrite (cls_is_unique _ _ _ KCP Cs) in Cx; discriminate. }
  destruct (ports_loop_run L d1 (mkSt (remove_set g0 d1) (sdr s)) I1) as [d' [R' [I' [S' [A' M']]]]].
  - apply first_nb_NoDup. apply (r_edges_distinct _ _ _ W).
  - exact KL.
  - intros x y Hx Hy _. apply HL in Hx as [Hx _]. apply HL in Hy as [Hy _]. apply (ns_ports_nonadjacent g0 W0 sv sv x y Cs Cs Hx Hy).
  - intros x Hx. simpl. destruct (KL x Hx) as [_ [Dx1 _]]. apply HL in Hx as [Hx Dx0].
    apply (NoSP_mono d d1 x S1 Dx1). rewrite <- G. intros c z. apply (NS x c z Hx Dx0).
  - simpl in R', I'. exists d'. split; [exact R'|]. split; [exact I'|]. split; [auto|].
    split; [apply S'; unfold d1; rewrite str_eqb_refl; apply orb_true_r|].
    split.
    + intros x Hx. destruct (d x) eqn:Dx; [auto|]. apply A'. apply HL. auto.
    + intros y Hy. destruct (M' y Hy) as [Hy1|[Hy1|[[a [Ha Hy1]]|Hy1]]].
      * unfold d1 in Hy1. apply orb_true_iff in Hy1 as [Hy1|Hy1]; [left; exact Hy1|]. right. left. apply str_eqb_eq. exact Hy1.
      * right. right. left. apply HL in Hy1. tauto.
      * right. right. right. left. exists a. apply HL in Ha. tauto.
      * right. right. right. right. exact Hy1.
Qed.
Definition loop_list (ifs : list str) : list str :=
  flat_map (fun i => i :: (if typ_is g0 i sDedicatedPort then first_nb g0 i Connects KCP else [])) ifs.

Lemma loop_list_facts ifs a : (forall i, In i ifs -> cls_is g0 i KCP = true) -> In a (loop_list ifs) ->
  cls_is g0 a KCP = true /\ (In a ifs \/ typ_is g0 a sServicePort = false).
Proof.
  intros HC H. unfold loop_list in H. apply in_flat_map in H as [i [Hi H]]. destruct H as [<-|H]; [split; [apply HC; exact Hi | left; exact Hi]|].
  destruct (typ_is g0 i sDedicatedPort); [|destruct H].
  assert (Ca : cls_is g0 a KCP = true) by (apply In_first_nb in H; tauto). split; [exact Ca|]. right.
  destruct (typ_is g0 a sServicePort) eqn:T; [|reflexivity]. exfalso.
  assert (Hia : In i (first_nb g0 a Connects KCP)) by (eapply first_nb_sym; eauto).
  rewrite (sp_no_children g0 a W0 X0 Ca T) in Hia. destruct Hia.
Qed.

Lemma disconnect_phase fl hint ifs s :
  sg s = g0 -> fl_skip_gone fl = true ->
  (forall i, In i ifs -> cls_is g0 i KCP = true) ->
  (forall i, In i ifs -> typ_is g0 i sServicePort = true -> E i = true) ->
  exists d', disconnect_loop fl hint ifs s = (mkSt (remove_set g0 d') (sdr s), Ok tt) /\
    InvD g0 E d' (mkSt (remove_set g0 d') (sdr s)) /\ (forall y, d' y = true -> sp_or_link y) /\
    (forall c z, In c (loop_list ifs) -> d' c = false -> In z (peers (remove_set g0 d') c) -> typ_is g0 z sServicePort = false).
Proof.
  intros G FL HC HE. pose proof (InvD_init g0 W0 E s G) as I0. pose proof (InvD_sane _ _ _ _ I0) as Sn.
  unfold disconnect_loop. unfold bind at 1.
  rewrite (concatM_pure _ (fun i => i :: (if typ_is g0 i sDedicatedPort then first_nb g0 i Connects KCP else [])) ifs s).
  2:{ intros i Hi. unfold bind. rewrite (children_of_handle_run i s Sn); [rewrite G; reflexivity | rewrite G; apply HC; exact Hi]. }
  fold (loop_list ifs). rewrite FL.
  destruct (disconnect_loop_run (order_by hint (loop_list ifs)) (fun _ => false) s I0) as [d' [R [I' [_ [K' N']]]]].
  - intros y Hy. discriminate Hy.
  - intros i Hi. apply In_order_by in Hi. destruct (loop_list_facts ifs i HC Hi) as [Ci Hor].
    split; [eapply cls_is_has_id; eauto|]. split; [exact Ci|]. intro T. destruct Hor as [Hin|T']; [apply HE; assumption | congruence].
  - exists d'. split; [exact R|]. split; [exact I'|]. split; [exact K'|].
    intros c z Hc Dc Hz. apply (N' c z); [apply In_order_by; exact Hc | exact Dc | exact Hz].
Qed.
End Removal.
