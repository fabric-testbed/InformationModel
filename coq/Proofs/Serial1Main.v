(* C01 proofs: importing a text that denotes a graph g, through each of the four entry points and into any
   well-formed store, files a copy of g; and the copies (relabelled, possibly re-stamped) are again in the
   domain of the format they came in. *)
From Coq Require Import List NArith Bool.
From FIM Require Import Base.ListFacts Base.Str Model.Serial1Text Model.Serial1Graph.
From FIM Require Import Proofs.Serial1Doc Proofs.Serial1Store.
Import ListNotations.
Open Scope N_scope.
Local Arguments N.eqb : simpl nomatch.

Lemma graph_shape_iff g : graph_shape g = true <-> NoDup (map fst (g_nodes g)) /\ closed g.
Proof.
  unfold graph_shape, closed. rewrite andb_true_iff, forallb_forall, nodupN_NoDup.
  split; intros [ND CL]; (split; [exact ND|]); intros [[u v] ps] He; specialize (CL _ He); simpl in *.
  - rewrite andb_true_iff, !memN_In in CL. exact CL.
  - rewrite andb_true_iff, !memN_In. exact CL.
Qed.
Lemma fmt_ok_shape f g : fmt_ok f g = true -> graph_shape g = true.
Proof.
  destruct f; simpl; [intro W; apply graph_wf_iff, W|]. rewrite andb_true_iff. intros [A _]. exact A.
Qed.

Lemma serialize_then_read f g : fmt_ok f g = true ->
  exists t, serialize f g = Some t /\ read_any t = Some g.
Proof.
  destruct f; simpl; intro H.
  - destruct (graphml_roundtrip g H) as (d & A & B). exists (TGraphML d). rewrite A. split; [reflexivity|exact B].
  - apply andb_true_iff in H as [_ J]. exists (TJson (jwrite g)). split; [reflexivity|]. simpl. apply json_roundtrip, J.
Qed.

Lemma has_gid_inv gid n : has_gid gid n = true -> pget P_GraphID (snd n) = Some (PStr gid).
Proof.
  unfold has_gid, node_gid. destruct (pget P_GraphID (snd n)) as [[x|z|b]|]; try discriminate.
  intro H. apply str_eqb_eq in H. subst. reflexivity.
Qed.

Lemma all_same_spec gid l : (forall o, In o l -> o = Some (PStr gid)) -> all_same gid l = ROk gid.
Proof.
  induction l as [|o l IH]; intro H; [reflexivity|]. rewrite (H o (or_introl eq_refl)). simpl.
  rewrite str_eqb_refl. apply IH. intros o' Ho. apply H. right. exact Ho.
Qed.

Lemma get_graph_id_spec t g gid : read_any t = Some g -> g_nodes g <> [] ->
  (forall n, In n (g_nodes g) -> has_gid gid n = true) -> get_graph_id t = ROk gid.
Proof.
  intros R NE H. unfold get_graph_id. rewrite R.
  destruct (g_nodes g) as [|n0 r] eqn:E; [congruence|]. simpl.
  rewrite (has_gid_inv gid n0) by (apply H; left; reflexivity).
  apply all_same_spec. intros o Ho. apply in_map_iff in Ho as (n & <- & Hn). apply has_gid_inv, H. right. exact Hn.
Qed.

Lemma nonempty_b g : g_nodes g <> [] -> nonempty g = true.
Proof. unfold nonempty. destruct (g_nodes g); [congruence|reflexivity]. Qed.

Lemma import_via_restamp ep s t gid g : is_direct ep = false -> read_any t = Some g -> g_nodes g <> [] ->
  import_via ep s t gid = add_graph s gid g.
Proof.
  intros D T NE.
  assert (I : import_string s t gid = add_graph s gid g) by (unfold import_string; rewrite T, (nonempty_b _ NE); reflexivity).
  destruct ep; try discriminate; exact I.
Qed.

Lemma import_via_direct ep s t gid g : is_direct ep = true -> read_any t = Some g -> g_nodes g <> [] ->
  (forall n, In n (g_nodes g) -> has_gid gid n = true) ->
  forall gid', import_via ep s t gid' = add_graph_direct s gid g.
Proof.
  intros D T NE HG gid'.
  assert (I : import_string_direct s t = add_graph_direct s gid g).
  { unfold import_string_direct. rewrite (get_graph_id_spec t _ _ T NE HG), T, (nonempty_b _ NE). reflexivity. }
  destruct ep; try discriminate; exact I.
Qed.

(* whatever the store holds under gid (an older or a modified version of the graph, or nothing): after a re-stamping
   import of a text denoting g under gid, gid holds exactly (a copy of) g *)
Theorem load_restamp_any_store ep s t gid g :
  is_direct ep = false -> store_wf s = true -> text_graph t = Some g ->
  graph_shape g = true -> graph_ids_ok g = true -> g_nodes g <> [] ->
  exists s', import_via ep s t gid = (s', ROk gid)
             /\ extract s' gid = Some (copy_of s gid g)
             /\ content (copy_of s gid g) = content (restamp gid g).
Proof.
  intros D W T SH IDS NE. apply graph_shape_iff in SH as [ND CL]. rewrite (import_via_restamp ep s t gid g D T NE).
  destruct (add_graph_spec s gid g (proj1 (store_wf_swf s) W) ND CL IDS NE) as (s' & AG & EX).
  exists s'. split; [exact AG|]. split; [exact EX|]. apply content_stamp_relabelled; assumption.
Qed.

Theorem load_direct_any_store ep s t gid g :
  is_direct ep = true -> store_wf s = true -> text_graph t = Some g ->
  graph_shape g = true -> g_nodes g <> [] -> (forall n, In n (g_nodes g) -> has_gid gid n = true) ->
  forall gid', exists s', import_via ep s t gid' = (s', ROk gid)
             /\ extract s' gid = Some (copy_direct s g)
             /\ content (copy_direct s g) = content g.
Proof.
  intros D W T SH NE HG gid'. apply graph_shape_iff in SH as [ND CL]. rewrite (import_via_direct ep s t gid g D T NE HG).
  destruct (add_graph_direct_spec s gid g (proj1 (store_wf_swf s) W) ND CL HG NE) as (s' & AG & EX).
  exists s'. split; [exact AG|]. split; [exact EX|]. apply content_relabelled; assumption.
Qed.

(* a refused import (some node without NodeID) under a graph id that is not in use leaves the store exactly as it was
   - in particular nothing exists under the refused id and the id counter is where it was *)
Theorem add_graph_refused s gid g :
  existsb (has_gid gid) (s_nodes s) = false -> graph_shape g = true -> graph_ids_ok g = false ->
  add_graph s gid g = (s, RErrImport).
Proof.
  intros FR SH BAD. apply graph_shape_iff in SH as [ND CL].
  rewrite (add_graph_eq s gid g ND CL), BAD. unfold cleared. rewrite FR. reflexivity.
Qed.

Theorem import_refused ep s t gid g :
  is_direct ep = false -> text_graph t = Some g -> graph_shape g = true -> graph_ids_ok g = false ->
  existsb (has_gid gid) (s_nodes s) = false ->
  import_via ep s t gid = (s, RErrImport).
Proof.
  intros D T SH BAD FR. destruct (g_nodes g) eqn:E.
  - change (read_any t = Some g) in T. assert (I : import_string s t gid = (s, RErrImport)).
    { unfold import_string, nonempty. rewrite T, E. reflexivity. }
    destruct ep; try discriminate; exact I.
  - rewrite (import_via_restamp ep s t gid g D T) by (rewrite E; discriminate). apply add_graph_refused; assumption.
Qed.

Lemma relabelled_shape k g : graph_shape g = true -> graph_shape (relabelled k g) = true.
Proof.
  intro H. apply graph_shape_iff in H as [ND CL]. apply graph_shape_iff.
  destruct (relabelled_fresh k g ND CL) as (A & B & _). split; assumption.
Qed.

Lemma stamp_shape gid g : graph_shape g = true -> graph_shape (stamp gid g) = true.
Proof. unfold graph_shape. rewrite stamp_fst. auto. Qed.

Lemma relabelled_fmt_ok f k g : fmt_ok f g = true -> fmt_ok f (relabelled k g) = true.
Proof.
  destruct (relabelled_snd k g) as [EN EE]. destruct f; simpl.
  - rewrite !graph_wf_eq, (forallb_snd dict_ok _ _ EN), (forallb_snd dict_ok _ _ EE), !andb_true_iff.
    intros [[SH ON] OE]. auto using relabelled_shape.
  - unfold graph_json_ok.
    rewrite (forallb_snd (fun ps => negb (memN P_id (map fst ps))) _ _ EN).
    rewrite (forallb_snd (fun ps => negb (memN P_source (map fst ps)) && negb (memN P_target (map fst ps))) _ _ EE).
    rewrite !andb_true_iff. intros [SH J]. auto using relabelled_shape.
Qed.

Lemma relabelled_validate jsonok k g : validate jsonok (relabelled k g) = validate jsonok g.
Proof.
  destruct (relabelled_snd k g) as [EN EE]. unfold validate.
  rewrite (forallb_snd (fun ps => forallb (fun kv => jsonok (fst kv) (snd kv)) ps
                                  && match pget P_Class ps with Some _ => true | None => false end) _ _ EN).
  rewrite (forallb_snd (fun ps => match pget P_Class ps with Some _ => true | None => false end) _ _ EE).
  reflexivity.
Qed.

Lemma pset_In k v ps kv : In kv (pset k v ps) -> kv = (k, v) \/ In kv ps.
Proof.
  induction ps as [|[k' w] r IH]; simpl; [intros [<-|[]]; left; reflexivity|].
  destruct (N.eqb_spec k' k) as [->|NE]; simpl.
  - intros [<-|H]; [left; reflexivity|right; right; exact H].
  - intros [<-|H]; [right; left; reflexivity|]. destruct (IH H) as [A|A]; [left; exact A|right; right; exact A].
Qed.

Lemma pset_names k v ps :
  map fst (pset k v ps) = if memN k (map fst ps) then map fst ps else map fst ps ++ [k].
Proof.
  induction ps as [|[k' w] r IH]; [reflexivity|]. simpl. rewrite (N.eqb_sym k k').
  destruct (N.eqb k' k); simpl; [reflexivity|]. rewrite IH. destruct (memN k (map fst r)); reflexivity.
Qed.

Lemma pset_forallb (F : pname * pval -> bool) k v ps : F (k, v) = true -> forallb F ps = true -> forallb F (pset k v ps) = true.
Proof.
  rewrite !forallb_forall. intros Hk H kv Hkv. apply pset_In in Hkv as [->|Hkv]; [exact Hk|apply H, Hkv].
Qed.

Lemma dict_ok_stamp gid ps : xml_legal gid = true -> dict_ok ps = true -> dict_ok (pset P_GraphID (PStr gid) ps) = true.
Proof.
  unfold dict_ok, props_ok, class_ok, class_str. rewrite !andb_true_iff. intros L [[[ND LG] CO] CS].
  rewrite pget_pset_other by discriminate. repeat split; [|apply pset_forallb; assumption|exact CO|apply pset_forallb; auto].
  rewrite pset_names. destruct (memN P_GraphID (map fst ps)) eqn:M; [exact ND|].
  apply nodupN_NoDup, NoDup_snoc; [apply nodupN_NoDup, ND|apply memN_false, M].
Qed.

Lemma json_ok_stamp gid (ps : props) : negb (memN P_id (map fst ps)) = true -> negb (memN P_id (map fst (pset P_GraphID (PStr gid) ps))) = true.
Proof.
  rewrite pset_names. destruct (memN P_GraphID (map fst ps)); [auto|]. unfold memN. rewrite existsb_app, orb_false_r. auto.
Qed.

Lemma validate_stamp jsonok gid ps : (forall v, jsonok P_GraphID v = true) ->
  forallb (fun kv => jsonok (fst kv) (snd kv)) ps && match pget P_Class ps with Some _ => true | None => false end = true ->
  forallb (fun kv => jsonok (fst kv) (snd kv)) (pset P_GraphID (PStr gid) ps)
  && match pget P_Class (pset P_GraphID (PStr gid) ps) with Some _ => true | None => false end = true.
Proof.
  intro JG. rewrite pget_pset_other by discriminate. rewrite !andb_true_iff. intros [A B]. split; [|exact B].
  apply pset_forallb; [apply JG|exact A].
Qed.

Lemma stamp_nodes (F : props -> bool) gid g : (forall ps, F ps = true -> F (pset P_GraphID (PStr gid) ps) = true) ->
  forallb (fun n => F (snd n)) (g_nodes g) = true -> forallb (fun n => F (snd n)) (g_nodes (stamp gid g)) = true.
Proof.
  intro H. rewrite !forallb_forall. intros A n Hn. simpl in Hn. apply in_map_iff in Hn as (n0 & <- & H0). apply H, A, H0.
Qed.

(* the graph id a caller passes has to be usable in the format *)
Definition gid_ok (f : fmt) (gid : str) : bool :=
  match f with GraphMLFmt => xml_legal gid | JsonFmt => true end.

Lemma stamp_fmt_ok f gid g : gid_ok f gid = true -> fmt_ok f g = true -> fmt_ok f (stamp gid g) = true.
Proof.
  destruct f; simpl; intro L.
  - rewrite !graph_wf_eq, !andb_true_iff. intros [[SH ON] OE].
    auto using stamp_shape, (stamp_nodes dict_ok), dict_ok_stamp.
  - unfold graph_json_ok. rewrite !andb_true_iff. intros [SH [JN JE]].
    auto using stamp_shape, (stamp_nodes (fun ps => negb (memN P_id (map fst ps)))), json_ok_stamp.
Qed.

Theorem reserialize_restamp f s gid' g :
  fmt_ok f g = true -> gid_ok f gid' = true ->
  let copy := copy_of s gid' g in
  exists t2, serialize f copy = Some t2 /\ text_graph t2 = Some copy.
Proof. intros OK GO copy. apply serialize_then_read, stamp_fmt_ok, relabelled_fmt_ok; assumption. Qed.

Theorem reserialize_direct f s g :
  fmt_ok f g = true ->
  let copy := copy_direct s g in
  exists t2, serialize f copy = Some t2 /\ text_graph t2 = Some copy.
Proof. intros OK copy. apply serialize_then_read, relabelled_fmt_ok, OK. Qed.

Theorem validate_copy_of jsonok s gid g :
  (forall v, jsonok P_GraphID v = true) -> validate jsonok g = true -> validate jsonok (copy_of s gid g) = true.
Proof.
  intros JG V. rewrite <- (relabelled_validate jsonok (s_next s)) in V. unfold copy_of, validate in *.
  apply andb_true_iff in V as [VN VE]. apply andb_true_iff. split; [|exact VE].
  apply (stamp_nodes _ gid _ (fun ps => validate_stamp jsonok gid ps JG) VN).
Qed.
