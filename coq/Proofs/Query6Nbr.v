(* C06: extract_graph and _find_node, which every query of Model/Query6.v starts with (on_node_Ok); the
   first-neighbour and two-hop queries and the helpers built on them.  Rests on Base/ListFacts.v only. *)
From Coq Require Import List NArith Bool.
From FIM Require Import Base.ListFacts Model.Query6.
Import ListNotations.
Open Scope N_scope.

Lemma mem_In x l : mem x l = true <-> In x l.
Proof. apply (existsb_eqb_In N.eqb N.eqb_eq). Qed.

Lemma mem_false x l : mem x l = false <-> ~ In x l.
Proof. apply (existsb_eqb_notIn N.eqb N.eqb_eq). Qed.

Lemma nodupb_NoDup l : nodupb l = true -> NoDup l.
Proof.
  induction l as [|a l IH]; simpl; intros H. constructor.
  apply andb_true_iff in H as [H1 H2]. constructor; auto.
  apply mem_false, negb_true_iff, H1.
Qed.

Lemma NoDup_nodupb l : NoDup l -> nodupb l = true.
Proof.
  induction 1 as [|a l Hn _ IH]; simpl; auto.
  apply andb_true_iff. split; auto. apply negb_true_iff. apply mem_false. auto.
Qed.

(* the code guards a loop by "if the list is empty, the answer is empty"; the guard changes nothing when the loop
   over an empty list gives the empty answer anyway *)
Lemma guard_nil {A B} (l : list A) (X : list B) : (l = [] -> X = []) -> match l with [] => [] | _ => X end = X.
Proof. destruct l; intros H; [symmetry; apply H|]; reflexivity. Qed.

Lemma in_map_snd {A B} (r : list (A * B)) c : In c (map snd r) <-> exists b, In (b, c) r.
Proof.
  rewrite in_map_iff. split.
  - intros ([b c'] & <- & H). exists b. exact H.
  - intros [b H]. exists (b, c). auto.
Qed.

(* ---------- set.difference against a drop list computed from the same list ---------- *)
Lemma memn_filter l Q n : NoDup (map n_int l) -> In n l -> memn n (filter Q l) = Q n.
Proof.
  intros ND Hn. destruct (Q n) eqn:E.
  - unfold memn. apply existsb_exists. exists n. split. apply filter_In; auto. apply N.eqb_refl.
  - apply not_true_is_false. intro H. unfold memn in H.
    apply existsb_exists in H as (m & Hm & Em). apply filter_In in Hm as [Hm Qm].
    apply N.eqb_eq in Em. assert (m = n) by (eapply NoDup_map_inj; eauto). subst. congruence.
Qed.

Lemma difference_filter l P :
  NoDup (map n_int l) -> difference l (filter (fun n => negb (P n)) l) = filter P l.
Proof.
  intros ND. unfold difference. apply filter_ext_in. intros n Hn.
  rewrite memn_filter; auto. apply negb_involutive.
Qed.

Lemma filter_by_label_filter l cls :
  NoDup (map n_int l) -> filter_by_label l cls = filter (fun n => n_cls n =? cls) l.
Proof. apply difference_filter. Qed.

(* ---------- extract_graph / _find_node ---------- *)
Definition extracted (s : store) (gid : N) : graph :=
  mkGraph (graph_nodes s gid)
          (fun a b => if mem a (map n_int (graph_nodes s gid)) && mem b (map n_int (graph_nodes s gid))
                      then edge_rel (s_edges s) a b else None).

Lemma g_nodes_extracted s gid : g_nodes (extracted s gid) = graph_nodes s gid.
Proof. reflexivity. Qed.

Lemma extract_Ok s gid G : extract s gid = Ok G <-> graph_nodes s gid <> [] /\ G = extracted s gid.
Proof.
  unfold extract, extracted. destruct (graph_nodes s gid); split; try discriminate.
  - intros [[] _]. reflexivity.
  - intros [= <-]. split; [discriminate|reflexivity].
  - intros [_ ->]. reflexivity.
Qed.

Lemma graph_nodes_In s gid m : In m (graph_nodes s gid) <-> in_graph s gid m.
Proof.
  unfold graph_nodes, in_graph. rewrite filter_In. rewrite N.eqb_eq. tauto.
Qed.

Lemma key_in s gid m : in_graph s gid m -> In (n_int m) (map n_int (graph_nodes s gid)).
Proof. intros H. apply in_map, graph_nodes_In, H. Qed.

Lemma find_node_Ok_iff s gid id n :
  find_node s gid id = Ok n -> forall m, in_graph s gid m /\ n_id m = id <-> m = n.
Proof.
  intros H m. transitivity (In m (filter (fun n => (n_id n =? id) && (n_gid n =? gid)) (s_nodes s))).
  - unfold in_graph. rewrite filter_In, andb_true_iff, !N.eqb_eq. tauto.
  - unfold find_node in H. destruct (filter _ _) as [|a [|b l]]; inversion H; subst.
    split; [intros [->|[]]|intros ->; left]; reflexivity.
Qed.

Lemma find_node_Ok s gid id n : find_node s gid id = Ok n -> in_graph s gid n /\ n_id n = id.
Proof. intros H. apply (find_node_Ok_iff _ _ _ _ H). reflexivity. Qed.

Lemma find_node_unique s gid id n n' :
  find_node s gid id = Ok n -> in_graph s gid n' -> n_id n' = id -> n' = n.
Proof. intros H Hin Hid. apply (find_node_Ok_iff _ _ _ _ H). auto. Qed.

Lemma find_node_extract s gid id n : find_node s gid id = Ok n -> extract s gid = Ok (extracted s gid).
Proof.
  intros H. apply find_node_Ok in H as [H _]. apply extract_Ok. split; auto.
  apply graph_nodes_In in H. intro E. rewrite E in H. contradiction.
Qed.

Lemma bind_Ok {A B} (r : res A) (f : A -> res B) b : bind r f = Ok b <-> exists a, r = Ok a /\ f a = Ok b.
Proof.
  destruct r as [a|]; simpl; split; try discriminate; eauto.
  - intros (a' & [= <-] & H). exact H.
  - intros (a' & [=] & _).
Qed.

(* the shape of every query: extract the graph, look the start node up, compute.  It answers exactly when the
   node is found, and then it has computed on `extracted s gid` *)
Lemma on_node_Ok {A} s gid id (f : graph -> node -> res A) r :
  bind (extract s gid) (fun G => bind (find_node s gid id) (f G)) = Ok r <->
  exists n, find_node s gid id = Ok n /\ f (extracted s gid) n = Ok r.
Proof.
  split.
  - intros H. apply bind_Ok in H as (G & HG & H). apply extract_Ok in HG as [_ ->]. apply bind_Ok, H.
  - intros (n & FN & H). rewrite (find_node_extract _ _ _ _ FN). cbn [bind]. apply bind_Ok. eauto.
Qed.

Lemma on_node_total {A} s gid id (f : graph -> node -> A) :
  (exists n, find_node s gid id = Ok n) <->
  (exists r, bind (extract s gid) (fun G => bind (find_node s gid id) (fun n => Ok (f G n))) = Ok r).
Proof.
  split.
  - intros [n FN]. eexists. apply on_node_Ok. eauto.
  - intros [r H]. apply on_node_Ok in H as (n & FN & _). eauto.
Qed.

Lemma first_neighbor_total s gid id rel cls :
  (exists n, find_node s gid id = Ok n) <-> (exists r, first_neighbor s gid id rel cls = Ok r).
Proof. apply on_node_total. Qed.

Lemma fsn_total s gid id rel1 c1 rel2 c2 :
  (exists n, find_node s gid id = Ok n) <-> (exists r, first_and_second_neighbor s gid id rel1 c1 rel2 c2 = Ok r).
Proof. apply on_node_total. Qed.

Lemma keys_graph_nodes s gid : keys_distinct s = true -> NoDup (map n_int (graph_nodes s gid)).
Proof. intros H. apply NoDup_map_filter. apply nodupb_NoDup. exact H. Qed.

Lemma g_rel_extracted s gid x y r :
  g_rel (extracted s gid) x y = Some r <->
  (In x (map n_int (graph_nodes s gid)) /\ In y (map n_int (graph_nodes s gid)) /\
   edge_rel (s_edges s) x y = Some r).
Proof.
  cbn [g_rel extracted]. rewrite <- !mem_In.
  destruct (mem x _), (mem y _); simpl; intuition discriminate.
Qed.

Lemma rel_is_true G a b rel : rel_is G a b rel = true <-> g_rel G a b = Some rel.
Proof.
  unfold rel_is. destruct (g_rel G a b) as [r|]; [rewrite N.eqb_eq|]; split; congruence.
Qed.

Lemma adjb_true G a b : adjb G a b = true <-> exists r, g_rel G a b = Some r.
Proof.
  unfold adjb. destruct (g_rel G a b) as [r|]; split; [eauto|reflexivity|discriminate|intros [r [=]]].
Qed.

Lemma rel_is_adjb G a b rel : rel_is G a b rel = true -> adjb G a b = true.
Proof. intros H. apply rel_is_true in H. apply adjb_true. eauto. Qed.

Lemma rel_is_joined s gid n m rel :
  in_graph s gid n -> in_graph s gid m ->
  (rel_is (extracted s gid) (n_int n) (n_int m) rel = true <-> joined s n m rel).
Proof.
  intros Hn Hm. rewrite rel_is_true, g_rel_extracted. unfold joined. intuition auto using key_in.
Qed.

Lemma adjb_joined s gid n m :
  in_graph s gid n -> in_graph s gid m ->
  (adjb (extracted s gid) (n_int n) (n_int m) = true <-> exists r, joined s n m r).
Proof.
  intros Hn Hm. rewrite adjb_true. split; intros [r H]; exists r.
  - apply (rel_is_joined s gid); auto. apply rel_is_true, H.
  - apply rel_is_true, (rel_is_joined s gid); auto.
Qed.

Lemma first_neighbors_via_filter G a rel :
  NoDup (map n_int (g_nodes G)) ->
  first_neighbors_via G a rel = filter (fun n => rel_is G a (n_int n) rel) (g_nodes G).
Proof.
  intros ND. unfold first_neighbors_via, neighbors.
  rewrite difference_filter by (apply NoDup_map_filter; auto).
  rewrite filter_filter. apply filter_ext. intros n.
  destruct (rel_is G a (n_int n) rel) eqn:E; simpl.
  - rewrite (rel_is_adjb _ _ _ _ E). reflexivity.
  - apply andb_false_r.
Qed.

Lemma first_neighbor_Ok s gid id rel cls r :
  keys_distinct s = true -> first_neighbor s gid id rel cls = Ok r ->
  exists n, find_node s gid id = Ok n /\
  r = map n_id (filter (fun m => n_cls m =? cls)
                 (filter (fun m => rel_is (extracted s gid) (n_int n) (n_int m) rel) (graph_nodes s gid))).
Proof.
  intros K H. apply on_node_Ok in H as (n & FN & [= <-]). exists n. split; auto.
  assert (ND : NoDup (map n_int (g_nodes (extracted s gid)))) by (apply keys_graph_nodes; auto).
  rewrite first_neighbors_via_filter by exact ND.
  rewrite filter_by_label_filter by (apply NoDup_map_filter; exact ND).
  reflexivity.
Qed.

Lemma first_neighbor_exact s gid id rel cls r :
  keys_distinct s = true ->
  first_neighbor s gid id rel cls = Ok r ->
  exists n, find_node s gid id = Ok n /\
  forall x, In x r <-> exists m, in_graph s gid m /\ n_id m = x /\ n_cls m = cls /\ joined s n m rel.
Proof.
  intros K H. destruct (first_neighbor_Ok _ _ _ _ _ _ K H) as (n & FN & ->). exists n. split; auto.
  destruct (find_node_Ok _ _ _ _ FN) as [Hn _].
  intro x. rewrite in_map_iff. split.
  - intros (m & Hid & Hin). rewrite !filter_In, graph_nodes_In, N.eqb_eq in Hin. destruct Hin as [[Hm Hr] Hc].
    apply rel_is_joined in Hr; auto. eauto 6.
  - intros (m & Hm & Hid & Hc & Hj). exists m. split; auto.
    rewrite !filter_In, graph_nodes_In, N.eqb_eq, rel_is_joined; auto.
Qed.

Lemma ids_graph_nodes l gid :
  nodupb2 (map (fun n => (n_gid n, n_id n)) l) = true ->
  NoDup (map n_id (filter (fun n => n_gid n =? gid) l)).
Proof.
  induction l as [|a l IH]; simpl; intros H. constructor.
  apply andb_true_iff in H as [H1 H2]. destruct (n_gid a =? gid) eqn:E; auto.
  simpl. constructor; auto. intro Hin.
  apply in_map_iff in Hin as (m & Hid & Hm). apply filter_In in Hm as [Hm Hg].
  apply negb_true_iff in H1. apply not_true_iff_false in H1. apply H1.
  apply existsb_exists. exists (n_gid m, n_id m). split.
  - apply in_map_iff. exists m. auto.
  - simpl. apply N.eqb_eq in E, Hg. rewrite Hid, Hg, E. rewrite !N.eqb_refl. reflexivity.
Qed.

Lemma first_neighbor_nodup s gid id rel cls r :
  wf_store s = true -> first_neighbor s gid id rel cls = Ok r -> NoDup r.
Proof.
  intros W H. apply andb_true_iff in W as [K I].
  destruct (first_neighbor_Ok _ _ _ _ _ _ K H) as (n & _ & ->).
  do 2 apply NoDup_map_filter. apply ids_graph_nodes. exact I.
Qed.

Lemma memn_const n k l :
  memn k (map (fun _ : node => n) l) = match l with [] => false | _ => n_int n =? n_int k end.
Proof.
  induction l as [|a l IH]; auto.
  unfold memn in *. simpl. rewrite IH. destruct l; destruct (n_int n =? n_int k); auto.
Qed.

Lemma filter_nil {A} (Q : A -> bool) l : filter Q l = [] <-> forall x, In x l -> Q x = false.
Proof. split; [|apply filter_none]. intros H x Hx. destruct (Q x) eqn:E; [|reflexivity]. assert (I : In x (filter Q l)) by (apply filter_In; auto). rewrite H in I. destruct I. Qed.

(* every edge of n in G is of relation rel: what leaves the drop list of second_of empty *)
Definition uniform (G : graph) (n : node) (rel : N) : Prop :=
  forall k, In k (g_nodes G) -> adjb G (n_int n) (n_int k) = true -> rel_is G (n_int n) (n_int k) rel = true.

Lemma uniform_drop G n rel :
  filter (fun k => negb (rel_is G (n_int n) (n_int k) rel)) (neighbors G (n_int n)) = [] <-> uniform G n rel.
Proof.
  unfold uniform, neighbors. rewrite filter_nil. setoid_rewrite filter_In. setoid_rewrite negb_false_iff.
  intuition.
Qed.

Lemma uniform_joined s gid m rel :
  in_graph s gid m ->
  (uniform (extracted s gid) m rel <-> forall k r, in_graph s gid k -> joined s m k r -> r = rel).
Proof.
  intros Hm. split.
  - intros H k r Hk Hj.
    specialize (H k (proj2 (graph_nodes_In _ _ _) Hk) (proj2 (adjb_joined _ _ _ _ Hm Hk) (ex_intro _ r Hj))).
    apply rel_is_joined in H; auto. unfold joined in *. congruence.
  - intros H k Hk Ha. apply graph_nodes_In in Hk. apply adjb_joined in Ha as [r Hj]; auto.
    apply rel_is_joined; auto. rewrite <- (H k r Hk Hj). exact Hj.
Qed.

Lemma second_of_In G a n rel2 c2 k :
  NoDup (map n_int (g_nodes G)) ->
  (In k (second_of G a n rel2 c2) <->
   In k (g_nodes G) /\ adjb G (n_int n) (n_int k) = true /\ n_cls k = c2 /\ n_int k <> a /\
   (n_int k = n_int n -> uniform G n rel2)).
Proof.
  intros ND. unfold second_of. rewrite guard_nil by (intros ->; reflexivity). rewrite <- uniform_drop.
  set (sn := neighbors G (n_int n)).
  set (off := filter (fun k0 => negb (rel_is G (n_int n) (n_int k0) rel2)) sn).
  assert (NDsn : NoDup (map n_int sn)) by (apply NoDup_map_filter; auto).
  rewrite filter_by_label_filter by (apply NoDup_map_filter; auto).
  unfold difference. rewrite !filter_In, memn_const, !negb_true_iff, N.eqb_eq, N.eqb_neq.
  unfold sn at 1, neighbors. rewrite filter_In. clearbody off.
  assert (M : match off with [] => false | _ => n_int n =? n_int k end = false <-> (n_int k = n_int n -> off = [])).
  { destruct off; [tauto|]. rewrite N.eqb_neq. split; intros H E; [congruence|]. symmetry in E. discriminate (H E). }
  tauto.
Qed.

Lemma fsn_nodes_In G a rel1 c1 rel2 c2 m k :
  NoDup (map n_int (g_nodes G)) ->
  (In (m, k) (fsn_nodes G a rel1 c1 rel2 c2) <->
   In m (g_nodes G) /\ rel_is G a (n_int m) rel1 = true /\ n_cls m = c1 /\ In k (second_of G a m rel2 c2)).
Proof.
  intros ND. unfold fsn_nodes. rewrite guard_nil by (intros ->; reflexivity).
  fold (first_neighbors_via G a rel1).
  rewrite first_neighbors_via_filter, filter_by_label_filter by (try apply NoDup_map_filter; auto).
  rewrite in_flat_map. split.
  - intros (n & Hn & Hin). apply in_map_iff in Hin as (k0 & [= -> ->] & Hk0).
    rewrite !filter_In, N.eqb_eq in Hn. tauto.
  - intros (Hm & Hr & Hc & Hk). exists m. rewrite !filter_In, N.eqb_eq, in_map_iff. eauto 6.
Qed.

(* what the code returns, exactly *)
Lemma second_neighbor_returned s gid id rel1 c1 rel2 c2 r :
  keys_distinct s = true ->
  first_and_second_neighbor s gid id rel1 c1 rel2 c2 = Ok r ->
  exists n, find_node s gid id = Ok n /\
  forall b c, In (b, c) r <-> second_coded s gid n rel1 c1 rel2 c2 b c.
Proof.
  intros K H. apply on_node_Ok in H as (n & FN & [= <-]). exists n. split; auto.
  destruct (find_node_Ok _ _ _ _ FN) as [Hn _].
  assert (ND : NoDup (map n_int (g_nodes (extracted s gid)))) by (apply keys_graph_nodes; auto).
  intros b c. rewrite in_map_iff. unfold second_coded. split.
  - intros ([m k] & [= <- <-] & Hin). apply fsn_nodes_In in Hin as (Hm & Hr & Hc & Hk); auto.
    apply second_of_In in Hk as (Hk & Ha & Hc2 & Hs & Hself); auto.
    apply graph_nodes_In in Hm, Hk. apply rel_is_joined in Hr; auto. apply adjb_joined in Ha; auto.
    rewrite uniform_joined in Hself by auto. exists m, k. auto 12.
  - intros (m & k & Hm & Hk & <- & <- & Hj & Hc1 & Hj2 & Hc2 & Hs & Hself).
    exists (m, k). split; auto. apply fsn_nodes_In; auto. rewrite second_of_In by auto.
    rewrite g_nodes_extracted.
    rewrite !graph_nodes_In, rel_is_joined, adjb_joined, uniform_joined by auto. auto 12.
Qed.

Lemma second_neighbor_never_start s gid id rel1 c1 rel2 c2 r b c :
  keys_distinct s = true ->
  first_and_second_neighbor s gid id rel1 c1 rel2 c2 = Ok r -> In (b, c) r -> c <> id.
Proof.
  intros K H Hin. destruct (second_neighbor_returned _ _ _ _ _ _ _ _ K H) as (n & FN & Hr).
  apply Hr in Hin. destruct Hin as (m & k & Hm & Hk & Hb & Hc & _ & _ & _ & _ & Hs & _).
  intro E. apply Hs. rewrite (find_node_unique _ _ _ _ k FN Hk); auto. congruence.
Qed.

(* what rel2_uniformb says of a qualifying first-hop node m, in terms of the store: no self-loop, and every
   edge to a class-c2 node other than the start is of rel2 *)
Lemma rel2_uniformb_joined s gid id n rel1 c1 rel2 c2 m :
  find_node s gid id = Ok n -> rel2_uniformb s gid id rel1 c1 rel2 c2 = true ->
  in_graph s gid m -> joined s n m rel1 -> n_cls m = c1 ->
  (forall r, ~ joined s m m r) /\
  forall k r, in_graph s gid k -> n_cls k = c2 -> n_int k <> n_int n -> joined s m k r -> r = rel2.
Proof.
  intros FN U Hm Hj Hc. destruct (find_node_Ok _ _ _ _ FN) as [Hn _].
  unfold rel2_uniformb in U. rewrite (find_node_extract _ _ _ _ FN), FN, forallb_forall in U.
  specialize (U m (proj2 (graph_nodes_In _ _ _) Hm)).
  rewrite (proj2 (rel_is_joined _ _ _ _ _ Hn Hm) Hj), (proj2 (N.eqb_eq _ _) Hc) in U.
  apply andb_true_iff in U as [U1 U2]. rewrite forallb_forall in U2. split.
  - intros r Hl. rewrite (proj2 (adjb_joined _ _ _ _ Hm Hm) (ex_intro _ r Hl)) in U1. discriminate.
  - intros k r Hk Hc2 Hs Hj2. specialize (U2 k (proj2 (graph_nodes_In _ _ _) Hk)).
    rewrite (proj2 (adjb_joined _ _ _ _ Hm Hk) (ex_intro _ r Hj2)), (proj2 (N.eqb_eq _ _) Hc2),
      (proj2 (N.eqb_neq _ _) Hs) in U2.
    apply rel_is_joined in U2; auto. unfold joined in *. congruence.
Qed.

(* under the hypothesis that excludes the defect's signature the two-hop query is exact *)
Lemma second_neighbor_exact_partial s gid id rel1 c1 rel2 c2 r :
  keys_distinct s = true ->
  rel2_uniformb s gid id rel1 c1 rel2 c2 = true ->
  first_and_second_neighbor s gid id rel1 c1 rel2 c2 = Ok r ->
  exists n, find_node s gid id = Ok n /\
  forall b c, In (b, c) r <-> second_spec s gid n rel1 c1 rel2 c2 b c.
Proof.
  intros K U H. destruct (second_neighbor_returned _ _ _ _ _ _ _ _ K H) as (n & FN & Hr).
  exists n. split; auto. intros b c. rewrite Hr.
  split; intros (m & k & Hm & Hk & Hb & Hc & Hj & Hc1 & H2); exists m, k;
    destruct (rel2_uniformb_joined _ _ _ _ _ _ _ _ _ FN U Hm Hj Hc1) as [U1 U2]; repeat (split; [assumption|]).
  - destruct H2 as ([r' Hj2] & Hc2 & Hs & _). rewrite (U2 k r' Hk Hc2 Hs Hj2) in Hj2. auto.
  - destruct H2 as (Hj2 & Hc2 & Hs). split; [eauto|]. repeat (split; [assumption|]).
    intros E. destruct (U1 rel2). unfold joined in *. rewrite <- E at 2. exact Hj2.
Qed.

(* the witness: a -has- b, b -connects- c, b -has- d; (has, NetworkService, connects, ConnectionPoint) from a *)
Definition witness_store : store :=
  mkStore [mkNode 1 1 1 1; mkNode 2 1 2 4; mkNode 3 1 3 5; mkNode 4 1 4 5] [(1, 2, 1); (2, 3, 2); (2, 4, 1)].

Lemma second_neighbor_exact_refuted :
  exists s gid id rel1 c1 rel2 c2 r n b c,
    wf_store s = true /\ first_and_second_neighbor s gid id rel1 c1 rel2 c2 = Ok r /\
    find_node s gid id = Ok n /\ In (b, c) r /\ ~ second_spec s gid n rel1 c1 rel2 c2 b c.
Proof.
  exists witness_store, 1, 1, 1, 4, 2, 5, [(2, 3); (2, 4)], (mkNode 1 1 1 1), 2, 4.
  split; [vm_compute; reflexivity|]. split; [vm_compute; reflexivity|]. split; [vm_compute; reflexivity|].
  split; [right; left; reflexivity|].
  intros (m & k & [Hm _] & [Hk _] & Hb & Hc & _ & _ & Hj2 & _).
  simpl in Hm, Hk.
  destruct Hm as [<-|[<-|[<-|[<-|[]]]]]; simpl in Hb; try discriminate;
  destruct Hk as [<-|[<-|[<-|[<-|[]]]]]; simpl in Hc; try discriminate.
  all: try (vm_compute in Hj2; discriminate).
Qed.

Lemma get_parent_some s gid id rel parent p :
  keys_distinct s = true ->
  get_parent s gid id rel parent = Ok (Some p) ->
  exists n, find_node s gid id = Ok n /\
  forall x, (exists m, in_graph s gid m /\ n_id m = x /\ n_cls m = parent /\ joined s n m rel) <-> x = p.
Proof.
  intros K H. apply bind_Ok in H as (l & E & H). destruct l as [|q [|q' l]]; inversion H; subst.
  destruct (first_neighbor_exact _ _ _ _ _ _ K E) as (n & FN & Hx). exists n. split; auto.
  intro x. rewrite <- Hx. simpl. intuition.
Qed.

Lemma get_parent_none s gid id rel parent :
  get_parent s gid id rel parent = Ok None ->
  exists l, first_neighbor s gid id rel parent = Ok l /\ length l <> 1%nat.
Proof.
  intros H. apply bind_Ok in H as (l & E & H). exists l. split; auto.
  destruct l as [|q [|q' l]]; discriminate.
Qed.

Lemma peers_returned V s gid id o :
  keys_distinct s = true ->
  find_peer_connection_points V s gid id = Ok o ->
  exists n, find_node s gid id = Ok n /\
  forall c, (exists l, o = Some l /\ In c l) <->
            (exists b, second_coded s gid n (v_connects V) (v_Link V) (v_connects V) (v_ConnectionPoint V) b c).
Proof.
  intros K H. apply bind_Ok in H as (r & E & H).
  destruct (second_neighbor_returned _ _ _ _ _ _ _ _ K E) as (n & FN & Hr). exists n. split; auto.
  intro c. transitivity (In c (map snd r)).
  - destruct r; injection H as <-.
    + split; [intros (l & [=] & _)|intros []].
    + split; [intros (l & [= <-] & Hc); exact Hc|eauto].
  - rewrite in_map_snd. split; intros [b Hb]; exists b; apply Hr, Hb.
Qed.

Lemma node_cps_returned V s gid id l :
  keys_distinct s = true ->
  get_all_node_or_component_connection_points V s gid id = Ok l ->
  exists n, find_node s gid id = Ok n /\
  (n_cls n = v_NetworkNode V \/ n_cls n = v_Component V \/ n_cls n = v_CompositeNode V) /\
  forall c, In c l <->
            (exists b, second_coded s gid n (v_has V) (v_NetworkService V) (v_connects V) (v_ConnectionPoint V) b c).
Proof.
  intros K H. apply bind_Ok in H as (n & FN & H). exists n. split; auto.
  destruct (_ || _ || _) eqn:C; [|discriminate]. apply bind_Ok in H as (r & E & [= <-]).
  destruct (second_neighbor_returned _ _ _ _ _ _ _ _ K E) as (n' & FN' & Hr).
  assert (n' = n) by congruence. subst n'. split.
  - apply orb_true_iff in C as [C|C]; [apply orb_true_iff in C as [C|C]|]; apply N.eqb_eq in C; auto.
  - intro c. rewrite in_map_snd. split; intros [b Hb]; exists b; apply Hr, Hb.
Qed.
