(* Base/PySort.v only MOVES elements: whatever the comparison `lt` answers (consistent or not), whenever py_sort
   returns Some r, r is a permutation of the input.  (Counting argument: every step of every loop preserves the
   number of occurrences of every element; the galloping indices are irrelevant because firstn k l ++ skipn k l = l
   for every k.)  Needs decidable equality on the elements only to count occurrences.
   At the end: a list without a descent is one natural run, and py_sort returns it as it is (py_sort_ascending). *)
From Coq Require Import List NArith Lia ZifyBool Permutation.
From FIM Require Import Base.PySort.
Import ListNotations.
Local Open Scope nat_scope.

Section Perm.
Context {A : Type} (eq_dec : forall x y : A, {x = y} + {x <> y}) (lt : A -> A -> bool).

Definition cnt (x : A) (l : list A) : nat := count_occ eq_dec l x.
Definition one (x y : A) : nat := if eq_dec y x then 1 else 0.

Lemma cnt_nil x : cnt x [] = 0.
Proof. reflexivity. Qed.
Lemma cnt_cons x y l : cnt x (y :: l) = one x y + cnt x l.
Proof. unfold cnt, one. simpl. destruct (eq_dec y x); reflexivity. Qed.
Lemma cnt_app x l1 l2 : cnt x (l1 ++ l2) = cnt x l1 + cnt x l2.
Proof. unfold cnt. apply count_occ_app. Qed.
Lemma cnt_rev x l : cnt x (rev l) = cnt x l.
Proof. induction l as [|y l IH]; [reflexivity|]. cbn [rev]. rewrite cnt_app, IH, !cnt_cons, cnt_nil. lia. Qed.
Lemma cnt_rev_append x l1 l2 : cnt x (rev_append l1 l2) = cnt x l1 + cnt x l2.
Proof. rewrite rev_append_rev, cnt_app, cnt_rev. reflexivity. Qed.
Lemma cnt_split x k (l : list A) : cnt x (takeN k l) + cnt x (dropN k l) = cnt x l.
Proof. unfold takeN, dropN. rewrite <- cnt_app, firstn_skipn. reflexivity. Qed.

Hint Rewrite cnt_nil cnt_cons cnt_app cnt_rev cnt_rev_append : cnt.

(* add a fact to the context unless it is there already *)
Ltac note H := let T := type of H in lazymatch goal with _ : T |- _ => fail | _ => pose proof H end.

(* what lia works from: a list is its takeN plus its dropN *)
Ltac splits x :=
  repeat match goal with
         | |- context [takeN ?k ?l] => note (cnt_split x k l)
         | |- context [dropN ?k ?l] => note (cnt_split x k l)
         | _ : context [takeN ?k ?l] |- _ => note (cnt_split x k l)
         end.
Ltac fin x := splits x; autorewrite with cnt in *; splits x; lia.

(* case analysis along the body of a loop: destruct whatever the hypothesis H matches on until it is an
   equation between results *)
Ltac brk H :=
  repeat (cbv zeta in H; unfold obind in H;
          match type of H with
          | None = Some _ => discriminate H
          | Some _ = Some _ => inversion H; subst; clear H
          | context [match ?c with _ => _ end] => destruct c eqn:?
          end).

Lemma take_desc_cnt x : forall l prev acc r rest, take_desc lt prev l acc = (r, rest) -> cnt x r + cnt x rest = cnt x acc + cnt x l.
Proof.
  induction l as [|y l IH]; intros prev acc r rest H; simpl in H.
  - inversion H; subst. fin x.
  - destruct (lt y prev); [apply IH in H; fin x|inversion H; subst; fin x].
Qed.
Lemma take_asc_cnt x : forall l prev acc r rest, take_asc lt prev l acc = (r, rest) -> cnt x r + cnt x rest = cnt x acc + cnt x l.
Proof.
  induction l as [|y l IH]; intros prev acc r rest H; simpl in H.
  - inversion H; subst. fin x.
  - destruct (lt y prev); [inversion H; subst; fin x|apply IH in H; fin x].
Qed.
Lemma count_run_cnt x l r rest : count_run lt l = Some (r, rest) -> cnt x r + cnt x rest = cnt x l.
Proof.
  unfold count_run. destruct l as [|x0 [|x1 l]]; intro H; try discriminate.
  - inversion H; subst. fin x.
  - destruct (lt x1 x0).
    + inversion H as [H1]. apply (take_desc_cnt x) in H1. fin x.
    + destruct (take_asc lt x1 l [x1; x0]) as [acc rest'] eqn:E. inversion H; subst. apply (take_asc_cnt x) in E. fin x.
Qed.

Lemma binsert_cnt x pre pivot r : binsert lt pre pivot = Some r -> cnt x r = one x pivot + cnt x pre.
Proof.
  unfold binsert, obind. destruct (bsearch lt _ pivot pre 0 (lenN pre)) as [l|]; intro H; [|discriminate].
  inversion H; subst. fin x.
Qed.
Lemma binsert_all_cnt x : forall extra run r, binsert_all lt run extra = Some r -> cnt x r = cnt x run + cnt x extra.
Proof.
  induction extra as [|y extra IH]; intros run r H; simpl in H.
  - inversion H; subst. fin x.
  - unfold obind in H. destruct (binsert lt run y) as [run'|] eqn:E; [|discriminate].
    apply IH in H. apply (binsert_cnt x) in E. fin x.
Qed.

Lemma cnt_le x (l : list A) : cnt x l <= List.length l.
Proof. unfold cnt. apply count_occ_bound. Qed.
Lemma length_dropN k (l : list A) : List.length (dropN k l) = List.length l - N.to_nat k.
Proof. unfold dropN. apply skipn_length. Qed.

(* an element occurs at most length many times: this is how a remainder of length zero counts zero *)
Ltac bounds x :=
  repeat match goal with
         | l : list A |- _ => note (cnt_le x l)
         | _ : context [dropN ?k ?l] |- _ => note (cnt_le x (dropN k l))
         end.
(* lengths as lia sees them; a remainder `dropN k l = y :: l'` is replaced by its value, keeping what it says
   about counts and lengths *)
Ltac lens := unfold lenN in *; cbn [List.length] in *; rewrite ?length_dropN in *.
Ltac deq x :=
  repeat match goal with
         | H : dropN ?k ?l = _ |- _ =>
             let E1 := fresh "E" in
             let E2 := fresh "E" in
             pose proof (cnt_split x k l) as E1; pose proof (length_dropN k l) as E2;
             rewrite H in E1, E2; try rewrite H in *; clear H
         end.
(* A test that came out false, or a galloping index, never shows that a dropped remainder is empty; only a
   test that came out true does.  Clearing the rest first keeps lia's problem small. *)
Ltac fin2 x :=
  repeat match goal with H : _ = false |- _ => clear H | H : _ = Some _ |- _ => clear H end;
  deq x; autorewrite with cnt in *; splits x; bounds x; lens; lia.

Lemma lo_go_cnt x : forall fuel gal rout a b na nb ac bc mg smg r s,
  na = lenN a -> nb = lenN b ->
  lo_go lt fuel gal rout a b na nb ac bc mg smg = Some (r, s) -> cnt x r = cnt x rout + cnt x a + cnt x b.
Proof.
  induction fuel as [|f IH]; intros gal rout a b na nb ac bc mg smg r s Ha Hb H; [discriminate|].
  cbn [lo_go] in H.
  (* a leaf either returns or re-enters the loop: then the induction hypothesis, whose two length premises join
     the arithmetic goals *)
  brk H; try (apply IH in H; [| |]); fin2 x.
Qed.
Lemma hi_go_cnt x : forall fuel gal ra rb out na nb ac bc mg smg r s,
  na = lenN ra -> nb = lenN rb ->
  hi_go lt fuel gal ra rb out na nb ac bc mg smg = Some (r, s) -> cnt x r = cnt x out + cnt x ra + cnt x rb.
Proof.
  induction fuel as [|f IH]; intros gal ra rb out na nb ac bc mg smg r s Ha Hb H; [discriminate|].
  cbn [hi_go] in H.
  brk H; try (apply IH in H; [| |]); fin2 x.
Qed.

Lemma gl_bin_le : forall fuel key get lo hi r, gl_bin lt fuel key get lo hi = Some r -> (r <= hi)%N.
Proof.
  induction fuel as [|f IH]; intros key get lo hi r H; cbn [gl_bin] in H.
  - destruct (lo <? hi)%N; [discriminate|]. inversion H. lia.
  - destruct (lo <? hi)%N eqn:E; [|inversion H; lia].
    unfold obind in H. destruct (get (lo + N.shiftr (hi - lo) 1)%N) as [v|]; [|discriminate].
    assert (Hm : (lo + N.shiftr (hi - lo) 1 < hi)%N).
    { rewrite N.shiftr_div_pow2. change (2 ^ 1)%N with 2%N.
      assert (((hi - lo) / 2 < hi - lo)%N) by (apply N.div_lt; lia). lia. }
    destruct (lt v key); apply IH in H; lia.
Qed.

Lemma gallop_left_le key get n hint r : (hint <= n)%N -> gallop_left lt key get n hint = Some r -> (r <= n)%N.
Proof.
  intros Hh H. unfold gallop_left, obind in H.
  destruct (get hint) as [ah|]; [|discriminate].
  destruct (lt ah key).
  - destruct (gl_right lt (gfuel n) key get hint (n - hint) 0 1) as [[lastofs ofs]|]; [|discriminate].
    apply gl_bin_le in H. destruct (n - hint <? ofs)%N eqn:E; lia.
  - destruct (gl_left lt (gfuel n) key get hint (hint + 1) 0 1) as [[lastofs ofs]|]; [|discriminate].
    apply gl_bin_le in H. lia.
Qed.

Lemma length_takeN k (l : list A) : (k <= lenN l)%N -> lenN (takeN k l) = k.
Proof. intro H. unfold lenN, takeN in *. rewrite firstn_length. lia. Qed.

Lemma merge_lo_cnt x a b na nb smg r s : na = lenN a -> nb = lenN b ->
  merge_lo lt a b na nb smg = Some (r, s) -> cnt x r = cnt x a + cnt x b.
Proof.
  intros Ha Hb H. unfold merge_lo in H.
  brk H; try (apply (lo_go_cnt x) in H; [| |]); fin2 x.
Qed.

Lemma merge_hi_cnt x a b na nb smg r s : na = lenN a -> nb = lenN b ->
  merge_hi lt a b na nb smg = Some (r, s) -> cnt x r = cnt x a + cnt x b.
Proof.
  intros Ha Hb H. unfold merge_hi in H.
  destruct (rev a) as [|y ra'] eqn:Er; [discriminate|].
  assert (Hc : cnt x a = one x y + cnt x ra') by (rewrite <- (cnt_rev x a), Er, cnt_cons; reflexivity).
  assert (Hl : List.length a = S (List.length ra')) by (rewrite <- (rev_length a), Er; reflexivity).
  assert (Hcb : cnt x (rev b) = cnt x b) by apply cnt_rev.
  assert (Hlb : List.length (rev b) = List.length b) by apply rev_length.
  brk H; try (apply (hi_go_cnt x) in H; [| |]); fin2 x.
Qed.
Lemma merge_cnt x a b smg r s : merge lt a b smg = Some (r, s) -> cnt x r = cnt x a + cnt x b.
Proof.
  intro H. unfold merge, obind in H.
  destruct b as [|b0 b']; [discriminate|].
  destruct (gallop_right lt b0 (atN a) (lenN a) 0) as [k|]; [|discriminate].
  destruct (lenN a - k =? 0)%N eqn:E0; [inversion H; subst; fin x|].
  destruct (atN a (lenN a - 1)) as [alast|]; [|discriminate].
  destruct (gallop_left lt alast (atN (b0 :: b')) (lenN (b0 :: b')) (lenN (b0 :: b') - 1)) as [nb2|] eqn:Eg; [|discriminate].
  apply gallop_left_le in Eg; [|lia].
  destruct (nb2 =? 0)%N eqn:E1; [inversion H; subst; fin x|].
  pose proof (length_takeN nb2 (b0 :: b') Eg) as Ht.
  assert (Hd : lenN (dropN k a) = (lenN a - k)%N) by (unfold lenN; rewrite length_dropN; lia).
  destruct (lenN a - k <=? nb2)%N.
  - destruct (merge_lo lt (dropN k a) (takeN nb2 (b0 :: b')) (lenN a - k) nb2 smg) as [[mid s']|] eqn:Em; [|discriminate].
    inversion H; subst. apply (merge_lo_cnt x) in Em; [|congruence|congruence]. fin x.
  - destruct (merge_hi lt (dropN k a) (takeN nb2 (b0 :: b')) (lenN a - k) nb2 smg) as [[mid s']|] eqn:Em; [|discriminate].
    inversion H; subst. apply (merge_hi_cnt x) in Em; [|congruence|congruence]. fin x.
Qed.

Fixpoint scnt (x : A) (st : list (@run A)) : nat :=
  match st with [] => 0 | r :: rest => cnt x (r_items r) + scnt x rest end.

Lemma merge_top_cnt x st smg st' s : merge_top lt st smg = Some (st', s) -> scnt x st' = scnt x st.
Proof.
  unfold merge_top, obind. destruct st as [|rb [|ra rest]]; try discriminate.
  destruct (merge lt (r_items ra) (r_items rb) smg) as [[m s']|] eqn:E; [|discriminate].
  intro H. inversion H; subst. apply (merge_cnt x) in E. simpl. lia.
Qed.
Lemma merge_below_cnt x st smg st' s : merge_below lt st smg = Some (st', s) -> scnt x st' = scnt x st.
Proof.
  unfold merge_below, obind. destruct st as [|rc rest]; [discriminate|].
  destruct (merge_top lt rest smg) as [[st2 s2]|] eqn:E; [|discriminate].
  intro H. inversion H; subst. apply (merge_top_cnt x) in E. simpl. lia.
Qed.
Lemma collapse_power_cnt x : forall fuel st power smg st' s,
  collapse_power lt fuel st power smg = Some (st', s) -> scnt x st' = scnt x st.
Proof.
  induction fuel as [|f IH]; intros st power smg st' s H.
  - destruct st as [|r0 [|ra rest]]; cbn [collapse_power] in H; try (inversion H; reflexivity).
    destruct (power <? r_power ra)%N; [discriminate|inversion H; reflexivity].
  - destruct st as [|r0 [|ra rest]]; cbn [collapse_power] in H; try (inversion H; reflexivity).
    destruct (power <? r_power ra)%N; [|inversion H; reflexivity].
    unfold obind in H. destruct (merge_top lt (r0 :: ra :: rest) smg) as [[st2 s2]|] eqn:E; [|discriminate].
    apply IH in H. apply (merge_top_cnt x) in E. lia.
Qed.
Lemma found_new_run_cnt x st n2 listlen smg st' s :
  found_new_run lt st n2 listlen smg = Some (st', s) -> scnt x st' = scnt x st.
Proof.
  unfold found_new_run, obind. destruct st as [|top rest]; [intro H; inversion H; reflexivity|].
  destruct (powerloop (r_start top) (r_len top) n2 listlen) as [power|]; [|discriminate].
  destruct (collapse_power lt (List.length (top :: rest)) (top :: rest) power smg) as [[st2 s2]|] eqn:E; [|discriminate].
  destruct st2 as [|t rest2]; [discriminate|]. intro H. inversion H; subst.
  apply (collapse_power_cnt x) in E. simpl in *. lia.
Qed.
Lemma force_collapse_cnt x : forall fuel st smg r, force_collapse lt fuel st smg = Some r -> cnt x r = scnt x st.
Proof.
  induction fuel as [|f IH]; intros st smg r H.
  - destruct st as [|r0 [|r1 [|r2 rest]]]; cbn [force_collapse] in H; try discriminate. inversion H; subst. simpl. lia.
  - destruct st as [|r0 [|r1 [|r2 rest]]]; cbn [force_collapse] in H; try discriminate.
    + inversion H; subst. simpl. lia.
    + unfold obind in H. destruct (merge_top lt [r0; r1] smg) as [[st2 s2]|] eqn:E; [|discriminate].
      apply IH in H. apply (merge_top_cnt x) in E. lia.
    + unfold obind in H.
      destruct (if (r_len r2 <? r_len r0)%N then merge_below lt (r0 :: r1 :: r2 :: rest) smg
                else merge_top lt (r0 :: r1 :: r2 :: rest) smg) as [[st2 s2]|] eqn:E; [|discriminate].
      apply IH in H. destruct (r_len r2 <? r_len r0)%N; [apply (merge_below_cnt x) in E|apply (merge_top_cnt x) in E]; lia.
Qed.

Lemma runs_go_cnt x : forall fuel rest s nrem listlen mr st smg r,
  runs_go lt fuel rest s nrem listlen mr st smg = Some r -> cnt x r = scnt x st + cnt x rest.
Proof.
  induction fuel as [|f IH]; intros rest s nrem listlen mr st smg r H.
  - destruct rest; simpl in H; [|discriminate]. apply (force_collapse_cnt x) in H. fin x.
  - destruct rest as [|y rest]; cbn [runs_go] in H; [apply (force_collapse_cnt x) in H; fin x|].
    unfold obind in H.
    destruct (count_run lt (y :: rest)) as [[r0 rest1]|] eqn:Ec; [|discriminate].
    apply (count_run_cnt x) in Ec.
    destruct (lenN r0 <? mr)%N.
    + destruct (binsert_all lt r0 (takeN ((if (nrem <=? mr)%N then nrem else mr) - lenN r0) rest1)) as [r1|] eqn:Eb; [|discriminate].
      apply (binsert_all_cnt x) in Eb.
      destruct (found_new_run lt st (if (nrem <=? mr)%N then nrem else mr) listlen smg) as [[st' smg']|] eqn:Ef; [|discriminate].
      apply (found_new_run_cnt x) in Ef. apply IH in H. simpl in H. fin x.
    + destruct (found_new_run lt st (lenN r0) listlen smg) as [[st' smg']|] eqn:Ef; [|discriminate].
      apply (found_new_run_cnt x) in Ef. apply IH in H. simpl in H. fin x.
Qed.

Theorem py_sort_cnt x l r : py_sort lt l = Some r -> cnt x r = cnt x l.
Proof.
  unfold py_sort. destruct (lenN l <? 2)%N; intro H; [inversion H; reflexivity|].
  apply (runs_go_cnt x) in H. simpl in H. lia.
Qed.

Theorem py_sort_permutation l r : py_sort lt l = Some r -> Permutation l r.
Proof.
  intro H. apply (Permutation_count_occ eq_dec). intro x. symmetry. exact (py_sort_cnt x l r H).
Qed.

Theorem py_sort_first_in l x : py_sort_first lt l = Some x -> In x l.
Proof.
  unfold py_sort_first. destruct (py_sort lt l) as [[|y r]|] eqn:E; intro H; try discriminate.
  inversion H; subst. apply py_sort_permutation in E. apply Permutation_sym in E.
  apply (Permutation_in _ E). left. reflexivity.
Qed.

(* no element is `lt` its predecessor: the whole list is one natural ascending run *)
Fixpoint ascending (prev : A) (l : list A) : Prop :=
  match l with [] => True | x :: r => lt x prev = false /\ ascending x r end.

Lemma take_asc_ascending : forall l prev acc, ascending prev l -> take_asc lt prev l acc = (rev l ++ acc, []).
Proof.
  induction l as [|x l IH]; intros prev acc H; [reflexivity|]. destruct H as [H1 H2].
  cbn [take_asc rev]. rewrite H1, (IH _ _ H2), <- app_assoc. reflexivity.
Qed.

(* list.sort finds the single run, pushes it, and has nothing to merge *)
Theorem py_sort_ascending x l : ascending x l -> py_sort lt (x :: l) = Some (x :: l).
Proof.
  destruct l as [|y l]; [reflexivity|]. intros [H1 H2].
  unfold py_sort. destruct (lenN (x :: y :: l) <? 2)%N; [reflexivity|].
  cbn [List.length runs_go count_run]. rewrite H1, (take_asc_ascending _ _ _ H2).
  rewrite rev_app_distr, rev_involutive. cbn [rev app obind].
  set (n := lenN (x :: y :: l)).
  replace (if (n <? minrun n)%N then _ else _) with (Some (x :: y :: l, @nil A, n)).
  - reflexivity.
  - destruct (n <? minrun n)%N eqn:E; [|reflexivity].
    apply N.ltb_lt in E. replace (n <=? minrun n)%N with true by (symmetry; apply N.leb_le; lia).
    rewrite N.sub_diag. reflexivity.
Qed.
End Perm.
