(* C01 proofs, GraphML document layer: write -> (text journeys) -> networkx_to_neo4j -> read.
   The document is followed through the pipeline by a relation to the graph it was written from (doc_spec): every
   step either leaves a related document alone or only fills in the labels. *)
From Coq Require Import String.
From Coq Require Import List NArith ZArith Bool Lia.
From Coq Require Import DecimalString.
From FIM Require Import Base.ListFacts Base.Str Model.Serial1Text Model.Serial1Graph Proofs.Serial1Text.
Import ListNotations.

Lemma opt_list_ext {A B} (f g : A -> option B) l :
  (forall x, In x l -> f x = g x) -> opt_list f l = opt_list g l.
Proof.
  induction l as [|x l IH]; intro H; [reflexivity|]. simpl.
  rewrite (H x (or_introl eq_refl)), IH; [reflexivity|]. intros y Hy. apply H. right. exact Hy.
Qed.

Lemma opt_list_Forall2 {A B} (f : A -> option B) l l' :
  Forall2 (fun x y => f x = Some y) l l' -> opt_list f l = Some l'.
Proof. induction 1 as [|x y l l' E _ IH]; simpl; [|rewrite E, IH]; reflexivity. Qed.

Lemma opt_list_map {A B} (f : A -> option B) (g : A -> B) l :
  (forall x, In x l -> f x = Some (g x)) -> opt_list f l = Some (map g l).
Proof.
  intro H. rewrite (opt_list_ext f (fun x => Some (g x)) l H). clear H.
  induction l as [|x l IH]; simpl; [|rewrite IH]; reflexivity.
Qed.

Lemma opt_list_id {A} (f : A -> option A) l : (forall x, In x l -> f x = Some x) -> opt_list f l = Some l.
Proof. intro H. rewrite (opt_list_map f (fun x => x) l H), map_id. reflexivity. Qed.

Lemma opt_list_unmap {A B} (h : B -> option A) (g : A -> B) l :
  (forall x, In x l -> h (g x) = Some x) -> opt_list h (map g l) = Some l.
Proof.
  induction l as [|x l IH]; intro H; [reflexivity|]. simpl.
  rewrite (H x (or_introl eq_refl)), IH; [reflexivity|]. intros y Hy. apply H. right. exact Hy.
Qed.

Lemma pget_In k ps v : pget k ps = Some v -> In (k, v) ps.
Proof.
  induction ps as [|[k' w] r IH]; [discriminate|]. simpl. destruct (N.eqb_spec k' k) as [->|NE].
  - intro H. inversion H; subst. left. reflexivity.
  - intro H. right. apply IH, H.
Qed.

Lemma vty_eqb_eq a b : vty_eqb a b = true <-> a = b.
Proof. destruct a, b; simpl; split; intro H; congruence. Qed.
Lemma scope_eqb_eq a b : scope_eqb a b = true <-> a = b.
Proof. destruct a, b; simpl; split; intro H; congruence. Qed.
Lemma kent_eqb_eq a b : kent_eqb a b = true <-> a = b.
Proof.
  destruct a as [[n1 t1] s1], b as [[n2 t2] s2]. simpl. rewrite !andb_true_iff, N.eqb_eq, vty_eqb_eq, scope_eqb_eq.
  split; [intros [[-> ->] ->]; reflexivity | intro H; inversion H; auto].
Qed.

Lemma str_of_Z_nonnil z : str_of_Z z <> [].
Proof. intro H. pose proof (Z_of_str_of_Z z) as R. rewrite H in R. discriminate. Qed.

Lemma read_value_text v : read_value (ty_of v) (text_of v) = Some v.
Proof.
  destruct v as [s|z|b]; cbn [ty_of text_of].
  - destruct s; reflexivity.
  - unfold read_value. destruct (str_of_Z z) eqn:E; [exfalso; exact (str_of_Z_nonnil z E)|].
    rewrite <- E, Z_of_str_of_Z. reflexivity.
  - destruct b; reflexivity.
Qed.

Definition dec_char (c : N) : bool := ((48 <=? c) && (c <=? 57) || (c =? 45))%N.

Lemma nilempty_uint_chars u : forallb dec_char (of_string (NilEmpty.string_of_uint u)) = true.
Proof. induction u; simpl; try exact IHu; reflexivity. Qed.

Lemma nilzero_uint_chars u : forallb dec_char (of_string (NilZero.string_of_uint u)) = true.
Proof. destruct u; try apply nilempty_uint_chars. reflexivity. Qed.

Lemma str_of_Z_chars z : forallb dec_char (str_of_Z z) = true.
Proof.
  unfold str_of_Z. destruct (Z.to_int z) as [d|d]; simpl NilZero.string_of_int.
  - apply nilzero_uint_chars.
  - pose proof (nilzero_uint_chars d) as H. unfold of_string in *.
    cbn [list_ascii_of_string map forallb]. rewrite H. reflexivity.
Qed.

Lemma str_of_Z_legal z : xml_legal (str_of_Z z) = true.
Proof.
  generalize (str_of_Z_chars z). apply forallb_impl. intro x. unfold dec_char, xml_legal_char. lia.
Qed.

Lemma text_of_legal v : val_legal v = true -> xml_legal (text_of v) = true.
Proof.
  destruct v as [s|z|b]; simpl; intro H; [exact H| apply str_of_Z_legal | destruct b; reflexivity].
Qed.

Theorem value_roundtrip v : val_legal v = true ->
  match text_trip (text_of v) with Some t => read_value (ty_of v) t | None => None end = Some v.
Proof.
  intro L. rewrite text_trip_legal by (apply text_of_legal, L). apply read_value_text.
Qed.

Lemma index_of_nth k tbl : forall i, index_of k tbl = Some i -> nth_error tbl i = Some k.
Proof.
  induction tbl as [|k' r IH]; intros i H; [discriminate|]. simpl in H.
  destruct (kent_eqb k' k) eqn:E.
  - injection H as <-. apply kent_eqb_eq in E. subst. reflexivity.
  - destruct (index_of k r) eqn:E2; [|discriminate]. injection H as <-. simpl. apply IH. reflexivity.
Qed.

Lemma index_of_none k tbl : index_of k tbl = None -> ~ In k tbl.
Proof.
  induction tbl as [|k' r IH]; intros H; [intros []|]. simpl in H.
  destruct (kent_eqb k' k) eqn:E; [discriminate|].
  destruct (index_of k r) eqn:E2; [discriminate|].
  intros [->|Hin]; [rewrite (proj2 (kent_eqb_eq k k) eq_refl) in E; discriminate | exact (IH eq_refl Hin)].
Qed.

Definition extends (t t' : list kent) : Prop := exists ext, t' = t ++ ext.
Lemma extends_refl t : extends t t. Proof. exists []. rewrite app_nil_r. reflexivity. Qed.
Lemma extends_trans a b c : extends a b -> extends b c -> extends a c.
Proof. intros [x ->] [y ->]. exists (x ++ y). rewrite app_assoc. reflexivity. Qed.
Lemma extends_nth t t' i k : extends t t' -> nth_error t i = Some k -> nth_error t' i = Some k.
Proof.
  intros [x ->] H. rewrite nth_error_app1; [exact H|]. apply nth_error_Some. congruence.
Qed.

(* table invariant: no duplicate declarations, and Class is only ever declared as a string *)
Definition tbl_ok (t : list kent) : Prop :=
  NoDup t /\ forall ty sc, In (P_Class, ty, sc) t -> ty = TString.

(* a declaration the writer may add to a good table: Class only with a string value *)
Definition kent_ok (k : kent) : Prop := fst (fst k) = P_Class -> snd (fst k) = TString.

Lemma get_key_spec tbl k tbl' i : get_key tbl k = (tbl', i) ->
  extends tbl tbl' /\ nth_error tbl' i = Some k /\ (kent_ok k -> tbl_ok tbl -> tbl_ok tbl').
Proof.
  unfold get_key. destruct (index_of k tbl) eqn:E; intro H; inversion H; subst.
  - split; [apply extends_refl|]. split; [apply index_of_nth, E|auto].
  - split; [exists [k]; reflexivity|]. split.
    + rewrite nth_error_app2 by lia. rewrite Nat.sub_diag. reflexivity.
    + intros K [ND C]. split; [apply NoDup_snoc; [exact ND | apply index_of_none, E]|].
      intros ty sc Hin. apply in_app_or in Hin as [Hin|[->|[]]]; [exact (C _ _ Hin)|exact (K eq_refl)].
Qed.

(* data element d spells the dict entry kv under table T *)
Definition dspec (T : list kent) (sc : scope) (d : delem) (kv : pname * pval) : Prop :=
  nth_error T (d_key d) = Some (fst kv, ty_of (snd kv), sc) /\ d_text d = text_of (snd kv).
(* what a node and an edge element share: a label attribute and data elements, standing for a dict *)
Definition ispec (T : list kent) (sc : scope) (lab : props -> option str)
                 (l : option str) (ds : list delem) (ps : props) : Prop :=
  l = lab ps /\ Forall2 (dspec T sc) ds ps.
Definition nspec (T : list kent) (lab : props -> option str) (n : dnode) (gn : gnode) : Prop :=
  n_id n = fst gn /\ ispec T ForNode lab (n_labels n) (n_data n) (snd gn).
Definition espec (T : list kent) (lab : props -> option str) (e : dedge) (ge : gedge) : Prop :=
  (e_src e, e_tgt e) = fst ge /\ ispec T ForEdge lab (e_label e) (e_data e) (snd ge).
Definition doc_spec (labn labe : props -> option str) (d : doc) (g : nxg) : Prop :=
  Forall2 (nspec (d_keys d) labn) (d_nodes d) (g_nodes g)
  /\ Forall2 (espec (d_keys d) labe) (d_edges d) (g_edges g).

Definition no_lab (ps : props) : option str := None.
(* the label networkx_to_neo4j derives from the Class value: prefix ":GraphNode:" on nodes, none on edges *)
Definition class_lab (pre : str) (ps : props) : option str :=
  match pget P_Class ps with Some v => Some (pre ++ text_of v) | None => None end.
Definition node_lab : props -> option str := class_lab graphnode_prefix.
Definition edge_lab : props -> option str := class_lab [].

Definition props_legal (ps : props) : Prop := forall kv, In kv ps -> val_legal (snd kv) = true.
Definition dict_ok (ps : props) : bool := props_ok ps && class_ok ps && class_str ps.
Definition items_ok (g : nxg) : Prop :=
  (forall n, In n (g_nodes g) -> dict_ok (snd n) = true) /\ (forall e, In e (g_edges g) -> dict_ok (snd e) = true).

(* graph_wf is graph_shape together with dict_ok of every node and edge dict, by unfolding *)
Lemma graph_wf_eq g : graph_wf g = graph_shape g && forallb (fun n => dict_ok (snd n)) (g_nodes g)
                                   && forallb (fun e => dict_ok (snd e)) (g_edges g).
Proof. reflexivity. Qed.

Lemma graph_wf_iff g : graph_wf g = true <-> graph_shape g = true /\ items_ok g.
Proof. unfold items_ok. rewrite graph_wf_eq, !andb_true_iff, !forallb_forall. tauto. Qed.

Lemma dict_ok_parts ps : dict_ok ps = true -> props_legal ps /\ class_ok ps = true /\ class_str ps = true.
Proof.
  unfold dict_ok, props_ok. rewrite !andb_true_iff, forallb_forall. intros [[[_ L] CO] CS]. auto.
Qed.

Lemma class_str_kent_ok sc ps kv : class_str ps = true -> In kv ps -> kent_ok (fst kv, ty_of (snd kv), sc).
Proof.
  unfold class_str. rewrite forallb_forall. intros H Hin E. specialize (H kv Hin).
  destruct kv as [k v]. simpl in *. subst k. destruct v; [reflexivity|discriminate|discriminate].
Qed.

Lemma write_data_spec sc ps : forall tbl tbl' ds, write_data sc tbl ps = (tbl', ds) ->
  extends tbl tbl'
  /\ (forall T, extends tbl' T -> Forall2 (dspec T sc) ds ps)
  /\ (class_str ps = true -> tbl_ok tbl -> tbl_ok tbl').
Proof.
  induction ps as [|[n v] r IH]; intros tbl tbl' ds H; simpl in H.
  - inversion H; subst. split; [apply extends_refl|]. split; [constructor|auto].
  - destruct (get_key tbl (n, ty_of v, sc)) as [tbl1 i] eqn:G.
    destruct (write_data sc tbl1 r) as [tbl2 ds2] eqn:W. inversion H; subst. clear H.
    destruct (get_key_spec _ _ _ _ G) as (E1 & N1 & O1).
    destruct (IH _ _ _ W) as (E2 & F2 & O2).
    split; [apply (extends_trans _ tbl1); assumption|]. split.
    + intros T ET. constructor; [|apply F2, ET].
      split; [|reflexivity]. apply (extends_nth tbl1 T); [apply (extends_trans _ tbl'); assumption|exact N1].
    + intros CS OK. apply O2.
      * revert CS. unfold class_str. simpl. rewrite andb_true_iff. intros [_ CS]. exact CS.
      * apply O1; [apply (class_str_kent_ok sc _ (n, v) CS); left; reflexivity|exact OK].
Qed.

(* write_nodes and write_edges are the same loop: the items of one scope, each with a dict [pr a], each
   giving the element [mk a ds] *)
Fixpoint write_items {A B} (sc : scope) (pr : A -> props) (mk : A -> list delem -> B)
                     (tbl : list kent) (l : list A) : list kent * list B :=
  match l with
  | [] => (tbl, [])
  | a :: r => let '(tbl1, ds) := write_data sc tbl (pr a) in
              let '(tbl2, out) := write_items sc pr mk tbl1 r in
              (tbl2, mk a ds :: out)
  end.

Definition mk_node (n : gnode) (ds : list delem) : dnode := {| n_id := fst n; n_labels := None; n_data := ds |}.
Definition mk_edge (e : gedge) (ds : list delem) : dedge :=
  {| e_src := fst (fst e); e_tgt := snd (fst e); e_label := None; e_data := ds |}.

Lemma write_nodes_items ns : forall tbl, write_nodes tbl ns = write_items ForNode snd mk_node tbl ns.
Proof.
  induction ns as [|[k ps] r IH]; intro tbl; simpl; [reflexivity|].
  destruct (write_data ForNode tbl ps) as [tbl1 ds]. rewrite IH. reflexivity.
Qed.
Lemma write_edges_items es : forall tbl, write_edges tbl es = write_items ForEdge snd mk_edge tbl es.
Proof.
  induction es as [|[[u v] ps] r IH]; intro tbl; simpl; [reflexivity|].
  destruct (write_data ForEdge tbl ps) as [tbl1 ds]. rewrite IH. reflexivity.
Qed.

(* what holds of an element under every extension of the table it was written with still holds when the
   loop, and the loops after it, are through *)
Lemma write_items_spec {A B} sc (pr : A -> props) (mk : A -> list delem -> B) (R : list kent -> B -> A -> Prop) :
  (forall T a ds, Forall2 (dspec T sc) ds (pr a) -> R T (mk a ds) a) ->
  forall l tbl tbl' out, write_items sc pr mk tbl l = (tbl', out) ->
  extends tbl tbl'
  /\ (forall T, extends tbl' T -> Forall2 (R T) out l)
  /\ ((forall a, In a l -> dict_ok (pr a) = true) -> tbl_ok tbl -> tbl_ok tbl').
Proof.
  intro HR. induction l as [|a r IH]; intros tbl tbl' out H; simpl in H.
  - inversion H; subst. split; [apply extends_refl|]. split; [constructor|auto].
  - destruct (write_data sc tbl (pr a)) as [tbl1 ds] eqn:W.
    destruct (write_items sc pr mk tbl1 r) as [tbl2 out2] eqn:W2. inversion H; subst. clear H.
    destruct (write_data_spec _ _ _ _ _ W) as (E1 & F1 & O1).
    destruct (IH _ _ _ W2) as (E2 & F2 & O2).
    split; [apply (extends_trans _ tbl1); assumption|]. split.
    + intros T ET. constructor; [|apply F2, ET]. apply HR, F1. apply (extends_trans _ tbl'); assumption.
    + intros OK T0. apply O2; [intros x Hx; apply OK; right; exact Hx|].
      apply O1; [|exact T0]. apply (dict_ok_parts _ (OK a (or_introl eq_refl))).
Qed.

Lemma write_spec g : items_ok g -> doc_spec no_lab no_lab (write g) g /\ tbl_ok (d_keys (write g)).
Proof.
  intros [ON OE]. unfold write. rewrite write_nodes_items.
  destruct (write_items ForNode snd mk_node [] (g_nodes g)) as [t1 ns] eqn:WN. rewrite write_edges_items.
  destruct (write_items ForEdge snd mk_edge t1 (g_edges g)) as [t2 es] eqn:WE.
  destruct (write_items_spec ForNode snd mk_node (fun T => nspec T no_lab)
              (fun T n ds F => conj eq_refl (conj eq_refl F)) _ _ _ _ WN) as (_ & F1 & O1).
  destruct (write_items_spec ForEdge snd mk_edge (fun T => espec T no_lab)
              (fun T e ds F => conj (eq_sym (surjective_pairing (fst e))) (conj eq_refl F)) _ _ _ _ WE) as (E2 & F2 & O2).
  split; [split; simpl|simpl].
  - apply F1, E2.
  - apply F2, extends_refl.
  - apply O2, O1; [exact OE|exact ON|]. split; [constructor|intros ty sc []].
Qed.

Lemma tr_node_id ft fa n :
  tr_attr fa (n_labels n) = Some (n_labels n) /\ opt_list (tr_delem ft) (n_data n) = Some (n_data n) ->
  tr_node ft fa n = Some n.
Proof. unfold tr_node. intros [-> ->]. destruct n; reflexivity. Qed.
Lemma tr_edge_id ft fa e :
  tr_attr fa (e_label e) = Some (e_label e) /\ opt_list (tr_delem ft) (e_data e) = Some (e_data e) ->
  tr_edge ft fa e = Some e.
Proof. unfold tr_edge. intros [-> ->]. destruct e; reflexivity. Qed.

(* journeys that return every legal text unchanged leave an element that stands for a legal dict alone *)
Lemma ispec_tr (ft fa : str -> option str) T sc lab l ds ps :
  (forall t, xml_legal t = true -> ft t = Some t) -> tr_attr fa (lab ps) = Some (lab ps) ->
  props_legal ps -> ispec T sc lab l ds ps ->
  tr_attr fa l = Some l /\ opt_list (tr_delem ft) ds = Some ds.
Proof.
  intros Hf Ha L [-> F]. split; [exact Ha|]. apply opt_list_id. intros d Hd.
  destruct (Forall2_in_l _ _ _ _ F Hd) as (kv & Hkv & (_ & X)).
  unfold tr_delem. rewrite X, Hf by (apply text_of_legal, L, Hkv). rewrite <- X. destruct d; reflexivity.
Qed.

Lemma transport_id ft fa labn labe d g :
  (forall t, xml_legal t = true -> ft t = Some t) ->
  (forall ps, props_legal ps -> tr_attr fa (labn ps) = Some (labn ps)) ->
  (forall ps, props_legal ps -> tr_attr fa (labe ps) = Some (labe ps)) ->
  doc_spec labn labe d g -> items_ok g -> transport ft fa d = Some d.
Proof.
  intros Hf Hn He [FN FE] [ON OE]. unfold transport.
  rewrite (opt_list_id (tr_node ft fa) (d_nodes d)), (opt_list_id (tr_edge ft fa) (d_edges d)).
  - destruct d; reflexivity.
  - intros e Hx. destruct (Forall2_in_l _ _ _ _ FE Hx) as (ge & Hge & (_ & I)).
    destruct (dict_ok_parts _ (OE _ Hge)) as (L & _). exact (tr_edge_id _ _ _ (ispec_tr _ _ _ _ _ _ _ _ Hf (He _ L) L I)).
  - intros n Hx. destruct (Forall2_in_l _ _ _ _ FN Hx) as (gn & Hgn & (_ & I)).
    destruct (dict_ok_parts _ (ON _ Hgn)) as (L & _). exact (tr_node_id _ _ _ (ispec_tr _ _ _ _ _ _ _ _ Hf (Hn _ L) L I)).
Qed.

Lemma class_lab_out pre : xml_legal pre = true -> forall ps, props_legal ps ->
  tr_attr attr_out (class_lab pre ps) = Some (class_lab pre ps).
Proof.
  intros P ps L. unfold class_lab. destruct (pget P_Class ps) as [v|] eqn:E; [|reflexivity]. simpl.
  rewrite attr_out_legal; [reflexivity|]. unfold xml_legal in *. rewrite forallb_app, P.
  apply text_of_legal, (L (P_Class, v)), pget_In, E.
Qed.

Lemma find_class_key_spec sc T : forall j ty0, nth_error T j = Some (P_Class, ty0, sc) ->
  exists i ty, find_class_key sc T = Some i /\ nth_error T i = Some (P_Class, ty, sc).
Proof.
  induction T as [|[[n t] s] r IH]; intros j ty0 H; [destruct j; discriminate|]. simpl.
  destruct (N.eqb n P_Class && scope_eqb s sc) eqn:E.
  - apply andb_true_iff in E as [E1 E2]. apply N.eqb_eq in E1. apply scope_eqb_eq in E2. subst.
    exists O, t. split; reflexivity.
  - destruct j as [|j].
    + simpl in H. inversion H; subst. rewrite N.eqb_refl, (proj2 (scope_eqb_eq sc sc) eq_refl) in E. discriminate.
    + simpl in H. destruct (IH _ _ H) as (i & ty & F & Nt). rewrite F. exists (Datatypes.S i), ty. split; [reflexivity|exact Nt].
Qed.

Lemma dspec_pget T sc ds : forall ps k v, Forall2 (dspec T sc) ds ps -> pget k ps = Some v ->
  exists j, nth_error T j = Some (k, ty_of v, sc).
Proof.
  induction ds as [|d ds IH]; intros ps k v F H; inversion F; subst; [discriminate|].
  destruct y as [k' v']. simpl in H. destruct (N.eqb_spec k' k) as [->|NE].
  - inversion H; subst. destruct H2 as [K _]. exists (d_key d). exact K.
  - eapply IH; eassumption.
Qed.

Lemma NoDup_nth_eq {A} (l : list A) i j x : NoDup l -> nth_error l i = Some x -> nth_error l j = Some x -> i = j.
Proof.
  intros ND Hi Hj. apply (proj1 (NoDup_nth_error l) ND); [apply nth_error_Some|]; congruence.
Qed.

(* the first data element carrying key i is the one of the first Class entry *)
Lemma find_class_data (T : list kent) sc i : nth_error T i = Some (P_Class, TString, sc) -> NoDup T ->
  forall ds ps c, Forall2 (dspec T sc) ds ps -> pget P_Class ps = Some (PStr c) ->
  exists d, find (fun d => Nat.eqb (d_key d) i) ds = Some d /\ d_text d = c.
Proof.
  intros Hi ND. induction ds as [|d ds IH]; intros ps c F H; inversion F; subst; [discriminate|].
  destruct y as [k v]. destruct H2 as [K X]. cbn [fst snd] in K, X. cbn [pget] in H. cbn [find].
  destruct (N.eqb_spec k P_Class) as [->|NE].
  - inversion H; subst. simpl in K.
    rewrite (NoDup_nth_eq T _ _ _ ND K Hi), Nat.eqb_refl. exists d. split; [reflexivity|exact X].
  - destruct (Nat.eqb_spec (d_key d) i) as [EQ|NI]; [rewrite EQ in K; congruence|].
    eapply IH; eassumption.
Qed.

(* an element written for a dict with a usable Class has no label yet, and the Class key of its scope finds
   the data element that carries the Class text *)
Lemma ispec_class T sc l ds ps : tbl_ok T -> ispec T sc no_lab l ds ps -> class_ok ps = true ->
  attr_present l = false
  /\ exists d c0 c, find_data (find_class_key sc T) ds = Some d /\ d_text d = c0 :: c
                    /\ pget P_Class ps = Some (PStr (c0 :: c)).
Proof.
  intros [ND CT] [-> D] CO. split; [reflexivity|].
  unfold class_ok in CO. destruct (pget P_Class ps) as [[[|c0 c]| |]|] eqn:PC; try discriminate.
  destruct (dspec_pget _ _ _ _ _ _ D PC) as (j & Hj).
  destruct (find_class_key_spec _ _ _ _ Hj) as (i & ty & FK & Hi).
  rewrite (CT _ _ (nth_error_In _ _ Hi)) in Hi.
  destruct (find_class_data T sc i Hi ND _ _ _ D PC) as (d & FD & TX).
  exists d, c0, c. rewrite FK. auto.
Qed.

Lemma mark_node_spec T n gn : tbl_ok T -> nspec T no_lab n gn -> class_ok (snd gn) = true ->
  exists n', mark_node (find_class_key ForNode T) n = Some n' /\ nspec T node_lab n' gn.
Proof.
  intros OK (I & IS) CO. destruct (ispec_class _ _ _ _ _ OK IS CO) as (AP & d & c0 & c & FD & TX & PC).
  unfold mark_node. rewrite AP, FD, TX. eexists. split; [reflexivity|]. split; [exact I|]. split; [|apply IS].
  simpl. unfold node_lab, class_lab. rewrite PC. reflexivity.
Qed.

Lemma mark_edge_spec T e ge : tbl_ok T -> espec T no_lab e ge -> class_ok (snd ge) = true ->
  exists e', mark_edge (find_class_key ForEdge T) e = Some e' /\ espec T edge_lab e' ge.
Proof.
  intros OK (I & IS) CO. destruct (ispec_class _ _ _ _ _ OK IS CO) as (AP & d & c0 & c & FD & TX & PC).
  unfold mark_edge. rewrite AP, FD, TX. eexists. split; [reflexivity|]. split; [exact I|]. split; [|apply IS].
  simpl. unfold edge_lab, class_lab. rewrite PC. reflexivity.
Qed.

Lemma Forall2_opt_list {A B} (f : A -> option A) (R R' : A -> B -> Prop) (P : B -> Prop) l l2 :
  (forall x y, R x y -> P y -> exists x', f x = Some x' /\ R' x' y) ->
  Forall2 R l l2 -> (forall y, In y l2 -> P y) ->
  exists l', opt_list f l = Some l' /\ Forall2 R' l' l2.
Proof.
  intros H F. induction F as [|x y l l2 Hxy _ IH]; intro HP.
  - exists []. split; [reflexivity|constructor].
  - destruct IH as (l' & E & F'); [intros z Hz; apply HP; right; exact Hz|].
    destruct (H x y Hxy (HP y (or_introl eq_refl))) as (x' & Ex & Rx).
    exists (x' :: l'). split; [simpl; rewrite Ex, E; reflexivity|constructor; assumption].
Qed.

Lemma to_neo4j_spec d g : tbl_ok (d_keys d) -> doc_spec no_lab no_lab d g -> items_ok g ->
  exists d', to_neo4j d = Some d' /\ doc_spec node_lab edge_lab d' g.
Proof.
  intros OK [FN FE] [ON OE]. unfold to_neo4j.
  destruct (Forall2_opt_list (mark_edge (find_class_key ForEdge (d_keys d))) _ (espec (d_keys d) edge_lab)
              (fun ge => dict_ok (snd ge) = true) _ _
              (fun x y Hxy Py => mark_edge_spec _ x y OK Hxy (proj1 (proj2 (dict_ok_parts _ Py)))) FE OE) as (es' & -> & FE').
  destruct (Forall2_opt_list (mark_node (find_class_key ForNode (d_keys d))) _ (nspec (d_keys d) node_lab)
              (fun gn => dict_ok (snd gn) = true) _ _
              (fun x y Hxy Py => mark_node_spec _ x y OK Hxy (proj1 (proj2 (dict_ok_parts _ Py)))) FN ON) as (ns' & -> & FN').
  eexists. split; [reflexivity|]. split; assumption.
Qed.

Lemma decode_data_spec T sc ds ps : Forall2 (dspec T sc) ds ps -> decode_data T ds = Some ps.
Proof.
  intro F. apply opt_list_Forall2.
  induction F as [|d kv ds ps [K X] _ IH]; constructor; [|exact IH].
  unfold decode_delem. rewrite K, X, read_value_text. destruct kv; reflexivity.
Qed.

Lemma read_graphml_spec labn labe d g : doc_spec labn labe d g -> read_graphml d = Some g.
Proof.
  intros [FN FE]. unfold read_graphml.
  rewrite (opt_list_Forall2 _ (d_nodes d) (g_nodes g)), (opt_list_Forall2 _ (d_edges d) (g_edges g));
    [destruct g; reflexivity| |].
  - clear FN. induction FE as [|e ge es ges (I & _ & D) _ IH]; constructor; [|exact IH].
    rewrite (decode_data_spec _ _ _ _ D). destruct ge as [[u v] ps]. injection I as -> ->. reflexivity.
  - clear FE. induction FN as [|n gn ns gns (I & _ & D) _ IH]; constructor; [|exact IH].
    rewrite (decode_data_spec _ _ _ _ D), I. destruct gn; reflexivity.
Qed.

Lemma class_text_spec T sc ds : forall ps, Forall2 (dspec T sc) ds ps ->
  class_text T ds = match pget P_Class ps with Some v => Some (text_of v) | None => None end.
Proof.
  unfold class_text. induction ds as [|d ds IH]; intros ps F; inversion F; subst; [reflexivity|].
  destruct y as [k v]. destruct H1 as [K X]. cbn [fst snd] in K, X. cbn [find pget].
  rewrite K. destruct (N.eqb k P_Class); [rewrite X; reflexivity|]. apply IH. assumption.
Qed.

Lemma ispec_label_ok T sc pre l ds ps : ispec T sc (class_lab pre) l ds ps -> class_ok ps = true ->
  match l, class_text T ds with Some x, Some c => str_eqb x (pre ++ c) | _, _ => false end = true.
Proof.
  intros [-> D] CO. rewrite (class_text_spec _ _ _ _ D). unfold class_lab, class_ok in *.
  destruct (pget P_Class ps); [apply str_eqb_refl|discriminate].
Qed.

Lemma labels_ok_spec d g : doc_spec node_lab edge_lab d g -> items_ok g -> labels_ok d = true.
Proof.
  intros [FN FE] [ON OE]. unfold labels_ok. apply andb_true_iff. split; apply forallb_forall.
  - intros n Hn. destruct (Forall2_in_l _ _ _ _ FN Hn) as (gn & Hgn & (_ & I)).
    exact (ispec_label_ok _ _ _ _ _ _ I (proj1 (proj2 (dict_ok_parts _ (ON _ Hgn))))).
  - intros e He. destruct (Forall2_in_l _ _ _ _ FE He) as (ge & Hge & (_ & I)).
    exact (ispec_label_ok _ _ _ _ _ _ I (proj1 (proj2 (dict_ok_parts _ (OE _ Hge))))).
Qed.

Theorem serialize_graphml_spec g : graph_wf g = true ->
  exists d, serialize_graphml g = Some d
            /\ doc_spec node_lab edge_lab d g
            /\ read_graphml d = Some g
            /\ labels_ok d = true.
Proof.
  intro W. apply graph_wf_iff in W as [_ OK].
  destruct (write_spec g OK) as (S0 & T0).
  destruct (to_neo4j_spec (write g) g T0 S0 OK) as (d2 & E2 & S2).
  exists d2. unfold serialize_graphml.
  rewrite (transport_id text_in no_attr no_lab no_lab _ g text_in_legal (fun _ _ => eq_refl) (fun _ _ => eq_refl) S0 OK), E2.
  split; [|split; [exact S2|split; [exact (read_graphml_spec _ _ _ _ S2)|exact (labels_ok_spec _ _ S2 OK)]]].
  exact (transport_id _ _ _ _ _ g text_out_legal (class_lab_out graphnode_prefix eq_refl) (class_lab_out [] eq_refl) S2 OK).
Qed.

Theorem graphml_roundtrip g : graph_wf g = true ->
  exists d, serialize_graphml g = Some d /\ read_graphml d = Some g.
Proof. intro W. destruct (serialize_graphml_spec g W) as (d & A & _ & B & _). exists d. split; assumption. Qed.

Theorem graphml_label_markup g d : graph_wf g = true -> serialize_graphml g = Some d -> labels_ok d = true.
Proof.
  intros W E. destruct (serialize_graphml_spec g W) as (d' & A & _ & _ & L). rewrite E in A. inversion A; subst. exact L.
Qed.

(* a carriage return inside a value: the case /repo commit 10c1448 is about *)
Definition cr_witness : nxg :=
  {| g_nodes := [(1%N, [(P_GraphID, PStr (S"g")); (P_NodeID, PStr (S"n")); (P_Class, PStr (S"NetworkNode"));
                        (10%N, PStr [97; 13; 98]%N)])];
     g_edges := [] |}.
