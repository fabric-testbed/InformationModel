(* C12, Model/Pools12.v: pools -> by-delegation index -> per-node delegations (shape, conflict rejection).
   Rests on Deleg12Enc.v. *)
From Coq Require Import List ZArith Bool Permutation.
From FIM Require Import Base.ListFacts Base.Str Gen.DelegGen Model.Deleg12 Model.Pools12 Proofs.Deleg12Enc.
Import ListNotations.

Lemma perm_snoc {A} (l : list A) x : Permutation (l ++ [x]) (x :: l).
Proof. apply Permutation_sym. apply Permutation_cons_append. Qed.

Lemma key_dec (a b : str * str) : {a = b} + {a <> b}.
Proof. decide equality; apply str_eq_dec. Qed.

Lemma pair_eqb_eq a b : pair_eqb a b = true <-> a = b.
Proof.
  destruct a as [a1 a2], b as [b1 b2]. unfold pair_eqb. simpl. rewrite andb_true_iff, !str_eqb_eq.
  split; [intros [-> ->]; reflexivity|intro H; injection H as -> ->; tauto].
Qed.

Lemma pair_mem_In k l : pair_mem k l = true <-> In k l.
Proof.
  induction l as [|x l IH]; simpl.
  - split; [discriminate|tauto].
  - rewrite orb_true_iff, IH, pair_eqb_eq. tauto.
Qed.

Lemma pair_nodup_NoDup l : pair_nodup l = true <-> NoDup l.
Proof.
  induction l as [|x l IH]; simpl.
  - split; [constructor|reflexivity].
  - rewrite andb_true_iff, negb_true_iff, <- not_true_iff_false, pair_mem_In, IH, NoDup_cons_iff. tauto.
Qed.

Definition idx_consistent (idx : index) : Prop :=
  Forall (fun e => Forall (fun p => p_deleg p = Some (fst e)) (snd e)) idx.

Lemma group_add_perm {A} k (x : A) m : Permutation (flat_map snd (group_add k x m)) (flat_map snd m ++ [x]).
Proof.
  induction m as [|[k' xs] r IH]; simpl.
  - apply Permutation_refl.
  - destruct (str_eqb k' k); simpl; rewrite <- !app_assoc; apply Permutation_app_head;
      [apply Permutation_app_comm with (l := [x])|exact IH].
Qed.

Lemma group_add_consistent did p idx : p_deleg p = Some did -> idx_consistent idx ->
  idx_consistent (group_add did p idx).
Proof.
  intros Hp. induction idx as [|[k xs] r IH]; intro C; simpl.
  - repeat constructor. exact Hp.
  - apply Forall_cons_iff in C as [Ch Cr]. destruct (str_eqb k did) eqn:E.
    + apply str_eqb_eq in E as ->. constructor; [|exact Cr].
      apply Forall_app. split; [exact Ch|constructor; [exact Hp|constructor]].
    + constructor; [exact Ch|]. apply IH. exact Cr.
Qed.

Lemma validate_ok_inv p : validate_pool p = None ->
  exists did on x, p_deleg p = Some did /\ p_on p = Some on /\ p_details p = Some x /\ p_for p <> [].
Proof.
  unfold validate_pool. destruct (p_deleg p) as [did|], (p_on p) as [on|], (p_for p) as [|n r], (p_details p) as [x|];
    intro H; try discriminate. exists did, on, x. repeat split; discriminate.
Qed.

Lemma build_index_from_ok l : forall idx0, Forall (fun p => validate_pool p = None) l -> idx_consistent idx0 ->
  exists idx, build_index_from l idx0 = Ok idx /\ idx_consistent idx /\
              Permutation (flat_map snd idx) (flat_map snd idx0 ++ l).
Proof.
  induction l as [|p r IH]; intros idx0 V C.
  - exists idx0. rewrite app_nil_r. repeat split; [exact C|apply Permutation_refl].
  - apply Forall_cons_iff in V as [Vp Vr]. simpl. rewrite Vp.
    destruct (validate_ok_inv p Vp) as (did & on & x & Hd & _). rewrite Hd.
    destruct (IH (group_add did p idx0) Vr (group_add_consistent did p idx0 Hd C)) as (idx & E & C' & P).
    exists idx. repeat split; [exact E|exact C'|].
    rewrite P, group_add_perm, <- app_assoc. apply Permutation_refl.
Qed.

Lemma build_index_ok P : Forall (fun p => validate_pool p = None) P ->
  exists idx, build_index P = Ok idx /\ idx_consistent idx /\ Permutation (flat_map snd idx) P.
Proof. intro V. apply (build_index_from_ok P [] V). constructor. Qed.

(* an incomplete pool anywhere in the registry: the index is refused *)
Lemma build_index_from_err l : forall idx0, (exists p, In p l /\ validate_pool p <> None) ->
  build_index_from l idx0 = Err EPool.
Proof.
  induction l as [|p r IH]; intros idx0 [q [Hq Vq]]; [contradiction|].
  simpl. destruct (validate_pool p) as [e|] eqn:Vp.
  - unfold validate_pool in Vp.
    destruct (p_deleg p), (p_on p), (p_for p), (p_details p); try discriminate; injection Vp as <-; reflexivity.
  - destruct (validate_ok_inv p Vp) as (did & on & x & Hd & _). rewrite Hd.
    apply IH. destruct Hq as [->|Hq]; [contradiction|]. exists q. tauto.
Qed.

Lemma build_index_inv_valid l : forall idx0 idx, build_index_from l idx0 = Ok idx ->
  Forall (fun p => validate_pool p = None) l.
Proof.
  induction l as [|p r IH]; intros idx0 idx H; [constructor|].
  simpl in H. destruct (validate_pool p) as [e|] eqn:Vp; [discriminate|].
  destruct (p_deleg p) as [did|]; [|discriminate]. constructor; [exact Vp|]. eapply IH. exact H.
Qed.

(* what pool_ok says of a pool with delegation id did, defining node on and details x, field by field *)
Set Implicit Arguments.
Record pool_fields (ty : dtype) (p : pool) (did on : str) (x : det) : Prop := {
  pf_type : p_type p = ty;
  pf_deleg : p_deleg p = Some did;
  pf_on : p_on p = Some on;
  pf_details : p_details p = Some x;
  pf_kind : det_kind x = ty;
  pf_for_nonempty : p_for p <> [];
  pf_for_nodup : NoDup (p_for p);
  pf_on_not_for : ~ In on (p_for p);
  pf_not_reserved : str_eqb (p_id p) single_pool_name = false }.
Unset Implicit Arguments.

(* ... and the delegations such a pool prescribes: its definition, then one reference per node of for_ *)
Lemma pool_ok_inv ty p : pool_ok ty p = true ->
  exists did on x, pool_fields ty p did on x /\
                   pool_evs ty p = (on, mkD ty did FDef (Some (p_id p)) (Some x))
                                   :: map (fun n => (n, mkD ty did FRef (Some (p_id p)) None)) (p_for p).
Proof.
  unfold pool_ok, pool_evs, str_neqb.
  destruct (p_deleg p) as [did|] eqn:Hd, (p_on p) as [on|] eqn:Ho, (p_for p) as [|n r] eqn:F, (p_details p) as [x|] eqn:Hx;
    rewrite ?andb_false_r; try discriminate.
  rewrite !andb_true_iff, !dtype_eqb_eq, !negb_true_iff, str_nodup_NoDup, str_mem_false.
  intros [[T NR] [[K ND] NI]]. exists did, on, x. split; [|reflexivity].
  constructor; trivial; rewrite F; trivial. discriminate.
Qed.

Lemma pool_ok_valid ty p : pool_ok ty p = true -> validate_pool p = None.
Proof.
  intro H. destruct (pool_ok_inv ty p H) as (did & on & x & F & _).
  unfold validate_pool. rewrite (pf_deleg F), (pf_on F), (pf_details F).
  destruct (p_for p) eqn:E; [destruct (pf_for_nonempty F E)|reflexivity].
Qed.

Lemma index_complete ty P : forallb (pool_ok ty) P = true ->
  exists idx, build_index P = Ok idx /\ idx_consistent idx /\ Permutation (flat_map snd idx) P.
Proof. intro OK. apply build_index_ok. exact (forallb_Forall _ _ _ (pool_ok_valid ty) OK). Qed.

(* the events of a well-formed pool as generate creates them *)
Lemma pool_ok_events ty did p : pool_ok ty p = true -> p_deleg p = Some did ->
  pool_events ty did p = Ok (pool_evs ty p).
Proof.
  intros OK Hd. destruct (pool_ok_inv ty p OK) as (did' & on & x & F & ->).
  assert (did' = did) as -> by (rewrite (pf_deleg F) in Hd; congruence).
  unfold pool_events. cbn [new_deleg]. rewrite (pf_not_reserved F), (pf_details F), (pf_on F). cbn [bind].
  rewrite set_details_accepts; [reflexivity|discriminate|exact (pf_kind F)].
Qed.

Lemma pool_events_foreign ty did p x : p_details p = Some x -> det_kind x <> ty ->
  pool_events ty did p = Err EDelegation.
Proof.
  intros Hx K. unfold pool_events. cbn [new_deleg]. destruct (str_eqb (p_id p) single_pool_name); [reflexivity|].
  cbn [bind]. rewrite Hx, rejects_mixed; [reflexivity|exact K].
Qed.

(* a pool named SINGLE_POOL_NAME cannot be written as a definition: generate refuses it loudly *)
Lemma pool_events_reserved ty did p : p_id p = single_pool_name -> pool_events ty did p = Err EDelegation.
Proof. intro H. unfold pool_events. cbn [new_deleg]. rewrite H, str_eqb_refl. reflexivity. Qed.

Definition ev_key (e : str * deleg) : str * str := (fst e, d_id (snd e)).

Lemma pool_evs_keys ty p : map ev_key (pool_evs ty p) = pool_slots p.
Proof.
  unfold pool_evs, pool_slots. destruct (p_deleg p) as [did|], (p_on p) as [on|]; try reflexivity.
  cbn [map]. rewrite map_map. reflexivity.
Qed.

Lemma expected_keys ty P : map ev_key (expected_events ty P) = flat_map pool_slots P.
Proof. unfold expected_events. rewrite map_flat_map. apply flat_map_ext. apply pool_evs_keys. Qed.

Lemma expected_types ty P : Forall (fun e => d_type (snd e) = ty) (expected_events ty P).
Proof.
  apply Forall_flat_map, Forall_forall. intros p _. unfold pool_evs.
  destruct (p_deleg p), (p_on p); try constructor; [reflexivity|].
  apply Forall_forall. intros e He. apply in_map_iff in He as (n & <- & _). reflexivity.
Qed.

Lemma gen_events_app ty g a b :
  gen_events ty g (a ++ b) = bind (gen_events ty g a) (fun g' => gen_events ty g' b).
Proof.
  revert g. induction a as [|[n d] r IH]; intro g; simpl; [reflexivity|].
  destruct (gen_add ty g n d); simpl; [apply IH|reflexivity].
Qed.

Lemma gen_pools_flat ty did ps : forall g,
  Forall (fun p => pool_ok ty p = true) ps -> Forall (fun p => p_deleg p = Some did) ps ->
  gen_pools ty did g ps = gen_events ty g (flat_map (pool_evs ty) ps).
Proof.
  induction ps as [|p r IH]; intros g R D; [reflexivity|].
  apply Forall_cons_iff in R as [Rp R]. apply Forall_cons_iff in D as [Dp D]. cbn [gen_pools flat_map].
  rewrite (pool_ok_events ty did p Rp Dp), gen_events_app. cbn [bind]. apply bind_ext. intro g'. apply IH; assumption.
Qed.

Lemma gen_index_flat ty idx : forall g,
  Forall (fun p => pool_ok ty p = true) (flat_map snd idx) -> idx_consistent idx ->
  gen_index ty g idx = gen_events ty g (flat_map (pool_evs ty) (flat_map snd idx)).
Proof.
  induction idx as [|[did ps] r IH]; intros g R C; [reflexivity|].
  cbn [flat_map snd] in *. apply Forall_app in R as [Rp R]. apply Forall_cons_iff in C as [Cp C].
  cbn [gen_index]. rewrite flat_map_app, gen_events_app, (gen_pools_flat ty did ps g Rp Cp).
  apply bind_ext. intro g'. apply IH; assumption.
Qed.

(* what generate maintains: one entry per node; every entry is a container of the requested type as add_delegations
   builds it, and holds at least one delegation *)
Definition entry_inv (ty : dtype) (nd : str * delegations) : Prop :=
  ds_type (snd nd) = ty /\ ds_inv (snd nd) /\ ds_items (snd nd) <> [].
Definition g_inv (ty : dtype) (g : gmap) : Prop := NoDup (map fst g) /\ Forall (entry_inv ty) g.

Lemma add_entry_inv ty n ds d ds' : add_delegation ds d = Ok ds' -> ds_type ds = ty -> ds_inv ds ->
  entry_inv ty (n, ds').
Proof.
  intros A T I. split; [|split; [exact (add_ok_ds_inv _ _ _ A I)|]]; apply add_ok_inv in A as (_ & _ & ->); [exact T|].
  cbn. intro H. apply app_eq_nil in H as [_ H]. discriminate.
Qed.

Lemma flatten_app g1 g2 : flatten_g (g1 ++ g2) = flatten_g g1 ++ flatten_g g2.
Proof. unfold flatten_g. apply flat_map_app. Qed.

Lemma in_flatten_g g n d : In (n, d) (flatten_g g) <-> exists ds, In (n, ds) g /\ In d (ds_items ds).
Proof.
  unfold flatten_g. rewrite in_flat_map. split.
  - intros ([n' ds] & Hin & Hd). apply in_map_iff in Hd as (d' & E & Hd). injection E as -> ->. eauto.
  - intros (ds & Hin & Hd). exists (n, ds). split; [exact Hin|]. apply in_map. exact Hd.
Qed.

Lemma in_flatten_keys g n id :
  In (n, id) (map ev_key (flatten_g g)) <-> exists ds, In (n, ds) g /\ In id (map d_id (ds_items ds)).
Proof.
  rewrite in_map_iff. split.
  - intros ([n' d] & E & H). injection E as -> <-. apply in_flatten_g in H as (ds & Hin & Hd).
    exists ds. split; [exact Hin|apply in_map; exact Hd].
  - intros (ds & Hin & Hd). apply in_map_iff in Hd as (d & <- & Hd). exists (n, d). split; [reflexivity|].
    apply in_flatten_g. eauto.
Qed.

(* all delegations of node n are in the entry lookup finds *)
Lemma flatten_keys_node g n ds : NoDup (map fst g) -> lookup n g = Some ds ->
  forall id, In (n, id) (map ev_key (flatten_g g)) <-> In id (map d_id (ds_items ds)).
Proof.
  intros ND L id. rewrite in_flatten_keys. split.
  - intros (ds' & Hin & Hd). apply (lookup_In_nodup _ _ _ ND) in Hin. congruence.
  - intro Hd. exists ds. split; [apply lookup_In; exact L|exact Hd].
Qed.

Lemma replace_at_keys n ds g : map fst (replace_at n ds g) = map fst g.
Proof.
  induction g as [|[k x] r IH]; simpl; [reflexivity|].
  destruct (str_eqb k n); simpl; [|rewrite IH]; reflexivity.
Qed.

Lemma replace_at_flat n ds d g : lookup n g = Some ds ->
  Permutation (flatten_g (replace_at n (mkDs (ds_type ds) (ds_items ds ++ [d])) g)) (flatten_g g ++ [(n, d)]).
Proof.
  unfold flatten_g. induction g as [|[k x] r IH]; simpl; [discriminate|].
  destruct (str_eqb k n) eqn:E; intro H; simpl.
  - apply str_eqb_eq in E as ->. injection H as ->. rewrite map_app, <- !app_assoc.
    apply Permutation_app_head, Permutation_app_comm.
  - rewrite <- app_assoc. apply Permutation_app_head, IH, H.
Qed.

Lemma replace_at_Forall (Q : str * delegations -> Prop) n ds g : Q (n, ds) -> Forall Q g ->
  Forall Q (replace_at n ds g).
Proof.
  intros Hq. induction g as [|[k x] r IH]; intro F; simpl; [constructor|].
  apply Forall_cons_iff in F as [Fh Ft]. destruct (str_eqb k n) eqn:E; constructor; auto.
  apply str_eqb_eq in E as ->. exact Hq.
Qed.

Lemma gen_add_ok ty g n d : g_inv ty g -> d_type d = ty -> ~ In (n, d_id d) (map ev_key (flatten_g g)) ->
  exists g', gen_add ty g n d = Ok g' /\ g_inv ty g' /\ Permutation (flatten_g g') (flatten_g g ++ [(n, d)]).
Proof.
  intros [ND EI] T NI. unfold gen_add. destruct (lookup n g) as [ds|] eqn:L.
  - destruct (proj1 (Forall_forall _ _) EI _ (lookup_In _ _ _ L)) as (Tds & Ids & _). cbn [snd] in Tds, Ids.
    rewrite (flatten_keys_node g n ds ND L) in NI.
    pose proof (add_accepts ds d (eq_trans T (eq_sym Tds)) NI) as A. rewrite A. cbn [bind].
    eexists. split; [reflexivity|]. split; [split|].
    + rewrite replace_at_keys. exact ND.
    + apply replace_at_Forall; [exact (add_entry_inv ty n _ _ _ A Tds Ids)|exact EI].
    + apply replace_at_flat. exact L.
  - pose proof (add_accepts (mkDs ty []) d T (fun H => H)) as A. rewrite A. cbn [bind ds_type ds_items app].
    eexists. split; [reflexivity|]. split; [split|].
    + rewrite map_app. apply NoDup_snoc; [exact ND|]. apply lookup_None. exact L.
    + apply Forall_app. split; [exact EI|]. constructor; [|constructor].
      exact (add_entry_inv ty n _ _ _ A eq_refl (ds_inv_empty ty)).
    + rewrite flatten_app. unfold flatten_g at 2. simpl. apply Permutation_refl.
Qed.

Lemma gen_add_conflict ty g n d : g_inv ty g -> d_type d = ty -> In (n, d_id d) (map ev_key (flatten_g g)) ->
  gen_add ty g n d = Err EDelegation.
Proof.
  intros [ND EI] T HI. unfold gen_add. destruct (lookup n g) as [ds|] eqn:L.
  - destruct (proj1 (Forall_forall _ _) EI _ (lookup_In _ _ _ L)) as (Tds & _). cbn [snd] in Tds.
    rewrite (flatten_keys_node g n ds ND L) in HI.
    rewrite (rejects_duplicate ds d); [reflexivity|congruence|exact HI].
  - exfalso. apply in_flatten_keys in HI as (ds & Hin & _). apply lookup_None in L. apply L.
    exact (in_map fst _ _ Hin).
Qed.

(* the events are added one by one: all go in exactly when no (node, delegation id) slot is asked for twice,
   and the first repeated slot raises *)
Lemma gen_events_spec ty E : forall g, g_inv ty g -> Forall (fun e => d_type (snd e) = ty) E ->
  NoDup (map ev_key (flatten_g g)) ->
  (NoDup (map ev_key (flatten_g g ++ E)) ->
   exists g', gen_events ty g E = Ok g' /\ g_inv ty g' /\ Permutation (flatten_g g') (flatten_g g ++ E)) /\
  (~ NoDup (map ev_key (flatten_g g ++ E)) -> gen_events ty g E = Err EDelegation).
Proof.
  induction E as [|[n d] r IH]; intros g I T ND.
  - rewrite app_nil_r. split; [intros _; exists g; repeat split; try apply I; apply Permutation_refl|contradiction].
  - apply Forall_cons_iff in T as [Td Tr]. cbn [snd] in Td. cbn [gen_events].
    destruct (in_dec key_dec (n, d_id d) (map ev_key (flatten_g g))) as [HI|NI].
    + rewrite (gen_add_conflict ty g n d I Td HI). split; [|reflexivity].
      intro N. rewrite map_app in N. destruct (NoDup_mid_l _ (map ev_key r) _ N HI).
    + destruct (gen_add_ok ty g n d I Td NI) as (g1 & -> & I1 & P1). cbn [bind].
      assert (PP : Permutation (flatten_g g1 ++ r) (flatten_g g ++ (n, d) :: r)).
      { change ((n, d) :: r) with ([(n, d)] ++ r). rewrite app_assoc. apply Permutation_app_tail. exact P1. }
      assert (ND1 : NoDup (map ev_key (flatten_g g1))).
      { rewrite P1, map_app. apply NoDup_snoc; assumption. }
      destruct (IH g1 I1 Tr ND1) as [OKr ERr]. rewrite PP in OKr, ERr. split; [|exact ERr].
      intro N. destruct (OKr N) as (g' & E' & I' & P'). exists g'. rewrite <- PP. tauto.
Qed.

Lemma generate_flat ty P idx : forallb (pool_ok ty) P = true -> build_index P = Ok idx ->
  Permutation (flat_map snd idx) P /\
  generate ty (Some idx) = gen_events ty [] (expected_events ty (flat_map snd idx)).
Proof.
  intros OK B. destruct (index_complete ty P OK) as (idx' & B' & C & Pm). rewrite B in B'. injection B' as <-.
  split; [exact Pm|]. apply gen_index_flat; [|exact C].
  rewrite Pm. exact (forallb_Forall _ _ _ (fun p H => H) OK).
Qed.

(* success: the generated family holds exactly the prescribed delegations *)
Lemma generate_ok ty P idx : forallb (pool_ok ty) P = true -> no_conflict P = true -> build_index P = Ok idx ->
  exists G, generate ty (Some idx) = Ok G /\ g_inv ty G /\ Permutation (flatten_g G) (expected_events ty P).
Proof.
  intros OK NC B. destruct (generate_flat ty P idx OK B) as (Pm & ->).
  destruct (gen_events_spec ty (expected_events ty (flat_map snd idx)) [] (conj (NoDup_nil _) (Forall_nil _))
              (expected_types ty _) (NoDup_nil _)) as [(G & E & I & PG) _].
  - cbn [flatten_g flat_map app]. rewrite expected_keys, Pm. apply pair_nodup_NoDup. exact NC.
  - exists G. unfold expected_events in PG. rewrite Pm in PG. tauto.
Qed.

Lemma generate_shape ty P idx : forallb (pool_ok ty) P = true -> no_conflict P = true ->
  build_index P = Ok idx ->
  exists G, generate ty (Some idx) = Ok G /\ NoDup (map fst G) /\
            Forall (fun nd => ds_type (snd nd) = ty) G /\
            Permutation (flatten_g G) (expected_events ty P).
Proof.
  intros OK NC B. destruct (generate_ok ty P idx OK NC B) as (G & E & [ND EI] & PM).
  exists G. repeat split; trivial. eapply Forall_impl; [|exact EI]. intros nd H. apply H.
Qed.

(* conflict: some node would carry two entries under one delegation id *)
Lemma generate_conflict ty P : forallb (pool_ok ty) P = true ->
  forall idx, build_index P = Ok idx -> no_conflict P = false -> generate ty (Some idx) = Err EDelegation.
Proof.
  intros OK idx B NC. destruct (generate_flat ty P idx OK B) as (Pm & ->).
  apply (gen_events_spec ty _ [] (conj (NoDup_nil _) (Forall_nil _)) (expected_types ty _) (NoDup_nil _)).
  cbn [flatten_g flat_map app]. rewrite expected_keys, Pm, <- pair_nodup_NoDup. unfold no_conflict in NC. congruence.
Qed.
