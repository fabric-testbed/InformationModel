(* C10: one node and one service -- the executable validation (Model/Validate10.v) against the declarative
   specification (Model/C10Spec.v), for ARBITRARY tables satisfying the boolean condition table_ok and for
   both settings of the two "what does the code enforce" flags.  The regenerated tables enter only through the
   finite facts at the end. *)
From Coq Require Import List ZArith String Bool Lia Permutation.
From FIM Require Import Base.ListFacts Base.C10Types Gen.Constraints Model.Validate10 Model.C10Pinned Model.C10Spec.
Import ListNotations.
Open Scope Z_scope.

Lemma mem10_In x l : mem x l = true <-> In x l.
Proof. apply (existsb_eqb_In String.eqb String.eqb_eq). Qed.

Lemma mem10_false x l : mem x l = false <-> ~ In x l.
Proof. apply (existsb_eqb_notIn String.eqb String.eqb_eq). Qed.

Lemma check_all_ok A (f : A -> result) l : check_all f l = Ok <-> (forall x, In x l -> f x = Ok).
Proof.
  induction l as [|x r IH]; simpl.
  - split; [intros _ y []| reflexivity].
  - destruct (f x) eqn:E.
    + rewrite IH. split.
      * intros H y [<-|Hy]; [exact E | apply H, Hy].
      * intros H y Hy. apply H. right. exact Hy.
    + split; [discriminate|]. intros H. specialize (H x (or_introl eq_refl)). congruence.
Qed.

Lemma check_all_iff A (f : A -> result) (P : A -> Prop) l :
  (forall x, In x l -> (f x = Ok <-> P x)) -> (check_all f l = Ok <-> forall x, In x l -> P x).
Proof. intro E. rewrite check_all_ok. split; intros H x Hx; apply (E x Hx), H, Hx. Qed.

Lemma assoc_In A k (l : list (string * A)) v : assoc k l = Some v -> In (k, v) l.
Proof.
  induction l as [|[k' v'] r IH]; simpl; [discriminate|].
  destruct (String.eqb k k') eqn:E.
  - intros [= ->]. apply String.eqb_eq in E. subst. left. reflexivity.
  - intros H. right. apply IH, H.
Qed.

Lemma node_side_spec i e : node_side i = Some e <-> attached_to i e.
Proof.
  unfold node_side, attached_to.
  destruct (String.eqb (i_type i) S_ServicePort) eqn:E.
  - apply String.eqb_eq in E. split.
    + intros H. left. split; [exact E|]. destruct (i_peers i) as [[|p [|q l]]|]; try discriminate.
      inversion H. reflexivity.
    + intros [[_ H]|[H _]]; [rewrite H; reflexivity | contradiction].
  - apply String.eqb_neq in E. split.
    + intros H. right. split; [exact E|]. inversion H. reflexivity.
    + intros [[H _]|[_ H]]; [contradiction | rewrite H; reflexivity].
Qed.

Lemma node_ifaces_spec l : forall eps, node_ifaces l = Some eps <-> Forall2 attached_to l eps.
Proof.
  induction l as [|i r IH]; intros eps; simpl.
  - split; [intros H; inversion H; constructor | intros H; inversion H; reflexivity].
  - split.
    + destruct (node_side i) as [e|] eqn:E; [|discriminate].
      destruct (node_ifaces r) as [r'|] eqn:Er; [|discriminate].
      intros [= <-]. constructor; [apply node_side_spec, E | apply IH; reflexivity].
    + intros H. inversion H as [|i' e r0 eps' Ha Hr]. subst.
      apply node_side_spec in Ha. rewrite Ha. apply IH in Hr. rewrite Hr. reflexivity.
Qed.

Lemma attached_functional l eps eps' : Forall2 attached_to l eps -> Forall2 attached_to l eps' -> eps = eps'.
Proof. rewrite <- !node_ifaces_spec. congruence. Qed.

Lemma owner_sites_spans eps : forall l, owner_sites eps = Some l -> forall a, In a l <-> spans eps a.
Proof.
  unfold spans. induction eps as [|e r IH]; simpl; intros l.
  - intros [= <-] a. split; [intros [] | intros (e & [] & _)].
  - destruct (ep_owner e) as [b|] eqn:E; [|discriminate]. destruct (owner_sites r) as [l'|]; [|discriminate].
    intros [= <-] a. simpl. rewrite (IH l' eq_refl). split.
    + intros [<-|(e' & H1 & H2)]; [exists e | exists e']; auto.
    + intros (e' & [<-|H1] & H2); [left; congruence | right; exists e'; auto].
Qed.

Lemma owner_sites_some eps : (exists l, owner_sites eps = Some l) <-> (forall e, In e eps -> ep_owner e <> None).
Proof.
  induction eps as [|e r IH]; simpl.
  - split; [intros _ e [] | intros _; exists []; reflexivity].
  - destruct (ep_owner e) as [a|] eqn:E.
    + destruct (owner_sites r) as [l|]; split.
      * intros _ e' [<-|H]; [congruence | apply IH; eauto].
      * intros _. eexists. reflexivity.
      * intros [l [=]].
      * intros H. destruct (proj2 IH) as [l [=]]. intros e' He'. apply H. right. exact He'.
    + split; [intros [l [=]] | intros H; destruct (H e (or_introl eq_refl) E)].
Qed.

(* two duplicate-free lists with the same members have the same shape as far as validation looks *)
Lemma same_members_perm : forall (s1 s2 : list osite), NoDup s1 -> NoDup s2 ->
  (forall a, In a s1 <-> In a s2) -> Permutation s1 s2.
Proof. intros. apply NoDup_Permutation; assumption. Qed.

(* the last clause of site_rule, over the declared site and the duplicate-free list of sites spanned *)
Definition site_case (agree : bool) (decl : osite) (sites : list osite) (after : osite) : Prop :=
  (sites = [] /\ after = decl) \/
  (exists a, sites = [a] /\
     ((decl = None /\ after = a) \/
      (exists d, decl = Some d /\ after = Some d /\ (agree = true -> a = Some d)))) \/
  ((2 <= List.length sites)%nat /\ decl = None /\ after = None).

(* what the code does with the set of sites: the site afterwards, or the exception *)
Definition site_pick (agree : bool) (decl : osite) (sites : list osite) : osite + exn :=
  match sites, decl with
  | [], _ => inl decl
  | [a], None => inl a
  | [a], Some d => if agree && negb (if osite_eq_dec a (Some d) then true else false) then inr ETopology else inl decl
  | _, Some _ => inr ETopology
  | _, None => inl None
  end.

Lemma site_pick_spec agree decl sites after : site_pick agree decl sites = inl after <-> site_case agree decl sites after.
Proof.
  unfold site_case. destruct sites as [|a [|b t]]; simpl.
  - split; [intros [= <-]; auto|]. intros [[_ ->]|[(a & [=] & _)|(H & _)]]; [reflexivity | lia].
  - split.
    + intros H. right. left. exists a. split; [reflexivity|]. destruct decl as [d|]; [|left; inversion H; auto].
      right. exists d. destruct agree; simpl in H; [destruct (osite_eq_dec a (Some d)); [|discriminate]|];
        inversion H; auto; split; [reflexivity|]; split; [reflexivity|discriminate].
    + intros [[[=] _]|[(a' & [= <-] & [[-> ->]|(d & -> & -> & Hag)])|(H & _)]]; [reflexivity| |lia].
      destruct agree; [|reflexivity]. simpl. rewrite (Hag eq_refl).
      destruct (osite_eq_dec (Some d) (Some d)); [reflexivity|congruence].
  - split.
    + intros H. right. right. destruct decl; inversion H. split; [lia|auto].
    + intros [[[=] _]|[(a' & [=] & _)|(_ & -> & ->)]]. reflexivity.
Qed.

Lemma site_case_perm agree decl l l' after : Permutation l l' -> site_case agree decl l after -> site_case agree decl l' after.
Proof.
  intros HP [[-> H]|[(a & -> & H)|(H & H')]].
  - apply Permutation_nil in HP. subst. left. auto.
  - apply Permutation_length_1_inv in HP. subst. right. left. eauto.
  - right. right. rewrite <- (Permutation_length HP). auto.
Qed.

Lemma site_pick_stable agree decl sites after : site_pick agree decl sites = inl after -> site_pick agree after sites = inl after.
Proof.
  destruct sites as [|a [|b t]], decl as [d|]; simpl; try (intros [= <-]; reflexivity); try discriminate.
  - destruct (agree && _) eqn:E; [discriminate|]. intros [= <-]. rewrite E. reflexivity.
  - intros [= <-]. destruct a as [x|]; [|reflexivity].
    destruct (osite_eq_dec (Some x) (Some x)); [rewrite andb_false_r; reflexivity|congruence].
Qed.

Lemma site_case_single agree decl x after : site_case agree decl [x] after ->
  (decl = None /\ after = x) \/ (exists d, decl = Some d /\ after = Some d /\ (agree = true -> x = Some d)).
Proof. intros [[[=] _]|[(a & [= <-] & H)|(H & _)]]; [exact H | simpl in H; lia]. Qed.

Lemma site_case_declared agree d sites after : site_case agree (Some d) sites after -> after = Some d.
Proof. intros [[_ H]|[(a & _ & [[H _]|(d' & H1 & H2 & _)])|(_ & H & _)]]; congruence. Qed.

(* the agreement flag matters in one case only: a declared site d on a service whose nodes are all at x *)
Lemma site_case_flag agree agree' decl sites after :
  (forall x d, sites = [x] -> decl = Some d -> (agree = true -> x = Some d) -> x = Some d) ->
  site_case agree decl sites after -> site_case agree' decl sites after.
Proof.
  intros Hx [H|[(a & -> & [H|(d & Hd & Ha & Hag)])|H]];
    [left; exact H | right; left; exists a; auto | | right; right; exact H].
  right. left. exists a. split; [reflexivity|]. right. exists d. split; [exact Hd|]. split; [exact Ha|].
  intros _. exact (Hx a d eq_refl Hd Hag).
Qed.

Lemma site_case_weaken agree decl sites after : site_case true decl sites after -> site_case agree decl sites after.
Proof. apply site_case_flag. intros x d _ _ H. exact (H eq_refl). Qed.

Lemma site_case_strengthen agree decl sites after :
  (forall x d, sites = [x] -> decl = Some d -> x = Some d) ->
  site_case agree decl sites after -> site_case true decl sites after.
Proof. intros Hx. apply site_case_flag. intros x d E Hd _. exact (Hx x d E Hd). Qed.

Lemma site_pick_class agree decl sites e : site_pick agree decl sites = inr e -> e = ETopology.
Proof.
  destruct sites as [|a [|b t]], decl as [d|]; simpl; try discriminate; [destruct (agree && _)|]; congruence.
Qed.

Section Tables.
Variable T : tables.

(* the site part of __validate_nstype_constraints *)
Definition site_phase (agree : bool) (r : svc_rec) (decl : osite) (eps : list endpoint) : osite + exn :=
  if sc_num_sites r =? t_no_limit T then inl decl
  else match owner_sites eps with
       | None => inr EAttribute
       | Some l => if Z.of_nat (List.length (nodup osite_eq_dec l)) >? sc_num_sites r then inr ETopology
                   else site_pick agree decl (nodup osite_eq_dec l)
       end.

(* site_rule read through site_case (the two are the same text, so this is by conversion) *)
Lemma site_rule_cases agree r s eps after : site_rule T agree r s eps after <->
  (sc_num_sites r = t_no_limit T /\ after = s_site s) \/
  (sc_num_sites r <> t_no_limit T /\ (forall e, In e eps -> ep_owner e <> None) /\
   exists sites, NoDup sites /\ (forall a, In a sites <-> spans eps a) /\
     Z.of_nat (List.length sites) <= sc_num_sites r /\ site_case agree (s_site s) sites after).
Proof. reflexivity. Qed.

Lemma site_rule_map agree agree' r s eps after :
  (sc_num_sites r <> t_no_limit T -> forall sites, NoDup sites -> (forall a, In a sites <-> spans eps a) ->
     site_case agree (s_site s) sites after -> site_case agree' (s_site s) sites after) ->
  site_rule T agree r s eps after -> site_rule T agree' r s eps after.
Proof.
  rewrite !site_rule_cases. intros H [Hn|(Hns & Hown & sites & Hnd & Hin & Hlen & Hc)]; [left; exact Hn|].
  right. split; [exact Hns|]. split; [exact Hown|]. exists sites. auto using H.
Qed.

(* the parts of svc_ok the slice-level lemmas look at *)
Lemma svc_ok_parts agree s after : svc_ok T agree s after ->
  exists r eps, assoc (s_type s) (t_services T) = Some r /\ Forall2 attached_to (s_ifaces s) eps /\
    site_rule T agree r s eps after /\ (sc_itypes r <> [] -> forall e, In e eps -> In (ep_type e) (sc_itypes r)).
Proof. intros (r & eps & Ha & He & _ & _ & Hs & _ & _ & Ht). exists r, eps. auto. Qed.

Lemma site_phase_spec agree r s eps after :
  site_phase agree r (s_site s) eps = inl after <-> site_rule T agree r s eps after.
Proof.
  rewrite site_rule_cases. unfold site_phase.
  destruct (sc_num_sites r =? t_no_limit T) eqn:Ens.
  { split; [intros [= <-]; left; split; [lia|reflexivity] | intros [[_ ->]|[H _]]; [reflexivity|lia]]. }
  destruct (owner_sites eps) as [l|] eqn:Eo.
  2: { split; [discriminate|]. intros [[H _]|(_ & Hown & _)]; [lia|].
       apply owner_sites_some in Hown as [l El]. congruence. }
  pose proof (NoDup_nodup osite_eq_dec l) as Hnd.
  assert (Hin : forall a, In a (nodup osite_eq_dec l) <-> spans eps a).
  { intros a. rewrite nodup_In. apply owner_sites_spans, Eo. }
  split.
  - destruct (_ >? _) eqn:Ecnt; [discriminate|]. intros H. right. split; [lia|].
    split; [apply owner_sites_some; eauto|]. exists (nodup osite_eq_dec l).
    split; [exact Hnd|]. split; [exact Hin|]. split; [lia | apply site_pick_spec, H].
  - intros [[H _]|(_ & _ & sites & Hnd' & Hin' & Hlen & Hc)]; [lia|].
    assert (HP : Permutation sites (nodup osite_eq_dec l)).
    { apply same_members_perm; [assumption..|]. intros a. rewrite Hin, Hin'. reflexivity. }
    rewrite <- (Permutation_length HP). replace (_ >? _) with false by lia.
    apply site_pick_spec, (site_case_perm _ _ _ _ _ HP), Hc.
Qed.

Lemma site_phase_stable agree r decl eps after :
  site_phase agree r decl eps = inl after -> site_phase agree r after eps = inl after.
Proof.
  unfold site_phase. destruct (_ =? _); [intros [= <-]; reflexivity|].
  destruct (owner_sites eps); [|discriminate]. destruct (_ >? _); [discriminate | apply site_pick_stable].
Qed.

(* with every interface owned (or no site limit) the site phase cannot raise AttributeError *)
Lemma site_phase_class es r decl eps e :
  (sc_num_sites r =? t_no_limit T) || forallb endpoint_owned eps = true ->
  site_phase es r decl eps = inr e -> e = ETopology.
Proof.
  unfold site_phase. destruct (_ =? _); [discriminate|]. simpl. intros Hown.
  destruct (owner_sites eps) eqn:Eo.
  - destruct (_ >? _); [congruence | apply site_pick_class].
  - assert (exists l, owner_sites eps = Some l) as [l El]; [|congruence]. apply owner_sites_some. intros e' He'.
    rewrite forallb_forall in Hown. specialize (Hown e' He'). unfold endpoint_owned in Hown.
    destruct (ep_owner e'); discriminate.
Qed.

Definition count_bad (r : svc_rec) (n : Z) : bool :=
  negb (sc_min_interfaces r =? NL T) && (n <? sc_min_interfaces r) ||
  negb (sc_num_interfaces r =? NL T) && (n >? sc_num_interfaces r).

Lemma count_bad_false r n : count_bad r n = false <->
  (sc_min_interfaces r = no_limit T \/ sc_min_interfaces r <= n) /\
  (sc_num_interfaces r = no_limit T \/ n <= sc_num_interfaces r).
Proof. unfold count_bad, NL, no_limit. lia. Qed.

(* validate_service, phase by phase: table entry, node-side endpoints, interface counts, sites (the site
   is written before the property checks and kept when they fail), properties *)
Lemma validate_service_eq agree s : validate_service T agree s =
  match assoc (s_type s) (t_services T) with
  | None => (s_site s, Err EKey)
  | Some r =>
      match node_ifaces (s_ifaces s) with
      | None => (s_site s, Err ETopology)
      | Some eps =>
          if count_bad r (Z.of_nat (List.length eps)) then (s_site s, Err ETopology)
          else match site_phase agree r (s_site s) eps with
               | inl after => (after, check_props r s eps after)
               | inr e => (s_site s, Err e)
               end
      end
  end.
Proof.
  unfold validate_service, count_bad, site_phase, NL.
  destruct (assoc _ _) as [r|]; [|reflexivity]. destruct (node_ifaces _) as [eps|]; [|reflexivity].
  destruct (negb _ && (_ <? _)); [reflexivity|]. destruct (negb _ && (_ >? _)); [reflexivity|]. cbn [orb].
  destruct (sc_num_sites r =? t_no_limit T); [reflexivity|]. cbn [negb andb].
  destruct (owner_sites eps) as [l|]; [|reflexivity]. cbn [option_map].
  destruct (_ >? _); [reflexivity|].
  destruct (nodup osite_eq_dec l) as [|a [|b t]]; [reflexivity| |]; destruct (s_site s); try reflexivity.
  cbn [site_pick]. destruct (agree && _); reflexivity.
Qed.

Hypothesis Hok : table_ok T = true.

Lemma table_ok_service k r : assoc k (t_services T) = Some r ->
  sc_num_instances r = t_no_limit T /\
  (forall p, In p (sc_required r) -> mem p ns_getters = true) /\
  (forall p, In p (sc_forbidden r) -> mem p ns_getters = true).
Proof.
  intros Ha. pose proof Hok as H. unfold table_ok in H. apply andb_true_iff in H as [Hs _].
  rewrite forallb_forall in Hs. specialize (Hs _ (assoc_In _ _ _ _ Ha)). cbn [snd] in Hs.
  apply andb_true_iff in Hs as [Hs Hf]. apply andb_true_iff in Hs as [Hi Hr].
  rewrite forallb_forall in Hr, Hf. apply Z.eqb_eq in Hi. auto.
Qed.

Lemma table_ok_node k r : assoc k (t_nodes T) = Some r ->
  forall p, In p (nc_required r) -> mem p node_getters = true.
Proof.
  intros Ha. pose proof Hok as H. unfold table_ok in H. apply andb_true_iff in H as [_ Hn].
  rewrite forallb_forall in Hn. specialize (Hn _ (assoc_In _ _ _ _ Ha)). cbn [snd] in Hn.
  rewrite forallb_forall in Hn. exact Hn.
Qed.

Lemma validate_node_spec n : validate_node T n = Ok <-> node_allowed T n.
Proof.
  unfold validate_node, node_allowed. destruct (assoc (n_type n) (t_nodes T)) as [r|] eqn:Ha.
  2: { split; [discriminate | intros (r & [=] & _)]. }
  assert (forallb (fun p => mem p node_getters && mem p (n_set n)) (nc_required r) = true <->
          (forall p, In p (nc_required r) -> In p (n_set n))) as R.
  { rewrite forallb_forall. split; intros H p Hp; specialize (H p Hp).
    - apply andb_true_iff in H. apply mem10_In, H.
    - rewrite (table_ok_node _ _ Ha p Hp). apply mem10_In, H. }
  assert (existsb (fun p => mem p (n_set n)) (nc_forbidden r) = false <->
          (forall p, In p (nc_forbidden r) -> ~ In p (n_set n))) as F.
  { rewrite <- not_true_iff_false, existsb_exists. split.
    - intros H p Hp Hi. apply H. exists p. split; [exact Hp | apply mem10_In, Hi].
    - intros H (p & Hp & Hm). apply (H p Hp), mem10_In, Hm. }
  transitivity (forallb (fun p => mem p node_getters && mem p (n_set n)) (nc_required r) = true /\
                existsb (fun p => mem p (n_set n)) (nc_forbidden r) = false).
  - destruct (forallb _ _), (existsb _ _); split; try discriminate; auto; intros [? ?]; discriminate.
  - rewrite R, F. split; [intros H; exists r; auto | intros (r' & [= <-] & H); exact H].
Qed.

Lemma visible_spec cf n : visible cf n = true <-> node_in_scope cf n.
Proof.
  unfold visible, node_in_scope. rewrite orb_true_iff, negb_true_iff. split.
  - intros [H|H]; [left; exact H|right]. apply String.eqb_neq, H.
  - intros [H|H]; [left; exact H|right]. apply String.eqb_neq, H.
Qed.

Lemma nodes_spec cf l :
  check_all (validate_node T) (filter (visible cf) l) = Ok <->
  (forall n, In n l -> node_in_scope cf n -> node_allowed T n).
Proof.
  rewrite check_all_ok. split.
  - intros H n Hn Hs. apply validate_node_spec, H, filter_In. split; [exact Hn | apply visible_spec, Hs].
  - intros H n Hn. apply filter_In in Hn. destruct Hn as [Hn Hv]. apply validate_node_spec.
    apply H; [exact Hn | apply visible_spec, Hv].
Qed.

Lemma svc_has_spec s after p : svc_has s after p = true <-> has_prop s after p.
Proof.
  unfold svc_has, has_prop. destruct (String.eqb p S_site) eqn:E.
  - apply String.eqb_eq in E. split.
    + intros H. left. split; [exact E|]. destruct after; discriminate.
    + intros [[_ H]|[H _]]; [destruct after; [reflexivity|congruence] | contradiction].
  - apply String.eqb_neq in E. rewrite mem10_In. split.
    + intros H. right. auto.
    + intros [[H _]|[_ H]]; [contradiction|exact H].
Qed.

Lemma check_getter_ok s after p : mem p ns_getters = true ->
  (check_required s after p = Ok <-> has_prop s after p) /\ (check_forbidden s after p = Ok <-> ~ has_prop s after p).
Proof.
  intro G. unfold check_required, check_forbidden. rewrite G, <- svc_has_spec.
  destruct (svc_has s after p); split; split; intro H; try discriminate; try reflexivity. destruct (H eq_refl).
Qed.

Lemma check_props_spec r s eps after k : assoc k (t_services T) = Some r ->
  (check_props r s eps after = Ok <->
   (forall p, In p (sc_required r) -> has_prop s after p) /\
   (forall p, In p (sc_forbidden r) -> ~ has_prop s after p) /\
   (sc_itypes r <> [] -> forall e, In e eps -> In (ep_type e) (sc_itypes r))).
Proof.
  intros Ha. destruct (table_ok_service k r Ha) as (_ & Hgr & Hgf).
  assert ((match sc_itypes r with [] => true | rit => forallb (fun e => mem (ep_type e) rit) eps end) = true <->
          (sc_itypes r <> [] -> forall e, In e eps -> In (ep_type e) (sc_itypes r))) as I.
  { destruct (sc_itypes r) as [|t rit]; [split; [intros _ []; reflexivity | reflexivity]|].
    rewrite forallb_forall. split; [intros H _ e He; apply mem10_In, H, He|].
    intros H e He. apply mem10_In, H; [discriminate | exact He]. }
  rewrite <- (check_all_iff _ _ _ _ (fun p Hp => proj1 (check_getter_ok s after p (Hgr p Hp)))),
          <- (check_all_iff _ _ _ _ (fun p Hp => proj2 (check_getter_ok s after p (Hgf p Hp)))), <- I.
  unfold check_props.
  destruct (check_all (check_required _ _) _); [|split; [discriminate | intros [[=] _]]].
  destruct (check_all (check_forbidden _ _) _); [|split; [discriminate | intros (_ & [=] & _)]].
  destruct (sc_itypes r) as [|t rit]; [tauto|].
  destruct (forallb _ eps); [tauto | split; [discriminate | intros (_ & _ & [=])]].
Qed.

Lemma validate_service_spec agree s after : validate_service T agree s = (after, Ok) <-> svc_ok T agree s after.
Proof.
  rewrite validate_service_eq. unfold svc_ok. split.
  - destruct (assoc _ _) as [r|] eqn:Ha; [|discriminate]. destruct (node_ifaces _) as [eps|] eqn:He; [|discriminate].
    destruct (count_bad _ _) eqn:Ec; [discriminate|]. destruct (site_phase _ _ _ _) as [a|e] eqn:Es; [|discriminate].
    intros [= -> Hp]. exists r, eps. apply node_ifaces_spec in He. apply count_bad_false in Ec. apply site_phase_spec in Es.
    apply (check_props_spec _ _ _ _ _ Ha) in Hp. destruct Ec as [Hmin Hmax].
    exact (conj eq_refl (conj He (conj Hmin (conj Hmax (conj Es Hp))))).
  - intros (r & eps & Ha & He & Hmin & Hmax & Hs & Hp). apply node_ifaces_spec in He. rewrite Ha, He.
    rewrite (proj2 (count_bad_false _ _) (conj Hmin Hmax)), (proj2 (site_phase_spec _ _ _ _ _) Hs).
    f_equal. apply (check_props_spec _ _ _ _ _ Ha), Hp.
Qed.

(* the recorded site is determined by the slice *)
Lemma svc_ok_unique agree s a b : svc_ok T agree s a -> svc_ok T agree s b -> a = b.
Proof. rewrite <- !validate_service_spec. congruence. Qed.

Lemma validate_services_spec agree l : forall sts,
  validate_services T agree l = (sts, Ok) <-> Forall2 (svc_ok T agree) l sts.
Proof.
  induction l as [|s r IH]; intros sts; simpl.
  - split; [intros H; inversion H; constructor | intros H; inversion H; reflexivity].
  - destruct (validate_service T agree s) as [st res] eqn:Es. destruct res as [|e].
    + destruct (validate_services T agree r) as [sts' res'] eqn:Er. split.
      * intros [= <- ->]. constructor; [apply validate_service_spec, Es | apply IH; reflexivity].
      * intros H. inversion H as [|s' a r0 l' Hs Hr]. subst.
        apply validate_service_spec in Hs. rewrite Es in Hs. apply IH in Hr. congruence.
    + split; [discriminate|].
      intros H. inversion H as [|s' a r0 l' Hs Hr]. subst.
      apply validate_service_spec in Hs. congruence.
Qed.

End Tables.

Lemma gen_tables_ok_true : gen_ok = true.
Proof. reflexivity. Qed.

(* the source's tables, enums and guardrail are exactly the pinned specification *)
Lemma table_pinned : gen_tables = pinned_tables.
Proof. reflexivity. Qed.

Lemma pinned_table_ok : table_ok pinned_tables = true.
Proof. vm_compute. reflexivity. Qed.

Lemma pinned_tables_total : tables_total pinned_tables = true.
Proof. vm_compute. reflexivity. Qed.

Lemma pinned_guard_consistent : guard_consistent pinned_tables = true.
Proof. vm_compute. reflexivity. Qed.
