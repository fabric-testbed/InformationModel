(* C10: the slice-level theorems.  Generic part (any tables with table_ok, any flag setting): the equivalence
   with the specification, what the two flags weaken, the recorded site, order independence, the class of the
   exception, the connect-time guardrail; then the instances for the pinned tables and the current code and the
   non-vacuity examples. *)
From Coq Require Import List ZArith String Bool Lia Permutation.
From FIM Require Import Base.ListFacts Base.C10Types Gen.Constraints Model.Validate10 Model.C10Pinned Model.C10Spec
  Proofs.Validate10Lemmas.
Import ListNotations.
Open Scope Z_scope.

Section Generic.
Variable T : tables.

Lemma svc_ok_impl es es' s after :
  (forall r eps, assoc (s_type s) (t_services T) = Some r -> Forall2 attached_to (s_ifaces s) eps ->
     site_rule T es r s eps after -> site_rule T es' r s eps after) ->
  svc_ok T es s after -> svc_ok T es' s after.
Proof. intros H (r & eps & Ha & He & Hs). exists r, eps. specialize (H r eps Ha He). tauto. Qed.

(* the full specification implies every weakened one *)
Lemma allowed_mono cf es sl : allowed T true true sl -> allowed T cf es sl.
Proof.
  intros [Hn Hs]. split.
  - intros n Hin _. apply Hn; [exact Hin|]. left. reflexivity.
  - intros s Hin. destruct (Hs s Hin) as [a Ha]. exists a. revert Ha. apply svc_ok_impl. intros r eps _ _.
    apply site_rule_map. intros _ sites _ _. apply site_case_weaken.
Qed.

(* what exactly a weakened specification misses: the two hypotheses restore the full one *)
Lemma allowed_strengthen cf es sl : allowed T cf es sl ->
  facilities_meet_constraints T sl -> declared_sites_agree T sl -> allowed T true true sl.
Proof.
  intros [Hn Hs] Hfac Hdecl. split.
  - intros n Hin _. destruct (String.eqb (n_type n) S_Facility) eqn:E.
    + apply String.eqb_eq in E. apply Hfac; assumption.
    + apply String.eqb_neq in E. apply Hn; [exact Hin|]. right. exact E.
  - intros s Hin. destruct (Hs s Hin) as [a Ha]. exists a. revert Ha. apply svc_ok_impl. intros r eps Hr He.
    apply site_rule_map. intros Hns sites _ Hmem. apply site_case_strengthen. intros x d -> Hd.
    apply (Hdecl s r eps d x Hin Hr Hns He Hd). intros b. rewrite <- Hmem. simpl. split; [intros [H|[]]; auto | auto].
Qed.

(* a site-limited service all of whose nodes are at the one site a *)
Lemma svc_ok_single_site es s after r eps a : svc_ok T es s after ->
  assoc (s_type s) (t_services T) = Some r -> sc_num_sites r <> t_no_limit T ->
  Forall2 attached_to (s_ifaces s) eps -> (forall b, spans eps b <-> b = a) ->
  (s_site s = None /\ after = a) \/
  (exists d, s_site s = Some d /\ after = Some d /\ (es = true -> a = Some d)).
Proof.
  intros H Ha Hns He Hsp. destruct (svc_ok_parts _ _ _ _ H) as (r' & eps' & H1 & H2 & H5 & _).
  rewrite Ha in H1. injection H1 as <-. rewrite (attached_functional _ _ _ H2 He) in H5.
  apply site_rule_cases in H5 as [[Hn _]|(_ & _ & sites & Hnd & Hmem & _ & Hc)]; [contradiction|].
  assert (sites = [a]) as ->.
  { apply NoDup_singleton; [exact Hnd|]. intros b. rewrite Hmem. apply Hsp. }
  exact (site_case_single _ _ _ _ Hc).
Qed.

Lemma recorded_inferred es s after r eps a : svc_ok T es s after ->
  assoc (s_type s) (t_services T) = Some r -> sc_num_sites r <> t_no_limit T ->
  Forall2 attached_to (s_ifaces s) eps -> (forall b, spans eps b <-> b = a) ->
  s_site s = None -> after = a.
Proof.
  intros H Ha Hns He Hsp Hnone.
  destruct (svc_ok_single_site _ _ _ _ _ _ H Ha Hns He Hsp) as [[_ H']|(d & Hd & _)]; congruence.
Qed.

Lemma recorded_declared es s d after : svc_ok T es s after -> s_site s = Some d -> after = Some d.
Proof.
  intros H Hd. destruct (svc_ok_parts _ _ _ _ H) as (r & eps & _ & _ & H5 & _).
  apply site_rule_cases in H5 as [[_ H']|(_ & _ & sites & _ & _ & _ & Hc)]; [congruence|].
  rewrite Hd in Hc. exact (site_case_declared _ _ _ _ Hc).
Qed.

(* conversely the full specification implies the two hypotheses (used for the non-vacuity examples) *)
Lemma allowed_facilities sl : allowed T true true sl -> facilities_meet_constraints T sl.
Proof. intros [Hn _] n Hin _. apply Hn; [exact Hin|]. left. reflexivity. Qed.

Lemma allowed_declared_agree sl : allowed T true true sl -> declared_sites_agree T sl.
Proof.
  intros [_ Hs] s r eps d a Hin Ha Hns He Hd Hsp. destruct (Hs s Hin) as [aft H].
  destruct (svc_ok_single_site _ _ _ _ _ _ H Ha Hns He Hsp) as [[H' _]|(d' & Hd' & _ & Hag)]; [congruence|].
  rewrite (Hag eq_refl). congruence.
Qed.

Lemma allowed_perm cf es n n' s s' : Permutation n n' -> Permutation s s' ->
  allowed T cf es (mk_slice n s) -> allowed T cf es (mk_slice n' s').
Proof.
  intros Hn Hs [H1 H2]. simpl in *. split; simpl.
  - intros x Hx. apply H1. apply (Permutation_in x (Permutation_sym Hn) Hx).
  - intros x Hx. apply H2. apply (Permutation_in x (Permutation_sym Hs) Hx).
Qed.

Lemma guard_refuses_iff st it : guard T st it <> Ok <-> In (st, it) (t_guardrails T).
Proof.
  unfold guard.
  transitivity (existsb (fun p => String.eqb (fst p) st && String.eqb (snd p) it) (t_guardrails T) = true).
  - destruct (existsb _ _); split; try discriminate; [reflexivity | intro H; destruct (H eq_refl)].
  - rewrite existsb_exists. split.
    + intros ([a b] & Hin & He). cbn [fst snd] in He.
      apply andb_true_iff in He as [->%String.eqb_eq ->%String.eqb_eq]. exact Hin.
    + intro Hin. exists (st, it). cbn [fst snd]. rewrite !String.eqb_refl. auto.
Qed.

Hypothesis Hok : table_ok T = true.

Lemma instance_limited_never l : existsb (instance_limited T) l = false.
Proof.
  induction l as [|s r IH]; simpl; [reflexivity|]. rewrite IH, orb_false_r. unfold instance_limited.
  destruct (assoc (s_type s) (t_services T)) as [rc|] eqn:Ha; [|reflexivity].
  destruct (table_ok_service T Hok _ _ Ha) as [Hi _]. unfold NL. rewrite Hi, Z.eqb_refl. reflexivity.
Qed.

Lemma validate_spec cf es sl sts :
  validate T cf es sl = (sts, Ok) <->
  (forall n, In n (sl_nodes sl) -> node_in_scope cf n -> node_allowed T n) /\
  Forall2 (svc_ok T es) (sl_services sl) sts.
Proof.
  unfold validate. rewrite <- (nodes_spec T Hok), <- (validate_services_spec T Hok).
  destruct (check_all _ _) as [|e].
  - destruct (validate_services T es (sl_services sl)) as [sts' res].
    rewrite instance_limited_never. destruct res; split; try tauto; intros [_ H]; exact H.
  - split; [discriminate | intros [[=] _]].
Qed.

Theorem validate_iff cf es sl : snd (validate T cf es sl) = Ok <-> allowed T cf es sl.
Proof.
  unfold allowed. split.
  - intros H. destruct (validate T cf es sl) as [sts res] eqn:E. simpl in H. subst res.
    apply validate_spec in E. destruct E as [Hn Hs]. split; [exact Hn|].
    intros s Hin. destruct (Forall2_in_l _ _ _ s Hs Hin) as [a [_ Ha]]. exists a. exact Ha.
  - intros [Hn Hs]. destruct (forall_exists_Forall2 (svc_ok T es) (sl_services sl) Hs) as [sts Hsts].
    rewrite (proj2 (validate_spec cf es sl sts) (conj Hn Hsts)). reflexivity.
Qed.

Theorem validate_order_independent cf es n n' s s' : Permutation n n' -> Permutation s s' ->
  (snd (validate T cf es (mk_slice n s)) = Ok <-> snd (validate T cf es (mk_slice n' s')) = Ok).
Proof. intros Hn Hs. rewrite !validate_iff. split; apply allowed_perm; auto using Permutation_sym. Qed.

Definition ok_or_topology (r : result) : Prop := r = Ok \/ r = Err ETopology.

Lemma check_all_class A (f : A -> result) l :
  (forall x, In x l -> ok_or_topology (f x)) -> ok_or_topology (check_all f l).
Proof.
  unfold ok_or_topology. induction l as [|x r IH]; intros H; simpl; [left; reflexivity|].
  destruct (H x (or_introl eq_refl)) as [E|E]; rewrite E; [|right; reflexivity].
  apply IH. intros y Hy. apply H. right. exact Hy.
Qed.

Lemma check_props_class r s eps a k : assoc k (t_services T) = Some r -> ok_or_topology (check_props r s eps a).
Proof.
  intros Ha. destruct (table_ok_service T Hok k r Ha) as [_ [Hgr Hgf]]. unfold check_props.
  destruct (check_all_class _ (check_required s a) (sc_required r)) as [E|E].
  { intros p Hp. unfold check_required. rewrite (Hgr p Hp). destruct (svc_has s a p); [left|right]; reflexivity. }
  2: { rewrite E. right. reflexivity. }
  rewrite E.
  destruct (check_all_class _ (check_forbidden s a) (sc_forbidden r)) as [F|F].
  { intros p Hp. unfold check_forbidden. rewrite (Hgf p Hp). destruct (svc_has s a p); [right|left]; reflexivity. }
  2: { rewrite F. right. reflexivity. }
  rewrite F. destruct (sc_itypes r); [left; reflexivity|]. destruct (forallb _ eps); [left|right]; reflexivity.
Qed.

Lemma validate_service_class es s : svc_wf T s = true -> ok_or_topology (snd (validate_service T es s)).
Proof.
  unfold svc_wf. rewrite validate_service_eq.
  destruct (assoc _ _) as [r|] eqn:Ha; [|discriminate]. destruct (node_ifaces _) as [eps|]; [|right; reflexivity].
  destruct (count_bad _ _ _); [right; reflexivity|]. intros Hwf.
  destruct (site_phase _ _ _ _ _) as [a|e] eqn:E; simpl.
  - apply (check_props_class _ _ _ _ _ Ha).
  - right. f_equal. apply (site_phase_class _ _ _ _ _ _ Hwf E).
Qed.

Lemma validate_services_class es l : forallb (svc_wf T) l = true -> ok_or_topology (snd (validate_services T es l)).
Proof.
  induction l as [|s r IH]; intros H; simpl; [left; reflexivity|].
  simpl in H. apply andb_true_iff in H. destruct H as [Hs Hr].
  pose proof (validate_service_class es s Hs) as C.
  destruct (validate_service T es s) as [st res]. simpl in C.
  destruct C as [C|C]; subst res; [|right; reflexivity].
  specialize (IH Hr). destruct (validate_services T es r) as [sts res']. exact IH.
Qed.

Lemma validate_node_class n : is_some (assoc (n_type n) (t_nodes T)) = true -> ok_or_topology (validate_node T n).
Proof.
  intros H. unfold validate_node. destruct (assoc (n_type n) (t_nodes T)); [|discriminate].
  destruct (forallb _ _); [|right; reflexivity]. destruct (existsb _ _); [right|left]; reflexivity.
Qed.

(* on well-formed input a rejection is always the documented TopologyException *)
Theorem validate_class cf es sl : slice_wf T sl = true -> ok_or_topology (snd (validate T cf es sl)).
Proof.
  intros H. unfold slice_wf in H. apply andb_true_iff in H. destruct H as [Hn Hs]. unfold validate.
  destruct (check_all_class _ (validate_node T) (filter (visible cf) (sl_nodes sl))) as [E|E].
  { intros n Hin. apply filter_In in Hin. destruct Hin as [Hin _]. apply validate_node_class.
    rewrite forallb_forall in Hn. apply Hn, Hin. }
  2: { rewrite E. right. reflexivity. }
  rewrite E. pose proof (validate_services_class es (sl_services sl) Hs) as C.
  destruct (validate_services T es (sl_services sl)) as [sts res]. simpl in C.
  rewrite instance_limited_never. destruct C as [C|C]; subst res; [left|right]; reflexivity.
Qed.

(* a refused combination is one no valid slice contains *)
Lemma guard_only_unsupported : guard_consistent T = true ->
  forall st it, guard T st it <> Ok ->
  forall cf es sl s i e, In s (sl_services sl) -> s_type s = st -> In i (s_ifaces s) -> attached_to i e ->
    ep_type e = it -> snd (validate T cf es sl) <> Ok.
Proof.
  intros Hgc st it Hg cf es sl s i e Hs Hst Hi Hat Het Hv.
  apply guard_refuses_iff in Hg. unfold guard_consistent in Hgc. rewrite forallb_forall in Hgc.
  specialize (Hgc _ Hg). cbn [fst snd] in Hgc.
  apply validate_iff in Hv. destruct Hv as [_ Hv]. destruct (Hv s Hs) as [a Ha]. destruct (svc_ok_parts _ _ _ _ Ha) as (r & eps & H1 & H2 & _ & H8).
  rewrite Hst in H1. rewrite H1 in Hgc.
  destruct (sc_itypes r) as [|t rit] eqn:Er; [discriminate|].
  apply negb_true_iff in Hgc. apply mem10_false in Hgc. apply Hgc. rewrite <- Het.
  destruct (Forall2_in_l _ _ _ i H2 Hi) as (e' & He' & Hat').
  apply node_side_spec in Hat, Hat'. rewrite Hat in Hat'. injection Hat' as <-.
  apply H8; [discriminate|exact He'].
Qed.

End Generic.

Definition allowed_full := allowed pinned_tables true true.

(* the current code validates against the regenerated tables, which are the pinned ones *)
Lemma validate_cur_pinned : validate_cur = validate pinned_tables cur_checks_facilities cur_enforces_declared_site.
Proof. unfold validate_cur. rewrite table_pinned. reflexivity. Qed.

Theorem validate_cur_exact : forall sl,
  snd (validate_cur sl) = Ok <-> allowed pinned_tables cur_checks_facilities cur_enforces_declared_site sl.
Proof. rewrite validate_cur_pinned. apply validate_iff, pinned_table_ok. Qed.

Theorem connect_interface_guarded : forall st it,
  connect_method gen_tables cur_connect_interface_guarded st it = connect_ctor gen_tables st it.
Proof. reflexivity. Qed.

Theorem validate_cur_complete : forall sl, allowed_full sl -> snd (validate_cur sl) = Ok.
Proof. intros sl H. apply validate_cur_exact, allowed_mono, H. Qed.

Theorem validate_cur_sound_partial : forall sl, snd (validate_cur sl) = Ok ->
  facilities_meet_constraints pinned_tables sl -> declared_sites_agree pinned_tables sl -> allowed_full sl.
Proof. intros sl H. apply allowed_strengthen with (1 := proj1 (validate_cur_exact sl) H). Qed.

(* the two slices that a code without the declared-site comparison / without the facility check accepts although
   the specification excludes them; validate_cur rejects both *)
Definition witness_declared_site : slice :=
  mk_slice [mk_anode "VM" ["site"; "attached_components_info"]]
           [mk_asvc "OVS" None [] [mk_if "SharedPort" (Some (Some 1%N)) (Some [mk_ep "ServicePort" None])];
            mk_asvc "L2Bridge" (Some 2%N) [] [mk_if "ServicePort" None (Some [mk_ep "SharedPort" (Some (Some 1%N))])]].

Definition witness_facility : slice :=
  mk_slice [mk_anode "Facility" ["site"; "image_type"; "image_ref"]]
           [mk_asvc "VLAN" None [] [mk_if "FacilityPort" (Some (Some 1%N)) None]].

Theorem site_recorded_cur : forall sl sts, validate_cur sl = (sts, Ok) ->
  Forall2 (svc_ok pinned_tables cur_enforces_declared_site) (sl_services sl) sts.
Proof. rewrite validate_cur_pinned. intros sl sts H. apply (validate_spec _ pinned_table_ok) in H. apply H. Qed.

Theorem validate_cur_order_independent : forall n n' s s', Permutation n n' -> Permutation s s' ->
  (snd (validate_cur (mk_slice n s)) = Ok <-> snd (validate_cur (mk_slice n' s')) = Ok).
Proof. rewrite validate_cur_pinned. intros n n' s s'. apply validate_order_independent, pinned_table_ok. Qed.

Theorem validate_cur_class : forall sl, slice_wf pinned_tables sl = true ->
  snd (validate_cur sl) = Ok \/ snd (validate_cur sl) = Err ETopology.
Proof. rewrite validate_cur_pinned. intros sl. apply validate_class, pinned_table_ok. Qed.

(* non-vacuity material: a valid two-site slice with a facility, a declared site that agrees, an inferred
   site and a port mirror whose required 'site' is satisfied by the inference *)
Definition example_valid : slice :=
  mk_slice [mk_anode "VM" ["site"; "attached_components_info"]; mk_anode "Server" ["site"; "attached_components_info"];
            mk_anode "Facility" ["site"]]
   [mk_asvc "OVS" None [] [mk_if "DedicatedPort" (Some (Some 1%N)) (Some [mk_ep "ServicePort" None]);
                           mk_if "DedicatedPort" (Some (Some 1%N)) (Some [mk_ep "ServicePort" None])];
    mk_asvc "OVS" None [] [mk_if "DedicatedPort" (Some (Some 2%N)) (Some [mk_ep "ServicePort" None]);
                           mk_if "DedicatedPort" (Some (Some 2%N)) (Some [mk_ep "ServicePort" None])];
    mk_asvc "VLAN" None [] [mk_if "FacilityPort" (Some (Some 2%N)) (Some [mk_ep "ServicePort" None])];
    mk_asvc "L2PTP" None [] [mk_if "ServicePort" None (Some [mk_ep "DedicatedPort" (Some (Some 1%N))]);
                             mk_if "ServicePort" None (Some [mk_ep "FacilityPort" (Some (Some 2%N))])];
    mk_asvc "L2Bridge" (Some 2%N) [] [mk_if "ServicePort" None (Some [mk_ep "DedicatedPort" (Some (Some 2%N))])];
    mk_asvc "PortMirror" None ["mirror_port"; "mirror_direction"]
            [mk_if "ServicePort" None (Some [mk_ep "DedicatedPort" (Some (Some 1%N))])]].

Theorem example_valid_allowed : allowed_full example_valid.
Proof. apply (validate_iff _ pinned_table_ok). vm_compute. reflexivity. Qed.

Theorem example_valid_sites :
  validate_cur example_valid = ([Some 1%N; Some 2%N; Some 2%N; None; Some 2%N; Some 1%N], Ok).
Proof. vm_compute. reflexivity. Qed.

Theorem example_valid_wf : slice_wf pinned_tables example_valid = true.
Proof. vm_compute. reflexivity. Qed.

Theorem example_invalid_rejected :   (* an L2PTP with a shared port, and a switch with an image *)
  snd (validate_cur (mk_slice [] [mk_asvc "L2PTP" None []
        [mk_if "ServicePort" None (Some [mk_ep "SharedPort" (Some (Some 1%N))]);
         mk_if "ServicePort" None (Some [mk_ep "DedicatedPort" (Some (Some 2%N))])]])) = Err ETopology /\
  snd (validate_cur (mk_slice [mk_anode "Switch" ["site"; "image_type"; "image_ref"]] [])) = Err ETopology.
Proof. split; vm_compute; reflexivity. Qed.

Theorem guard_exact : forall st it,
  connect_ctor gen_tables st it <> Ok <-> (st = "L2PTP"%string /\ it = "SharedPort"%string).
Proof.
  intros st it. unfold connect_ctor. rewrite table_pinned, guard_refuses_iff. simpl. split.
  - intros [H|[]]. inversion H. auto.
  - intros [-> ->]. left. reflexivity.
Qed.

Theorem guard_refusal_is_topology_error : forall st it, connect_ctor gen_tables st it <> Ok ->
  connect_ctor gen_tables st it = Err ETopology.
Proof. intros st it. unfold connect_ctor, guard. destruct (existsb _ _); [reflexivity|intros H; exfalso; apply H; reflexivity]. Qed.

Theorem guardrail_only_unsupported_pinned : forall st it, connect_ctor gen_tables st it <> Ok ->
  forall cf es sl s i e, In s (sl_services sl) -> s_type s = st -> In i (s_ifaces s) -> attached_to i e ->
    ep_type e = it -> snd (validate gen_tables cf es sl) <> Ok.
Proof.
  intros st it. unfold connect_ctor. rewrite table_pinned.
  apply (guard_only_unsupported pinned_tables pinned_table_ok pinned_guard_consistent).
Qed.

Theorem connect_interface_repaired : forall st it,
  connect_method gen_tables true st it = connect_ctor gen_tables st it.
Proof. reflexivity. Qed.
