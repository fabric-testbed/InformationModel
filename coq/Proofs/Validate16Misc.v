(* C16 proofs (tags, names, boot script, opaque JSON data, capacities) and the pinned documented
   formats: the regenerated patterns denote exactly the hand-written length ranges / character sets of
   Model/Labels16Spec.v. *)
From Coq Require Import List ZArith Bool String Lia Btauto.
From FIM Require Import Base.ListFacts Base.Str Base.Regex Base.RegexSound Model.Labels16Types Gen.LabelValidators
  Model.Labels16 Model.Labels16Spec Proofs.Validate16 Proofs.Validate16Int.
From FIM Require Gen.CapsGen.
Import ListNotations.

Lemma single_range x c : (N.leb x c && N.leb c x) = N.eqb c x.
Proof.
  destruct (N.eqb c x) eqn:E.
  - apply N.eqb_eq in E. subst. rewrite N.leb_refl. reflexivity.
  - apply N.eqb_neq in E. destruct (N.leb x c) eqn:A; destruct (N.leb c x) eqn:B; try reflexivity.
    apply N.leb_le in A, B. exfalso. apply E. lia.
Qed.

Local Opaque is_re_word is_re_digit is_re_space.

(* equality of two character-set predicates over the variable c, whatever the order of the items; a class of the
   regenerated patterns may show its category by name or, after evaluation, by its number (Base/Regex.v: word 4,
   digit 0, space 2), hence both forms *)
Ltac cls_norm c :=
  unfold cls_in, name_char, tag_char, chr_in; cbn [existsb citem_in xorb];
  try change (catf cat_word c) with (is_re_word c); try change (catf 4%N c) with (is_re_word c);
  try change (catf cat_digit c) with (is_re_digit c); try change (catf 0%N c) with (is_re_digit c);
  try change (catf cat_space c) with (is_re_space c); try change (catf 2%N c) with (is_re_space c);
  rewrite ?single_range; btauto.

Lemma forallb_ext_eq {A} (p q : A -> bool) l : (forall x, p x = q x) -> forallb p l = forallb q l.
Proof. intro H. apply forallb_ext_in. intros x _. apply H. Qed.

Lemma tag_accepts_lang s : tag_accepts s = true <-> re_lang tag_re s.
Proof. unfold tag_accepts. rewrite tag_full. apply re_match_full. Qed.

Lemma tag_check_spec t s : tag_check t = Some s <-> tag_in_domain t /\ t = TStr s.
Proof.
  destruct t as [s'|]; cbn [tag_check tag_in_domain]; [|split; [discriminate | intros [[] _]]].
  rewrite <- tag_accepts_lang. destruct (tag_accepts s'); split; try discriminate.
  - intros [= ->]. auto.
  - intros [_ [= ->]]. reflexivity.
  - intros [[=] _].
Qed.

Lemma tag_check_all_spec l : forall out,
  tag_check_all l = Some out <-> Forall tag_in_domain l /\ map TStr out = l.
Proof.
  induction l as [|t l IH]; intro out; cbn [tag_check_all].
  - split; [intros [= <-]; auto | intros [_ H]; destruct out; [reflexivity | discriminate]].
  - split.
    + destruct (tag_check t) as [s|] eqn:E; [|discriminate]. destruct (tag_check_all l) as [l'|]; [|discriminate].
      intros [= <-]. apply tag_check_spec in E as [D ->]. destruct (proj1 (IH l') eq_refl) as [F <-]. auto.
    + intros [F M]. destruct out as [|s out]; [discriminate|]. injection M as <- <-. inversion F as [|? ? D F']; subst.
      rewrite (proj2 (tag_check_spec _ s) (conj D eq_refl)), (proj2 (IH out) (conj F' eq_refl)). reflexivity.
Qed.

(* Tags(...) succeeds exactly when every tag given (positionally or inside a list/tuple) is a string in the
   tag language, and then stores exactly those tags, in order *)
Theorem tags_accept_iff_domain args out :
  tags_ctor args = Some out <->
  Forall tag_in_domain (flat_map targ_items args) /\ map TStr out = flat_map targ_items args.
Proof. apply tag_check_all_spec. Qed.

Theorem tags_stored_in_domain args out : tags_ctor args = Some out -> Forall (re_lang tag_re) out.
Proof.
  intro H. apply tags_accept_iff_domain in H as [F M]. rewrite <- M in F.
  apply Forall_forall. intros s Hs. rewrite Forall_forall in F. apply (F (TStr s)). apply in_map; exact Hs.
Qed.

(* to_json gives the list; from_json hands that list to the constructor as one argument *)
Theorem tags_recode args out : tags_ctor args = Some out -> tags_ctor [TA_many (map TStr out)] = Some out.
Proof.
  intro H. apply tags_accept_iff_domain in H as [F M]. apply tags_accept_iff_domain.
  cbn [flat_map targ_items]. rewrite app_nil_r. rewrite M. split; [exact F | reflexivity].
Qed.

(* pinned: a tag is 1..255 characters, each a word character or '-' *)
Theorem tag_domain_pinned s :
  tag_accepts s = true <-> (1 <= List.length s <= 255)%nat /\ forallb tag_char s = true.
Proof.
  rewrite tag_accepts_lang. unfold re_lang, tag_re.
  rewrite lang_rep_cls by lia. rewrite (forallb_ext_eq _ tag_char); [tauto|].
  intro c. cls_norm c.
Qed.

Lemma scalar_accepted_iff k s : mem_str k label_fields = true -> (scalar_accepted k s = true <-> in_domain k s).
Proof.
  intro Hk. pose proof (accept_iff_domain false labels_init k (LStr s) Hk eq_refl) as A. cbn [elems] in A.
  unfold scalar_accepted. rewrite <- (Forall_one (in_domain k) s), <- A. destruct (snd _); split; intro; (discriminate || reflexivity).
Qed.

(* Labels(vlan=s) is accepted exactly when s is 1..4 decimal digits (any script) denoting 0..4096 *)
Theorem vlan_domain_pinned s :
  scalar_accepted (S"vlan") s = true <->
  (1 <= List.length s <= 4)%nat /\ forallb is_re_digit s = true /\ exists z, int_literal s z /\ (0 <= z <= 4096)%Z.
Proof.
  rewrite scalar_accepted_iff by (vm_compute; reflexivity). unfold in_domain.
  replace (lookup (S"vlan") label_validators) with (Some (rep (Cls false [CC cat_digit]) 1 (Some 4)))
    by (lazy -[rep]; reflexivity).
  replace (lookup (S"vlan") label_lambdas) with (Some (RInt (mkbounds 0 CLe CLe 4096))) by (vm_compute; reflexivity).
  rewrite !forall_some. unfold re_lang. rewrite lang_rep_cls by lia.
  rewrite (forallb_ext_eq _ is_re_digit) by (intro c; cls_norm c). cbn [range_spec].
  assert (B : forall z, in_bounds (mkbounds 0 CLe CLe 4096) z = true <-> (0 <= z <= 4096)%Z).
  { intro z. unfold in_bounds. cbn. rewrite andb_true_iff, !Z.leb_le. reflexivity. }
  setoid_rewrite B. setoid_rewrite py_int_spec. tauto.
Qed.

Lemma name_rule_mode cls r m : lookup cls name_rules = Some (r, m) -> m = Full.
Proof.
  intro H. apply lookup_In in H. destruct modes_full as (_ & _ & _ & F). rewrite forallb_forall in F.
  specialize (F _ H). cbn [snd] in F. destruct m; try discriminate; reflexivity.
Qed.

Theorem set_name_iff_lang cls r m s : lookup cls name_rules = Some (r, m) ->
  (set_name cls (SStr s) = Ok s <-> re_lang r s).
Proof.
  intro H. pose proof (name_rule_mode _ _ _ H) as ->. unfold set_name. rewrite H.
  destruct (re_match Full r s) eqn:M; split; intro X; try reflexivity; try discriminate.
  - apply re_match_full; exact M.
  - apply re_match_full in X. congruence.
Qed.

Theorem set_name_stores_argument cls v s : set_name cls v = Ok s -> v = SStr s.
Proof.
  unfold set_name. destruct v as [s'| |]; try discriminate.
  destruct (lookup cls name_rules) as [[r m]|]; [|discriminate].
  destruct (re_match m r s'); intro H; inversion H; reflexivity.
Qed.

Lemma name_rule_cls cls neg items lo hi extra :
  lookup cls name_rules = Some (rep (Cls neg items) lo (Some hi), Full) -> (lo <= hi)%nat ->
  (forall c, cls_in catf neg items c = name_char extra c) ->
  forall s, set_name cls (SStr s) = Ok s <-> (lo <= List.length s <= hi)%nat /\ forallb (name_char extra) s = true.
Proof.
  intros H Hle Hc s. rewrite (set_name_iff_lang _ _ _ s H). unfold re_lang.
  rewrite lang_rep_cls by exact Hle. rewrite (forallb_ext_eq _ (name_char extra)) by exact Hc. tauto.
Qed.

(* pinned: per sliver class, a name is lo..hi characters, each a word character or one of the listed ones *)
Theorem names_domain_pinned : forall cls lo hi extra, In (cls, (lo, hi, extra)) name_doc ->
  forall s, set_name cls (SStr s) = Ok s <-> (lo <= List.length s <= hi)%nat /\ forallb (name_char extra) s = true.
Proof.
  assert (F : Forall (fun d => let '(cls, (lo, hi, extra)) := d in
                forall s, set_name cls (SStr s) = Ok s <->
                          (lo <= List.length s <= hi)%nat /\ forallb (name_char extra) s = true) name_doc).
  { unfold name_doc.
    repeat (apply Forall_cons;
      [eapply name_rule_cls; [lazy -[rep]; reflexivity | apply Nat.leb_le; reflexivity | intro c; cls_norm c]|]).
    apply Forall_nil. }
  intros cls lo hi extra H. exact (proj1 (Forall_forall _ _) F _ H).
Qed.

(* every class the translator found has a pinned entry and vice versa *)
Lemma name_rules_covered :
  forallb (fun x => existsb (fun d => str_eqb (fst x) (fst d)) name_doc) name_rules = true /\
  forallb (fun d => existsb (fun x => str_eqb (fst x) (fst d)) name_rules) name_doc = true.
Proof. split; vm_compute; reflexivity. Qed.

Theorem boot_script_domain s : set_boot_script (SStr s) = Ok (Some s) <-> (List.length s < boot_doc_limit)%nat.
Proof.
  unfold set_boot_script, boot_script_ok, boot_script_max, boot_doc_limit.
  destruct (Z.ltb (Z.of_nat (List.length s)) 1024) eqn:E; split; intro H; try reflexivity; try discriminate; lia.
Qed.

Theorem boot_script_stores_argument v r : set_boot_script v = Ok r ->
  match v with SStr s => r = Some s /\ (List.length s < boot_doc_limit)%nat | SNone => r = None | SOther => False end.
Proof.
  destruct v as [s| |]; cbn [set_boot_script]; intro H; try discriminate.
  - destruct (boot_script_ok _ _) eqn:E; inversion H; subst. split; [reflexivity|].
    apply boot_script_domain. unfold set_boot_script. rewrite E. reflexivity.
  - inversion H; reflexivity.
Qed.

(* each documented class has the documented limit in the regenerated table, and the text of the empty
   object fits; one evaluation over the entries, so that no proof term carries the limits (unary numbers) *)
Lemma jd_doc_entry cls mx : In (cls, mx) jd_doc ->
  lookup cls jd_max = Some (Z.of_nat mx) /\ (List.length empty_obj_text <= mx)%nat.
Proof.
  assert (F : forallb (fun d => match lookup (fst d) jd_max with
                               | Some z => Z.eqb z (Z.of_nat (snd d)) && Nat.leb (List.length empty_obj_text) (snd d)
                               | None => false
                               end) jd_doc = true) by (vm_compute; reflexivity).
  rewrite forallb_forall in F. intro H. apply F in H. cbn [fst snd] in H.
  destruct (lookup cls jd_max); [|discriminate]. apply andb_true_iff in H as [E L].
  apply Z.eqb_eq in E. apply Nat.leb_le in L. subst. auto.
Qed.

Theorem jd_str_domain cls mx s valid : In (cls, mx) jd_doc ->
  (jd_new cls (JD_str s valid) = Ok s <-> (List.length s <= mx)%nat /\ valid = true).
Proof.
  intros [H _]%jd_doc_entry. unfold jd_new. rewrite H. unfold jd_str_reject.
  destruct (Z.gtb (Z.of_nat (List.length s)) (Z.of_nat mx)) eqn:E.
  - split; [discriminate|]. intros [L _]. lia.
  - destruct valid; split; intro X; try reflexivity; try discriminate.
    + split; [lia | reflexivity].
    + destruct X; discriminate.
Qed.

Theorem jd_obj_domain cls mx t : In (cls, mx) jd_doc ->
  (jd_new cls (JD_obj (Some t)) = Ok t <-> (List.length t <= mx)%nat).
Proof.
  intros [H _]%jd_doc_entry. unfold jd_new. rewrite H. unfold jd_obj_reject.
  destruct (Z.gtb (Z.of_nat (List.length t)) (Z.of_nat mx)) eqn:E; split; intro X; try reflexivity; try discriminate; lia.
Qed.

Theorem jd_stored cls mx d t : In (cls, mx) jd_doc -> jd_new cls d = Ok t ->
  (List.length t <= mx)%nat /\
  match d with JD_str s valid => t = s /\ valid = true | JD_obj o => o = Some t | JD_none => t = empty_obj_text end.
Proof.
  intros [H L0]%jd_doc_entry. unfold jd_new. rewrite H. unfold jd_str_reject, jd_obj_reject.
  destruct d as [s valid | [u|] | ].
  - destruct (Z.gtb _ _) eqn:E; [discriminate|]. destruct valid; intro X; inversion X; subst. split; [lia | auto].
  - destruct (Z.gtb _ _) eqn:E; [discriminate|]. intro X; inversion X; subst. split; [lia | auto].
  - discriminate.
  - intro X; inversion X; subst. split; [exact L0 | reflexivity].
Qed.

(* whatever was accepted (as text or as an object) is accepted again as text, provided json.loads reads it *)
Theorem jd_reaccepted cls mx d t : In (cls, mx) jd_doc -> jd_new cls d = Ok t -> jd_new cls (JD_str t true) = Ok t.
Proof.
  intros H X. destruct (jd_stored _ _ _ _ H X) as [L _]. apply (jd_str_domain _ _ _ _ H). auto.
Qed.

Lemma jd_max_covered :
  forallb (fun x => existsb (fun d => str_eqb (fst x) (fst d)) jd_doc) jd_max = true.
Proof. vm_compute; reflexivity. Qed.

Lemma cap_asserts_spec v : cap_asserts v = None <-> cval_ok v.
Proof.
  destruct v as [z | b | | f | ]; cbn [cap_asserts cval_ok]; unfold CapsGen.set_reject.
  - destruct (Z.geb z 0) eqn:E; cbn [negb]; split; intro H; try reflexivity; try discriminate; lia.
  - destruct b; cbn; split; auto.
  - tauto.
  - split; [discriminate | contradiction].
  - split; [discriminate | contradiction].
Qed.

Lemma cset_inv st k v : caps_inv st -> cval_ok v -> caps_inv (cset st k v).
Proof.
  unfold caps_inv. intros H Hv. induction st as [|[k' v'] st IH]; simpl; [constructor|].
  inversion H; subst. destruct (str_eqb k k'); constructor; auto.
Qed.

Lemma cap_set_one_inv fg st kv : caps_inv st -> caps_inv (fst (cap_set_one fg st kv)).
Proof.
  intro H. destruct kv as [k v]. unfold cap_set_one. destruct (cap_asserts v) eqn:E; [exact H|].
  destruct (mem_str k cap_field_names); cbn [fst]; [|exact H]. apply cset_inv; [exact H | apply cap_asserts_spec; exact E].
Qed.

Theorem cap_set_fields_inv fg kws : forall st, caps_inv st -> caps_inv (fst (cap_set_fields fg st kws)).
Proof.
  induction kws as [|kv kws IH]; intros st H; cbn [cap_set_fields]; [exact H|].
  pose proof (cap_set_one_inv fg st kv H) as H1. destruct (cap_set_one fg st kv) as [st' [e|]]; cbn [fst] in *; [exact H1 | apply IH; exact H1].
Qed.

Lemma caps_init_inv : caps_inv caps_init.
Proof.
  unfold caps_inv, caps_init. apply Forall_forall. intros [k v] H. apply in_combine_r in H.
  apply in_map_iff in H as (z & <- & Hz). cbn [snd cval_ok].
  assert (F : forallb (fun z => Z.leb 0 z) CapsGen.cap_defaults = true) by reflexivity.
  rewrite forallb_forall in F. apply Z.leb_le. apply F; exact Hz.
Qed.

(* a Capacities object built by the constructor / _set_fields holds only None or non-negative ints *)
Theorem caps_ctor_inv fg kws st : caps_ctor fg kws = Ok st -> caps_inv st.
Proof.
  unfold caps_ctor. pose proof (cap_set_fields_inv fg kws caps_init caps_init_inv) as H.
  destruct (cap_set_fields fg caps_init kws) as [st' [e|]]; intro X; inversion X; subst. exact H.
Qed.

Theorem caps_accept_iff fg st k v : mem_str k cap_field_names = true ->
  (snd (cap_set_one fg st (k, v)) = None <-> cval_ok v).
Proof.
  intro Hk. rewrite <- cap_asserts_spec. unfold cap_set_one. destruct (cap_asserts v); [|rewrite Hk]; cbn [snd]; split; auto; discriminate.
Qed.

(* the name in the model graph is always documented; it changes exactly when the assignment is accepted; it is
   rejected exactly when the new name is undocumented or (where the source tests it) already taken *)
Theorem elem_name_graph cls r m old s taken h g e :
  lookup cls name_rules = Some (r, m) -> re_lang r old -> elem_set_name cls old s taken = ((h, g), e) ->
  re_lang r g /\ (e = None -> h = s /\ g = s /\ re_lang r s) /\
  (e <> None -> g = old /\ (~ re_lang r s \/ (name_set_checks_unique = true /\ taken = true))).
Proof.
  intros Hl Hold. unfold elem_set_name.
  destruct (name_set_checks_unique && taken) eqn:U.
  - intro X. injection X as Hh Hg He. subst g e. split; [exact Hold|]. split; [discriminate|].
    intros _. split; [reflexivity|]. right. apply andb_true_iff in U. exact U.
  - destruct (set_name cls (SStr s)) as [s'|x] eqn:E; intro X; injection X as Hh Hg He.
    + apply set_name_stores_argument in E as E'. inversion E'; subst s'.
      pose proof (proj1 (set_name_iff_lang cls r m s Hl) E) as L. subst h g e.
      split; [exact L|]. split; [auto | intro C; exfalso; apply C; reflexivity].
    + subst g e. split; [exact Hold|]. split; [discriminate|]. intros _. split; [reflexivity|]. left.
      intro L. apply (set_name_iff_lang cls r m s Hl) in L. congruence.
Qed.

(* FULL STATEMENT: whatever name can be read after the call -- from the handle or from the model -- is documented.
   It holds of the code exactly when the setter validates before it caches (flag regenerated from
   fim/user/model_element.py); otherwise it is refuted by a witness. *)
Definition handle_name_full : Prop :=
  forall cls r m old s taken h g e, lookup cls name_rules = Some (r, m) -> re_lang r old ->
    elem_set_name cls old s taken = ((h, g), e) -> re_lang r h /\ re_lang r g.

Definition handle_name_refuted : Prop :=
  exists cls old s, set_name cls (SStr old) = Ok old /\
    match elem_set_name cls old s false with
    | ((h, g), Some _) => set_name cls (SStr h) <> Ok h /\ g = old
    | _ => False
    end.

Theorem handle_name_full_or_refuted :
  if name_setter_validates_first then handle_name_full else handle_name_refuted.
Proof.
  destruct name_setter_validates_first eqn:F.
  - intros cls r m old s taken h g e Hl Hold X.
    pose proof (elem_name_graph _ _ _ _ _ _ _ _ _ Hl Hold X) as (Hg & Hok & Herr).
    split; [|exact Hg]. unfold elem_set_name in X. rewrite F in X.
    destruct (name_set_checks_unique && taken).
    + injection X as Hh _ _. subst h. exact Hold.
    + destruct (set_name cls (SStr s)) as [s'|x] eqn:E; injection X as Hh Hg' He.
      * subst e. destruct (Hok eq_refl) as (_ & _ & L). subst h. exact L.
      * subst h. exact Hold.
  - exists (S"NodeSliver"), (S"n1"), (S"x"). unfold elem_set_name. rewrite F, andb_false_r. vm_compute.
    split; [reflexivity|]. split; [discriminate | reflexivity].
Qed.
