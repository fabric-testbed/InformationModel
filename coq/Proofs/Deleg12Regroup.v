(* C12: reading per-node delegations back into pools (incorporate_delegation) and the identity
   pools -> per-node delegations -> pools, for any order in which the nodes are read.
   Rests on Deleg12Enc.v and Deleg12Pools.v. *)
From Coq Require Import List ZArith Bool Permutation.
From FIM Require Import Base.ListFacts Base.Str Model.Deleg12 Model.Pools12 Proofs.Deleg12Enc Proofs.Deleg12Pools.
Import ListNotations.

Lemma Permutation_filter {A} (f : A -> bool) l l' : Permutation l l' -> Permutation (filter f l) (filter f l').
Proof.
  induction 1; simpl.
  - constructor.
  - destruct (f x); [constructor|]; assumption.
  - destruct (f x), (f y); try constructor; try apply Permutation_refl.
  - eapply Permutation_trans; eassumption.
Qed.

Lemma filter_map_const {A B} (f : B -> bool) (g : A -> B) b l : (forall a, f (g a) = b) ->
  filter f (map g l) = if b then map g l else [].
Proof.
  intro H. induction l as [|a r IH]; simpl; [destruct b; reflexivity|].
  rewrite H, IH. destruct b; reflexivity.
Qed.

Fixpoint inc_events (ty : dtype) (l : list pool) (es : list (str * deleg)) : res (list pool) :=
  match es with
  | [] => Ok l
  | (n, d) :: r => bind (inc_one ty n l d) (fun l' => inc_events ty l' r)
  end.

Lemma inc_events_app ty a b : forall l,
  inc_events ty l (a ++ b) = bind (inc_events ty l a) (fun l' => inc_events ty l' b).
Proof.
  induction a as [|[n d] r IH]; intro l; simpl; [reflexivity|].
  destruct (inc_one ty n l d); simpl; [apply IH|reflexivity].
Qed.

Lemma inc_items_events ty n items : forall l, inc_items ty n l items = inc_events ty l (map (pair n) items).
Proof. induction items as [|d r IH]; intro l; simpl; [reflexivity|]. apply bind_ext, IH. Qed.

Lemma incorporate_all_flat ty g : forall l, Forall (fun nd => ds_type (snd nd) = ty) g ->
  incorporate_all ty g l = inc_events ty l (flatten_g g).
Proof.
  induction g as [|[n ds] r IH]; intros l T; [reflexivity|].
  apply Forall_cons_iff in T as [Th Tr]. simpl in Th.
  unfold flatten_g. cbn [incorporate_all flat_map fst snd]. rewrite inc_events_app.
  unfold incorporate. rewrite Th, dtype_eqb_refl, inc_items_events.
  apply bind_ext. intro l'. apply IH, Tr.
Qed.

Lemma find_pool_id pn l p : find_pool pn l = Some p -> p_id p = pn.
Proof.
  induction l as [|q r IH]; simpl; [discriminate|].
  destruct (str_eqb (p_id q) pn) eqn:E; [|exact IH]. intro H. injection H as <-. apply str_eqb_eq. exact E.
Qed.

Lemma find_pool_In pn l p : find_pool pn l = Some p -> In p l.
Proof.
  induction l as [|q r IH]; simpl; [discriminate|].
  destruct (str_eqb (p_id q) pn); [intro H; injection H as ->; left; reflexivity|auto].
Qed.

Lemma find_put_same q l : find_pool (p_id q) (put_pool q l) = Some q.
Proof.
  induction l as [|x r IH]; simpl.
  - rewrite str_eqb_refl. reflexivity.
  - destruct (str_eqb (p_id x) (p_id q)) eqn:E; simpl.
    + rewrite str_eqb_refl. reflexivity.
    + rewrite E. exact IH.
Qed.

Lemma find_put_other q l pn : p_id q <> pn -> find_pool pn (put_pool q l) = find_pool pn l.
Proof.
  intro N. apply str_eqb_neq in N. induction l as [|x r IH]; simpl.
  - rewrite N. reflexivity.
  - destruct (str_eqb (p_id x) (p_id q)) eqn:E; simpl.
    + apply str_eqb_eq in E. rewrite E, N. reflexivity.
    + rewrite IH. reflexivity.
Qed.

Lemma find_pool_None pn l : find_pool pn l = None <-> ~ In pn (map p_id l).
Proof.
  induction l as [|x r IH]; simpl; [tauto|].
  destruct (str_eqb (p_id x) pn) eqn:E.
  - apply str_eqb_eq in E. split; [discriminate|]. intro H. exfalso. apply H. left. exact E.
  - apply str_eqb_neq in E. rewrite IH. tauto.
Qed.

Lemma put_pool_ids_eq q l :
  map p_id (put_pool q l) = match find_pool (p_id q) l with Some _ => map p_id l | None => map p_id l ++ [p_id q] end.
Proof.
  induction l as [|x r IH]; simpl; [reflexivity|].
  destruct (str_eqb (p_id x) (p_id q)) eqn:E; simpl.
  - apply str_eqb_eq in E. congruence.
  - rewrite IH. destruct (find_pool (p_id q) r); reflexivity.
Qed.

Lemma put_pool_ids q l : NoDup (map p_id l) -> NoDup (map p_id (put_pool q l)).
Proof.
  intro ND. rewrite put_pool_ids_eq. destruct (find_pool (p_id q) l) eqn:F; [exact ND|].
  apply NoDup_snoc; [exact ND|]. apply find_pool_None. exact F.
Qed.

Definition is_def (e : str * deleg) : bool := match d_fmt (snd e) with FDef => true | _ => false end.
Definition not_def (e : str * deleg) : bool := negb (is_def e).
Definition for_pool (pn : str) (e : str * deleg) : bool :=
  match d_pool (snd e) with Some q => str_eqb q pn | None => false end.

Definition ev_ok (e : str * deleg) : Prop :=
  d_fmt (snd e) <> FSingle /\ (exists pn, d_pool (snd e) = Some pn) /\
  (d_fmt (snd e) = FDef -> exists x, d_details (snd e) = Some x).

(* what a definition / a reference does to the pool it names *)
Definition pstep1 (p : pool) (e : str * deleg) : pool :=
  match d_fmt (snd e) with
  | FDef => mkP (p_type p) (p_id p) (Some (d_id (snd e))) (Some (fst e)) (p_for p) (d_details (snd e))
  | _ => mkP (p_type p) (p_id p) (Some (d_id (snd e))) (p_on p) (set_add (fst e) (p_for p)) (p_details p)
  end.

Definition or_fresh (ty : dtype) (pn : str) (cur : option pool) : pool :=
  match cur with Some p => p | None => fresh_pool ty pn end.

Definition pstep (ty : dtype) (pn : str) (cur : option pool) (e : str * deleg) : option pool :=
  Some (pstep1 (or_fresh ty pn cur) e).

(* the pools an event list defines; a definition is refused when its pool has a defining node already *)
Definition def_name (e : str * deleg) : list str :=
  match d_fmt (snd e), d_pool (snd e) with FDef, Some pn => [pn] | _, _ => [] end.
Definition defnames (es : list (str * deleg)) : list str := flat_map def_name es.

Definition undefined_in (l : list pool) (pn : str) : Prop := forall p, find_pool pn l = Some p -> p_on p = None.

Lemma or_fresh_id ty pn l : p_id (or_fresh ty pn (find_pool pn l)) = pn.
Proof. unfold or_fresh. destruct (find_pool pn l) eqn:F; [eapply find_pool_id; exact F|reflexivity]. Qed.

Lemma pstep1_id p e : p_id (pstep1 p e) = p_id p.
Proof. unfold pstep1. destruct (d_fmt (snd e)); reflexivity. Qed.

Lemma inc_one_spec ty n d l pn : ev_ok (n, d) -> d_pool d = Some pn -> (d_fmt d = FDef -> undefined_in l pn) ->
  inc_one ty n l d = Ok (put_pool (pstep1 (or_fresh ty pn (find_pool pn l)) (n, d)) l).
Proof.
  intros (NS & _ & DD) HP U. cbn [snd fst] in *. unfold inc_one, pstep1, or_fresh. cbn [snd fst]. rewrite HP.
  destruct (d_fmt d); [|reflexivity|contradiction].
  destruct (DD eq_refl) as [x ->]. specialize (U eq_refl).
  destruct (find_pool pn l) as [p|] eqn:FP; [rewrite (U p FP)|]; reflexivity.
Qed.

(* a pool other than the one an event defines has no defining node after the event if it had none before *)
Lemma inc_one_undefined ty n d l pn pn' : d_fmt d <> FSingle -> (d_fmt d = FDef -> pn' <> pn) ->
  undefined_in l pn' -> undefined_in (put_pool (pstep1 (or_fresh ty pn (find_pool pn l)) (n, d)) l) pn'.
Proof.
  intros NS ND U p'. set (q := pstep1 (or_fresh ty pn (find_pool pn l)) (n, d)).
  assert (IDq : p_id q = pn) by (unfold q; rewrite pstep1_id; apply or_fresh_id).
  destruct (str_eq_dec pn' pn) as [->|NE]; intro Hf.
  - rewrite <- IDq, find_put_same in Hf. injection Hf as <-.
    unfold q, pstep1, or_fresh. cbn [fst snd]. destruct (d_fmt d); [destruct (ND eq_refl eq_refl)|cbn [p_on]|contradiction].
    destruct (find_pool pn l) as [p|] eqn:FP; [exact (U p FP)|reflexivity].
  - rewrite find_put_other in Hf by congruence. exact (U p' Hf).
Qed.

Lemma inc_events_spec ty es : forall l,
  Forall ev_ok es -> NoDup (defnames es) -> Forall (undefined_in l) (defnames es) ->
  exists l', inc_events ty l es = Ok l' /\
             (forall pn, find_pool pn l' = fold_left (pstep ty pn) (filter (for_pool pn) es) (find_pool pn l)) /\
             (NoDup (map p_id l) -> NoDup (map p_id l')).
Proof.
  induction es as [|[n d] r IH]; intros l OK ND UD; [exists l; repeat split; tauto|].
  apply Forall_cons_iff in OK as [Oe Or]. pose proof Oe as (NS & [pn HP] & _). cbn [snd] in NS, HP.
  unfold defnames in ND, UD. cbn [flat_map] in ND, UD. fold (defnames r) in ND, UD.
  unfold def_name in ND, UD. cbn [snd] in ND, UD. rewrite HP in ND, UD. rewrite Forall_forall in UD.
  set (q := pstep1 (or_fresh ty pn (find_pool pn l)) (n, d)).
  assert (IDq : p_id q = pn) by (unfold q; rewrite pstep1_id; apply or_fresh_id).
  assert (IO : inc_one ty n l d = Ok (put_pool q l)).
  { apply inc_one_spec; [exact Oe|exact HP|]. intro F. rewrite F in UD. apply UD. left. reflexivity. }
  destruct (IH (put_pool q l) Or) as (l' & E & FS & NDI).
  { destruct (d_fmt d); [apply NoDup_cons_iff in ND; apply ND|exact ND|exact ND]. }
  { apply Forall_forall. intros pn' Hpn'. apply inc_one_undefined; [exact NS| |].
    - intros F ->. rewrite F in ND. apply NoDup_cons_iff in ND as [NI _]. contradiction.
    - apply UD. destruct (d_fmt d); [right|..]; exact Hpn'. }
  exists l'. cbn [inc_events]. rewrite IO. cbn [bind]. split; [exact E|]. split; [|intro N0; apply NDI, put_pool_ids, N0].
  intro pn'. rewrite FS. cbn [filter]. unfold for_pool at 2. cbn [snd]. rewrite HP.
  destruct (str_eqb pn pn') eqn:EQ.
  - apply str_eqb_eq in EQ as <-. cbn [fold_left]. f_equal. rewrite <- IDq at 1. apply find_put_same.
  - apply str_eqb_neq in EQ. rewrite find_put_other by congruence. reflexivity.
Qed.

Lemma fold_pstep ty pn L : forall p0, fold_left (pstep ty pn) L (Some p0) = Some (fold_left pstep1 L p0).
Proof. induction L as [|e r IH]; intro p0; [reflexivity|apply IH]. Qed.

(* a pool after a list of events, field by field: type and id untouched, the delegation id of the last event, defining node
   and details of the last definition, the nodes of the references accumulated in for_ *)
Lemma fold_pstep1 L : forall p0, fold_left pstep1 L p0 =
  let od := fold_left (fun (od : option str * option det) (e : str * deleg) => (Some (fst e), d_details (snd e)))
                      (filter is_def L) (p_on p0, p_details p0) in
  mkP (p_type p0) (p_id p0) (fold_left (fun (o : option str) (e : str * deleg) => Some (d_id (snd e))) L (p_deleg p0))
      (fst od) (fold_left (fun acc e => set_add (fst e) acc) (filter not_def L) (p_for p0)) (snd od).
Proof.
  induction L as [|e r IH]; intro p0; [destruct p0; reflexivity|].
  cbn [fold_left filter]. rewrite IH. unfold pstep1, not_def, is_def. destruct (d_fmt (snd e)); reflexivity.
Qed.

Lemma set_add_fresh x l : ~ In x l -> set_add x l = l ++ [x].
Proof. intro H. unfold set_add. apply str_mem_false in H. rewrite H. reflexivity. Qed.

Lemma fold_set_add_nodup (M : list (str * deleg)) : forall acc, NoDup (acc ++ map fst M) ->
  fold_left (fun acc e => set_add (fst e) acc) M acc = acc ++ map fst M.
Proof.
  induction M as [|e r IH]; intros acc ND; simpl.
  - rewrite app_nil_r. reflexivity.
  - simpl in ND. rewrite set_add_fresh by exact (NoDup_mid_l _ _ _ ND).
    rewrite IH; rewrite <- app_assoc; [reflexivity|exact ND].
Qed.

Lemma fold_last_id did (L : list (str * deleg)) : Forall (fun e => d_id (snd e) = did) L -> L <> [] ->
  forall o, fold_left (fun (o : option str) (e : str * deleg) => Some (d_id (snd e))) L o = Some did.
Proof.
  induction 1 as [|e r Fe Fr IH]; [contradiction|]. intros _ o. cbn [fold_left]. rewrite Fe.
  destruct r; [reflexivity|]. apply IH. discriminate.
Qed.

(* the events prescribed for a well-formed pool p, in ANY order, rebuild p *)
Lemma pool_rebuilt ty p L : pool_ok ty p = true -> Permutation L (pool_evs ty p) ->
  exists p', fold_left (pstep ty (p_id p)) L None = Some p' /\ pool_equiv p' p.
Proof.
  intros OK PM.
  destruct (pool_ok_inv ty p OK) as (did & on & x & [T Hd Ho Hx _ _ NDF _ _] & EV).
  rewrite EV in PM. set (refs := map (fun n => (n, mkD ty did FRef (Some (p_id p)) None)) (p_for p)) in *.
  (* the definitions and references found in L *)
  assert (LD : filter is_def L = [(on, mkD ty did FDef (Some (p_id p)) (Some x))]).
  { apply Permutation_length_1_inv. rewrite (Permutation_filter is_def _ _ PM). cbn [filter]. unfold is_def at 1. cbn.
    unfold refs. rewrite filter_map_const with (b := false); reflexivity. }
  assert (LR : Permutation (filter not_def L) refs).
  { rewrite (Permutation_filter not_def _ _ PM). cbn [filter]. unfold not_def at 1, is_def. cbn.
    unfold refs. rewrite filter_map_const with (b := true); reflexivity. }
  assert (LI : Forall (fun e => d_id (snd e) = did) L).
  { rewrite PM. constructor; [reflexivity|]. apply Forall_map, Forall_forall. reflexivity. }
  assert (LN : L <> []) by (intros ->; apply Permutation_nil in PM; discriminate).
  assert (RF : map fst refs = p_for p) by (unfold refs; rewrite map_map; apply map_id).
  exists (fold_left pstep1 L (fresh_pool ty (p_id p))). split.
  { destruct L; [contradiction|]. cbn [fold_left]. apply fold_pstep. }
  rewrite fold_pstep1, LD, (fold_last_id did L LI LN). cbn. rewrite fold_set_add_nodup.
  - unfold pool_equiv. cbn. repeat split; try congruence. rewrite LR, RF. reflexivity.
  - cbn. rewrite LR, RF. exact NDF.
Qed.

Lemma pool_evs_for ty p pn :
  filter (for_pool pn) (pool_evs ty p) = if str_eqb (p_id p) pn then pool_evs ty p else [].
Proof.
  unfold pool_evs. destruct (p_deleg p) as [did|], (p_on p) as [on|]; try (destruct (str_eqb (p_id p) pn); reflexivity).
  cbn [filter]. unfold for_pool at 1. cbn [snd d_pool].
  rewrite filter_map_const with (b := str_eqb (p_id p) pn) by reflexivity.
  destruct (str_eqb (p_id p) pn); reflexivity.
Qed.

Lemma expected_for_absent ty P pn : ~ In pn (map p_id P) -> filter (for_pool pn) (expected_events ty P) = [].
Proof.
  unfold expected_events. induction P as [|p r IH]; intro NI; [reflexivity|].
  simpl in *. rewrite filter_app, pool_evs_for.
  destruct (str_eqb (p_id p) pn) eqn:E; [apply str_eqb_eq in E; tauto|]. simpl. apply IH. tauto.
Qed.

Lemma expected_for ty P pn : NoDup (map p_id P) ->
  filter (for_pool pn) (expected_events ty P) = match find_pool pn P with Some p => pool_evs ty p | None => [] end.
Proof.
  unfold expected_events. induction P as [|p r IH]; intro ND; [reflexivity|].
  simpl in *. apply NoDup_cons_iff in ND as [NI ND]. rewrite filter_app, pool_evs_for.
  destruct (str_eqb (p_id p) pn) eqn:E.
  - apply str_eqb_eq in E as <-. fold (expected_events ty r). rewrite expected_for_absent by exact NI.
    apply app_nil_r.
  - simpl. apply IH. exact ND.
Qed.

Lemma pool_evs_ok ty p : pool_ok ty p = true -> Forall ev_ok (pool_evs ty p).
Proof.
  intro OK. destruct (pool_ok_inv ty p OK) as (did & on & x & _ & ->).
  constructor; [|apply Forall_map, Forall_forall; intros n _]; unfold ev_ok; cbn;
    (repeat split; [discriminate|eexists; reflexivity|]); [intros _; eexists; reflexivity|discriminate].
Qed.

Lemma pool_evs_defnames ty p : pool_ok ty p = true -> defnames (pool_evs ty p) = [p_id p].
Proof.
  intro OK. destruct (pool_ok_inv ty p OK) as (did & on & x & _ & ->).
  unfold defnames. cbn [flat_map]. unfold def_name at 1. cbn. f_equal.
  induction (p_for p) as [|n r IH]; [reflexivity|exact IH].
Qed.

Section Regroup.
Variable ty : dtype.
Variable P : list pool.
Hypothesis OK : forallb (pool_ok ty) P = true.
Hypothesis IDS : NoDup (map p_id P).

Lemma expected_ok : Forall ev_ok (expected_events ty P).
Proof. apply Forall_flat_map. exact (forallb_Forall _ _ _ (pool_evs_ok ty) OK). Qed.

Lemma expected_defnames : defnames (expected_events ty P) = map p_id P.
Proof.
  unfold expected_events, defnames. rewrite forallb_forall in OK. clear IDS.
  induction P as [|p r IH]; [reflexivity|]. simpl. rewrite flat_map_app.
  fold (defnames (pool_evs ty p)). rewrite pool_evs_defnames by (apply OK; left; reflexivity).
  simpl. f_equal. apply IH. intros q Hq. apply OK. right. exact Hq.
Qed.

(* the prescribed delegations, read back in any order, rebuild the pools *)
Lemma incorporate_expected es : Permutation es (expected_events ty P) ->
  exists P', inc_events ty [] es = Ok P' /\ pools_equiv P' P.
Proof.
  intro PM.
  destruct (inc_events_spec ty es []) as (P' & E & FS & NDI).
  - rewrite PM. exact expected_ok.
  - unfold defnames. rewrite PM. fold (defnames (expected_events ty P)). rewrite expected_defnames. exact IDS.
  - apply Forall_forall. intros pn _ p. discriminate.
  - exists P'. split; [exact E|]. split; [apply NDI; constructor|].
    intro pn. rewrite FS. cbn [find_pool].
    assert (PF : Permutation (filter (for_pool pn) es) (match find_pool pn P with Some p => pool_evs ty p | None => [] end)).
    { rewrite <- (expected_for ty P pn IDS). apply Permutation_filter. exact PM. }
    destruct (find_pool pn P) as [p|] eqn:F.
    + rewrite <- (find_pool_id _ _ _ F) in *.
      assert (Op : pool_ok ty p = true) by (apply (proj1 (forallb_forall _ _) OK); eapply find_pool_In; exact F).
      destruct (pool_rebuilt ty p _ Op PF) as (p' & -> & EQ). exact EQ.
    + apply Permutation_sym, Permutation_nil in PF. rewrite PF. exact I.
Qed.

(* pools -> index -> per-node delegations -> pools, nodes read in any order *)
Lemma regroup_any_order idx G G' : no_conflict P = true ->
  build_index P = Ok idx -> generate ty (Some idx) = Ok G -> Permutation G' G ->
  exists P', incorporate_all ty G' [] = Ok P' /\ pools_equiv P' P.
Proof.
  intros NC B GE PG.
  destruct (generate_shape ty P idx OK NC B) as (G0 & GE0 & _ & TY & PE). rewrite GE in GE0. injection GE0 as <-.
  unfold flatten_g in PE. rewrite <- PG in TY, PE. rewrite (incorporate_all_flat ty G' [] TY). apply incorporate_expected. exact PE.
Qed.

Lemma regroup_ok : no_conflict P = true -> exists P', regroup ty P = Ok P' /\ pools_equiv P' P.
Proof.
  intro NC. destruct (index_complete ty P OK) as (idx & B & _).
  destruct (generate_shape ty P idx OK NC B) as (G & GE & _).
  destruct (regroup_any_order idx G G NC B GE (Permutation_refl G)) as (P' & E & EQ).
  exists P'. unfold regroup. rewrite B. cbn [bind]. rewrite GE. cbn [bind]. split; assumption.
Qed.

End Regroup.
