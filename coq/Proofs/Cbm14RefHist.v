(* C14 - refinement for whole histories.  The store-level model simulates the abstract model; the simulation
   argument is made once, over the way `src` in which a merged source enters the abstract history: without its
   connections (abs_adm_n: the node projection NSim of this file) or with them (abs_adm: Cbm14RefFull).  The abstract
   invariants transfer to the store level. *)
From Coq Require Import List NArith Bool.
From FIM Require Import Base.ListFacts Model.Cbm14Store Model.Cbm14Check Model.Cbm14Spec Model.Cbm14Abs Proofs.Cbm14Assoc Proofs.Cbm14Merge
     Proofs.Cbm14Unmerge Proofs.Cbm14Inv Proofs.Cbm14Hist Proofs.Cbm14Frame Proofs.Cbm14RefBase
     Proofs.Cbm14RefMerge Proofs.Cbm14RefUnmerge Proofs.Cbm14RefSnap.
Import ListNotations.
Open Scope N_scope.

(* the node projection of a source model: its nodes, no connections *)
Definition abs_adm_n (g : N) (st : store) : adm := mkAdm g (abs_adm_nodes g st) [].

Definition hop_of (st : store) (o : op) : hop :=
  match o with
  | OpMerge adm _ => HMerge (abs_adm_n adm st)
  | OpUnmerge g => HUnmerge g
  | OpSnap new => HSnap new
  | OpRollback sid => HRollback sid
  end.

(* the documented domain of one operation, in the current store / abstract state *)
Definition pre (cbm : N) (o : op) (st : store) (hs : hstate) : Prop :=
  match o with
  | OpMerge adm tmp => cbm <> tmp /\ adm <> cbm /\ gexists tmp st = false /\
                       Cbm14Spec.mem adm (map adm_id (h_ms hs)) = false
  | OpUnmerge g => gexists cbm st = true
  | OpSnap new => gexists cbm st = true /\ gexists new st = false
  | OpRollback sid => hasn sid (h_snaps hs) = true
  end.

Record NSim (cbm : N) (st : store) (hs : hstate) : Prop := mkNSim {
  ns_J : J (s_next st) (s_nodes st);
  ns_ok : cbm_ok cbm (s_nodes st);
  ns_cur : forall k, getn k (abs_nodes cbm st) = getn k (nodes (h_cur hs));
  ns_inv : HInv hs;
  ns_snaps : forall id C ms, getn id (h_snaps hs) = Some (C, ms) ->
             id <> cbm /\ gexists id st = true /\ cbm_ok id (s_nodes st) /\
             NoDup (map fst (nodes C)) /\
             forall k, getn k (abs_nodes id st) = getn k (nodes C)
}.

Definition otouches (id : N) (o : op) : bool :=
  match o with OpSnap i => i =? id | OpRollback i => i =? id | _ => false end.

(* a graph whose lookups are unchanged keeps what the simulation records about it *)
Lemma graph_kept h st st' C :
  ukeys (s_nodes st') -> (forall k, at_ h k (s_nodes st') = at_ h k (s_nodes st)) ->
  gexists h st = true /\ cbm_ok h (s_nodes st) /\ (forall k, getn k (abs_nodes h st) = getn k (nodes C)) ->
  gexists h st' = true /\ cbm_ok h (s_nodes st') /\ (forall k, getn k (abs_nodes h st') = getn k (nodes C)).
Proof.
  intros K E (G & W & A). split; [|split].
  - destruct (gexists_at h st G) as (k & n & X). rewrite <- E in X. eapply at_gexists; eauto.
  - intros n Hn Gn. pose proof (at_uniq h (n_nid n) _ n K Hn Gn eq_refl) as X. rewrite E in X.
    apply at_In in X as (Hn' & _ & _). apply (W n Hn' Gn).
  - intro k. rewrite getn_abs, E, <- getn_abs. apply A.
Qed.

Section Sim.
  Variable src : N -> store -> adm.
  Hypothesis src_id : forall a st, adm_id (src a st) = a.
  Hypothesis src_nodes : forall a st, adm_nodes (src a st) = abs_adm_nodes a st.

  Definition hop_by (st : store) (o : op) : hop :=
    match o with
    | OpMerge adm _ => HMerge (src adm st)
    | OpUnmerge g => HUnmerge g
    | OpSnap new => HSnap new
    | OpRollback sid => HRollback sid
    end.

  (* the node half of the simulation relation *)
  Record Core (cbm : N) (st : store) (hs : hstate) : Prop := mkCore {
    co_J : J (s_next st) (s_nodes st);
    co_ok : cbm_ok cbm (s_nodes st);
    co_cur : forall k, getn k (abs_nodes cbm st) = getn k (nodes (h_cur hs));
    co_inv : HInv hs;
    co_snaps : forall id C ms, getn id (h_snaps hs) = Some (C, ms) ->
               id <> cbm /\ gexists id st = true /\ cbm_ok id (s_nodes st) /\
               forall k, getn k (abs_nodes id st) = getn k (nodes C)
  }.

  Lemma core_fresh_snap cbm st hs new : Core cbm st hs -> gexists new st = false -> hasn new (h_snaps hs) = false.
  Proof.
    intros S FR. destruct (hasn new (h_snaps hs)) eqn:X; auto. apply (has_get N.eqb) in X as [[C ms] X].
    destruct (co_snaps _ _ _ S new C ms X) as (_ & G1 & _). congruence.
  Qed.

  Lemma core_not_contributor cbm st hs adm :
    Core cbm st hs -> Cbm14Spec.mem adm (map adm_id (h_ms hs)) = false ->
    forall n, In n (s_nodes st) -> n_gid n = cbm -> ~ In adm (abs_con (n_si n)).
  Proof.
    intros S NM n Hn Gn X. destruct (co_inv _ _ _ S) as [IC _].
    assert (~ In adm (map adm_id (h_ms hs))) as NIn by (intro Y; apply mem_In in Y; congruence).
    pose proof (at_uniq cbm (n_nid n) _ n (J_ukeys _ _ (co_J _ _ _ S)) Hn Gn eq_refl) as A.
    pose proof (co_cur _ _ _ S (n_nid n)) as E. rewrite getn_abs, A in E. simpl in E. symmetry in E.
    apply (Inv_not_contributor _ _ adm IC NIn (n_nid n) (absn n) E). exact X.
  Qed.

  (* the abstract model accepts every merge the store model performs *)
  Lemma merge_not_refused cbm adm tmp st hs st1 :
    Core cbm st hs -> pre cbm (OpMerge adm tmp) st hs -> merge_adm cbm adm tmp st = OOk st1 ->
    exists C', smerge (h_cur hs) (src adm st) = Some C' /\
               hstep hs (HMerge (src adm st)) = mkH C' (h_ms hs ++ [src adm st]) (h_snaps hs).
  Proof.
    intros S (NE & NA & FR & NM) H.
    assert (cbm_wf cbm (s_nodes st)) as W0 by (intros n Hn Gn; apply (co_ok _ _ _ S n Hn Gn)).
    destruct (merge_refines_nodes cbm adm tmp st st1 (co_J _ _ _ S) W0 NE FR H) as (CF & _).
    assert (conflict (h_cur hs) (src adm st) = false) as CF'.
    { rewrite <- CF. unfold conflict. rewrite src_nodes. apply existsb_ext. intros [k a]. simpl.
      rewrite <- (co_cur _ _ _ S). reflexivity. }
    destruct (smerge_defined _ _ CF') as [C' SM]. exists C'. split; auto.
    simpl. rewrite src_id, NM, SM. reflexivity.
  Qed.

  Theorem core_step cbm o st hs st' :
    Core cbm st hs -> pre cbm o st hs -> op_wf (hop_by st o) -> step cbm o st = OOk st' ->
    Core cbm st' (hstep hs (hop_by st o)).
  Proof.
    intros S P WF H. pose proof (HInv_step hs _ (co_inv _ _ _ S) WF) as HI'.
    destruct S as [Jst W CU HI SN]. pose proof Jst as (U & B & K). destruct HI as [IC IS].
    destruct o as [adm tmp|g|new|sid]; simpl in P, H; simpl hop_by in HI' |- *; unfold hstep in HI' |- *; cbv beta iota in HI' |- *.
    - destruct (merge_not_refused cbm adm tmp st hs st' (mkCore _ _ _ Jst W CU (conj IC IS) SN) P H) as (C' & SM & HS).
      clear HS. destruct P as (NE & NA & FR & NM). rewrite src_id, NM, SM in HI' |- *.
      assert (cbm_wf cbm (s_nodes st)) as W0 by (intros n Hn Gn; apply (W n Hn Gn)).
      destruct (merge_refines_nodes cbm adm tmp st st' Jst W0 NE FR H) as (_ & MG & J' & _ & OT & _).
      constructor; cbn [h_cur h_ms h_snaps]; auto.
      + apply (merge_keeps_ok cbm adm tmp st st' Jst W NE FR); auto.
        apply (core_not_contributor cbm st hs adm (mkCore _ _ _ Jst W CU (conj IC IS) SN) NM).
      + intro k. rewrite MG, get_merge_nodes, (smerge_get_node _ _ _ k SM), CU, src_nodes, src_id. reflexivity.
      + intros id C ms G. destruct (SN id C ms G) as (N1 & KP).
        assert (id <> tmp) as N2 by (intro; subst; destruct KP; congruence).
        split; auto. apply (graph_kept id st st' C (J_ukeys _ _ J') (fun k => OT id k N1 N2) KP).
    - destruct (unmerge_refines_nodes cbm g st Jst W P) as (st1 & E & UG & J' & W' & OT).
      rewrite E in H. inversion H; subst st1; clear H.
      pose proof IC as ((ND1 & ND2) & _).
      constructor; cbn [h_cur h_ms h_snaps]; auto.
      + intro k. rewrite UG.
        assert (NoDup (map fst (nodes (abs_cbm cbm st)))) as NDk by (simpl; rewrite keys_abs; apply (ukeys_nids cbm); exact K).
        rewrite (sunmerge_get_node _ g k NDk), (sunmerge_get_node _ g k ND1). simpl nodes. rewrite CU. reflexivity.
      + intros id C ms G. destruct (SN id C ms G) as (N1 & KP).
        split; auto. apply (graph_kept id st st' C (J_ukeys _ _ J') (fun k => OT id k N1) KP).
    - destruct P as (GE & FR).
      destruct (snapshot_refines_nodes cbm new st Jst GE FR) as (st1 & E & SG & OT & J' & OK').
      rewrite E in H. inversion H; subst st1; clear H.
      assert (new <> cbm) as NN by (intro; subst; congruence).
      rewrite (core_fresh_snap cbm st hs new (mkCore _ _ _ Jst W CU (conj IC IS) SN) FR) in HI' |- *.
      destruct (graph_kept cbm st st' (h_cur hs) (J_ukeys _ _ J') (fun k => OT cbm k (not_eq_sym NN)) (conj GE (conj W CU)))
        as (GE' & W' & CU').
      constructor; cbn [h_cur h_ms h_snaps]; auto.
      intros id C ms G. unfold getn in G. simpl in G. fold (@getn (Cbm14Spec.cbm * list adm)) in G.
      destruct (id =? new) eqn:EI.
      + apply N.eqb_eq in EI. subst id. inversion G; subst C ms.
        split; auto. split; [|split; [apply OK'; exact W|intro k; rewrite SG; apply CU]].
        destruct (gexists_at cbm st GE) as (k & n & A).
        pose proof (SG k) as X. rewrite !getn_abs, A in X. simpl in X.
        destruct (at_ new k (s_nodes st')) as [n0|] eqn:A'; [eapply at_gexists; eauto|discriminate].
      + apply N.eqb_neq in EI. destruct (SN id C ms G) as (N1 & KP).
        split; auto. apply (graph_kept id st st' C (J_ukeys _ _ J') (fun k => OT id k EI) KP).
    - apply (has_get N.eqb) in P as [[C ms] G]. fold (@getn (Cbm14Spec.cbm * list adm)) in G.
      destruct (SN sid C ms G) as (N1 & G1 & O1 & A1).
      destruct (rollback_refines_nodes cbm sid st Jst N1 G1) as (st1 & E & RG & OT & TS & J' & OK').
      rewrite E in H. inversion H; subst st1; clear H. rewrite G in HI' |- *.
      constructor; cbn [h_cur h_ms h_snaps]; auto.
      + intro k. rewrite RG. apply A1.
      + intros id C0 ms0 G0. unfold getn in G0.
        rewrite (get_filter_key N.eqb N.eqb_eq (fun k => negb (k =? sid))) in G0.
        destruct (id =? sid) eqn:EI; simpl in G0; [discriminate|]. apply N.eqb_neq in EI.
        destruct (SN id C0 ms0 G0) as (M1 & KP).
        split; auto. apply (graph_kept id st st' C0 (J_ukeys _ _ J') (fun k => OT id k M1 EI) KP).
  Qed.

  Lemma core_init cbm st : J (s_next st) (s_nodes st) -> gexists cbm st = false -> Core cbm st hinit.
  Proof.
    intros Jst GE. constructor; simpl.
    - exact Jst.
    - intros n Hn Gn. exfalso. apply (notmp_of_fresh cbm st GE n Hn Gn).
    - intro k. rewrite getn_abs, (no_gid_at cbm st GE k). reflexivity.
    - apply HInv_init.
    - intros id C ms G. discriminate.
  Qed.

  (* histories: a simulation relation R kept by every operation in the domain P; run_by, pre_by, hops_by are
     sim_run, pre_run, hops_run below (fsim_run, fpre_run, fhops_run of Cbm14RefFull) for an arbitrary src *)
  Variables (P : N -> op -> store -> hstate -> Prop) (R : N -> store -> hstate -> Prop).

  Fixpoint run_by (cbm : N) (st : store) (hs : hstate) (ops : list op) : option (store * hstate) :=
    match ops with
    | [] => Some (st, hs)
    | o :: r => match step cbm o st with
                | OOk st' => run_by cbm st' (hstep hs (hop_by st o)) r
                | _ => None
                end
    end.
  Fixpoint pre_by (cbm : N) (st : store) (hs : hstate) (ops : list op) : Prop :=
    match ops with
    | [] => True
    | o :: r => P cbm o st hs /\
                match step cbm o st with
                | OOk st' => pre_by cbm st' (hstep hs (hop_by st o)) r
                | _ => True
                end
    end.
  Fixpoint hops_by (cbm : N) (st : store) (ops : list op) : list hop :=
    match ops with
    | [] => []
    | o :: r => hop_by st o :: match step cbm o st with OOk st' => hops_by cbm st' r | _ => [] end
    end.

  Hypothesis R_step : forall cbm o st hs st',
    R cbm st hs -> P cbm o st hs -> step cbm o st = OOk st' -> R cbm st' (hstep hs (hop_by st o)).

  Theorem run_by_ok cbm ops : forall st hs st' hs',
    R cbm st hs -> pre_by cbm st hs ops -> run_by cbm st hs ops = Some (st', hs') ->
    R cbm st' hs' /\ hs' = hrun hs (hops_by cbm st ops).
  Proof.
    induction ops as [|o r IH]; intros st hs st' hs' S P0 H; simpl in *.
    - inversion H; subst. auto.
    - destruct P0 as [P0 P1]. destruct (step cbm o st) as [s1| |] eqn:E; try discriminate.
      apply (IH s1 _ st' hs'); auto.
  Qed.

  Lemma run_by_app cbm a : forall b st hs,
    run_by cbm st hs (a ++ b) =
    match run_by cbm st hs a with Some (s1, h1) => run_by cbm s1 h1 b | None => None end.
  Proof. induction a as [|o r IH]; intros b st hs; simpl; auto. destruct (step cbm o st); auto. Qed.

  Lemma run_by_hops cbm ops : forall st hs st' hs',
    run_by cbm st hs ops = Some (st', hs') -> hs' = hrun hs (hops_by cbm st ops).
  Proof.
    induction ops as [|o r IH]; intros st hs st' hs' H; simpl in *.
    - inversion H; reflexivity.
    - destruct (step cbm o st) as [s1| |]; try discriminate. apply (IH _ _ _ _ H).
  Qed.

  Lemma hops_untouched cbm id ops : forall st,
    forallb (fun o => negb (otouches id o)) ops = true ->
    forallb (fun o => negb (Cbm14Hist.touches id o)) (hops_by cbm st ops) = true.
  Proof.
    induction ops as [|o r IH]; intros st H; simpl in *; auto.
    apply andb_true_iff in H as [H1 H2]. assert (Cbm14Hist.touches id (hop_by st o) = otouches id o) as -> by (destruct o; reflexivity).
    rewrite H1. simpl. destruct (step cbm o st); auto.
  Qed.

  (* snapshot id; operations that do not use id; rollback id: the abstract model is where it was *)
  Theorem run_by_rollback cbm id mid st hs st' hs' :
    run_by cbm st hs (OpSnap id :: mid ++ [OpRollback id]) = Some (st', hs') ->
    hasn id (h_snaps hs) = false -> forallb (fun o => negb (otouches id o)) mid = true ->
    h_cur hs' = h_cur hs /\ h_ms hs' = h_ms hs.
  Proof.
    intros H HN T. cbn [run_by hop_by] in H. destruct (step cbm (OpSnap id) st) as [s1| |]; try discriminate.
    rewrite run_by_app in H.
    destruct (run_by cbm s1 (hstep hs (HSnap id)) mid) as [[s2 h2]|] eqn:E2; [|discriminate].
    apply run_by_hops in E2. cbn [run_by hop_by] in H. destruct (step cbm (OpRollback id) s2); try discriminate.
    inversion H; subst hs' h2.
    apply (rollback_restores hs id (hops_by cbm s1 mid) HN (hops_untouched cbm id mid s1 T)).
  Qed.
End Sim.

Lemma wf_abs_adm_n g st : ukeys (s_nodes st) -> wf_adm (abs_adm_n g st).
Proof.
  intro K. unfold wf_adm, abs_adm_n; simpl. split; [|split; [constructor|intros e []]].
  unfold abs_adm_nodes. rewrite map_map. simpl. apply (ukeys_nids g). exact K.
Qed.

Lemma nsim_core cbm st hs : NSim cbm st hs <-> Core cbm st hs.
Proof.
  split; intros [Jst W CU HI SN]; constructor; auto; intros id C ms G; destruct (SN id C ms G) as (N1 & G1 & O1 & X);
    split; auto; split; auto; split; auto.
  - apply X.
  - split; [|exact X]. destruct HI as [_ IS]. rewrite Forall_forall in IS.
    apply (get_Some_In N.eqb N.eqb_eq) in G. apply (IS _ G).
Qed.

Lemma pre_wf cbm o st hs : NSim cbm st hs -> op_wf (hop_of st o).
Proof. intro S. destruct o; simpl; auto. apply wf_abs_adm_n. apply (ns_J _ _ _ S). Qed.

Theorem nsim_step cbm o st hs st' :
  NSim cbm st hs -> pre cbm o st hs -> step cbm o st = OOk st' -> NSim cbm st' (hstep hs (hop_of st o)).
Proof.
  intros S P H. apply nsim_core.
  apply (core_step abs_adm_n (fun _ _ => eq_refl) (fun _ _ => eq_refl) cbm o st hs st'); auto.
  - apply nsim_core. exact S.
  - apply (pre_wf cbm o st hs S).
Qed.

(* run the store model and the abstract model side by side; None when the store model does not return normally *)
Fixpoint sim_run (cbm : N) (st : store) (hs : hstate) (ops : list op) : option (store * hstate) :=
  match ops with
  | [] => Some (st, hs)
  | o :: r => match step cbm o st with
              | OOk st' => sim_run cbm st' (hstep hs (hop_of st o)) r
              | _ => None
              end
  end.
(* every operation is in the documented domain when it is executed *)
Fixpoint pre_run (cbm : N) (st : store) (hs : hstate) (ops : list op) : Prop :=
  match ops with
  | [] => True
  | o :: r => pre cbm o st hs /\
              match step cbm o st with
              | OOk st' => pre_run cbm st' (hstep hs (hop_of st o)) r
              | _ => True
              end
  end.
(* the abstract operations performed along the way *)
Fixpoint hops_run (cbm : N) (st : store) (ops : list op) : list hop :=
  match ops with
  | [] => []
  | o :: r => hop_of st o :: match step cbm o st with OOk st' => hops_run cbm st' r | _ => [] end
  end.

Theorem nsim_run cbm ops : forall st hs st' hs',
  NSim cbm st hs -> pre_run cbm st hs ops -> sim_run cbm st hs ops = Some (st', hs') ->
  NSim cbm st' hs' /\ hs' = hrun hs (hops_run cbm st ops).
Proof. exact (run_by_ok abs_adm_n pre NSim nsim_step cbm ops). Qed.

Lemma nsim_init cbm st :
  J (s_next st) (s_nodes st) -> gexists cbm st = false -> NSim cbm st hinit.
Proof. intros Jst GE. apply nsim_core. apply core_init; auto. Qed.

(* the abstract invariant, read on the store *)
Section Transfer.
  Variables (cbm : N) (st : store) (hs : hstate).
  Hypothesis S : NSim cbm st hs.

  Lemma node_get k n : at_ cbm k (s_nodes st) = Some n -> getn k (nodes (h_cur hs)) = Some (absn n).
  Proof. intro A. rewrite <- (ns_cur _ _ _ S k), getn_abs, A. reflexivity. Qed.

  (* every node of the combined graph records EXACTLY the merged models that contain it *)
  Theorem store_contributors_exact k n g :
    at_ cbm k (s_nodes st) = Some n ->
    (In g (abs_con (n_si n)) <-> exists A, In A (h_ms hs) /\ adm_id A = g /\ hasn k (adm_nodes A) = true).
  Proof.
    intro A. destruct (ns_inv _ _ _ S) as [(_ & _ & _ & _ & _ & CE & _) _].
    specialize (CE k). rewrite (node_get k n A) in CE. apply CE.
  Qed.

  (* the node set of the combined graph is the union of the merged models' node sets *)
  Theorem store_union k :
    (exists n, at_ cbm k (s_nodes st) = Some n) <-> exists A, In A (h_ms hs) /\ hasn k (adm_nodes A) = true.
  Proof.
    destruct (ns_inv _ _ _ S) as [(_ & AL & _ & _ & _ & CE & _) _]. specialize (CE k).
    pose proof (ns_cur _ _ _ S k) as E. rewrite getn_abs in E. split.
    - intros [n A]. rewrite A in E. simpl in E. rewrite <- E in CE.
      assert (alive (absn n) = true) as X by (apply (AL k); auto).
      apply alive_exists in X as [g X]. apply CE in X as (B & HB & _ & HK). eauto.
    - intros (B & HB & HK). destruct (at_ cbm k (s_nodes st)) as [n|]; eauto.
      simpl in E. rewrite <- E in CE. rewrite (CE B HB) in HK. discriminate.
  Qed.

  (* delegations are keyed by the contributor that supplied them *)
  Theorem store_delegations_keyed k n g x :
    at_ cbm k (s_nodes st) = Some n ->
    (abs_del (n_ld n) = Some (g, x) ->
       exists A a, In A (h_ms hs) /\ adm_id A = g /\ getn k (adm_nodes A) = Some a /\ a_ld a = Some x) /\
    (abs_del (n_cd n) = Some (g, x) ->
       exists A a, In A (h_ms hs) /\ adm_id A = g /\ getn k (adm_nodes A) = Some a /\ a_cd a = Some x).
  Proof.
    intro A. destruct (ns_inv _ _ _ S) as [(_ & _ & _ & _ & _ & _ & KB) _].
    apply (KB k (absn n) g x (node_get k n A)).
  Qed.

  (* shared elements appear once *)
  Theorem store_shared_once : NoDup (map n_nid (of_gid cbm st)).
  Proof. apply (ukeys_nids cbm). apply (ns_J _ _ _ S). Qed.
End Transfer.

Theorem store_unmerge_inverse_nodes cbm adm tmp st hs st1 st2 :
  NSim cbm st hs -> pre cbm (OpMerge adm tmp) st hs ->
  merge_adm cbm adm tmp st = OOk st1 -> unmerge_adm cbm adm st1 = OOk st2 ->
  forall k, getn k (abs_nodes cbm st2) = getn k (abs_nodes cbm st).
Proof.
  intros S P H1 H2 k.
  destruct (merge_not_refused abs_adm_n (fun _ _ => eq_refl) (fun _ _ => eq_refl) cbm adm tmp st hs st1
              (proj1 (nsim_core _ _ _) S) P H1) as (C' & SM & HS).
  assert (NSim cbm st1 (hstep hs (hop_of st (OpMerge adm tmp)))) as S1 by (eapply nsim_step; eauto).
  simpl hop_of in S1. rewrite HS in S1.
  assert (gexists cbm st1 = true) as GE1.
  { unfold unmerge_adm in H2. destruct (gexists cbm st1); auto. discriminate. }
  assert (NSim cbm st2 (hstep (mkH C' (h_ms hs ++ [abs_adm_n adm st]) (h_snaps hs)) (hop_of st1 (OpUnmerge adm)))) as S2
    by (eapply nsim_step; eauto).
  rewrite (ns_cur _ _ _ S2 k), (ns_cur _ _ _ S k). simpl.
  destruct (ns_inv _ _ _ S) as [IC _]. destruct P as (_ & _ & _ & NM).
  assert (~ In adm (map adm_id (h_ms hs))) as NIn by (intro X; apply mem_In in X; congruence).
  apply (unmerge_nodes (h_cur hs) (abs_adm_n adm st) C' k); auto.
  - apply (Inv_wf_cbm _ _ IC).
  - apply wf_abs_adm_n. apply (ns_J _ _ _ S).
  - apply (Inv_not_contributor _ _ adm IC NIn).
Qed.

Theorem store_rollback_nodes cbm id mid st hs st' hs' :
  NSim cbm st hs ->
  pre_run cbm st hs (OpSnap id :: mid ++ [OpRollback id]) ->
  sim_run cbm st hs (OpSnap id :: mid ++ [OpRollback id]) = Some (st', hs') ->
  forallb (fun o => negb (otouches id o)) mid = true ->
  forall k, getn k (abs_nodes cbm st') = getn k (abs_nodes cbm st).
Proof.
  intros S P H T k.
  destruct (nsim_run cbm _ st hs st' hs' S P H) as [S' _].
  rewrite (ns_cur _ _ _ S' k), (ns_cur _ _ _ S k).
  destruct (run_by_rollback abs_adm_n cbm id mid st hs st' hs' H) as [-> _]; auto.
  apply (core_fresh_snap cbm st hs id (proj1 (nsim_core _ _ _) S)). apply P.
Qed.

Lemma ex_refine :
  rgoodb 0 ex_store = true /\ gexists 0 ex_store = false /\
  pre_run 0 ex_store hinit ex_sops /\
  exists st' hs', sim_run 0 ex_store hinit ex_sops = Some (st', hs') /\
                  map adm_id (h_ms hs') = [1] /\ map fst (nodes (h_cur hs')) = [10; 11] /\
                  map n_nid (of_gid 0 st') = [10; 11].
Proof.
  split; [vm_compute; reflexivity|]. split; [vm_compute; reflexivity|]. split.
  - vm_compute. repeat split; try reflexivity; try discriminate.
  - eexists. eexists. split; [vm_compute; reflexivity|]. split; [|split]; vm_compute; reflexivity.
Qed.
