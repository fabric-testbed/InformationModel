(* C03: lemmas on insertion-ordered association lists (aget / aset / filter / sort) used by the codec proofs *)
From Coq Require Import List Bool Permutation.
From FIM Require Import Base.Str Base.Json.
Import ListNotations.

Lemma aget_aset {V} k k' (v : V) m : aget k' (aset k v m) = if str_eqb k' k then Some v else aget k' m.
Proof.
  induction m as [|[k0 v0] m IH]; simpl.
  - reflexivity.
  - destruct (str_eqb_spec k k0) as [->|N]; simpl.
    + destruct (str_eqb_spec k' k0); reflexivity.
    + rewrite IH. destruct (str_eqb_spec k' k0) as [->|N2]; [|reflexivity].
      destruct (str_eqb_spec k0 k); [congruence|reflexivity].
Qed.

Lemma ahas_in {V} k (m : list (str * V)) : ahas k m = true <-> In k (map fst m).
Proof.
  unfold ahas. induction m as [|[k0 v0] m IH]; simpl.
  - split; [discriminate|tauto].
  - destruct (str_eqb_spec k k0) as [->|N].
    + split; intros; [left; reflexivity|reflexivity].
    + split.
      * intro H. right. apply IH. exact H.
      * intros [H|H]; [congruence|apply IH; exact H].
Qed.

Lemma aget_none_notin {V} k (m : list (str * V)) : aget k m = None <-> ~ In k (map fst m).
Proof.
  rewrite <- ahas_in. unfold ahas. destruct (aget k m); split; try congruence; try discriminate.
Qed.

Lemma keys_aset_known {V} k (v : V) m : ahas k m = true -> map fst (aset k v m) = map fst m.
Proof.
  unfold ahas. induction m as [|[k0 v0] m IH]; simpl; [discriminate|].
  destruct (str_eqb_spec k k0) as [->|N]; simpl; [reflexivity|].
  intro H. rewrite IH; [reflexivity|exact H].
Qed.

Lemma ahas_aset {V} k k' (v : V) m : ahas k' m = true -> ahas k' (aset k v m) = true.
Proof.
  unfold ahas. rewrite aget_aset. destruct (str_eqb k' k); [reflexivity|tauto].
Qed.

Lemma ahas_aset_present {V} k k' (v : V) o : ahas k' o = true -> ahas k (aset k' v o) = ahas k o.
Proof.
  intro H. unfold ahas in *. rewrite aget_aset. destruct (str_eqb_spec k k') as [->|N]; [|reflexivity].
  destruct (aget k' o); [reflexivity|discriminate].
Qed.

Lemma aget_map_val {A} (f : str -> A -> A) k (o : list (str * A)) :
  aget k (map (fun kv => (fst kv, f (fst kv) (snd kv))) o) = option_map (f k) (aget k o).
Proof.
  induction o as [|[k0 v0] o IH]; simpl; [reflexivity|].
  destruct (str_eqb_spec k k0) as [->|N]; [reflexivity|exact IH].
Qed.

Definition aset_all {V} (kw m : list (str * V)) : list (str * V) :=
  fold_left (fun o kv => aset (fst kv) (snd kv) o) kw m.

Lemma aset_all_get {V} (kw : list (str * V)) : forall m k', NoDup (map fst kw) ->
  aget k' (aset_all kw m) = match aget k' kw with Some v => Some v | None => aget k' m end.
Proof.
  unfold aset_all. induction kw as [|[k v] kw IH]; intros m k' ND; simpl; [reflexivity|].
  inversion ND as [|? ? Hn ND']; subst.
  rewrite IH by exact ND'. rewrite aget_aset.
  destruct (str_eqb_spec k' k) as [->|N]; [|reflexivity].
  apply aget_none_notin in Hn. rewrite Hn. reflexivity.
Qed.

Lemma aset_all_keys {V} (kw : list (str * V)) : forall m, (forall kv, In kv kw -> ahas (fst kv) m = true) ->
  map fst (aset_all kw m) = map fst m.
Proof.
  unfold aset_all. induction kw as [|[k v] kw IH]; intros m H; simpl; [reflexivity|].
  rewrite IH.
  - apply keys_aset_known. apply (H (k, v)). left. reflexivity.
  - intros kv Hin. apply ahas_aset. apply H. right. exact Hin.
Qed.

Lemma assoc_ext {V} (a : list (str * V)) : forall b, map fst a = map fst b -> NoDup (map fst a) ->
  (forall k, aget k a = aget k b) -> a = b.
Proof.
  induction a as [|[k v] a IH]; intros b HK ND HG; destruct b as [|[k2 v2] b]; try discriminate; [reflexivity|].
  simpl in HK. inversion HK as [[Hk HK']]. subst k2. inversion ND as [|? ? Hn ND']; subst.
  pose proof (HG k) as G. simpl in G. rewrite str_eqb_refl in G. inversion G as [Gv]. subst v2.
  f_equal. apply IH; [exact HK'|exact ND'|].
  intro k'. pose proof (HG k') as G'. simpl in G'.
  destruct (str_eqb_spec k' k) as [E|N]; [|exact G']. rewrite E.
  assert (Ha : aget k a = None) by (apply aget_none_notin; exact Hn).
  assert (Hb : aget k b = None) by (apply aget_none_notin; rewrite <- HK'; exact Hn).
  rewrite Ha, Hb. reflexivity.
Qed.

Lemma aget_in {V} k (v : V) m : aget k m = Some v -> In (k, v) m.
Proof.
  induction m as [|[k0 v0] m IH]; simpl; [discriminate|].
  destruct (str_eqb_spec k k0) as [->|N].
  - intros [= ->]. left. reflexivity.
  - intro H. right. exact (IH H).
Qed.

Lemma in_aget {V} k (v : V) m : NoDup (map fst m) -> In (k, v) m -> aget k m = Some v.
Proof.
  induction m as [|[k0 v0] m IH]; simpl; [tauto|]. intros ND [H|H].
  - injection H as -> ->. rewrite str_eqb_refl. reflexivity.
  - inversion ND as [|? ? Hn ND']; subst.
    destruct (str_eqb_spec k k0) as [->|N].
    + exfalso. apply Hn. apply in_map_iff. exists (k0, v). split; [reflexivity|exact H].
    + exact (IH ND' H).
Qed.

Lemma aget_perm {V} (a b : list (str * V)) k : Permutation a b -> NoDup (map fst a) -> aget k a = aget k b.
Proof.
  intros HP ND.
  assert (NDb : NoDup (map fst b)) by (eapply Permutation_NoDup; [apply Permutation_map; exact HP|exact ND]).
  destruct (aget k a) as [v|] eqn:E.
  - symmetry. apply in_aget; [exact NDb|]. eapply Permutation_in; [exact HP|]. apply aget_in. exact E.
  - symmetry. apply aget_none_notin. apply aget_none_notin in E. intro H. apply E.
    eapply Permutation_in; [apply Permutation_sym; apply Permutation_map; exact HP|exact H].
Qed.

Lemma aget_filter {V} (p : V -> bool) k (m : list (str * V)) : NoDup (map fst m) ->
  aget k (filter (fun kv => p (snd kv)) m) = match aget k m with Some v => if p v then Some v else None | None => None end.
Proof.
  induction m as [|[k0 v0] m IH]; simpl; [reflexivity|]. intro ND. inversion ND as [|? ? Hn ND']; subst.
  destruct (p v0) eqn:P; simpl.
  - destruct (str_eqb_spec k k0) as [->|N]; [rewrite P; reflexivity|exact (IH ND')].
  - rewrite (IH ND'). destruct (str_eqb_spec k k0) as [->|N]; [|reflexivity].
    apply aget_none_notin in Hn. rewrite Hn. rewrite P. reflexivity.
Qed.

Lemma list_eqb_str_eq a b : list_eqb str_eqb a b = true <-> a = b.
Proof. split; [apply list_eqb_eq; intros x y; apply str_eqb_eq | intros ->; apply list_eqb_refl, str_eqb_refl]. Qed.

