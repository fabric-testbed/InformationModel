(* C14 - lemmas about the lookup of Model/Cbm14Spec.v: get / has over any key type with a boolean equality
   (instantiated at node ids, getn / hasn, and at connection keys, gete / hase), through map, filter, app.
   Base/Assoc.v is about another lookup (aget, N keys only, with aset / aremove). *)
From Coq Require Import List NArith Bool.
From FIM Require Import Base.ListFacts Model.Cbm14Spec.
Import ListNotations.
Open Scope N_scope.

Lemma filter_notin g l : ~ In g l -> filter (fun x => negb (x =? g)) l = l.
Proof. intro H. apply filter_all. intros x Hx. apply negb_true_iff, N.eqb_neq. intros ->. exact (H Hx). Qed.

Section AssocLemmas.
  Context {K : Type} (eqb : K -> K -> bool) (eqb_eq : forall a b, eqb a b = true <-> a = b).

  Lemma eqb_refl' k : eqb k k = true.
  Proof. apply eqb_eq; reflexivity. Qed.

  Lemma eqb_neq a b : a <> b -> eqb a b = false.
  Proof. intro H. destruct (eqb a b) eqn:E; auto. apply eqb_eq in E. contradiction. Qed.

  Lemma get_app {V} k (l1 l2 : list (K * V)) :
    get eqb k (l1 ++ l2) = match get eqb k l1 with Some v => Some v | None => get eqb k l2 end.
  Proof.
    induction l1 as [|[k' v] r IH]; simpl; auto.
    destruct (eqb k k'); auto.
  Qed.

  Lemma get_map {V W} (f : K -> V -> W) k (l : list (K * V)) :
    get eqb k (map (fun kv => (fst kv, f (fst kv) (snd kv))) l) = option_map (f k) (get eqb k l).
  Proof.
    induction l as [|[k' v] r IH]; simpl; auto.
    destruct (eqb k k') eqn:E; auto.
    apply eqb_eq in E; subst; reflexivity.
  Qed.

  Lemma get_filter_key {V} (p : K -> bool) k (l : list (K * V)) :
    get eqb k (filter (fun kv => p (fst kv)) l) = if p k then get eqb k l else None.
  Proof.
    induction l as [|[k' v] r IH]; simpl.
    - destruct (p k); auto.
    - destruct (p k') eqn:P; simpl.
      + destruct (eqb k k') eqn:E; auto.
        apply eqb_eq in E; subst. rewrite P. reflexivity.
      + rewrite IH. destruct (eqb k k') eqn:E; auto.
        apply eqb_eq in E; subst. rewrite P. reflexivity.
  Qed.

  Lemma get_Some_In {V} k v (l : list (K * V)) : get eqb k l = Some v -> In (k, v) l.
  Proof.
    induction l as [|[k' v'] r IH]; simpl; try discriminate.
    destruct (eqb k k') eqn:E.
    - intro H; inversion H; subst. apply eqb_eq in E; subst. auto.
    - auto.
  Qed.

  Lemma get_None_notin {V} k (l : list (K * V)) : get eqb k l = None <-> ~ In k (map fst l).
  Proof.
    induction l as [|[k' v'] r IH]; simpl.
    - tauto.
    - destruct (eqb k k') eqn:E.
      + apply eqb_eq in E; subst. split; [discriminate | intro H; exfalso; apply H; auto].
      + rewrite IH. split.
        * intros H [H1|H1]; [subst; rewrite eqb_refl' in E; discriminate | auto].
        * tauto.
  Qed.

  Lemma In_get {V} k v (l : list (K * V)) : NoDup (map fst l) -> In (k, v) l -> get eqb k l = Some v.
  Proof.
    induction l as [|[k' v'] r IH]; simpl; [tauto|].
    intros ND [H|H].
    - inversion H; subst. rewrite eqb_refl'. reflexivity.
    - inversion ND; subst. destruct (eqb k k') eqn:E.
      + apply eqb_eq in E; subst. exfalso. apply H2. change k' with (fst (k', v)). apply in_map. exact H.
      + auto.
  Qed.

  Lemma has_true_iff {V} k (l : list (K * V)) : has eqb k l = true <-> In k (map fst l).
  Proof.
    unfold has. destruct (get eqb k l) eqn:E.
    - split; auto. intros _. apply get_Some_In in E. change k with (fst (k, v)). apply in_map. exact E.
    - split; [discriminate|]. intro H. apply get_None_notin in E. contradiction.
  Qed.

  Lemma has_get {V} k (l : list (K * V)) : has eqb k l = true <-> exists v, get eqb k l = Some v.
  Proof.
    unfold has. destruct (get eqb k l); split; eauto; try discriminate. intros [v H]; discriminate.
  Qed.

  Lemma has_false_get {V} k (l : list (K * V)) : has eqb k l = false <-> get eqb k l = None.
  Proof. unfold has. destruct (get eqb k l); split; auto; discriminate. Qed.

  Lemma keys_map {V W} (f : K -> V -> W) (l : list (K * V)) :
    map fst (map (fun kv => (fst kv, f (fst kv) (snd kv))) l) = map fst l.
  Proof. induction l as [|[k v] r IH]; simpl; congruence. Qed.

  Lemma keys_filter_incl {V} (q : K * V -> bool) (l : list (K * V)) k :
    In k (map fst (filter q l)) -> In k (map fst l).
  Proof. induction l as [|y r IH]; simpl; auto. destruct (q y); simpl; tauto. Qed.

  (* filter on values needs unique keys *)
  Lemma get_filter_val {V} (q : K * V -> bool) k (l : list (K * V)) :
    NoDup (map fst l) ->
    get eqb k (filter q l) = match get eqb k l with
                             | Some v => if q (k, v) then Some v else None
                             | None => None end.
  Proof.
    induction l as [|[k' v'] r IH]; simpl; auto.
    intro ND. inversion ND; subst.
    destruct (eqb k k') eqn:E.
    - apply eqb_eq in E; subst. destruct (q (k', v')) eqn:Q; simpl.
      + rewrite eqb_refl'. reflexivity.
      + apply get_None_notin. intro H. apply H1. exact (keys_filter_incl q r k' H).
    - destruct (q (k', v')); simpl; [rewrite E|]; auto.
  Qed.
  (* keys of "l1, then what l2 has beyond l1" *)
  Lemma NoDup_keys_beyond {V W} (l1 : list (K * V)) (l2 : list (K * W)) :
    NoDup (map fst l1) -> NoDup (map fst l2) ->
    NoDup (map fst l1 ++ map fst (filter (fun kw => negb (has eqb (fst kw) l1)) l2)).
  Proof.
    intros N1 N2. apply NoDup_app_intro; auto using NoDup_map_filter.
    intros k H1 H2. apply in_map_iff in H2 as (kw & <- & Hin). apply filter_In in Hin as [_ Hq].
    apply has_true_iff in H1. rewrite H1 in Hq. discriminate.
  Qed.
End AssocLemmas.

Lemma ekey_eqb_eq (a b : ekey) : ekey_eqb a b = true <-> a = b.
Proof.
  destruct a as [a1 a2], b as [b1 b2]. unfold ekey_eqb; simpl.
  rewrite andb_true_iff, !N.eqb_eq. split; [intros [? ?]; subst; auto | intro H; inversion H; auto].
Qed.

(* has is the test "get finds something": stated for the two instances the models use *)
Lemma hasn_is_some {V} k (l : list (N * V)) : hasn k l = is_some (getn k l).
Proof. reflexivity. Qed.
Lemma hase_is_some {V} e (l : list (ekey * V)) : hase e l = is_some (gete e l).
Proof. reflexivity. Qed.
