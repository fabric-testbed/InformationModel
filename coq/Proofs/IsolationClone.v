(* C04: a clone has the content of its source under the new id (shared store), over every history of
   well-formed operations; independence is the frame theorem.  Needs two structural invariants of
   nx.Graph that the list model does not give for free: every link joins two stored nodes, and no two
   links join the same pair. *)
From Coq Require Import List NArith Bool Lia.
From FIM Require Import Base.ListFacts Base.Assoc Model.Store Model.StoreDisjoint.
From FIM Require Import Proofs.IsolationBase Proofs.IsolationShared Proofs.IsolationFrame Proofs.IsolationDisjoint.
From FIM Require Import Proofs.RefineSim Proofs.RefineStores.
Import ListNotations.
Open Scope N_scope.

(* no two links join the same unordered pair *)
Fixpoint pdist (l : list (N * N)) : Prop :=
  match l with
  | [] => True
  | p :: r => (forall q, In q r -> same_pair p q = false) /\ pdist r
  end.

Definition EDist (G : nxg) : Prop := pdist (map fst (ge G)).

Lemma pdistb_pdist l : pdistb l = true -> pdist l.
Proof.
  induction l as [|p r IH]; cbn [pdistb pdist]; [auto|]. intro H. apply andb_true_iff in H as [H1 H2].
  split; [|now apply IH]. intros q Hq. rewrite forallb_forall in H1. specialize (H1 q Hq). now apply negb_true_iff in H1.
Qed.

Lemma same_pair_sym p q : same_pair p q = same_pair q p.
Proof.
  unfold same_pair. rewrite (N.eqb_sym (fst p) (fst q)), (N.eqb_sym (snd p) (snd q)),
    (N.eqb_sym (fst p) (snd q)), (N.eqb_sym (snd p) (fst q)).
  destruct (N.eqb (fst q) (fst p)), (N.eqb (snd q) (snd p)), (N.eqb (snd q) (fst p)), (N.eqb (fst q) (snd p)); reflexivity.
Qed.

Lemma same_pair_apart x y a b : x <> a -> x <> b -> same_pair (x, y) (a, b) = false.
Proof. intros Ha Hb. unfold same_pair. cbn [fst snd]. apply N.eqb_neq in Ha, Hb. now rewrite Ha, Hb. Qed.

Lemma pdist_app l r :
  pdist (l ++ r) <-> pdist l /\ pdist r /\ forall p q, In p l -> In q r -> same_pair p q = false.
Proof.
  induction l as [|x l IH]; cbn [app pdist].
  { split; [intro H; repeat split; auto; intros p q [] | now intros [_ [H _]]]. }
  rewrite IH. split.
  - intros [H1 [Hl [Hr Hc]]]. repeat split; auto.
    + intros q Hq. apply H1, in_or_app. now left.
    + intros p q [<-|Hp] Hq; [apply H1, in_or_app; now right | now apply Hc].
  - intros [[H1 Hl] [Hr Hc]]. repeat split; auto.
    + intros q Hq. apply in_app_or in Hq as [Hq|Hq]; [now apply H1 | apply Hc; [now left | exact Hq]].
    + intros p q Hp. apply Hc. now right.
Qed.

Lemma pdist_app_l l r : pdist (l ++ r) -> pdist l.
Proof. intro H. now apply pdist_app in H. Qed.

Lemma pdist_app_single l p : pdist l -> (forall q, In q l -> same_pair q p = false) -> pdist (l ++ [p]).
Proof.
  intros H Hp. apply pdist_app. repeat split; auto; [intros q [] | intros q p' Hq [<-|[]]; auto].
Qed.

Lemma pdist_map_filter {A} (k : A -> N * N) (f : A -> bool) l : pdist (map k l) -> pdist (map k (filter f l)).
Proof.
  induction l as [|x r IH]; cbn [filter map pdist]; [auto|]. intros [H1 H2].
  destruct (f x); cbn [map pdist]; [split|]; auto.
  intros q Hq. apply H1. apply in_map_iff in Hq as [e [<- He]]. apply filter_In in He as [He _]. now apply in_map.
Qed.

Lemma pdist_filter (f : N * N -> bool) l : pdist l -> pdist (filter f l).
Proof. intro H. rewrite <- (map_id (filter f l)). apply pdist_map_filter. now rewrite map_id. Qed.

Lemma map_fst_filter_edges (f : N * N -> bool) (l : list edge) :
  map fst (filter (fun e => f (fst e)) l) = filter f (map fst l).
Proof. apply map_fst_filter_fst. Qed.

Lemma map_fst_set_edge a b ps l : map fst (set_edge a b ps l) = map fst l.
Proof.
  induction l as [|[[x y] d] r IH]; [reflexivity|]. cbn [set_edge].
  destruct (edge_is a b (x, y, d)); cbn [map fst snd]; [reflexivity | now rewrite IH].
Qed.

Lemma edge_is_same_pair a b e : edge_is a b e = same_pair (fst e) (a, b).
Proof. destruct e as [[x y] ps]. reflexivity. Qed.

Lemma nx_edge_None G a b : nx_edge G a b = None <-> forall e, In e (ge G) -> same_pair (fst e) (a, b) = false.
Proof.
  unfold nx_edge. split.
  - destruct (find (edge_is a b) (ge G)) as [[[x y] d]|] eqn:Ef; [discriminate|].
    intros _ e He. rewrite <- edge_is_same_pair. exact (find_none _ _ Ef e He).
  - intro H. destruct (find (edge_is a b) (ge G)) as [[[x y] d]|] eqn:Ef; [|reflexivity].
    apply find_some in Ef as [Hin He]. rewrite edge_is_same_pair, (H _ Hin) in He. discriminate.
Qed.

Lemma EDist_same_ge G' G : ge G' = ge G -> EDist G -> EDist G'.
Proof. unfold EDist. intros E H. now rewrite E. Qed.

Lemma EDist_filter_edges (f : edge -> bool) G ns : EDist G -> EDist (mkG ns (filter f (ge G))).
Proof. apply pdist_map_filter. Qed.

Lemma EDist_set_edge G a b ps : EDist G -> EDist (nx_set_edge G a b ps).
Proof. unfold EDist, nx_set_edge. cbn [ge]. now rewrite map_fst_set_edge. Qed.

Lemma EDist_append G a b ps : nx_edge G a b = None -> EDist G -> EDist (mkG (gn G) (ge G ++ [(a, b, ps)])).
Proof.
  intros E H. unfold EDist. cbn [ge]. rewrite map_app. apply pdist_app_single; [exact H|].
  intros q Hq. apply in_map_iff in Hq as [e [<- He]]. exact (proj1 (nx_edge_None G a b) E e He).
Qed.

Lemma EDist_add_edge G a b ps : EDist G -> EDist (nx_add_edge G a b ps).
Proof.
  intro H. unfold nx_add_edge. destruct (nx_edge G a b) eqn:E; [now apply EDist_set_edge | now apply EDist_append].
Qed.

Lemma EDist_remap u v G e : EDist G -> EDist (remap_edge u v G e).
Proof.
  destruct e as [[p q] d]. intro H. unfold remap_edge.
  destruct (nx_edge G u _) eqn:E; [now apply EDist_set_edge | now apply EDist_append].
Qed.

Lemma EDist_add_all G ns es : EDist G -> EDist (nx_add_all G ns es).
Proof.
  intro H. unfold nx_add_all.
  apply fold_left_inv; [intros G' [[a b] ps] _; apply EDist_add_edge|].
  apply fold_left_inv; [|exact H]. intros G' n _ H'.
  apply (EDist_same_ge _ G'); [|exact H']. unfold nx_add_node. now destruct (nx_node G' (fst n)).
Qed.

Lemma EDist_contract G u v : EDist G -> EDist (contract G u v).
Proof.
  intro H. unfold contract. apply fold_left_inv; [intros; now apply EDist_remap|].
  unfold nx_remove_node. now apply EDist_filter_edges.
Qed.

Lemma EDist_strip u G : EDist G -> EDist (strip_contraction u G).
Proof.
  unfold EDist, strip_contraction. cbn [ge]. rewrite map_map.
  assert (E : map (fun x => fst (strip_edge u x)) (ge G) = map fst (ge G)).
  { apply map_ext. intros [[p q] d]. unfold strip_edge. now destruct (edge_touches u (p, q, d)). }
  now rewrite E.
Qed.

Lemma write_EDist Q g G G' : pg_write Q g G G' -> EDist G -> EDist G'.
Proof.
  intros W H. destruct W; [exact H | exact H | exact H | now apply EDist_set_edge | now apply EDist_add_edge
                           | now apply EDist_filter_edges].
Qed.

Lemma EDist_pg_add_node G g newid n c ps G' : EDist G -> pg_add_node G g newid n c ps = Some G' -> EDist G'.
Proof. intros H E. apply (EDist_same_ge _ G); [eapply pg_add_node_ge; eauto | exact H]. Qed.

Theorem EDist_step s o : EDist (sg s) -> EDist (sg (fst (sstep s o))).
Proof.
  intro H. destruct (mutator o (sg s)) as [x|] eqn:Em.
  { rewrite (sstep_mutator _ _ _ Em). exact (write_EDist _ _ _ _ (mutator_write_any _ _ _ Em) H). }
  assert (Kdel : forall g, EDist (sg (s_del_graph s g))).
  { intro g. unfold s_del_graph, nx_remove_nodes. cbn [sg]. now apply EDist_filter_edges. }
  assert (Kimp : forall g ig, EDist (sg (fst (s_add_graph s g ig)))).
  { intros g ig. unfold s_add_graph. destruct (existsb _ _); cbn [fst sg]; [apply Kdel | apply EDist_add_all, Kdel]. }
  destruct o; try discriminate Em; cbn [sstep lift fst sg]; try exact H.
  - apply Kimp.
  - unfold s_add_graph_direct. cbn [fst sg]. apply EDist_add_all, Kdel.
  - apply Kdel.
  - unfold s_clone. destruct (s_extract (sg s) g); [apply Kimp | exact H].
  - destruct (pg_add_node (sg s) g (snext s) n c ps) as [G'|] eqn:E; cbn [fst sg]; [|exact H].
    eapply EDist_pg_add_node; eauto.
  - destruct (s_merge_cases (sg s) g n g2 pol) as [E|[u [v [q [_ [_ [_ E]]]]]]]; rewrite E; [exact H|].
    apply (EDist_same_ge _ (strip_contraction u (contract (sg s) u v))); [reflexivity|].
    now apply EDist_strip, EDist_contract.
Qed.

Theorem EDist_run ops : forall s, EDist (sg s) -> EDist (sg (srun ops s)).
Proof. induction ops as [|o r IH]; intros s H; cbn [srun fold_left]; [exact H|]. apply IH. now apply EDist_step. Qed.

(* every link joins two stored nodes: all histories of well-formed operations *)
Definition wf_op (o : op) : bool :=
  match o with OImport _ ig | OImportDirect _ ig => edges_ok ig | _ => true end.

Lemma write_closed Q g G G' : pg_write Q g G G' -> EClosed G -> EClosed G'.
Proof.
  assert (Hin : forall n id, find_node G g n = Some id -> In id (ids G)).
  { intros n id H. eapply ids_in_incl, find_node_in, H. }
  intros W H. destruct W.
  - exact H.
  - now apply closed_set_node.
  - intros a b q Hq. rewrite ids_upd_nodes. exact (H a b q Hq).
  - now apply closed_set_edge.
  - apply closed_add_edge; eauto.
  - now apply closed_remove_node.
Qed.

Lemma closed_add_all G ns es first k :
  NoDup (ids G) -> (forall i, In i (ids G) -> i < first) -> map fst ns = seqN first k ->
  (forall a b ps, In (a, b, ps) es -> In a (map fst ns) /\ In b (map fst ns)) ->
  EClosed G -> EClosed (nx_add_all G ns es).
Proof.
  intros Hnd Hlt Hfst He H. unfold nx_add_all.
  rewrite add_nodes_fresh; [| rewrite Hfst; apply seqN_NoDup |].
  - set (G1 := mkG (gn G ++ ns) (ge G)).
    eapply proj2, (fold_left_inv (fun G' => ids G' = ids G1 /\ EClosed G')).
    + intros G' [[a b] ps] Hin [Ei H']. destruct (He a b ps Hin) as [Ha Hb]. split.
      * rewrite <- Ei. unfold ids, nx_add_edge. now destruct (nx_edge G' a b).
      * apply closed_add_edge; auto; rewrite Ei; unfold ids; cbn [G1 gn]; rewrite map_app; apply in_or_app; now right.
    + split; [reflexivity|]. intros a b q Hin. destruct (H a b q Hin) as [Ha Hb]. unfold ids. cbn [G1 gn].
      rewrite map_app. split; apply in_or_app; now left.
  - intros i Hi Hin. rewrite Hfst in Hi. apply seqN_In in Hi. apply Hlt in Hin. lia.
Qed.

(* both imports, and both stores: [stamped] is the relabelled node list, stamped or not *)
Lemma closed_import G first ig stamped :
  NoDup (ids G) -> (forall i, In i (ids G) -> i < first) -> edges_ok ig = true -> EClosed G ->
  map fst stamped = map fst (inodes (relabel ig first)) ->
  EClosed (nx_add_all G stamped (iedges (relabel ig first))).
Proof.
  intros Hnd Hlt Hok H Hst.
  apply (closed_add_all _ _ _ first (length (inodes (relabel ig first)))); auto.
  - rewrite Hst. apply relabel_inodes_fst.
  - intros a b ps Hin. rewrite Hst. now apply (relabel_edges_in ig first a b ps).
Qed.

Lemma closed_contract G u v : In u (ids G) -> u <> v -> EClosed G -> EClosed (contract G u v).
Proof.
  intros Hu Huv H. unfold contract.
  assert (Hids : forall i, In i (ids (nx_remove_node G v)) <-> In i (ids G) /\ i <> v).
  { intro i. unfold ids, nx_remove_node. cbn [gn].
    now rewrite (map_fst_filter_fst (fun i => negb (N.eqb i v))), filter_In, negb_true_iff, N.eqb_neq. }
  eapply proj2, (fold_left_inv (fun G0 => ids G0 = ids (nx_remove_node G v) /\ EClosed G0));
    [|split; [reflexivity | now apply closed_remove_node]].
  intros G0 [[p q] d] He [Hi H0]. apply filter_In in He as [Hin _]. destruct (H p q d Hin) as [Hp Hq].
  split; [rewrite <- Hi; unfold ids, remap_edge; now destruct (nx_edge G0 u _)|].
  unfold remap_edge. set (x0 := if N.eqb p v then q else p). set (x := if N.eqb x0 v then u else x0).
  assert (Hx : In x (ids G0)).
  { rewrite Hi. apply Hids. unfold x. destruct (N.eqb x0 v) eqn:Ex; [now split|]. apply N.eqb_neq in Ex.
    split; [unfold x0; now destruct (N.eqb p v) | exact Ex]. }
  assert (Hu0 : In u (ids G0)) by (rewrite Hi; now apply Hids).
  destruct (nx_edge G0 u x) eqn:E; [now apply closed_set_edge|].
  replace (mkG _ _) with (nx_add_edge G0 u x d) by (unfold nx_add_edge; now rewrite E).
  now apply closed_add_edge.
Qed.

Lemma closed_strip u G : EClosed G -> EClosed (strip_contraction u G).
Proof.
  intros H a b q Hin. unfold strip_contraction in Hin. cbn [ge] in Hin. apply in_map_iff in Hin as [[[x y] d] [E Hin]].
  unfold strip_edge in E. destruct (edge_touches u (x, y, d)); inversion E; subst; exact (H _ _ _ Hin).
Qed.

Theorem closed_step_all s o : SInv s -> wf_op o = true -> EClosed (sg s) -> EClosed (sg (fst (sstep s o))).
Proof.
  intros HI Hwf H. pose proof (SInv_NoDup s HI) as Hnd.
  destruct (mutator o (sg s)) as [x|] eqn:Em.
  { rewrite (sstep_mutator _ _ _ Em). exact (write_closed _ _ _ _ (mutator_write_any _ _ _ Em) H). }
  assert (Kdel : forall g, EClosed (sg (s_del_graph s g))) by (intro g; now apply closed_remove_nodes).
  assert (Kadd : forall g ig stamped, edges_ok ig = true -> map fst stamped = map fst (inodes (relabel ig (snext s))) ->
                 EClosed (nx_add_all (sg (s_del_graph s g)) stamped (iedges (relabel ig (snext s))))).
  { intros g ig stamped Hok Hst. destruct (SInv_del_graph s g HI). now apply closed_import. }
  assert (Kimp : forall g ig, edges_ok ig = true -> EClosed (sg (fst (s_add_graph s g ig)))).
  { intros g ig Hok. unfold s_add_graph. destruct (existsb node_id_missing _); cbn [fst sg]; [apply Kdel|].
    apply Kadd; [exact Hok | apply map_fst_stamp]. }
  destruct o; try discriminate Em; cbn [wf_op] in Hwf; cbn [sstep lift fst sg]; try exact H.
  - now apply Kimp.
  - now apply Kadd.
  - apply Kdel.
  - unfold s_clone. destruct (s_extract (sg s) g) as [ig|] eqn:E; [|exact H]. apply Kimp. eapply extract_edges_ok; eauto.
  - destruct (pg_add_node (sg s) g (snext s) n c ps) as [G'|] eqn:E; cbn [fst sg]; [|exact H].
    apply (closed_add_node (sg s) g (snext s) n c ps); auto using SInv_next_fresh.
  - destruct (s_merge_cases (sg s) g n g2 pol) as [E|[u [v [q [Hg [Eu [Ev E]]]]]]]; rewrite E; [exact H|].
    apply closed_set_node, closed_strip, closed_contract; auto.
    + eapply ids_in_incl, find_node_in, Eu.
    + intros <-. apply find_node_in in Eu, Ev. apply (ids_in_disjoint _ g g2 u Hnd Hg), memN_false in Eu. contradiction.
Qed.

Theorem clone_invariants_run ops : forall s,
  SInv s -> EClosed (sg s) -> EDist (sg s) -> (forall o, In o ops -> wf_op o = true) ->
  SInv (srun ops s) /\ EClosed (sg (srun ops s)) /\ EDist (sg (srun ops s)).
Proof.
  induction ops as [|o r IH]; intros s H1 H2 H3 Hwf; cbn [srun fold_left]; [auto|].
  apply IH; [now apply SInv_step | apply closed_step_all; auto; apply Hwf; now left | now apply EDist_step |
             intros; apply Hwf; now right].
Qed.

Lemma add_edges_fresh es : forall G,
  pdist (map fst (ge G) ++ map fst es) ->
  fold_left (fun acc e => let '(a, b, ps) := e in nx_add_edge acc a b ps) es G = mkG (gn G) (ge G ++ es).
Proof.
  induction es as [|[[a b] ps] r IH]; intros G H; cbn [fold_left].
  - rewrite app_nil_r. now destruct G.
  - assert (Hn : nx_edge G a b = None).
    { apply nx_edge_None. intros e He. apply pdist_app in H as [_ [_ Hc]].
      apply Hc; [now apply in_map | now left]. }
    unfold nx_add_edge at 2. rewrite Hn. rewrite IH; cbn [gn ge].
    + now rewrite <- app_assoc.
    + rewrite map_app. cbn [map fst]. rewrite <- app_assoc. exact H.
Qed.

Lemma index_of_inj l : forall f k1 k2 i,
  index_of k1 l f = Some i -> index_of k2 l f = Some i -> k1 = k2.
Proof.
  induction l as [|[k ps] r IH]; intros f k1 k2 i; cbn [index_of]; [discriminate|].
  destruct (N.eqb k1 k) eqn:E1; destruct (N.eqb k2 k) eqn:E2.
  - apply N.eqb_eq in E1, E2. congruence.
  - intros H1 H2. inversion H1; subst. apply index_of_bounds in H2. lia.
  - intros H1 H2. inversion H2; subst. apply index_of_bounds in H1. lia.
  - apply IH.
Qed.

Definition relab (ns : list node) (first k : N) : N :=
  match index_of k ns first with Some i => i | None => k end.

Lemma relab_eqb ns first a c :
  ahas a ns = true -> ahas c ns = true -> N.eqb (relab ns first a) (relab ns first c) = N.eqb a c.
Proof.
  intros Ha Hc. unfold relab.
  destruct (index_of_some a ns first Ha) as [i Hi]. destruct (index_of_some c ns first Hc) as [j Hj]. rewrite Hi, Hj.
  destruct (N.eqb a c) eqn:E.
  - apply N.eqb_eq in E; subst c. rewrite Hi in Hj. inversion Hj. apply N.eqb_refl.
  - apply N.eqb_neq. intro Eij. subst j. apply N.eqb_neq in E. apply E. eapply index_of_inj; eauto.
Qed.

Lemma relabel_edge_fst ns first e : fst (relabel_edge ns first e) = (relab ns first (fst (fst e)), relab ns first (snd (fst e))).
Proof. destruct e as [[a b] ps]. reflexivity. Qed.

Lemma pdist_relabel ns first (es : list edge) :
  (forall a b ps, In (a, b, ps) es -> ahas a ns = true /\ ahas b ns = true) ->
  pdist (map fst es) -> pdist (map fst (map (relabel_edge ns first) es)).
Proof.
  induction es as [|[[a b] ps] r IH]; cbn [map pdist fst]; [auto|]. intros Hk [H1 H2].
  destruct (Hk a b ps (or_introl eq_refl)) as [Ha Hb]. split.
  - intros q Hq. apply in_map_iff in Hq as [e' [Ee He']]. apply in_map_iff in He' as [[[c d] ps'] [Ee' Hin]]. subst e' q.
    destruct (Hk c d ps' (or_intror Hin)) as [Hc Hd].
    specialize (H1 (c, d)). unfold same_pair in *. cbn [fst snd relabel_edge] in *. fold (relab ns first a) (relab ns first b)
      (relab ns first c) (relab ns first d).
    rewrite !relab_eqb by assumption. apply H1. change (c, d) with (fst (c, d, ps')). now apply in_map.
  - apply IH; [intros; apply (Hk a0 b0 ps0); now right | exact H2].
Qed.

Lemma missing_relabel ns first : existsb node_id_missing (relabel_nodes ns first) = existsb node_id_missing ns.
Proof. revert first; induction ns as [|[k ps] r IH]; intro f; [reflexivity|]. cbn [relabel_nodes existsb]. now rewrite IH. Qed.

(* what g sees once new nodes of g under new ids, and links among them, were added to a graph in which
   g held nothing: exactly these nodes and links *)
Lemma view_add_all_own G g NS ES first k :
  NoDup (ids G) -> (forall i, In i (ids G) -> i < first) -> EClosed G -> EDist G ->
  filter (in_g g) (gn G) = [] ->
  map fst NS = seqN first k ->
  (forall nd, In nd NS -> in_g g nd = true) ->
  (forall a b ps, In (a, b, ps) ES -> In a (map fst NS) /\ In b (map fst NS)) ->
  pdist (map fst ES) ->
  view (nx_add_all G NS ES) g = (NS, ES).
Proof.
  intros Hnd Hlt Hcl Hd Hold HNS Hg HES HpES.
  assert (Hnew : forall a, In a (map fst NS) -> first <= a) by (intros a Ha; rewrite HNS in Ha; apply seqN_In in Ha; lia).
  unfold nx_add_all. rewrite add_nodes_fresh; [| rewrite HNS; apply seqN_NoDup |].
  - rewrite add_edges_fresh; cbn [gn ge].
    + unfold view, ids_in. cbn [gn ge]. rewrite !filter_app, Hold, (filter_all (in_g g) NS Hg). cbn [app]. f_equal.
      rewrite (filter_none _ (ge G)), (filter_all _ ES); [reflexivity | |].
      * intros [[a b] ps] Hin. destruct (HES a b ps Hin) as [Ha Hb]. unfold in_ids.
        apply memN_In in Ha, Hb. now rewrite Ha, Hb.
      * intros [[x y] d] Hin. apply in_ids_false_l, memN_false. intro Hx. apply Hnew in Hx.
        destruct (Hcl x y d Hin) as [Hx' _]. apply Hlt in Hx'. lia.
    + apply pdist_app. repeat split; auto.
      intros [x y] [a b] Hp Hq. apply in_map_iff in Hp as [[[x' y'] d] [[= -> ->] Hp]].
      apply in_map_iff in Hq as [[[a' b'] d'] [[= -> ->] Hq]].
      destruct (Hcl x y d Hp) as [Hx _]. apply Hlt in Hx. destruct (HES a b d' Hq) as [Ha Hb].
      apply Hnew in Ha, Hb. apply same_pair_apart; lia.
  - intros i Hi Hin. apply Hnew in Hi. apply Hlt in Hin. lia.
Qed.

(* [g2] may be [g] itself: the source is extracted before add_graph deletes the id *)
Theorem clone_same s g g2 ns es :
  SInv s -> EClosed (sg s) -> EDist (sg s) ->
  view (sg s) g = (ns, es) -> ns <> [] -> existsb node_id_missing ns = false ->
  snd (s_clone s g g2) = Ok RUnit /\
  view (sg (fst (s_clone s g g2))) g2 =
    (stamp g2 (relabel_nodes ns (snext s)), map (relabel_edge ns (snext s)) es).
Proof.
  intros HI Hcl Hdist Hview Hns Hmiss.
  assert (Hext : s_extract (sg s) g = Some (mkI ns es)).
  { rewrite (extract_is_view (sg s) g (SInv_NoDup s HI)), Hview. cbn [fst snd]. destruct ns; [congruence | reflexivity]. }
  assert (Hok : edges_ok (mkI ns es) = true) by (eapply extract_edges_ok; eauto).
  unfold s_clone. rewrite Hext. unfold s_add_graph, relabel. cbn [inodes iedges s_del_graph snext].
  rewrite missing_relabel, Hmiss. cbn [fst snd sg]. split; [reflexivity|].
  destruct (SInv_del_graph s g2 HI) as [H1 H2].
  apply (view_add_all_own _ g2 _ _ (snext s) (length ns)); auto.
  - now apply closed_remove_nodes.
  - now apply EDist_filter_edges.
  - apply remove_graph_no_nodes.
  - rewrite map_fst_stamp. apply relabel_nodes_fst.
  - intro nd. apply in_g_stamp.
  - intros a b ps Hin. rewrite map_fst_stamp. exact (relabel_edges_in (mkI ns es) (snext s) a b ps Hok Hin).
  - apply pdist_relabel; [intros a b ps; apply (edges_ok_In (mkI ns es) a b ps Hok)|].
    injection Hview as _ <-. now apply (EDist_filter_edges _ (sg s) []).
Qed.

Lemma EDist_init : EDist (sg init_store).
Proof. exact I. Qed.
Lemma EClosed_init : EClosed (sg init_store).
Proof. intros a b ps []. Qed.

Theorem clone_same_all ops g g2 ns es :
  (forall o, In o ops -> wf_op o = true) -> g <> g2 ->
  let s := srun ops init_store in
  view (sg s) g = (ns, es) -> ns <> [] -> existsb node_id_missing ns = false ->
  snd (s_clone s g g2) = Ok RUnit /\
  view (sg (fst (s_clone s g g2))) g2 = (stamp g2 (relabel_nodes ns (snext s)), map (relabel_edge ns (snext s)) es).
Proof.
  intros Hwf _ s Hv Hns Hm.
  destruct (clone_invariants_run ops init_store SInv_init EClosed_init EDist_init Hwf) as [A [B C]].
  now apply clone_same.
Qed.

(* independence is an instance of the frame theorem *)
Theorem clone_independent pre g g2 ops :
  g <> g2 -> (forall o, In o ops -> frame_scope o = true /\ (target o = g \/ target o = g2)) ->
  let s := srun (pre ++ [OClone g g2]) init_store in
  view (sg (srun (filter (fun o => N.eqb (target o) g) ops) s)) g2 = view (sg s) g2 /\
  view (sg (srun (filter (fun o => N.eqb (target o) g2) ops) s)) g = view (sg s) g.
Proof.
  intros Hne H s. split; apply frame_histories; try (apply SInv_run; apply SInv_init).
  all: intros o Ho; apply filter_In in Ho as [Ho Ht]; apply N.eqb_eq in Ht; destruct (H o Ho) as [A _].
  all: split; [exact A | congruence].
Qed.

(* one nx.Graph per id: the clone is the relabelled, re-stamped copy of the whole source graph *)
Theorem clone_same_disjoint d g g2 :
  EClosed (dget d g) -> EDist (dget d g) -> gn (dget d g) <> [] ->
  gn (dget d g2) = [] -> existsb node_id_missing (gn (dget d g)) = false ->
  snd (d_clone d g g2) = Ok RUnit /\
  dget (fst (d_clone d g g2)) g2 =
    mkG (stamp g2 (relabel_nodes (gn (dget d g)) 1)) (map (relabel_edge (gn (dget d g)) 1) (ge (dget d g))).
Proof.
  intros Hcl Hdist Hsrc Hempty Hmiss. destruct (d_clone_cases d g g2) as [[E0 _]|[_ E0]]; [contradiction|]. rewrite E0.
  unfold d_add_graph. rewrite Hempty.
  unfold d_extract, relabel. cbn [inodes iedges]. rewrite missing_relabel, Hmiss. cbn [fst snd]. split; [reflexivity|].
  rewrite dget_dput_ctr, dget_dput, N.eqb_refl.
  set (ns := gn (dget d g)). set (NS := stamp g2 (relabel_nodes ns 1)).
  assert (HNS : map fst NS = seqN 1 (length ns)) by (unfold NS; now rewrite map_fst_stamp, relabel_nodes_fst).
  unfold nx_add_all. rewrite add_nodes_fresh; [| rewrite HNS; apply seqN_NoDup | intros i _ []].
  rewrite add_edges_fresh; [reflexivity|]. cbn [ge app].
  apply pdist_relabel; [|exact Hdist].
  intros a b ps Hin. destruct (Hcl a b ps Hin) as [Ha Hb]. split; apply ahas_In; assumption.
Qed.

(* extract_graph in ANY reachable store (cross-graph links left by merge_nodes included) returns
   exactly the graph's own nodes and the links with BOTH ends in the graph *)
Theorem extract_exact_all ops g :
  let G := sg (srun ops init_store) in
  s_extract G g = match fst (view G g) with
                  | [] => None
                  | _ => Some (mkI (fst (view G g)) (snd (view G g)))
                  end.
Proof. cbv zeta. apply extract_is_view. apply (SInv_run ops init_store SInv_init). Qed.

(* non-vacuity: a store holding a link from node 1 of graph 10 to node 3 of graph 11 *)
Definition ex_cross : list op :=
  [OAddNode 10 20 30 None; OAddNode 11 20 30 None; OAddNode 11 21 31 None; OAddLink 11 20 40 21 None;
   OMerge 10 20 11 None].

Lemma cross_link_nonvacuous :
  let s := srun ex_cross init_store in
  forallb wf_op ex_cross = true /\
  ge (sg s) = [(1, 3, [(k_class, PV 40)])] /\                         (* the cross-graph link *)
  view (sg s) 10 = ([(1, [(k_graphid, PV 10); (k_nodeid, PV 20); (k_class, PV 30)])], []) /\
  s_extract (sg s) 10 = Some (mkI [(1, [(k_graphid, PV 10); (k_nodeid, PV 20); (k_class, PV 30)])] []) /\
  snd (s_clone s 10 12) = Ok RUnit /\
  view (sg (fst (s_clone s 10 12))) 12 = ([(4, [(k_graphid, PV 12); (k_nodeid, PV 20); (k_class, PV 30)])], []) /\
  view (sg (fst (s_clone s 10 12))) 11 = view (sg s) 11.
Proof. vm_compute. repeat split. Qed.

(* the two structural facts as invariants of the one-graph-per-id store *)
Definition DWf (d : dstore) : Prop := forall g, EClosed (dget d g) /\ EDist (dget d g).

Lemma DWf_put d g G : DWf d -> EClosed G -> EDist G -> DWf (dput d g G).
Proof. intros H H1 H2 g'. rewrite dget_dput. destruct (N.eqb g' g); [now split | apply H]. Qed.

Lemma closed_fresh_graph ig stamped :
  edges_ok ig = true -> map fst stamped = map fst (inodes (relabel ig 1)) ->
  EClosed (nx_add_all empty_nxg stamped (iedges (relabel ig 1))).
Proof.
  intros Hok Hst. apply closed_import; auto; [constructor | intros i [] | intros a b ps []].
Qed.

Lemma extract_edges_ok_disjoint d g : EClosed (dget d g) -> edges_ok (d_extract d g) = true.
Proof.
  intro H. unfold edges_ok, d_extract. cbn [inodes iedges]. apply forallb_forall. intros [[a b] ps] Hin.
  destruct (H a b ps Hin) as [Ha Hb]. apply andb_true_iff. split; apply ahas_In; assumption.
Qed.

Theorem DWf_step d o : DInv d -> wf_op o = true -> DWf d -> DWf (fst (dstep d o)).
Proof.
  intros HI Hwf H.
  destruct (mutator o (dget d (target o))) as [x|] eqn:Em.
  { rewrite (dstep_mutator _ _ _ Em). pose proof (mutator_write_any _ _ _ Em) as W. destruct (H (target o)).
    apply DWf_put; [exact H | eapply write_closed | eapply write_EDist]; eauto. }
  assert (Kadd : forall g ig, edges_ok ig = true -> DWf (fst (d_add_graph d g ig))).
  { intros g ig Hok. unfold d_add_graph. destruct (gn (dget d g)); [|exact H].
    destruct (existsb node_id_missing (inodes (relabel ig 1))); cbn [fst]; [exact H|].
    intro g'. rewrite dget_dput_ctr. apply DWf_put; [exact H | | apply EDist_add_all; exact I].
    apply closed_fresh_graph; [exact Hok | apply map_fst_stamp]. }
  destruct o; try discriminate Em; cbn [wf_op] in Hwf; cbn [dstep fst]; try exact H.
  - now apply Kadd.
  - unfold d_add_graph_direct. cbn [fst]. intro g'. rewrite dget_dput_ctr.
    apply DWf_put; [exact H | now apply closed_fresh_graph | apply EDist_add_all; exact I].
  - unfold d_del_graph. destruct (gn (dget d g)); [exact H|]. apply DWf_put; [exact H | intros a b q [] | exact I].
  - destruct (d_clone_cases d g g2) as [[_ E]|[_ E]]; rewrite E; [exact H|]. apply Kadd. apply extract_edges_ok_disjoint. apply H.
  - destruct (pg_add_node (dget d g) g (dcounter d g) n c ps) as [G'|] eqn:E; cbn [fst]; [|exact H].
    intro g'. rewrite dget_dput_ctr. apply DWf_put; [exact H | | eapply EDist_pg_add_node; [apply H | exact E]].
    apply (closed_add_node (dget d g) g (dcounter d g) n c ps); [apply (SInv_next_fresh _ (HI g)) | apply H | exact E].
Qed.

Theorem DWf_run ops : forall d, DInv d -> DWf d -> (forall o, In o ops -> wf_op o = true) -> DWf (drun ops d).
Proof.
  induction ops as [|o r IH]; intros d HI H Hwf; cbn [drun fold_left]; [exact H|].
  apply IH; [now apply DInv_step | apply DWf_step; auto; apply Hwf; now left | intros; apply Hwf; now right].
Qed.

Lemma DWf_init : DWf init_dstore.
Proof. intro g. split; [intros a b q [] | exact I]. Qed.

Theorem clone_same_disjoint_all ops g g2 :
  (forall o, In o ops -> wf_op o = true) ->
  let d := drun ops init_dstore in
  gn (dget d g) <> [] -> gn (dget d g2) = [] -> existsb node_id_missing (gn (dget d g)) = false ->
  snd (d_clone d g g2) = Ok RUnit /\
  dget (fst (d_clone d g g2)) g2 =
    mkG (stamp g2 (relabel_nodes (gn (dget d g)) 1)) (map (relabel_edge (gn (dget d g)) 1) (ge (dget d g))).
Proof.
  intros Hwf d H0 H1 H2. destruct (DWf_run ops init_dstore DInv_init DWf_init Hwf g) as [A B].
  now apply clone_same_disjoint.
Qed.
