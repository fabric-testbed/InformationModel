(* C06: on one graph G - walks and loop removal; the breadth-first reach sets find a shortest path or show there is
   none (sp_int_spec); the simple-path enumeration is complete and the result-update loop keeps a shortest
   qualifying path (pwh_spec).  Rests on Query6Nbr.v for mem_In only. *)
From Coq Require Import List NArith ZArith Bool Lia.
From FIM Require Import Base.ListFacts Model.Query6 Proofs.Query6Nbr.
Import ListNotations.
Open Scope N_scope.

Section Paths.
Variable G : graph.
Notation adj := (adjb G).
Notation nodes := (ints G).

(* x followed by r is a walk of G that ends at z; the nodes of r are nodes of G *)
Definition walk (x : N) (r : list N) (z : N) : bool := pathf adj x r z && forallb (fun y => mem y nodes) r.

Lemma walk_nil x z : walk x [] z = true <-> x = z.
Proof. unfold walk. simpl. rewrite andb_true_r. apply N.eqb_eq. Qed.

Lemma walk_cons x w r z : walk x (w :: r) z = true <-> adj x w = true /\ In w nodes /\ walk w r z = true.
Proof. unfold walk. simpl. rewrite !andb_true_iff, mem_In. tauto. Qed.

Lemma walk_nodes x r z : walk x r z = true -> forall y, In y r -> In y nodes.
Proof.
  intros W y Hy. apply andb_true_iff in W as [_ A]. rewrite forallb_forall in A. apply mem_In, A, Hy.
Qed.

Lemma is_path_iff p a z :
  is_path G p a z = true <-> exists r, p = a :: r /\ In a nodes /\ walk a r z = true.
Proof.
  destruct p as [|x r]; simpl.
  - split; [discriminate|intros (r & [=] & _)].
  - rewrite !andb_true_iff, N.eqb_eq, mem_In. split.
    + intros [[-> P] [Hx A]]. exists r. unfold walk. rewrite P, A. auto.
    + intros (r' & [= -> ->] & Hx & W). apply andb_true_iff in W. tauto.
Qed.

Lemma is_path_single x : In x nodes -> is_path G [x] x x = true.
Proof. intros Hx. apply is_path_iff. exists []. rewrite walk_nil. auto. Qed.

Lemma walk_suffix w l1 x l2 z : walk w (l1 ++ x :: l2) z = true -> walk x l2 z = true.
Proof.
  revert w. induction l1 as [|y l1 IH]; cbn [app]; intros w H; apply walk_cons in H as (_ & _ & H); eauto.
Qed.

Lemma walk_last x r z : walk x r z = true -> r <> [] -> In z r.
Proof.
  revert x. induction r as [|w r IH]; intros x H Hne; [congruence|].
  apply walk_cons in H as (_ & _ & H). destruct r as [|w' r'].
  - apply walk_nil in H. left; auto.
  - right. apply (IH w H). discriminate.
Qed.

(* every walk contains a simple one *)
Lemma loop_removal x r z : walk x r z = true -> exists r', walk x r' z = true /\ NoDup (x :: r').
Proof.
  revert x. induction r as [|w t IH]; intros x H.
  - exists []. split; auto. constructor; auto. constructor.
  - apply walk_cons in H as (Ha & Hw & H). destruct (IH w H) as (r' & W & ND).
    destruct (in_dec N.eq_dec x (w :: r')) as [[->|Hin]|Hnin].
    + exists r'. auto.
    + apply in_split in Hin as (l1 & l2 & ->). exists l2. split.
      * eapply walk_suffix; eauto.
      * inversion ND as [|? ? _ ND']. apply NoDup_app_r in ND'. exact ND'.
    + exists (w :: r'). split; [apply walk_cons; auto|constructor; auto].
Qed.

Lemma simple_bound a r z :
  NoDup (a :: r) -> In a nodes -> walk a r z = true -> (length r < length (g_nodes G))%nat.
Proof.
  intros ND Ha W. rewrite <- (map_length n_int). apply (NoDup_incl_length ND).
  intros y [<-|Hy]; auto. apply (walk_nodes _ _ _ W), Hy.
Qed.

Lemma step_incl S x : In x S -> In x (step G S).
Proof. intros. unfold step. apply in_or_app. auto. Qed.

Lemma reach_mono k : forall S x, In x S -> In x (reachS G k S).
Proof. induction k as [|k IH]; simpl; intros S x H; auto. apply IH. apply step_incl; auto. Qed.

Lemma step_adj S x w : In x S -> adj x w = true -> In w nodes -> In w (step G S).
Proof.
  intros Hx Ha Hw. unfold step. apply in_or_app. destruct (mem w S) eqn:E.
  - left. apply mem_In; auto.
  - right. apply filter_In. split; auto. rewrite E. simpl. apply existsb_exists. eauto.
Qed.

Lemma reach_complete k : forall S x r z,
  In x S -> walk x r z = true -> (length r <= k)%nat -> In z (reachS G k S).
Proof.
  induction k as [|k IH]; intros S x r z Hx W L.
  - destruct r; simpl in L; [|lia]. apply walk_nil in W as <-. exact Hx.
  - simpl. destruct r as [|w r].
    + apply walk_nil in W as <-. apply reach_mono, step_incl, Hx.
    + apply walk_cons in W as (Ha & Hw & W). simpl in L.
      apply (IH (step G S) w r z); [eapply step_adj; eauto|auto|lia].
Qed.

Lemma path_reach k a r z : walk a r z = true -> (length r <= k)%nat -> mem z (reachS G k [a]) = true.
Proof. intros W L. apply mem_In. apply (reach_complete k [a] a r z); auto. left; auto. Qed.

Lemma reach_sound k : forall S z,
  In z (reachS G k S) -> exists x r, In x S /\ walk x r z = true /\ (length r <= k)%nat.
Proof.
  induction k as [|k IH]; simpl; intros S z H.
  - exists z, []. rewrite walk_nil. auto.
  - destruct (IH _ _ H) as (x' & r' & Hx' & W & L).
    apply in_app_or in Hx' as [Hx'|Hx'].
    + exists x', r'. auto.
    + apply filter_In in Hx' as [Hn Hb]. apply andb_true_iff in Hb as [_ Hb].
      apply existsb_exists in Hb as (x & Hx & Ha).
      exists x, (x' :: r'). rewrite walk_cons. simpl. auto 6 with arith.
Qed.

Lemma least_spec f : forall fuel k,
  match least f k fuel with
  | Some j => f j = true /\ (k <= j)%nat /\ forall i, (k <= i < j)%nat -> f i = false
  | None => forall i, (k <= i <= k + fuel)%nat -> f i = false
  end.
Proof.
  induction fuel as [|fuel IH]; intros k; simpl; destruct (f k) eqn:E.
  1,3: repeat split; auto; intros; lia.
  - intros i Hi. assert (i = k) by lia. subst; auto.
  - specialize (IH (S k)). destruct (least f (S k) fuel) as [j|].
    + destruct IH as (H1 & H2 & H3). repeat split; auto; try lia.
      intros i Hi. destruct (Nat.eq_dec i k); [subst; auto|apply H3; lia].
    + intros i Hi. destruct (Nat.eq_dec i k); [subst; auto|apply IH; lia].
Qed.

Lemma build_ok k : forall x z,
  In x nodes -> mem z (reachS G k [x]) = true ->
  exists p, build G k x z = Some p /\ is_path G p x z = true /\ (length p <= k + 1)%nat.
Proof.
  induction k as [|k IH]; intros x z Hx Hr; cbn [build]; destruct (N.eqb_spec x z) as [<-|NE].
  1,3: exists [x]; split; [reflexivity|]; split; [apply is_path_single; auto|simpl; lia].
  - apply mem_In in Hr as [->|[]]. congruence.
  - apply mem_In, reach_sound in Hr as (x0 & r & [->|[]] & W & L).
    destruct r as [|w r]; [apply walk_nil in W; congruence|].
    apply walk_cons in W as (Ha & Hw & W). simpl in L.
    (* the walk's own next node w is a candidate, so find cannot fail; whichever candidate w' it returns is
       within k of z, which is all the induction hypothesis asks *)
    destruct (find (fun w0 => adj x0 w0 && mem z (reachS G k [w0])) nodes) as [w'|] eqn:F.
    + apply find_some in F as [Hw' Hb]. apply andb_true_iff in Hb as [Ha' Hz'].
      destruct (IH w' z Hw' Hz') as (p' & -> & IP & LP). simpl.
      apply is_path_iff in IP as (r' & -> & _ & W').
      exists (x0 :: w' :: r'). split; auto. split; [|simpl in *; lia].
      apply is_path_iff. exists (w' :: r'). rewrite walk_cons. auto.
    + apply (find_none _ _ F) in Hw. rewrite Ha, (path_reach k w r z) in Hw; auto; [discriminate|lia].
Qed.

(* ---------- nx.shortest_path ---------- *)
(* searching distances up to the number of nodes is enough: a path can be made simple *)
Lemma sp_int_spec a z :
  In a nodes ->
  match sp_int G a z with
  | Some p => is_path G p a z = true /\ forall q, is_path G q a z = true -> (length p <= length q)%nat
  | None => forall q, is_path G q a z = false
  end.
Proof.
  intros Ha. unfold sp_int.
  pose proof (least_spec (fun k => mem z (reachS G k [a])) (length (g_nodes G)) 0) as LS.
  destruct (least _ 0 _) as [k|].
  - destruct LS as (Fk & _ & Fmin). destruct (build_ok k a z Ha Fk) as (p & -> & IP & LP).
    split; auto. intros q Hq. apply is_path_iff in Hq as (r & -> & _ & W). simpl.
    destruct (le_lt_dec k (length r)) as [Hle|Hlt]; [lia|].
    pose proof (path_reach _ _ _ _ W (le_n _)) as R. rewrite Fmin in R by lia. discriminate.
  - intros q. apply not_true_is_false. intro Hq. apply is_path_iff in Hq as (r & -> & _ & W).
    destruct (loop_removal _ _ _ W) as (r' & W' & ND). pose proof (simple_bound _ _ _ ND Ha W') as L.
    pose proof (path_reach _ _ _ _ W' (le_n _)) as R. rewrite LS in R by lia. discriminate.
Qed.

(* ---------- nx.all_simple_paths ---------- *)
Lemma simple_paths_sound k : forall x z vis p,
  ~ In x vis -> In p (simple_paths G k x z vis) ->
  exists r, p = x :: r /\ walk x r z = true /\ NoDup p /\ (forall y, In y p -> ~ In y vis) /\ (length r <= k)%nat.
Proof.
  induction k as [|k IH]; intros x z vis p Hv Hp; cbn [simple_paths] in Hp; destruct (x =? z) eqn:E.
  1,3: destruct Hp as [<-|[]]; exists []; split; [reflexivity|]; split; [apply walk_nil, N.eqb_eq, E|];
       split; [constructor; [intros []|constructor]|]; split; [intros y [<-|[]]; exact Hv|apply Nat.le_0_l].
  - destruct Hp.
  - apply in_flat_map in Hp as (w & Hw & Hp).
    destruct (adj x w && negb (mem w (x :: vis))) eqn:C; [|destruct Hp].
    apply andb_true_iff in C as [Ha Hn]. apply negb_true_iff in Hn. apply mem_false in Hn.
    apply in_map_iff in Hp as (p' & <- & Hp').
    destruct (IH w z (x :: vis) p' Hn Hp') as (r' & -> & W & ND & Hd & L).
    exists (w :: r'). rewrite walk_cons. repeat split; auto; try (simpl; lia).
    + constructor; auto. intro Hin. apply (Hd x Hin). left; auto.
    + intros y [<-|Hy]; auto. intro Hy'. apply (Hd y Hy). right; auto.
Qed.

Lemma simple_paths_complete k : forall x z vis r,
  walk x r z = true -> NoDup (x :: r) -> (forall y, In y (x :: r) -> ~ In y vis) ->
  (length r <= k)%nat -> In (x :: r) (simple_paths G k x z vis).
Proof.
  induction k as [|k IH]; intros x z vis r W ND Hd L.
  - destruct r; simpl in L; [|lia]. apply walk_nil in W as <-. simpl. rewrite N.eqb_refl. left; auto.
  - cbn [simple_paths]. destruct (N.eqb_spec x z) as [<-|NE].
    + destruct r as [|w r]; [left; auto|].
      exfalso. assert (Hin : In x (w :: r)) by (eapply walk_last; eauto; discriminate).
      inversion ND; auto.
    + destruct r as [|w r]; [apply walk_nil in W; congruence|].
      apply walk_cons in W as (Ha & Hw & W). simpl in L.
      apply in_flat_map. exists w. split; auto.
      inversion ND as [|? ? Hx ND']; subst.
      assert (Hn : ~ In w (x :: vis)).
      { intros [->|Hv]; [apply Hx; left; auto|]. apply (Hd w); auto. right; left; auto. }
      rewrite Ha. rewrite (proj2 (mem_false _ _) Hn). simpl.
      apply in_map. apply IH; auto; try lia.
      intros y Hy [<-|Hv]; [apply Hx; auto|]. apply (Hd y); auto. right; auto.
Qed.

(* ---------- the result-update loop: upd is the function pick_shortest folds with (the same term, so
   `fold_left upd l []` and `pick_shortest l` are convertible) ---------- *)
Definition upd (result p : list N) : list N :=
  match result with [] => p | _ => if (length p <? length result)%nat then p else result end.

Lemma pick_shortest_from : forall (l : list (list N)) acc,
  (forall p, In p l -> p <> []) -> acc <> [] ->
  let res := fold_left upd l acc in
  In res (acc :: l) /\ forall p, In p (acc :: l) -> (length res <= length p)%nat.
Proof.
  induction l as [|p l IH]; intros acc Hne Hacc; cbn [fold_left].
  - split; [left; reflexivity|]. intros p [<-|[]]. auto.
  - assert (U : (upd acc p = acc \/ upd acc p = p) /\
                (length (upd acc p) <= length acc)%nat /\ (length (upd acc p) <= length p)%nat).
    { unfold upd. destruct acc as [|a0 acc0]; [congruence|].
      destruct (Nat.ltb_spec (length p) (length (a0 :: acc0))); repeat split; auto; lia. }
    destruct U as (U1 & U2 & U3).
    destruct (IH (upd acc p) (fun q Hq => Hne q (or_intror Hq))) as [R1 R2].
    { destruct U1 as [->| ->]; auto. apply Hne. left; auto. }
    split.
    + destruct R1 as [R1|R1]; [|right; right; exact R1]. rewrite <- R1. destruct U1 as [->| ->]; simpl; auto.
    + specialize (R2 _ (or_introl eq_refl)) as R0.
      intros q [<-|[<-|Hq]]; [lia|lia|]. apply R2. right. exact Hq.
Qed.

Lemma pick_shortest_spec l :
  (forall p, In p l -> p <> []) ->
  match l with
  | [] => pick_shortest l = []
  | _ => In (pick_shortest l) l /\ forall p, In p l -> (length (pick_shortest l) <= length p)%nat
  end.
Proof.
  intros Hne. destruct l as [|p l]; [reflexivity|].
  apply (pick_shortest_from l p (fun q Hq => Hne q (or_intror Hq)) (Hne p (or_introl eq_refl))).
Qed.

(* ---------- get_nodes_on_path_with_hops over internal keys ---------- *)
Lemma hop_candidates a z hops cutoff q :
  In a nodes -> (0 <= cutoff)%Z ->
  (In q (filter (qualifies G hops)
           (simple_paths G (Nat.min (Z.to_nat cutoff) (length (g_nodes G))) a z [])) <->
   hop_path G a z hops cutoff q).
Proof.
  intros Ha Hc. rewrite filter_In. unfold hop_path. split.
  - intros [Hq Q]. apply simple_paths_sound in Hq as (r & -> & W & ND & _ & L); auto.
    repeat split; auto.
    + apply is_path_iff. eauto.
    + simpl length. lia.
  - intros (IP & ND & Q & L). split; auto.
    apply is_path_iff in IP as (r & -> & _ & W).
    apply simple_paths_complete; auto.
    pose proof (simple_bound _ _ _ ND Ha W). simpl length in L. lia.
Qed.

Lemma pwh_spec a z hops cutoff :
  In a nodes ->
  let p := pwh_int G a z hops cutoff in
  (p = [] <-> forall q, ~ hop_path G a z hops cutoff q) /\
  (p <> [] -> hop_path G a z hops cutoff p /\
              forall q, hop_path G a z hops cutoff q -> (length p <= length q)%nat).
Proof.
  intros Ha p.
  assert (NE : forall q, hop_path G a z hops cutoff q -> q <> []) by (intros q (IP & _) ->; discriminate IP).
  unfold p, pwh_int. destruct (cutoff <? 0)%Z eqn:C.
  - apply Z.ltb_lt in C. split; [|congruence]. split; auto. intros _ q Hq.
    pose proof (NE q Hq). destruct Hq as (_ & _ & _ & L). destruct q; [congruence|simpl length in L; lia].
  - apply Z.ltb_ge in C.
    set (L := filter (qualifies G hops) (simple_paths G (Nat.min (Z.to_nat cutoff) (length (g_nodes G))) a z [])).
    assert (HL : forall q, In q L <-> hop_path G a z hops cutoff q) by (intro q; apply hop_candidates; auto).
    pose proof (pick_shortest_spec L (fun q Hq => NE q (proj1 (HL q) Hq))) as S.
    clearbody L. destruct L as [|q0 L0].
    + rewrite S. split; [|congruence]. split; auto. intros _ q Hq. apply HL in Hq. destruct Hq.
    + destruct S as [S1 S2]. apply HL in S1. split.
      * split; [intros E; destruct (NE _ S1 E)|intros No; destruct (No _ S1)].
      * intros _. split; auto. intros q Hq. apply S2, HL, Hq.
Qed.

End Paths.
