(* C07 - removals, the programs and the service calls: remove_ns / remove_component / remove_network_node as
   deterministic runs over the invariant InvD (loops over services and components; what else a program deletes has
   lower rank), and the two calls that remove a service: Topology.remove_network_service, Node.remove_network_service.
   Rests on T7Rem2 (disconnection loop, removal of one service). *)
From Coq Require Import List Bool Arith.
From FIM Require Import Base.Str Model.T7Graph Model.T7Ops Model.T7WF Model.T7Steps Model.T7Rel Proofs.T7Tables Proofs.T7WFRefl
     Proofs.T7Frame Proofs.T7Units Proofs.T7Api Proofs.T7RelRun Proofs.T7Api4 Proofs.T7Api6 Proofs.T7Rem
     Proofs.T7Rem2.
Import ListNotations.

Lemma absent_no_nb g x r k : sane g -> has_id g x = false -> first_nb g x r k = [].
Proof. intros [_ HE] H. unfold first_nb. rewrite (nbrs_fresh_nil _ _ HE H). reflexivity. Qed.

Section Progs.
Variable g0 : graph.
Hypothesis W0 : WF g0.
Variable E : str -> bool.

(* NoSP for every interface of the service sv that is still there *)
Definition NoSPat (d : str -> bool) (g : graph) (sv : str) : Prop :=
  forall x, In x (first_nb g0 sv Connects KCP) -> d x = false -> NoSP g0 E g x.

Lemma NoSPat_mono d d' sv : (forall y, d y = true -> d' y = true) ->
  NoSPat d (remove_set g0 d) sv -> NoSPat d' (remove_set g0 d') sv.
Proof.
  intros Sd H x Hx Dx. apply (NoSP_mono g0 E d d' x Sd Dx). apply H; [exact Hx|].
  destruct (d x) eqn:Q; [rewrite (Sd _ Q) in Dx; discriminate | reflexivity].
Qed.

(* a removal program deletes, besides its argument, only elements of lower rank *)
Definition rank (k : cls) : nat := match k with KNode | KComposite => 3 | KComp => 2 | KNS => 1 | _ => 0 end.
Definition below (k : cls) (y : str) : Prop := exists k', cls_is g0 y k' = true /\ rank k' < rank k.
Lemma below_not k y : cls_is g0 y k = true -> ~ below k y.
Proof.
  intros C [k' [C' L]]. rewrite (cls_is_unique _ _ _ k' C) in C'; [discriminate C'|]. intro Q. subst k'. exact (Nat.lt_irrefl _ L).
Qed.
Lemma below_le k k' y : rank k <= rank k' -> below k y -> below k' y.
Proof. intros L [k0 [C L0]]. exists k0. split; [exact C | exact (Nat.lt_le_trans _ _ _ L0 L)]. Qed.

Lemma nss_loop_run : forall L d s,
  InvD g0 E d s -> NoDup L ->
  (forall sv, In sv L -> has_id g0 sv = true /\ d sv = false /\ cls_is g0 sv KNS = true /\
                         (forall x, In x (first_nb g0 sv Connects KCP) -> E x = true) /\ NoSPat d (remove_set g0 d) sv) ->
  exists d', for_each L remove_ns_with_cps_and_links s = (mkSt (remove_set g0 d') (sdr s), Ok tt) /\
    InvD g0 E d' (mkSt (remove_set g0 d') (sdr s)) /\ (forall y, d y = true -> d' y = true) /\
    (forall sv, In sv L -> d' sv = true /\ forall x, In x (first_nb g0 sv Connects KCP) -> d' x = true) /\
    (forall y, d' y = true -> d y = true \/ In y L \/ below KNS y).
Proof.
  induction L as [|sv L IH]; intros d s I ND HL; simpl.
  - exists d. unfold ret. rewrite (state_eta g0 E d s I). split; [reflexivity|]. split; [exact I|]. split; [auto|]. split; [intros sv []|]. auto.
  - destruct (HL sv (or_introl eq_refl)) as [Hs [Ds [Cs [HE NS]]]]. inversion ND as [|? ? Hnot ND']; subst. pose proof I as [G W].
    destruct (remove_ns_run g0 W0 E d s sv I Hs Ds Cs HE) as [d1 [R1 [I1 [S1 [D1s [D1p M1]]]]]].
    { rewrite G. intros x c z Hx Dx. exact (NS x Hx Dx c z). }
    unfold bind at 1. rewrite R1.
    assert (M1' : forall y, d1 y = true -> d y = true \/ y = sv \/ below KNS y).
    { intros y Hy. destruct (M1 y Hy) as [H|[H|[H|[[x [Hx H]]|H]]]]; [auto | auto | | |]; right; right.
      - exists KCP. apply In_first_nb in H. split; [tauto | auto].
      - exists KCP. apply In_first_nb in H. split; [tauto | auto].
      - exists KLink. auto. }
    destruct (IH d1 (mkSt (remove_set g0 d1) (sdr s)) I1 ND') as [d' [R' [I' [S' [A' M']]]]].
    + intros sv' Hsv'. destruct (HL sv' (or_intror Hsv')) as [Hs' [Ds' [Cs' [HE' NS']]]].
      split; [exact Hs'|]. split.
      * destruct (d1 sv') eqn:Q; [|reflexivity]. exfalso. destruct (M1' sv' Q) as [H|[H|H]];
          [congruence | subst sv'; contradiction | exact (below_not _ _ Cs' H)].
      * split; [exact Cs'|]. split; [exact HE'|]. apply (NoSPat_mono d d1 sv' S1 NS').
    + simpl in R', I'. exists d'. split; [exact R'|]. split; [exact I'|]. split; [auto|]. split.
      * intros sv' [<-|Hsv']; [|apply A'; exact Hsv']. split; [apply S'; exact D1s | intros x Hx; apply S'; apply D1p; exact Hx].
      * intros y Hy. destruct (M' y Hy) as [H|[H|H]]; [|auto|auto].
        destruct (M1' y H) as [H1|[H1|H1]]; [auto | subst y; auto | auto].
Qed.

(* the elements that have the component c / the node x as an owner *)
Lemma in_scope_comp c n : cls_is g0 c KComp = true -> In n (gnodes g0) -> In c (scope_of g0 n) -> In (nid n) (first_nb g0 c Has KNS).
Proof.
  intros Cc Hn H. unfold scope_of in H. destruct (ncls n) eqn:Kn; try destruct H.
  - exfalso. unfold comp_owners in H. apply In_nb_where in H as [r [_ P]]. apply andb_true_iff in P as [_ P].
    rewrite !(cls_is_unique _ _ _ _ Cc) in P; [discriminate P | discriminate | discriminate].
  - unfold ns_owners in H. apply In_nb_where in H as [r [Hadj P]]. apply andb_true_iff in P as [Pr _]. apply rel_eqb_eq in Pr. subst r.
    apply In_first_nb. split; [apply nbrs_sym; exact Hadj|]. rewrite (cls_node g0 W0 n _ Hn), Kn. reflexivity.
  - exfalso. unfold cp_owners in H. apply In_nb_where in H as [r [_ P]]. apply andb_true_iff in P as [_ P].
    rewrite !(cls_is_unique _ _ _ _ Cc) in P; [|discriminate|discriminate]. simpl in P. rewrite andb_false_r in P. discriminate P.
Qed.
Lemma in_scope_node x n : cls_is g0 x KNode = true -> In n (gnodes g0) -> In x (scope_of g0 n) ->
  In (nid n) (first_nb g0 x Has KComp) \/ In (nid n) (first_nb g0 x Has KNS).
Proof.
  intros Cx Hn H. unfold scope_of in H. destruct (ncls n) eqn:Kn; try destruct H.
  - left. unfold comp_owners in H. apply In_nb_where in H as [r [Hadj P]]. apply andb_true_iff in P as [Pr _]. apply rel_eqb_eq in Pr. subst r.
    apply In_first_nb. split; [apply nbrs_sym; exact Hadj|]. rewrite (cls_node g0 W0 n _ Hn), Kn. reflexivity.
  - right. unfold ns_owners in H. apply In_nb_where in H as [r [Hadj P]]. apply andb_true_iff in P as [Pr _]. apply rel_eqb_eq in Pr. subst r.
    apply In_first_nb. split; [apply nbrs_sym; exact Hadj|]. rewrite (cls_node g0 W0 n _ Hn), Kn. reflexivity.
  - exfalso. unfold cp_owners in H. apply In_nb_where in H as [r [_ P]]. apply andb_true_iff in P as [_ P].
    rewrite !(cls_is_unique _ _ _ _ Cx) in P; [|discriminate|discriminate]. simpl in P. rewrite andb_false_r in P. discriminate P.
Qed.

(* the interfaces of a deleted service are deleted *)
Definition PortsGone (d : str -> bool) : Prop :=
  forall sv x, cls_is g0 sv KNS = true -> d sv = true -> In x (first_nb g0 sv Connects KCP) -> d x = true.

(* what a service needs for its removal *)
Definition NsReady (d : str -> bool) (sv : str) : Prop :=
  E sv = true /\ (forall x, In x (first_nb g0 sv Connects KCP) -> E x = true) /\ NoSPat d (remove_set g0 d) sv.
Lemma NsReady_mono d d' sv : (forall y, d y = true -> d' y = true) -> NsReady d sv -> NsReady d' sv.
Proof. intros Sd [A [B C]]. split; [exact A|]. split; [exact B|]. eapply NoSPat_mono; eauto. Qed.

Lemma remove_comp_run d s c :
  InvD g0 E d s -> has_id g0 c = true -> d c = false -> cls_is g0 c KComp = true ->
  (forall sv, In sv (first_nb g0 c Has KNS) -> NsReady d sv) ->
  exists d', remove_component_with_nss c s = (mkSt (remove_set g0 d') (sdr s), Ok tt) /\
    InvD g0 E d' (mkSt (remove_set g0 d') (sdr s)) /\ (forall y, d y = true -> d' y = true) /\ d' c = true /\
    (forall sv, In sv (first_nb g0 c Has KNS) -> d' sv = true) /\ (PortsGone d -> PortsGone d') /\
    (forall y, d' y = true -> d y = true \/ y = c \/ below KComp y).
Proof.
  intros I Hc Dc Cc HR. pose proof I as [G W].
  destruct (alive_first_nb g0 E d s c Has KNS I Hc Dc) as [Q HL].
  unfold remove_component_with_nss. unfold bind at 1. rewrite (alive_check_class g0 E d s c KComp I Dc Cc). unfold bind at 1. rewrite Q.
  set (L := first_nb (sg s) c Has KNS) in *.
  destruct (step_delete_owner g0 E d s c I Hc Dc) as [R1 I1].
  { apply (cls_is_unique _ _ _ _ Cc). discriminate. }
  { apply (cls_is_unique _ _ _ _ Cc). discriminate. }
  { intros n Hn Hsc. destruct (HR (nid n) (in_scope_comp c n Cc Hn Hsc)) as [A _]. exact A. }
  set (d1 := fun y => d y || str_eqb y c) in *.
  unfold bind at 1. rewrite R1.
  assert (S1 : forall y, d y = true -> d1 y = true) by (intros y Hy; unfold d1; rewrite Hy; reflexivity).
  destruct (nss_loop_run L d1 (mkSt (remove_set g0 d1) (sdr s)) I1) as [d' [R' [I' [S' [A' M']]]]].
  - apply first_nb_NoDup. apply (r_edges_distinct _ _ _ W).
  - intros sv Hsv. apply HL in Hsv as [Hsv Dsv]. assert (Csv : cls_is g0 sv KNS = true) by (apply In_first_nb in Hsv; tauto).
    split; [eapply cls_is_has_id; eauto|]. split.
    { unfold d1. rewrite Dsv. simpl. apply str_eqb_neq. intro Ex. subst sv. rewrite (cls_is_unique _ _ _ KNS Cc) in Csv; discriminate. }
    split; [exact Csv|]. destruct (NsReady_mono d d1 sv S1 (HR sv Hsv)) as [_ [B C]]. auto.
  - simpl in R', I'. exists d'. split; [exact R'|]. split; [exact I'|]. split; [auto|].
    split; [apply S'; unfold d1; rewrite str_eqb_refl; apply orb_true_r|]. split; [|split].
    + intros sv Hsv. destruct (d sv) eqn:Dsv; [auto|]. apply A'. apply HL. auto.
    + intros PG sv x Csv Dsv Hx. destruct (M' sv Dsv) as [H|[H|H]]; [| exact (proj2 (A' sv H) x Hx) | destruct (below_not _ _ Csv H)].
      unfold d1 in H. apply orb_true_iff in H as [H|H]; [apply S', S1; eapply PG; eauto|].
      apply str_eqb_eq in H. subst sv. rewrite (cls_is_unique _ _ _ KNS Cc) in Csv; discriminate.
    + intros y Hy. destruct (M' y Hy) as [H|[H|H]].
      * unfold d1 in H. apply orb_true_iff in H as [H|H]; [left; exact H|]. right. left. apply str_eqb_eq. exact H.
      * right. right. exists KNS. apply HL in H as [H _]. apply In_first_nb in H. split; [tauto | auto].
      * right. right. apply (below_le KNS); [simpl; auto | exact H].
Qed.

Lemma nss_loop_ports L d d' :
  (forall y, d y = true -> d' y = true) ->
  (forall sv, In sv L -> d' sv = true /\ forall x, In x (first_nb g0 sv Connects KCP) -> d' x = true) ->
  (forall y, d' y = true -> d y = true \/ In y L \/ below KNS y) ->
  PortsGone d -> PortsGone d'.
Proof.
  intros Sd A M PG sv x Csv Dsv Hx. destruct (M sv Dsv) as [H|[H|H]].
  - apply Sd. eapply PG; eauto.
  - apply (A sv H). exact Hx.
  - destruct (below_not _ _ Csv H).
Qed.

Lemma comps_loop_run : forall L d s,
  InvD g0 E d s -> NoDup L ->
  (forall c, In c L -> has_id g0 c = true /\ d c = false /\ cls_is g0 c KComp = true /\
                       forall sv, In sv (first_nb g0 c Has KNS) -> NsReady d sv) ->
  exists d', for_each L remove_component_with_nss s = (mkSt (remove_set g0 d') (sdr s), Ok tt) /\
    InvD g0 E d' (mkSt (remove_set g0 d') (sdr s)) /\ (forall y, d y = true -> d' y = true) /\
    (forall c, In c L -> d' c = true /\ forall sv, In sv (first_nb g0 c Has KNS) -> d' sv = true) /\
    (PortsGone d -> PortsGone d') /\
    (forall y, d' y = true -> d y = true \/ In y L \/ below KComp y).
Proof.
  induction L as [|c L IH]; intros d s I ND HL; simpl.
  - exists d. unfold ret. rewrite (state_eta g0 E d s I). split; [reflexivity|]. split; [exact I|]. split; [auto|]. split; [intros c []|]. auto.
  - destruct (HL c (or_introl eq_refl)) as [Hc [Dc [Cc HR]]]. inversion ND as [|? ? Hnot ND']; subst.
    destruct (remove_comp_run d s c I Hc Dc Cc HR) as [d1 [R1 [I1 [S1 [D1c [D1s [PG1 M1]]]]]]].
    unfold bind at 1. rewrite R1.
    destruct (IH d1 (mkSt (remove_set g0 d1) (sdr s)) I1 ND') as [d' [R' [I' [S' [A' [PG' M']]]]]].
    + intros c' Hc'. destruct (HL c' (or_intror Hc')) as [Hc0 [Dc' [Cc' HR']]].
      split; [exact Hc0|]. split.
      * destruct (d1 c') eqn:Q; [|reflexivity]. exfalso. destruct (M1 c' Q) as [H|[H|H]];
          [congruence | subst c'; contradiction | exact (below_not _ _ Cc' H)].
      * split; [exact Cc'|]. intros sv Hsv. apply (NsReady_mono d d1 sv S1). apply HR'. exact Hsv.
    + simpl in R', I'. exists d'. split; [exact R'|]. split; [exact I'|]. split; [auto|]. split; [|split].
      * intros c' [<-|Hc']; [|apply A'; exact Hc']. split; [apply S'; exact D1c | intros sv Hsv; apply S'; apply D1s; exact Hsv].
      * auto.
      * intros y Hy. destruct (M' y Hy) as [H|[H|H]]; [|auto|auto].
        destruct (M1 y H) as [H1|[H1|H1]]; [auto | subst y; auto | auto].
Qed.

(* remove_network_node_with_components_nss_cps_and_links *)
Lemma remove_node_run d s n :
  InvD g0 E d s -> has_id g0 n = true -> d n = false -> cls_is g0 n KNode = true ->
  (forall c, In c (first_nb g0 n Has KComp) -> E c = true /\ forall sv, In sv (first_nb g0 c Has KNS) -> NsReady d sv) ->
  (forall sv, In sv (first_nb g0 n Has KNS) -> NsReady d sv) ->
  exists d', remove_network_node n s = (mkSt (remove_set g0 d') (sdr s), Ok tt) /\
    InvD g0 E d' (mkSt (remove_set g0 d') (sdr s)) /\ (forall y, d y = true -> d' y = true) /\ d' n = true /\
    (forall c, In c (first_nb g0 n Has KComp) -> d c = false -> d' c = true /\ forall sv, In sv (first_nb g0 c Has KNS) -> d' sv = true) /\
    (forall sv, In sv (first_nb g0 n Has KNS) -> d' sv = true) /\
    (PortsGone d -> PortsGone d').
Proof.
  intros I Hn Dn Cn HC HS. pose proof I as [G W].
  destruct (alive_first_nb g0 E d s n Has KComp I Hn Dn) as [Q1 HL].
  unfold remove_network_node. unfold bind at 1. rewrite (alive_check_class g0 E d s n KNode I Dn Cn). unfold bind at 1. rewrite Q1. clear Q1.
  set (L := first_nb (sg s) n Has KComp) in *.
  destruct (comps_loop_run L d s I) as [d1 [R1 [I1 [S1 [A1 [PG1 M1]]]]]].
  - apply first_nb_NoDup. apply (r_edges_distinct _ _ _ W).
  - intros c Hc. apply HL in Hc as [Hc Dc]. assert (Cc : cls_is g0 c KComp = true) by (apply In_first_nb in Hc; tauto).
    split; [eapply cls_is_has_id; eauto|]. split; [exact Dc|]. split; [exact Cc|]. apply (HC c Hc).
  - unfold bind at 1. rewrite R1.
    assert (Dn1 : d1 n = false).
    { destruct (d1 n) eqn:Q; [|reflexivity]. exfalso. destruct (M1 n Q) as [H|[H|H]].
      - congruence.
      - apply HL in H as [H _]. apply In_first_nb in H as [_ H]. rewrite (cls_is_unique _ _ _ KComp Cn) in H; discriminate.
      - apply (below_not _ _ Cn). apply (below_le KComp); [simpl; auto | exact H]. }
    set (s1 := mkSt (remove_set g0 d1) (sdr s)) in *. pose proof I1 as [G1 W1].
    destruct (alive_first_nb g0 E d1 s1 n Has KNS I1 Hn Dn1) as [Q2 HL2]. unfold bind at 1. rewrite Q2.
    set (L2 := first_nb (sg s1) n Has KNS) in *.
    destruct (step_delete_owner g0 E d1 s1 n I1 Hn Dn1) as [R2 I2].
    { apply (cls_is_unique _ _ _ _ Cn). discriminate. }
    { apply (cls_is_unique _ _ _ _ Cn). discriminate. }
    { intros m Hm Hsc. destruct (in_scope_node n m Cn Hm Hsc) as [H|H]; [destruct (HC _ H) as [X _]; exact X | destruct (HS _ H) as [X _]; exact X]. }
    set (d2 := fun y => d1 y || str_eqb y n) in *.
    unfold bind at 1. rewrite R2.
    assert (S2 : forall y, d1 y = true -> d2 y = true) by (intros y Hy; unfold d2; rewrite Hy; reflexivity).
    destruct (nss_loop_run L2 d2 (mkSt (remove_set g0 d2) (sdr s1)) I2) as [d' [R' [I' [S' [A' M']]]]].
    + apply first_nb_NoDup. apply (r_edges_distinct _ _ _ W1).
    + intros sv Hsv. apply HL2 in Hsv as [Hsv Dsv]. assert (Csv : cls_is g0 sv KNS = true) by (apply In_first_nb in Hsv; tauto).
      split; [eapply cls_is_has_id; eauto|]. split.
      { unfold d2. rewrite Dsv. simpl. apply str_eqb_neq. intro Ex. subst sv. rewrite (cls_is_unique _ _ _ KNS Cn) in Csv; discriminate. }
      split; [exact Csv|].
      destruct (NsReady_mono d d2 sv (fun y Hy => S2 y (S1 y Hy)) (HS sv Hsv)) as [_ [B C]]. auto.
    + simpl in R', I'. exists d'. split; [exact R'|]. split; [exact I'|]. split; [auto|].
      split; [apply S'; unfold d2; rewrite str_eqb_refl; apply orb_true_r|]. split; [|split].
      * intros c Hc Dc. assert (HcL : In c L) by (apply HL; auto). destruct (A1 c HcL) as [X Y].
        split; [auto|]. intros sv Hsv. auto.
      * intros sv Hsv. destruct (d1 sv) eqn:Dsv; [auto|]. apply A'. apply HL2. auto.
      * intro PG. apply (nss_loop_ports L2 d2 d' S' A' M'). intros sv x Csv Dsv Hx.
        unfold d2 in Dsv. apply orb_true_iff in Dsv as [Dsv|Dsv]; [apply S2; eapply PG1; eauto|].
        apply str_eqb_eq in Dsv. subst sv. rewrite (cls_is_unique _ _ _ KNS Cn) in Csv; discriminate.
Qed.
End Progs.

(* after the disconnection loop over a list that holds the interfaces of the service sv, none of them (nor of their
   sub-interfaces) has a service-port peer left *)
Lemma NoSP_from_phase g0 E d1 ifs sv :
  WF g0 -> subs_under_dedicated g0 = true -> cls_is g0 sv KNS = true -> sane (remove_set g0 d1) ->
  (forall x, In x (first_nb g0 sv Connects KCP) -> In x ifs) ->
  (forall c z, In c (loop_list g0 ifs) -> d1 c = false -> In z (peers (remove_set g0 d1) c) -> typ_is g0 z sServicePort = false) ->
  NoSPat g0 E d1 (remove_set g0 d1) sv.
Proof.
  intros W X Cs Sn Hin N1 x Hx Dx c z Hc Hz Tz. exfalso.
  assert (Cx : cls_is g0 x KCP = true) by (apply In_first_nb in Hx; tauto).
  assert (Hl : In c (loop_list g0 ifs)).
  { unfold loop_list. apply in_flat_map. exists x. split; [apply Hin; exact Hx|]. destruct Hc as [->|Hc]; [left; reflexivity|]. right.
    rewrite (first_nb_remove g0 d1 x _ _ Dx) in Hc. apply filter_In in Hc as [Hc _].
    destruct (own_port_children g0 W sv x c Cs Hx Hc) as [Tx [Tc _]].
    pose proof (cp_edge_dedicated g0 x c X Hc Cx) as Td.
    rewrite (typ_is_excl _ _ _ sDedicatedPort Tc), orb_false_r in Td by reflexivity. rewrite Td. exact Hc. }
  assert (Dc : d1 c = false).
  { destruct (d1 c) eqn:Dc; [|reflexivity]. exfalso.
    assert (Hc' : has_id (remove_set g0 d1) c = false).
    { destruct (has_id (remove_set g0 d1) c) eqn:Q; [|reflexivity]. apply has_id_remove_inv in Q. destruct Q; congruence. }
    rewrite (peers_absent _ c Sn Hc') in Hz. destruct Hz. }
  rewrite (N1 c z Hl Dc Hz) in Tz. discriminate.
Qed.

(* a service and its interfaces: what the removal of the service alone deletes for sure *)
Definition ns_elems (g : graph) (sv y : str) : bool := str_eqb y sv || mem_str y (first_nb g sv Connects KCP).

Lemma remove_ns_finish g0 d s sv s' r :
  WF g0 -> InvD g0 (ns_elems g0 sv) d s -> d sv = false -> cls_is g0 sv KNS = true ->
  NoSPat g0 (ns_elems g0 sv) d (sg s) sv ->
  remove_ns_with_cps_and_links sv s = (s', r) -> WF (sg s').
Proof.
  intros W I Ds Cs NS H.
  assert (HE : forall x, In x (first_nb g0 sv Connects KCP) -> ns_elems g0 sv x = true)
    by (intros x Hx; unfold ns_elems; apply orb_true_iff; right; apply mem_str_In; exact Hx).
  destruct (remove_ns_run g0 W _ d s sv I (cls_is_has_id _ _ _ Cs) Ds Cs HE (fun x c z Hx Dx => NS x Hx Dx c z)) as [d2 [R2 [I2 [_ [D2s [D2p _]]]]]].
  rewrite R2 in H. inversion H; subst s' r. simpl. apply (finish g0 _ d2 _ I2).
  intros y Hy _. unfold ns_elems in Hy. apply orb_true_iff in Hy as [Hy|Hy].
  - apply str_eqb_eq in Hy. subst y. exact D2s.
  - apply mem_str_In in Hy. apply D2p. exact Hy.
Qed.

(* the common tail of Topology.remove_network_service and Node.remove_network_service *)
Lemma remove_service_core fl hint sv s s' r :
  WF (sg s) -> subs_under_dedicated (sg s) = true -> one_sp_peer (sg s) = true -> fl_skip_gone fl = true ->
  cls_is (sg s) sv KNS = true ->
  (fresh_ns_cache sv ;;; (ifs <- cps_of_ns_or_link sv ;; (disconnect_loop fl hint ifs ;;; remove_ns_with_cps_and_links sv))) s = (s', r) ->
  WF (sg s').
Proof.
  intros W X P FL Cs H.
  peelw H W. peelw H W.
  set (g0 := sg s) in *.
  set (P0 := first_nb g0 sv Connects KCP) in *.
  assert (EN : forall y, ns_elems g0 sv y = true -> cls_is g0 y KLink = false).
  { intros y Hy. unfold ns_elems in Hy. apply orb_true_iff in Hy as [Hy|Hy].
    - apply str_eqb_eq in Hy. subst y. apply (cls_is_unique _ _ _ _ Cs). discriminate.
    - apply mem_str_In in Hy. apply In_first_nb in Hy as [_ Hy]. apply (cls_is_unique _ _ _ _ Hy). discriminate. }
  assert (HC : forall i, In i P0 -> cls_is g0 i KCP = true) by (intros i Hi; apply In_first_nb in Hi; tauto).
  assert (HEp : forall i, In i P0 -> ns_elems g0 sv i = true)
    by (intros i Hi; unfold ns_elems; apply orb_true_iff; right; apply mem_str_In; exact Hi).
  destruct (disconnect_phase g0 W X P _ EN fl hint P0 s eq_refl FL HC (fun i Hi _ => HEp i Hi)) as [d1 [R1 [I1 [K1 N1]]]].
  unfold bind at 1 in H. rewrite R1 in H.
  assert (Ds : d1 sv = false) by (apply (sp_or_link_keeps g0 d1 KNS sv K1 Cs); discriminate).
  apply (remove_ns_finish g0 d1 _ sv s' r W I1 Ds Cs); [|exact H].
  apply (NoSP_from_phase g0 _ d1 P0 sv W X Cs (InvD_sane _ _ _ _ I1) (fun x Hx => Hx) N1).
Qed.

Lemma reads_nss_of x : reads (nss_of x).
Proof. unfold nss_of. auto 8 with reads. Qed.
#[export] Hint Resolve reads_nss_of reads_find_node_by_name : reads.

(* Topology.remove_network_service *)
Theorem api_t_remove_ns fl hint name s s' r :
  WF (sg s) -> subs_under_dedicated (sg s) = true -> one_sp_peer (sg s) = true -> fl_skip_gone fl = true ->
  t_remove_ns fl hint name s = (s', r) -> WF (sg s').
Proof.
  intros W X P FL H. unfold t_remove_ns in H.
  peelw H W. rename a into sv. destruct Hm as [n [Hn [En [Kn _]]]].
  assert (Cs : cls_is (sg s) sv KNS = true) by (rewrite <- En, (cls_is_node _ n _ (wf_ids _ W) Hn), Kn; reflexivity).
  eapply remove_service_core; eauto.
Qed.

(* Node.remove_network_service *)
Theorem api_node_remove_ns fl hint nd name s s' r :
  WF (sg s) -> subs_under_dedicated (sg s) = true -> one_sp_peer (sg s) = true -> fl_skip_gone fl = true ->
  node_remove_ns fl hint nd name s = (s', r) -> WF (sg s').
Proof.
  intros W X P FL H. unfold node_remove_ns in H.
  peelw H W. peelw H W. rename a into sv, Hm into Hsv.
  assert (Cs : cls_is (sg s) sv KNS = true) by (apply In_first_nb in Hsv; tauto).
  eapply remove_service_core; eauto.
Qed.
