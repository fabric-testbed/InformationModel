(* C18: aliasing of the caller's label objects.  The code attaches a copy of each Labels object it is handed
   (flag stamps_caller_labels = false, read from the source), so for all arguments the caller sees exactly
   gen_component's result and its own objects stay untouched (caller_sees_gen_component).  For the other branch
   of the model: with pairwise distinct objects nothing changes, with one object handed to two ports the first
   port would show the last port's local_name (stamping_would_alias). *)
From Coq Require Import List ZArith Lia String.
From FIM Require Import Base.Str Gen.Catalog Model.Catalog18 Proofs.Catalog18Comp.
Import ListNotations.
Open Scope Z_scope.

Lemma mapi_from_id {X} (f : nat -> X -> X) : forall l j0,
  (forall j x, nth_error l j = Some x -> f (j0 + j)%nat x = x) -> mapi_from f j0 l = l.
Proof.
  induction l as [|x l IH]; intros j0 H; simpl; [reflexivity|].
  rewrite (IH (Datatypes.S j0)).
  - pose proof (H O x eq_refl) as H0. rewrite Nat.add_0_r in H0. rewrite H0. reflexivity.
  - intros j y Hy. rewrite Nat.add_succ_comm. apply (H (Datatypes.S j) y Hy).
Qed.

Lemma filter_unique {X} (g : X -> N) : forall (L : list X) j x,
  NoDup (map g L) -> nth_error L j = Some x -> filter (fun y => N.eqb (g y) (g x)) L = [x].
Proof.
  induction L as [|y L IH]; intros j x Hnd Hn; [destruct j; discriminate|].
  simpl in Hnd. inversion Hnd as [|? ? Hnotin Hnd']; subst.
  destruct j as [|j]; simpl in Hn.
  - inversion Hn; subst. simpl. rewrite N.eqb_refl. f_equal.
    assert (Hnone : forall z, In z L -> N.eqb (g z) (g x) = false).
    { intros z Hz. apply N.eqb_neq. intro E. apply Hnotin. rewrite <- E. apply in_map. exact Hz. }
    clear -Hnone. induction L as [|z L IH]; simpl; [reflexivity|].
    rewrite (Hnone z (or_introl eq_refl)). apply IH. intros w Hw. apply Hnone. right. exact Hw.
  - simpl. assert (E : N.eqb (g y) (g x) = false).
    { apply N.eqb_neq. intro E. apply Hnotin. rewrite E. apply in_map. eapply nth_error_In. exact Hn. }
    rewrite E. apply (IH j x Hnd' Hn).
Qed.

Lemma nth_error_combine {X Y} : forall (a : list X) (b : list Y) j x y,
  nth_error a j = Some x -> nth_error b j = Some y -> nth_error (combine a b) j = Some (x, y).
Proof.
  induction a as [|x0 a IH]; intros [|y0 b] [|j] x y Ha Hb; simpl in *; try discriminate.
  - inversion Ha; inversion Hb; reflexivity.
  - apply IH; assumption.
Qed.

Lemma set_local_same i : set_local i (if_local i) = i.
Proof. destruct i; reflexivity. Qed.

(* "the label objects handed to the ports are pairwise distinct objects" *)
Definition labels_distinct (ports : list (str * Z)) (l : list lab) : Prop :=
  NoDup (map (fun pl : str * lab => lab_tag (snd pl)) (combine (map fst ports) l)).

Theorem seen_is_gen_component_when_distinct cat e name nsid ids labs parent :
  find_entry cat (e_model e) (e_type e) = Some e ->
  type_from_str (e_type e) = Some (e_type e) ->
  entry_args_wf e ids labs = true ->
  (forall ports l, e_ifs e = Some ports -> labs = Some l -> labels_distinct ports l) ->
  gen_component_seen cat name (ByTypeModel (Some (e_type e)) (Some (e_model e))) nsid ids labs parent
  = gen_component cat name (ByTypeModel (Some (e_type e)) (Some (e_model e))) nsid ids labs parent.
Proof.
  intros Hf Ht Hwf Hd.
  destruct (gen_component_spec cat e name nsid ids labs parent Hf Ht Hwf) as [c [Hc Hs]].
  unfold gen_component_seen, gen_component_seen_with. rewrite Hc. unfold sel_ports. rewrite Hf.
  destruct labs as [l|]; [|reflexivity].
  destruct (e_ifs e) as [ports|] eqn:Ei; [|reflexivity].
  destruct stamps_caller_labels; [|reflexivity]. f_equal.
  destruct Hs as [_ [_ [_ [_ Hns]]]]. rewrite Ei in Hns. destruct Hns as [ns [Hcns [_ [Hlen Hifs]]]].
  specialize (Hd ports l eq_refl eq_refl).
  destruct c as [cn cm ct cd cns]. cbn [c_ns] in Hcns. subst cns. unfold alias_comp. cbn [c_name c_model c_type c_details c_ns].
  f_equal. f_equal. destruct ns as [nid nname ntype nlayer ifs]. cbn [ns_id ns_name ns_type ns_layer ns_ifs] in *. f_equal.
  apply mapi_from_id. intros j i Hj. simpl.
  assert (Hlt : (j < List.length ports)%nat) by (rewrite <- Hlen; apply nth_error_Some; congruence).
  destruct (nth_error ports j) as [p|] eqn:Ep; [|apply nth_error_None in Ep; lia].
  destruct (Hifs j p Ep) as [i' [Hi' Hspec]]. rewrite Hj in Hi'. inversion Hi'; subst i'.
  destruct Hspec as [_ [_ [_ [_ [lb [Hlb [_ [Hbdf [Hloc _]]]]]]]]].
  unfold alias_iface. rewrite Hlb. unfold owner_port.
  assert (Hc2 : nth_error (combine (map fst ports) l) j = Some (fst p, lb)).
  { apply nth_error_combine; [apply map_nth_error; exact Ep|exact Hlb]. }
  pose proof (filter_unique (fun pl : str * lab => lab_tag (snd pl)) _ j (fst p, lb) Hd Hc2) as Hu.
  cbn [snd] in Hu. rewrite Hu.
  simpl. rewrite Hbdf, <- Hloc. apply set_local_same.
Qed.

(* the code attaches a COPY of each caller-supplied Labels object (flag read from the source by the translator) *)
Lemma labels_are_copied : stamps_caller_labels = false.
Proof. vm_cast_no_check (eq_refl false). Qed.

Lemma seen_with_false cat name s nsid ids labs parent :
  gen_component_seen_with false cat name s nsid ids labs parent = gen_component cat name s nsid ids labs parent.
Proof.
  unfold gen_component_seen_with. destruct (gen_component cat name s nsid ids labs parent) as [c|c]; [|reflexivity].
  destruct labs as [l|]; [|reflexivity]. destruct (sel_ports cat s); reflexivity.
Qed.

Lemma after_with_false cat name s nsid ids labs parent :
  caller_labels_after_with false cat name s nsid ids labs parent
  = match labs with Some l => map (fun _ => None) l | None => [] end.
Proof.
  unfold caller_labels_after_with. destruct labs as [l|]; [|reflexivity]. destruct (sel_ports cat s); reflexivity.
Qed.

(* for ALL arguments, shared label objects included: what the caller sees is gen_component's result and none of the
   label objects it handed over is modified *)
Theorem caller_sees_gen_component : forall cat name s nsid ids labs parent,
  gen_component_seen cat name s nsid ids labs parent = gen_component cat name s nsid ids labs parent /\
  caller_labels_after cat name s nsid ids labs parent = match labs with Some l => map (fun _ => None) l | None => [] end.
Proof.
  intros. unfold gen_component_seen, caller_labels_after. rewrite labels_are_copied.
  split; [apply seen_with_false|apply after_with_false].
Qed.

(* why the copy matters: if the caller's object were attached as is, one object handed to both ports of a two-port
   entry would make the first port show the second port's local_name *)
Theorem stamping_would_alias :
  let e : comp_entry := (S"M", [], S"SmartNIC", S"d", Some [(S"p1", 100); (S"p2", 100)]) in
  let lb := {| lab_bdf := BNone; lab_tag := 0%N |} in
  exists c ns i, gen_component_seen_with true [e] (S"n1") (ByTypeModel (Some (S"SmartNIC")) (Some (S"M"))) None None (Some [lb; lb]) None = Ok c /\
    c_ns c = Some ns /\ nth_error (ns_ifs ns) 0 = Some i /\ if_name i = S"n1-p1" /\ if_local i = LStr (S"p2").
Proof. vm_compute. do 3 eexists. repeat split. Qed.
