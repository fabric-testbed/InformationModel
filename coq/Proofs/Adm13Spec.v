(* C13: characterisation of the transcription in Model/Adm13.v.
   catalog_delegations = three independent folds; the per-delegation loop of generate_adms computes
   adm_spec A d = the subgraph of A induced by keepset A d with every node's delegations restricted to d. *)
From Coq Require Import List NArith Bool.
From FIM Require Import Base.ListFacts Model.Adm13.
Import ListNotations.
Open Scope N_scope.

Lemma memb_In x l : memb x l = true <-> In x l.
Proof. apply (existsb_eqb_In N.eqb N.eqb_eq). Qed.

Lemma memb_false x l : memb x l = false <-> ~ In x l.
Proof. apply (existsb_eqb_notIn N.eqb N.eqb_eq). Qed.

Lemma memb_cons x y l : memb x (y :: l) = (x =? y) || memb x l.
Proof. reflexivity. Qed.

Lemma memb_app x l1 l2 : memb x (l1 ++ l2) = memb x l1 || memb x l2.
Proof. unfold memb. apply existsb_app. Qed.

Lemma memb_filter x p l : memb x (filter p l) = memb x l && p x.
Proof. apply eq_true_iff_eq. rewrite andb_true_iff, !memb_In. apply filter_In. Qed.

Lemma nodupb_NoDup l : nodupb l = true <-> NoDup l.
Proof.
  induction l as [|x l IH]; simpl.
  - split; [constructor | reflexivity].
  - rewrite andb_true_iff, negb_true_iff, memb_false, IH, NoDup_cons_iff. reflexivity.
Qed.

Lemma set_add_In x y l : In y (set_add x l) <-> y = x \/ In y l.
Proof.
  unfold set_add. destruct (memb x l) eqn:E.
  - apply memb_In in E. split; [intros H; right; exact H | intros [->|H]; assumption].
  - rewrite in_app_iff. simpl. split; [intros [H|[H|[]]]; auto | intros [H|H]; auto].
Qed.

Lemma set_add_NoDup x l : NoDup l -> NoDup (set_add x l).
Proof.
  intros H. unfold set_add. destruct (memb x l) eqn:E; [exact H|].
  apply (NoDup_Add (Add_app x l [])). rewrite app_nil_r. split; [exact H | apply memb_false; exact E].
Qed.

Lemma set_union_In y xs : forall l, In y (set_union l xs) <-> In y l \/ In y xs.
Proof.
  unfold set_union. induction xs as [|x xs IH]; simpl; intros l.
  - tauto.
  - rewrite IH, set_add_In. intuition (subst; auto).
Qed.

Lemma set_union_NoDup xs : forall l, NoDup l -> NoDup (set_union l xs).
Proof.
  unfold set_union. induction xs as [|x xs IH]; simpl; intros l H; [exact H|].
  apply IH. apply set_add_NoDup. exact H.
Qed.

Lemma assoc_In {V} k (v : V) l : assoc k l = Some v -> In (k, v) l.
Proof.
  induction l as [|[k' v'] l IH]; simpl; [discriminate|].
  destruct (k' =? k) eqn:E.
  - intros H. inversion H; subst. apply N.eqb_eq in E. subst. left. reflexivity.
  - intros H. right. apply IH. exact H.
Qed.

Lemma assoc_None {V} k (l : list (N * V)) : assoc k l = None <-> ~ In k (map fst l).
Proof.
  induction l as [|[k' v'] l IH]; simpl.
  - split; [intros _ [] | reflexivity].
  - destruct (k' =? k) eqn:E.
    + apply N.eqb_eq in E. split; [discriminate | intros H; exfalso; apply H; left; exact E].
    + apply N.eqb_neq in E. rewrite IH. tauto.
Qed.

Lemma In_assoc {V} k (v : V) l : NoDup (map fst l) -> In (k, v) l -> assoc k l = Some v.
Proof.
  intros Hn Hi. destruct (assoc k l) as [v'|] eqn:E.
  - apply assoc_In in E. injection (NoDup_map_inj fst l _ _ Hn E Hi eq_refl) as ->. reflexivity.
  - apply assoc_None in E. exfalso. apply E. apply (in_map fst) in Hi. exact Hi.
Qed.

Lemma assoc_app {V} k (l1 l2 : list (N * V)) :
  assoc k (l1 ++ l2) = match assoc k l1 with Some v => Some v | None => assoc k l2 end.
Proof.
  induction l1 as [|[k' v'] l1 IH]; simpl; [reflexivity|]. destruct (k' =? k); [reflexivity | exact IH].
Qed.

Definition restrict (d : N) (n : node) : node :=
  set_cdel (for_id_opt d (cdel n)) (set_ldel (for_id_opt d (ldel n)) n).

Lemma nid_restrict d n : nid (restrict d n) = nid n.
Proof. reflexivity. Qed.

Definition has_deleg (n : node) : bool := is_some (ldel n) || is_some (cdel n).

Lemma find_node_In g id n : find_node g id = Some n -> In n (gnodes g) /\ nid n = id.
Proof.
  unfold find_node. intros H. apply find_some in H. destruct H as [H1 H2]. apply N.eqb_eq in H2. tauto.
Qed.

Lemma find_node_unique g n : NoDup (node_ids g) -> In n (gnodes g) -> find_node g (nid n) = Some n.
Proof.
  intros Hn Hi. unfold find_node.
  destruct (find (fun m => nid m =? nid n) (gnodes g)) as [m|] eqn:E.
  - apply find_some in E. destruct E as [E1 E2]. apply N.eqb_eq in E2.
    f_equal. apply (NoDup_map_inj nid (gnodes g)); assumption.
  - exfalso. apply (find_none _ _ E) in Hi. rewrite N.eqb_refl in Hi. discriminate.
Qed.

Lemma cls_of_unique g n : NoDup (node_ids g) -> In n (gnodes g) -> cls_of g (nid n) = Some (ncls n).
Proof. intros Hn Hi. unfold cls_of. rewrite find_node_unique; auto. Qed.

Lemma cls_of_In g id c : cls_of g id = Some c -> exists n, In n (gnodes g) /\ nid n = id /\ ncls n = c.
Proof.
  unfold cls_of. destruct (find_node g id) as [n|] eqn:E; simpl; [|discriminate].
  intros H. inversion H; subst. apply find_node_In in E. exists n. tauto.
Qed.

(* catalog_delegations: each of the three fields is a fold of its own *)
Definition ids_step (acc : list N) (n : node) : list N :=
  set_union (set_union acc (dkeys (entries (ldel n)))) (dkeys (entries (cdel n))).
Definition keep_list (n : node) : list (N * N) :=
  map (fun d => (d, nid n)) (dkeys (entries (ldel n))) ++ map (fun d => (d, nid n)) (dkeys (entries (cdel n))).
Definition by_list (n : node) : list (N * (option dmap * option dmap)) :=
  if has_deleg n then [(nid n, (ldel n, cdel n))] else [].

Lemma cat_type_spec id acc o :
  cat_type id acc o = (set_union (fst acc) (dkeys (entries o)), snd acc ++ map (fun d => (d, id)) (dkeys (entries o))).
Proof.
  destruct o as [m|]; simpl.
  - reflexivity.
  - rewrite app_nil_r. destruct acc; reflexivity.
Qed.

Lemma cat_step_spec c n :
  cat_step c n = mkCat (ids_step (c_ids c) n) (c_keep c ++ keep_list n) (c_by c ++ by_list n).
Proof.
  unfold cat_step, ids_step, keep_list, by_list, has_deleg. simpl.
  rewrite !cat_type_spec. simpl. rewrite app_assoc.
  destruct (is_some (ldel n) || is_some (cdel n)); [reflexivity | rewrite app_nil_r; reflexivity].
Qed.

Lemma catalog_fold l : forall c,
  fold_left cat_step l c =
  mkCat (fold_left ids_step l (c_ids c)) (c_keep c ++ flat_map keep_list l) (c_by c ++ flat_map by_list l).
Proof.
  induction l as [|n l IH]; intros c; simpl.
  - rewrite !app_nil_r. destruct c; reflexivity.
  - rewrite IH, cat_step_spec. simpl. rewrite <- !app_assoc. reflexivity.
Qed.

Lemma catalog_spec g :
  catalog_delegations g =
  mkCat (fold_left ids_step (gnodes g) []) (flat_map keep_list (gnodes g)) (flat_map by_list (gnodes g)).
Proof. unfold catalog_delegations. rewrite catalog_fold. reflexivity. Qed.

Lemma ids_fold_In d l : forall acc,
  In d (fold_left ids_step l acc) <-> In d acc \/ exists n, In n l /\ delegated d n.
Proof.
  induction l as [|n l IH]; intros acc; simpl.
  - split; [auto | intros [H|[n [[] _]]]; exact H].
  - rewrite IH. unfold ids_step at 1. rewrite !set_union_In. unfold delegated. split.
    + intros [[[H|H]|H]|[m [H1 H2]]]; eauto 7.
    + intros [H|[m [[->|H1] H2]]]; [tauto | destruct H2; tauto | right; eauto].
Qed.

Lemma ids_fold_NoDup l : forall acc, NoDup acc -> NoDup (fold_left ids_step l acc).
Proof.
  induction l as [|n l IH]; intros acc H; simpl; [exact H|].
  apply IH. unfold ids_step. apply set_union_NoDup, set_union_NoDup. exact H.
Qed.

Lemma c_ids_In g d : In d (c_ids (catalog_delegations g)) <-> exists n, In n (gnodes g) /\ delegated d n.
Proof. rewrite catalog_spec. simpl. rewrite ids_fold_In. simpl. tauto. Qed.

Lemma c_ids_NoDup g : NoDup (c_ids (catalog_delegations g)).
Proof. rewrite catalog_spec. simpl. apply ids_fold_NoDup. constructor. Qed.

Lemma keep_list_In d x n : In (d, x) (keep_list n) <-> x = nid n /\ delegated d n.
Proof.
  unfold keep_list, delegated. rewrite in_app_iff, !in_map_iff. split.
  - intros [[d' [E H]]|[d' [E H]]]; inversion E; subst; auto.
  - intros [-> [H|H]]; [left|right]; exists d; auto.
Qed.

Lemma keep_of_In g d x :
  In x (keep_of (catalog_delegations g) d) <-> exists n, In n (gnodes g) /\ nid n = x /\ delegated d n.
Proof.
  unfold keep_of. rewrite catalog_spec. simpl. rewrite in_map_iff. split.
  - intros [[d' x'] [E H]]. simpl in E. subst x'. apply filter_In in H as [H Hd]. apply N.eqb_eq in Hd. simpl in Hd.
    subst d'. apply in_flat_map in H as [n [Hn Hk]]. apply keep_list_In in Hk as [-> Hk]. exists n. auto.
  - intros [n [Hn [<- Hd]]]. exists (d, nid n). split; [reflexivity|]. apply filter_In. split; [|apply N.eqb_refl].
    apply in_flat_map. exists n. split; [exact Hn | apply keep_list_In; auto].
Qed.

Lemma by_assoc l : NoDup (map nid l) -> forall n, In n l ->
  assoc (nid n) (flat_map by_list l) = if has_deleg n then Some (ldel n, cdel n) else None.
Proof.
  induction l as [|m l IH]; simpl; intros Hn n Hi; [contradiction|].
  apply NoDup_cons_iff in Hn as [Hm Hn]. rewrite assoc_app. unfold by_list at 1. destruct Hi as [->|Hi].
  - destruct (has_deleg n); simpl; [rewrite N.eqb_refl; reflexivity|].
    apply assoc_None. intros Hc. apply Hm. apply in_map_iff in Hc as [[k v] [E Hc]]. simpl in E. subst k.
    apply in_flat_map in Hc as [y [Hy Hb]]. unfold by_list in Hb.
    destruct (has_deleg y); [|contradiction]. destruct Hb as [Hb|[]]. injection Hb as <- _. apply in_map. exact Hy.
  - assert (E : nid m =? nid n = false).
    { apply N.eqb_neq. intros E. apply Hm. rewrite E. apply in_map. exact Hi. }
    rewrite <- (IH Hn n Hi). destruct (has_deleg m); simpl; [rewrite E|]; reflexivity.
Qed.

Lemma graph_eta g : mkGraph (gnodes g) (gedges g) = g.
Proof. destruct g; reflexivity. Qed.

(* a loop of writes to distinct node ids, each keeping the id, is one map over the nodes *)
Section UpdLoop.
  Variables (step : graph -> N -> graph) (F : N -> node -> node).
  Hypothesis Hstep : forall g i, step g i = upd_node g i (F i).
  Hypothesis HF : forall i n, nid (F i n) = nid n.

  Lemma upd_nodes_fold ids : forall g, NoDup ids ->
    fold_left step ids g =
    mkGraph (map (fun n => if memb (nid n) ids then F (nid n) n else n) (gnodes g)) (gedges g).
  Proof.
    induction ids as [|i ids IH]; intros g Hn.
    - simpl. rewrite map_id. symmetry. apply graph_eta.
    - apply NoDup_cons_iff in Hn as [Hi Hn]. cbn [fold_left]. rewrite IH, Hstep by assumption.
      unfold upd_node. cbn [gnodes gedges]. f_equal.
      rewrite map_map. apply map_ext. intros n. rewrite memb_cons.
      destruct (nid n =? i) eqn:E; [|reflexivity].
      apply N.eqb_eq in E. subst i. apply memb_false in Hi. rewrite HF, Hi. reflexivity.
  Qed.

  Lemma upd_all_nodes g : NoDup (node_ids g) ->
    fold_left step (node_ids g) g = mkGraph (map (fun n => F (nid n) n) (gnodes g)) (gedges g).
  Proof.
    intros Hn. rewrite upd_nodes_fold by exact Hn. f_equal. apply map_ext_in. intros n Hi.
    rewrite (proj2 (memb_In _ (node_ids g)) (in_map nid _ _ Hi)). reflexivity.
  Qed.
End UpdLoop.

Definition rw_fun (by_node : list (N * (option dmap * option dmap))) (d : N) (i : N) (n : node) : node :=
  match assoc i by_node with
  | None => n
  | Some (lm, cm) => set_cdel (for_id_opt d cm) (set_ldel (for_id_opt d lm) n)
  end.

Lemma rewrite_node_upd by_node d g i : rewrite_node by_node d g i = upd_node g i (rw_fun by_node d i).
Proof.
  unfold rewrite_node, rw_fun. destruct (assoc i by_node) as [[lm cm]|].
  - simpl. unfold upd_node. simpl. f_equal. rewrite map_map. apply map_ext. intros n.
    destruct (nid n =? i) eqn:E; simpl; rewrite E; reflexivity.
  - unfold upd_node. rewrite <- (graph_eta g) at 1. f_equal. rewrite <- (map_id (gnodes g)) at 1.
    apply map_ext. intros n. destruct (nid n =? i); reflexivity.
Qed.

Lemma rewrite_loop g d : NoDup (node_ids g) ->
  fold_left (rewrite_node (c_by (catalog_delegations g)) d) (node_ids g) g =
  mkGraph (map (restrict d) (gnodes g)) (gedges g).
Proof.
  intros Hn. rewrite (upd_all_nodes _ _ (rewrite_node_upd _ d)); [| | exact Hn].
  2:{ intros i n. unfold rw_fun. destruct (assoc i _) as [[? ?]|]; reflexivity. }
  f_equal. apply map_ext_in. intros n Hi. unfold rw_fun. rewrite catalog_spec. simpl. rewrite (by_assoc _ Hn n Hi).
  unfold has_deleg, restrict. destruct n as [i c s p [l|] [cd|]]; reflexivity.
Qed.

Lemma delete_loop rem : forall g,
  fold_left delete_node rem g =
  mkGraph (filter (fun n => negb (memb (nid n) rem)) (gnodes g))
          (filter (fun e => negb (memb (ea e) rem) && negb (memb (eb e) rem)) (gedges g)).
Proof.
  induction rem as [|i rem IH]; intros g.
  - simpl. rewrite !filter_true. symmetry. apply graph_eta.
  - cbn [fold_left]. rewrite IH. unfold delete_node. cbn [gnodes gedges]. rewrite !filter_filter. f_equal.
    + apply filter_ext. intros n. rewrite memb_cons. destruct (nid n =? i); reflexivity.
    + apply filter_ext. intros e. rewrite !memb_cons.
      destruct (ea e =? i), (eb e =? i), (memb (ea e) rem), (memb (eb e) rem); reflexivity.
Qed.

Definition edges_in (g : graph) : Prop :=
  forall e, In e (gedges g) -> In (ea e) (node_ids g) /\ In (eb e) (node_ids g).

Definition adm_spec (A : graph) (d : N) : graph :=
  let K := keepset A d in
  mkGraph (map (restrict d) (filter (fun n => memb (nid n) K) (gnodes A)))
          (filter (fun e => memb (ea e) K && memb (eb e) K) (gedges A)).

Lemma gen_one_spec A d : NoDup (node_ids A) -> edges_in A ->
  gen_one A (node_ids A) (catalog_delegations A) (stitch_nodes A) d = adm_spec A d.
Proof.
  intros Hn He. unfold gen_one, adm_spec. rewrite rewrite_loop by exact Hn.
  rewrite delete_loop. simpl. fold (keepset A d).
  f_equal.
  - rewrite filter_map_comm. f_equal. apply filter_ext_in. intros n Hi.
    rewrite nid_restrict, memb_filter, (proj2 (memb_In _ (node_ids A)) (in_map nid _ _ Hi)). apply negb_involutive.
  - apply filter_ext_in. intros e Hi. destruct (He e Hi) as [Ha Hb].
    apply memb_In in Ha. apply memb_In in Hb. rewrite !memb_filter, Ha, Hb. simpl.
    rewrite !negb_involutive. reflexivity.
Qed.

Lemma wfb_NoDup g : wfb g = true -> NoDup (node_ids g).
Proof. unfold wfb. rewrite !andb_true_iff. intros [[[H _] _] _]. apply nodupb_NoDup. exact H. Qed.

Lemma wfb_edges_in g : wfb g = true -> edges_in g.
Proof.
  unfold wfb. rewrite !andb_true_iff. intros [[[_ H] _] _] e Hi.
  rewrite forallb_forall in H. specialize (H e Hi). unfold edge_ok in H. rewrite !andb_true_iff in H.
  destruct H as [[Ha Hb] _]. split; apply memb_In; assumption.
Qed.

Lemma wfb_dmaps g n : wfb g = true -> In n (gnodes g) ->
  NoDup (dkeys (entries (ldel n))) /\ NoDup (dkeys (entries (cdel n))).
Proof.
  unfold wfb. rewrite !andb_true_iff. intros [_ H] Hi. rewrite forallb_forall in H. specialize (H n Hi).
  rewrite andb_true_iff in H. unfold dmap_ok in H. destruct H. split; apply nodupb_NoDup; assumption.
Qed.

(* without any well-formedness: one graph per catalogued id, in the catalogue's order *)
Lemma generate_adms_ok A : gnodes A <> [] ->
  generate_adms A =
  Ok (map (fun d => (d, gen_one A (node_ids A) (catalog_delegations A) (stitch_nodes A) d))
          (c_ids (catalog_delegations A))).
Proof.
  intros Hne. unfold generate_adms. destruct (node_ids A) eqn:E; [|rewrite <- E; reflexivity].
  apply map_eq_nil in E. contradiction.
Qed.

Theorem generate_adms_spec A : wfb A = true -> gnodes A <> [] ->
  generate_adms A = Ok (map (fun d => (d, adm_spec A d)) (c_ids (catalog_delegations A))).
Proof.
  intros Hw Hne. rewrite (generate_adms_ok A Hne). f_equal. apply map_ext. intros d. f_equal.
  apply gen_one_spec; [apply wfb_NoDup | apply wfb_edges_in]; exact Hw.
Qed.

Lemma generate_adms_inv A L d P : wfb A = true -> generate_adms A = Ok L -> In (d, P) L ->
  P = adm_spec A d /\ In d (c_ids (catalog_delegations A)).
Proof.
  intros Hw HL Hi. destruct (gnodes A) eqn:E.
  - unfold generate_adms, node_ids in HL. rewrite E in HL. discriminate.
  - rewrite generate_adms_spec in HL; [|exact Hw | rewrite E; discriminate].
    inversion HL; subst. apply in_map_iff in Hi. destruct Hi as [d' [Hd Hi]]. inversion Hd; subst. tauto.
Qed.
