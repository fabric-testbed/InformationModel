(* C08: lifting an invariant of the set of deleted ids through every program.
   Given a predicate I on traces (relative to a fixed initial graph g0) that is kept
     (HI_del) by deleting a node that is neither a connection point nor a link, and
     (HI_cp)  by one returning call of remove_cp_and_links on a connection point,
   I holds of the final trace of every operation that returns normally - except remove_link (which deletes a
   link on its own) and the legacy path-based unpeer (which does not check that the path ends are connection
   points). *)
From Coq Require Import List NArith Bool.
From FIM Require Import Model.T8Graph Model.T8Ops Proofs.T8Frame Proofs.T8Query Proofs.T8Hoare Proofs.T8Sound
     Proofs.T8SoundTop Proofs.T8Complete Proofs.T8Closed Proofs.T8Top.
Import ListNotations.

(* every operation except remove_link (deletes a link on its own) and the legacy path-based unpeer *)
Definition liftable (o : op) : bool :=
  match o with ORemoveLink _ | OUnpeer _ _ => false | _ => true end.

Create HintDb presi discriminated.
#[export] Hint Constants Opaque : presi.

(* "disconnect the interfaces q reads, then k" *)
Lemma disc_then_ok (q : graph -> list N) (k : M unit) s s' :
  bind (m_get (fun g => disc_list g (q g))) (fun ifs => bind (for_each_set disconnect_step ifs) (fun _ => k)) s = (inl tt, s') ->
  exists s1, for_each_set disconnect_step (disc_list (fst s) (q (fst s))) s = (inl tt, s1) /\ k s1 = (inl tt, s').
Proof.
  intros E. apply bind_get_ok, bind_ok in E. destruct E as [[] [s1 E]]. exists s1. exact E.
Qed.

Section Lift.
Variable g0 : graph.
Variable I : list N -> Prop.
Hypothesis HI_del : forall D n, I D -> ~ In n D ->
  class_of g0 n = CNS \/ class_of g0 n = CComp \/ class_of g0 n = CNode -> I (n :: D).
Hypothesis HI_cp : forall s s' n dp, cons g0 s -> I (snd s) -> class_of g0 n = CCP ->
  remove_cp_and_links n dp s = (inl tt, s') -> I (snd s').

(* JI s: the state is consistent with g0 and I holds of its trace; PresI m: every normal return of m keeps JI *)
Definition JI (s : st) : Prop := cons g0 s /\ I (snd s).
Definition PresI {A} (m : M A) : Prop := forall s r s', JI s -> m s = (inl r, s') -> JI s'.

Lemma PresI_ret {A} (x : A) : PresI (ret x).
Proof. intros s r s' HJ E. apply ret_ok in E. destruct E as [_ ->]. exact HJ. Qed.
Lemma PresI_fail {A} e : PresI (@fail A e).
Proof. intros s r s' HJ E. discriminate. Qed.
Lemma PresI_get {A} (f : graph -> A) : PresI (m_get f).
Proof. intros s r s' HJ E. apply get_ok in E. destruct E as [_ ->]. exact HJ. Qed.
Lemma PresI_read {A} (f : graph -> A + exn) : PresI (m_read f).
Proof. intros s r s' HJ E. apply read_ok in E. destruct E as [_ ->]. exact HJ. Qed.
Lemma PresI_need_node n : PresI (need_node n).
Proof. apply PresI_read. Qed.
Lemma PresI_exists_as c n : PresI (exists_as c n).
Proof. apply PresI_get. Qed.
Lemma PresI_guard b e : PresI (guard b e).
Proof. intros s r s' HJ E. apply guard_ok in E. destruct E as [_ ->]. exact HJ. Qed.
Lemma PresI_uniq l e1 e2 : PresI (uniq l e1 e2).
Proof. intros s r s' HJ E. apply uniq_ok in E. destruct E as [_ ->]. exact HJ. Qed.
Lemma PresI_bind {A B} (m : M A) (f : A -> M B) :
  PresI m -> (forall x s s1, JI s -> m s = (inl x, s1) -> PresI (f x)) -> PresI (bind m f).
Proof.
  intros Hm Hf s r s' HJ E. apply bind_ok in E. destruct E as [x [s1 [E1 E2]]].
  exact (Hf x s s1 HJ E1 s1 r s' (Hm s x s1 HJ E1) E2).
Qed.
Lemma PresI_bind' {A B} (m : M A) (f : A -> M B) : PresI m -> (forall x, PresI (f x)) -> PresI (bind m f).
Proof. intros Hm Hf. apply PresI_bind; [exact Hm | intros x s s1 _ _; apply Hf]. Qed.
Lemma PresI_bind_get {A B} (q : graph -> A) (f : A -> M B) :
  (forall s, JI s -> PresI (f (q (fst s)))) -> PresI (bind (m_get q) f).
Proof.
  intros Hf. apply PresI_bind; [apply PresI_get|]. intros x s s1 HJ E.
  apply get_ok in E. destruct E as [-> ->]. apply Hf. exact HJ.
Qed.
Lemma PresI_for_each_set {A} (f : A -> M unit) l : (forall x, In x l -> PresI (f x)) -> PresI (for_each_set f l).
Proof.
  intros Hf s r s' HJ E. destruct r. apply for_each_set_ok in E.
  apply (for_each_ok_inv f JI l) with (s := s); [|exact HJ|exact E].
  intros x t1 t2 Hx HA Et. exact (Hf x Hx t1 tt t2 HA Et).
Qed.

Lemma PresI_remove_cp i dp : class_of g0 i = CCP -> PresI (remove_cp_and_links i dp).
Proof.
  intros Hi s r s' [C HI] E. destruct r. split; [apply (cons_to g0 _ _ _ _ (Inv_remove_cp i dp) C E)|].
  apply (HI_cp s s' i dp C HI Hi E).
Qed.

(* PresI of a program follows its syntax, as Inv does; where a connection point is removed its class at the start is
   needed, and is looked for among the hypotheses *)
#[local] Hint Resolve PresI_ret PresI_fail PresI_get PresI_read PresI_need_node PresI_exists_as PresI_guard PresI_uniq
  PresI_bind' PresI_for_each_set PresI_remove_cp : presi.
#[local] Hint Extern 3 (PresI _) => match goal with |- PresI (match ?x with _ => _ end) => destruct x end : presi.

Lemma PresI_need_class n c : PresI (need_class n c).
Proof. unfold need_class. auto with presi. Qed.
#[local] Hint Resolve PresI_need_class : presi.

(* need_class n c ;;; k, where k deletes n first *)
Lemma delete_after_class n c s u s' :
  JI s -> has_node (fst s) n = true -> class_of (fst s) n = c -> (c = CNS \/ c = CComp \/ c = CNode) ->
  m_delete n s = (inl u, s') -> JI s'.
Proof.
  intros [C HI] Hh Hc Hcc E. pose proof (cons_to g0 _ _ _ _ (Inv_delete n) C E) as C'.
  apply delete_ok in E. destruct E as [_ ->]. split; [exact C'|]. simpl.
  destruct (cons_has g0 s n C Hh) as [Hd _]. rewrite (cons_class g0 s n C Hd) in Hc.
  apply HI_del; [exact HI | exact Hd | subst c; exact Hcc].
Qed.

Lemma cur_cpn_class s n i : cons g0 s -> In i (first_neighbor (fst s) n RConnects CCP) -> class_of g0 i = CCP.
Proof.
  intros C Hi. apply (cur_fn g0 s n RConnects CCP i C) in Hi; [|discriminate]. destruct Hi as [Hi _].
  apply (cpn_class g0 n). exact Hi.
Qed.

Lemma PresI_remove_ns n : PresI (remove_ns n).
Proof.
  intros s r s' HJ E. destruct r. unfold remove_ns in E.
  apply bind_need_class_ok in E. destruct E as [Hh [Hc E]]. apply bind_get_ok, bind_ok in E. destruct E as [[] [s2 [E1 E]]].
  pose proof (delete_after_class n CNS s tt s2 HJ Hh Hc (or_introl eq_refl) E1) as HJ2.
  refine (PresI_for_each_set (fun i => remove_cp_and_links i true) _ _ s2 tt s' HJ2 E).
  intros i Hi. apply PresI_remove_cp. apply (cur_cpn_class s n i (proj1 HJ) Hi).
Qed.
#[local] Hint Resolve PresI_remove_ns : presi.

Lemma PresI_remove_component n : PresI (remove_component n).
Proof.
  intros s r s' HJ E. destruct r. unfold remove_component in E.
  apply bind_need_class_ok in E. destruct E as [Hh [Hc E]]. apply bind_get_ok, bind_ok in E. destruct E as [[] [s2 [E1 E]]].
  pose proof (delete_after_class n CComp s tt s2 HJ Hh Hc (or_intror (or_introl eq_refl)) E1) as HJ2.
  refine (PresI_for_each_set remove_ns _ _ s2 tt s' HJ2 E). auto with presi.
Qed.
#[local] Hint Resolve PresI_remove_component : presi.

Lemma PresI_remove_node_graph n : PresI (remove_node_graph n).
Proof.
  intros s r s' HJ E. destruct r. unfold remove_node_graph in E.
  apply bind_need_class_ok in E. destruct E as [Hh [Hc E]]. apply bind_get_ok, bind_ok in E. destruct E as [[] [s1 [E1 E]]].
  pose proof (PresI_for_each_set remove_component _ (fun i _ => PresI_remove_component i) s tt s1 HJ E1) as HJ1.
  apply bind_get_ok, bind_ok in E. destruct E as [[] [s2 [E2 E]]].
  pose proof E2 as E2'. apply delete_ok in E2'. destruct E2' as [Hh1 _].
  pose proof HJ as [C _]. pose proof HJ1 as [C1 _].
  destruct (cons_has g0 s n C Hh) as [Hd _]. destruct (cons_has g0 s1 n C1 Hh1) as [Hd1 _].
  assert (Hc1 : class_of (fst s1) n = CNode).
  { rewrite (cons_class g0 s1 n C1 Hd1). rewrite <- (cons_class g0 s n C Hd). exact Hc. }
  pose proof (delete_after_class n CNode s1 tt s2 HJ1 Hh1 Hc1 (or_intror (or_intror eq_refl)) E2) as HJ2.
  refine (PresI_for_each_set remove_ns _ _ s2 tt s' HJ2 E). auto with presi.
Qed.
#[local] Hint Resolve PresI_remove_node_graph : presi.

Lemma PresI_disconnect_interface i : PresI (disconnect_interface i).
Proof.
  unfold disconnect_interface. apply PresI_bind'; [auto with presi | intros _].
  apply PresI_bind_get. intros s [C HI].
  destruct (get_peers_typed (fst s) i T_ServicePort) as [[|x [|y r]]|] eqn:E; auto with presi.
  assert (Hx : class_of g0 x = CCP).
  { destruct (get_peers_typed_In _ _ _ _ x E (or_introl eq_refl)) as [Hp _]. apply (peer_cps_class g0 s i x C Hp). }
  auto with presi.
Qed.
#[local] Hint Resolve PresI_disconnect_interface : presi.

Lemma PresI_disconnect_peers_of i : PresI (disconnect_peers_of i).
Proof. unfold disconnect_peers_of. auto 10 with presi. Qed.
#[local] Hint Resolve PresI_disconnect_peers_of : presi.

Lemma PresI_disconnect_step i : PresI (disconnect_step i).
Proof. unfold disconnect_step. auto with presi. Qed.
#[local] Hint Resolve PresI_disconnect_step : presi.

Lemma PresI_api_remove_node nm : PresI (api_remove_node nm).
Proof. unfold api_remove_node. auto 10 with presi. Qed.
Lemma PresI_api_remove_facility nm : PresI (api_remove_facility nm).
Proof. unfold api_remove_facility. auto 12 with presi. Qed.
#[local] Hint Resolve PresI_api_remove_node PresI_api_remove_facility : presi.

Lemma PresI_remove_ns_disconnecting s : PresI (remove_ns_disconnecting s).
Proof. unfold remove_ns_disconnecting. auto with presi. Qed.
Lemma PresI_api_remove_component n c : PresI (api_remove_component n c).
Proof. unfold api_remove_component. auto 10 with presi. Qed.
#[local] Hint Resolve PresI_remove_ns_disconnecting PresI_api_remove_component : presi.

Lemma PresI_get_uniq {B} (q : graph -> list N) e1 e2 (f : N -> M B) :
  (forall s n, JI s -> q (fst s) = [n] -> PresI (f n)) ->
  PresI (bind (m_get q) (fun x => bind (uniq x e1 e2) f)).
Proof.
  intros H s r s' HJ E. apply get_uniq_ok in E. destruct E as [n [Hn E]]. exact (H s n HJ Hn s r s' HJ E).
Qed.

Lemma PresI_api_remove_interface ex s0 iname c : PresI (api_remove_interface ex s0 iname c).
Proof.
  unfold api_remove_interface. do 3 (apply PresI_bind'; [auto with presi | intros ?]).
  apply PresI_get_uniq. intros s i [C _] E.
  assert (Hi : class_of g0 i = CCP) by (apply (child_by_name_class g0 s s0 iname i C); rewrite E; left; reflexivity).
  auto with presi.
Qed.

Lemma PresI_api_remove_child p iname c : PresI (api_remove_child p iname c).
Proof.
  unfold api_remove_child. do 3 (apply PresI_bind'; [auto with presi | intros ?]).
  apply PresI_get_uniq. intros s i [C _] E.
  assert (Hi : class_of g0 i = CCP) by (apply (child_by_name_class g0 s p iname i C); rewrite E; left; reflexivity).
  auto 10 with presi.
Qed.

(* "if it is still there as a connection point, then m" where m removes it *)
Lemma PresI_if_there i (m : M unit) :
  (class_of g0 i = CCP -> PresI m) -> PresI (bind (exists_as CCP i) (fun b : bool => if b then m else ret tt)).
Proof.
  intros Hm. apply PresI_bind_get. intros s [C _].
  destruct (has_node (fst s) i && cls_eqb (class_of (fst s) i) CCP) eqn:Eb; [|apply PresI_ret].
  apply Hm, (there_class g0 s i C Eb).
Qed.

Lemma PresI_remove_if_there c : PresI (remove_if_there c).
Proof. apply PresI_if_there. auto with presi. Qed.
#[local] Hint Resolve PresI_remove_if_there : presi.

Lemma PresI_api_unpeer6 a b ca cb : PresI (api_unpeer6 a b ca cb).
Proof. unfold api_unpeer6. auto 10 with presi. Qed.

Lemma PresI_prune_if_list (is_ : list N) :
  (forall s i, JI s -> In i is_ -> has_node (fst s) i = true -> class_of g0 i = CCP) ->
  PresI (for_each_set (fun i => remove_cp_and_links i true) is_).
Proof.
  intros H s r s' HJ E. destruct r. apply for_each_set_ok in E.
  apply (for_each_ok_inv (fun i => remove_cp_and_links i true) JI is_) with (s := s); [|exact HJ|exact E].
  intros i t1 t2 Hi HA Et. pose proof HA as [C _].
  assert (Hh : has_node (fst t1) i = true).
  { unfold remove_cp_and_links in Et. apply bind_ok in Et. destruct Et as [[] [t0 [E0 Et]]].
    apply read_ok in E0. destruct E0 as [_ ->].
    apply bind_ok in Et. destruct Et as [x0 [t0 [E0 _]]]. apply need_node_ok in E0. destruct E0 as [F _].
    apply (find_has _ _ _ F). }
  exact (PresI_remove_cp i true (H t1 i HA Hi Hh) t1 tt t2 HA Et).
Qed.

Lemma PresI_prune_prog {X Y} (ns : graph -> list X) (cs : graph -> list Y) is_ pn pc ps pi :
  (forall x, PresI (pn x)) -> (forall y, PresI (pc y)) -> (forall s, PresI (ps s)) ->
  (forall s i, cons g0 s -> In i (is_ (fst s)) -> PresI (pi i)) -> PresI (prune_prog ns cs is_ pn pc ps pi).
Proof.
  intros Hn Hc Hs Hi. unfold prune_prog. do 3 (apply PresI_bind'; [auto with presi | intros ?]).
  apply PresI_bind_get. intros s [C _]. pose proof (Hi s) as Hi'. auto 10 with presi.
Qed.

Lemma PresI_api_prune : PresI api_prune.
Proof.
  rewrite api_prune_prog. apply PresI_prune_prog; auto with presi.
  intros s i C Hi. rewrite dedup_In in Hi. apply filter_In in Hi. destruct Hi as [Hi _].
  apply in_flat_map in Hi. destruct Hi as [s0 [_ Hi]]. apply PresI_remove_cp, (cur_cpn_class s s0 i C Hi).
Qed.

Lemma PresI_prune_if7 i : PresI (prune_if7 i).
Proof. apply PresI_if_there. auto 10 with presi. Qed.
Lemma PresI_prune_if8 i : PresI (prune_if8 i).
Proof. apply PresI_if_there. auto 10 with presi. Qed.
#[local] Hint Resolve PresI_prune_if7 PresI_prune_if8 : presi.

Lemma PresI_api_prune7 : PresI api_prune7.
Proof. rewrite api_prune7_prog. apply PresI_prune_prog; unfold prune_node7, prune_comp7, prune_ns7; auto with presi. Qed.
Lemma PresI_api_prune8 : PresI api_prune8.
Proof. rewrite api_prune8_prog. apply PresI_prune_prog; unfold prune_node7, prune_comp7, prune_ns7; auto with presi. Qed.
Lemma PresI_api_prune9 : PresI api_prune9.
Proof. rewrite api_prune9_prog. apply PresI_prune_prog; unfold prune_node9, prune_comp7, prune_ns7; auto 10 with presi. Qed.

#[local] Hint Resolve PresI_api_remove_interface PresI_api_remove_child PresI_api_unpeer6 PresI_api_prune
  PresI_api_prune7 PresI_api_prune8 PresI_api_prune9 : presi.

Lemma PresI_exec ex o cs : liftable o = true -> PresI (exec ex o cs).
Proof.
  destruct o; try discriminate; intros _; cbn [exec]; auto with presi;
    [unfold api_remove_switch | unfold api_remove_ns_topo | unfold api_node_remove_ns | unfold api_disconnect];
    auto 12 with presi.
Qed.

End Lift.

Theorem lift_exec (g : graph) (I : list N -> Prop) :
  (forall D n, I D -> ~ In n D -> class_of g n = CNS \/ class_of g n = CComp \/ class_of g n = CNode -> I (n :: D)) ->
  (forall s s' n dp, cons g s -> I (snd s) -> class_of g n = CCP ->
                     remove_cp_and_links n dp s = (inl tt, s') -> I (snd s')) ->
  I [] ->
  forall ex o cs r g' tr, liftable o = true -> run (exec ex o cs) g = (inl r, (g', tr)) -> I tr.
Proof.
  intros Hd Hc H0 ex o cs r g' tr Hl E.
  exact (proj2 (PresI_exec g I Hd Hc ex o cs Hl (g, []) r (g', tr) (conj (cons_init g) H0) E)).
Qed.
