(* C08: what one returning call of remove_cp_and_links IS sure to delete (rests on T8Sound), and the sets the
   lower-bound theorems speak of.  O_x g n ("Owned"): what an x (cp, ns, comp, node) n owns by containment.
   Two invariants of the trace D of deleted ids, kept by that call:
   LI ("Link Invariant"): a link of exactly two ends never survives one of its ends (the peering link goes with the port);
   CI ("Child Invariant"): a sub-interface that hangs on a deleted port alone is deleted.
   J1 = consistent state + LI, J2 = J1 + CI (T8Closed adds the containment clauses: J4). *)
From Coq Require Import List NArith Bool PeanoNat.
From FIM Require Import Model.T8Graph Model.T8Ops Proofs.T8Frame Proofs.T8Query Proofs.T8Hoare Proofs.T8Sound.
Import ListNotations.

(* x hangs on i alone: a connection point next to i whose only neighbouring connection point is i *)
Definition sole (g : graph) (i x : N) : Prop :=
  In x (cpn g i) /\ In i (cpn g x) /\ forall y, In y (cpn g x) -> y = i.
Definition O_cp (g : graph) (i : N) (dp : bool) (x : N) : Prop := x = i \/ (dp = true /\ sole g i x).
Definition O_ns (g : graph) (s : N) (x : N) : Prop := x = s \/ exists i, In i (cpn g s) /\ O_cp g i true x.
Definition O_comp (g : graph) (c : N) (x : N) : Prop :=
  x = c \/ exists s, In s (first_neighbor g c RHas CNS) /\ O_ns g s x.
Definition O_node (g : graph) (n : N) (x : N) : Prop :=
  x = n \/ (exists c, In c (first_neighbor g n RHas CComp) /\ O_comp g c x)
        \/ (exists s, In s (first_neighbor g n RHas CNS) /\ O_ns g s x).

(* l is a link whose connection points are exactly i and j *)
Definition link2 (g : graph) (l i j : N) : Prop :=
  class_of g l = CLink /\ i <> j /\ forall y, In y (cpn g l) <-> y = i \/ y = j.

Lemma link2_sym g l i j : link2 g l i j -> link2 g l j i.
Proof. intros [A [B C]]. split; [exact A|]. split; [congruence|]. intros y. rewrite C. tauto. Qed.

Section Complete.
Variable g0 : graph.

Definition LI (D : list N) : Prop := forall l i j, link2 g0 l i j -> In i D -> In l D.
Definition CI (D : list N) : Prop := forall i x, In i D -> sole g0 i x -> In x D.
Definition J1 (s : st) : Prop := cons g0 s /\ LI (snd s).
Definition J2 (s : st) : Prop := cons g0 s /\ LI (snd s) /\ CI (snd s).

Lemma cpn_class g l y : In y (cpn g l) -> class_of g y = CCP.
Proof. unfold cpn. rewrite first_neighbor_In. tauto. Qed.

Lemma cons_has s n : cons g0 s -> has_node (fst s) n = true -> ~ In n (snd s) /\ has_node g0 n = true.
Proof.
  intros C H. rewrite C, has_node_restrict in H. apply andb_true_iff in H. destruct H as [H1 H2].
  split; [apply memN_false; apply negb_true_iff; exact H1 | exact H2].
Qed.

Lemma cons_class s n : cons g0 s -> ~ In n (snd s) -> class_of (fst s) n = class_of g0 n.
Proof. intros C H. rewrite C. apply class_of_restrict. apply memN_false. exact H. Qed.

Lemma find_has g n x : find_node g n = Some x -> has_node g n = true.
Proof. unfold has_node. intros ->. reflexivity. Qed.

Lemma for_each_delete_ok l : forall (s s' : st),
  for_each m_delete l s = (inl tt, s') ->
  (forall x, In x (snd s') <-> In x l \/ In x (snd s)) /\ (cons g0 s -> cons g0 s').
Proof.
  induction l as [|a l IH]; intros s s' E.
  - simpl in E. apply ret_ok in E. destruct E as [_ ->]. split; [intros x; simpl; tauto | auto].
  - simpl in E. apply bind_ok in E. destruct E as [[] [s1 [E1 E2]]].
    apply delete_ok in E1. destruct E1 as [Hh ->].
    destruct (IH _ _ E2) as [H1 H2]. split.
    + intros x. rewrite H1. simpl. tauto.
    + intros C. apply H2. unfold cons in *. simpl. rewrite C. apply delete_restrict.
Qed.

Lemma remove_cp_ok n dp s s' :
  cons g0 s -> remove_cp_and_links n dp s = (inl tt, s') ->
  cons g0 s' /\ ~ In n (snd s) /\
  (forall x, In x (snd s') <-> In x (cp_del_list (fst s) n dp) \/ In x (snd s)).
Proof.
  intros C E. unfold remove_cp_and_links in E.
  apply bind_ok in E. destruct E as [[] [s0 [E0 E]]]. apply read_ok in E0. destruct E0 as [_ ->].
  apply bind_ok in E. destruct E as [x0 [s1 [E1 E]]]. apply need_node_ok in E1. destruct E1 as [F ->].
  apply bind_ok in E. destruct E as [l [s1 [E1 E]]]. apply get_ok in E1. destruct E1 as [-> ->].
  apply for_each_set_ok in E. destruct (for_each_delete_ok _ _ _ E) as [H1 H2].
  split; [apply H2; exact C|]. split; [|exact H1].
  apply (cons_has s n C). apply (find_has _ _ _ F).
Qed.

Lemma in_family_cur (s : st) n dp : In n (cp_family (fst s) n dp).
Proof. unfold cp_family. rewrite dedup_In. left. reflexivity. Qed.

Lemma cp_del_list_In g n dp x :
  In x (cp_del_list g n dp) <-> In x (cp_family g n dp) \/ In x (cp_links g (cp_family g n dp)).
Proof. unfold cp_del_list. rewrite dedup_In, in_app_iff. tauto. Qed.

Lemma cp_links_In g fam x :
  In x (cp_links g fam) <->
  exists i, In i fam /\ In x (first_neighbor g i RConnects CLink) /\
            length (first_neighbor g x RConnects CCP) = 2%nat.
Proof.
  unfold cp_links. rewrite dedup_In, in_flat_map. split.
  - intros [i [Hi H]]. apply filter_In in H. destruct H as [H1 H2]. apply Nat.eqb_eq in H2. exists i. auto.
  - intros [i [Hi [H1 H2]]]. exists i. split; [exact Hi|]. apply filter_In. split; [exact H1|].
    apply Nat.eqb_eq. exact H2.
Qed.

Lemma cp_family_class g n dp i : In i (cp_family g n dp) -> i = n \/ class_of g i = CCP.
Proof.
  unfold cp_family. rewrite dedup_In. intros [<-|H]; [left; reflexivity|].
  apply filter_In in H. destruct H as [H _]. right. apply (cpn_class g n). exact H.
Qed.

Lemma remove_cp_LI n dp s s' :
  J1 s -> remove_cp_and_links n dp s = (inl tt, s') -> J1 s'.
Proof.
  intros [C L] E. destruct (remove_cp_ok n dp s s' C E) as [C' [Hn H]]. split; [exact C'|].
  intros l i j Hl Hi. apply H in Hi. apply H.
  destruct Hi as [Hi|Hi]; [|right; apply (L l i j Hl Hi)].
  destruct (in_dec N.eq_dec l (snd s)) as [Hld|Hld]; [right; exact Hld|].
  left. pose proof Hl as [Hcl [Hij Hm]].
  assert (Hid : ~ In i (snd s)).
  { intros Hid. apply Hld. apply (L l i j Hl Hid). }
  assert (Hjd : ~ In j (snd s)).
  { intros Hjd. apply Hld. apply (L l j i (link2_sym _ _ _ _ Hl) Hjd). }
  assert (Hic : class_of g0 i = CCP) by (apply (cpn_class g0 l); apply Hm; auto).
  apply cp_del_list_In in Hi. apply cp_del_list_In. right.
  assert (Hfam : In i (cp_family (fst s) n dp)).
  { destruct Hi as [Hi|Hi]; [exact Hi|]. exfalso.
    apply cp_links_In in Hi. destruct Hi as [i' [_ [Hi _]]].
    rewrite C in Hi. apply first_neighbor_restrict in Hi; [|discriminate].
    destruct Hi as [Hi _]. apply first_neighbor_In in Hi. destruct Hi as [_ Hi]. congruence. }
  apply cp_links_In. exists i. split; [exact Hfam|]. rewrite C. split.
  - apply first_neighbor_restrict; [discriminate|]. split; [|auto].
    apply (first_neighbor_sym g0 l i RConnects CCP CLink); [apply Hm; auto | exact Hcl].
  - apply (NoDup_len2 _ i j Hij); [apply first_neighbor_NoDup|].
    intros y. rewrite first_neighbor_restrict; [|discriminate]. fold (cpn g0 l). rewrite Hm.
    split; [tauto|]. intros [->| ->]; tauto.
Qed.

Lemma remove_cp_complete n dp s s' :
  cons g0 s -> remove_cp_and_links n dp s = (inl tt, s') ->
  forall x, O_cp g0 n dp x -> In x (snd s').
Proof.
  intros C E x Hx. destruct (remove_cp_ok n dp s s' C E) as [C' [Hn H]]. apply H.
  destruct Hx as [->|[Hdp [Hx1 [Hx2 Hx3]]]].
  - left. apply cp_del_list_In. left. apply in_family_cur.
  - destruct (in_dec N.eq_dec x (snd s)) as [Hxd|Hxd]; [right; exact Hxd|]. left.
    apply cp_del_list_In. left. unfold cp_family. rewrite dedup_In. right. apply filter_In. split.
    + rewrite C. apply first_neighbor_restrict; [discriminate|]. auto.
    + subst dp. rewrite andb_true_r. apply Nat.eqb_eq.
      apply (NoDup_len1 _ n); [apply first_neighbor_NoDup|].
      intros y. rewrite C, first_neighbor_restrict; [|discriminate]. split.
      * intros [Hy _]. apply Hx3. exact Hy.
      * intros ->. auto.
Qed.

Lemma remove_cp_CI n s s' :
  J2 s -> class_of g0 n = CCP -> remove_cp_and_links n true s = (inl tt, s') -> J2 s'.
Proof.
  intros [C [L K]] Hnc E.
  destruct (remove_cp_LI n true s s' (conj C L) E) as [C' L'].
  split; [exact C'|]. split; [exact L'|].
  destruct (remove_cp_ok n true s s' C E) as [_ [Hn H]].
  intros i x Hi Hs. apply H in Hi. destruct Hi as [Hi|Hi]; [|apply H; right; apply (K i x Hi Hs)].
  destruct (in_dec N.eq_dec x (snd s)) as [Hxd|Hxd]; [apply H; right; exact Hxd|].
  apply cp_del_list_In in Hi. destruct Hi as [Hi|Hi].
  - (* i in the family *)
    unfold cp_family in Hi. rewrite dedup_In in Hi. destruct Hi as [<-|Hi].
    + apply (remove_cp_complete n true s s' C E). right. auto.
    + apply filter_In in Hi. destruct Hi as [Hi1 Hi2]. rewrite andb_true_r in Hi2. apply Nat.eqb_eq in Hi2.
      (* i hangs on n alone in the current graph; x is next to i, so x = n *)
      rewrite C in Hi1. apply first_neighbor_restrict in Hi1; [|discriminate]. destruct Hi1 as [Hi1 [_ Hid]].
      destruct Hs as [Hs1 [Hs2 Hs3]].
      apply len1_inv in Hi2. destruct Hi2 as [a Ha].
      assert (Hna : In n (first_neighbor (fst s) i RConnects CCP)).
      { rewrite C. apply first_neighbor_restrict; [discriminate|]. split; [|auto].
        apply (first_neighbor_sym g0 n i RConnects CCP CCP); [exact Hi1 | exact Hnc]. }
      assert (Hxa : In x (first_neighbor (fst s) i RConnects CCP)).
      { rewrite C. apply first_neighbor_restrict; [discriminate|]. auto. }
      rewrite Ha in Hna, Hxa. destruct Hna as [<-|[]]. destruct Hxa as [<-|[]].
      apply H. left. apply cp_del_list_In. left. apply in_family_cur.
  - (* i a link: it is no connection point, nothing hangs on it *)
    exfalso. apply cp_links_In in Hi. destruct Hi as [i' [_ [Hi _]]].
    rewrite C in Hi. apply first_neighbor_restrict in Hi; [|discriminate]. destruct Hi as [Hi _].
    apply first_neighbor_In in Hi. destruct Hi as [_ Hi].
    destruct Hs as [_ [Hs2 _]]. apply cpn_class in Hs2. congruence.
Qed.

(* deleting a node that is not a connection point keeps LI and CI: it is no end of a link and nothing hangs on it *)
Lemma LI_cons D n : class_of g0 n <> CCP -> LI D -> LI (n :: D).
Proof.
  intros Hn L l i j Hl [<-|Hi]; [|right; apply (L l i j Hl Hi)].
  exfalso. apply Hn. destruct Hl as [_ [_ Hm]]. apply (cpn_class g0 l), Hm. auto.
Qed.

Lemma CI_cons D n : class_of g0 n <> CCP -> CI D -> CI (n :: D).
Proof.
  intros Hn K i x [<-|Hi] Hs; [|right; apply (K i x Hi Hs)].
  exfalso. apply Hn. destruct Hs as [_ [Hs _]]. apply (cpn_class g0 x), Hs.
Qed.

Lemma delete_cons n s u s' : cons g0 s -> m_delete n s = (inl u, s') -> cons g0 s' /\ snd s' = n :: snd s.
Proof.
  intros C E. apply delete_ok in E. destruct E as [_ ->]. split; [|reflexivity].
  unfold cons. simpl. rewrite C. apply delete_restrict.
Qed.

Lemma delete_J2 n s u s' :
  J2 s -> class_of g0 n <> CCP -> m_delete n s = (inl u, s') -> J2 s' /\ snd s' = n :: snd s.
Proof.
  intros [C [L K]] Hn E. destruct (delete_cons n s u s' C E) as [C' HD]. split; [|exact HD].
  split; [exact C'|]. rewrite HD. split; [apply LI_cons | apply CI_cons]; assumption.
Qed.

Lemma J2_J1 s : J2 s -> J1 s.
Proof. intros [A [B _]]. split; assumption. Qed.

Lemma delete_J1 n c s u s' :
  J1 s -> class_of (fst s) n = c -> c <> CCP -> m_delete n s = (inl u, s') ->
  J1 s' /\ snd s' = n :: snd s.
Proof.
  intros [C L] Hc Hne E. destruct (delete_cons n s u s' C E) as [C' HD]. split; [|exact HD].
  apply delete_ok in E. destruct E as [Hh _]. destruct (cons_has s n C Hh) as [Hnd _].
  rewrite (cons_class s n C Hnd) in Hc. split; [exact C'|]. rewrite HD. apply LI_cons; [congruence | exact L].
Qed.

End Complete.
