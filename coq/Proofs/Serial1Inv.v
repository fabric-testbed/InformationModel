(* C01 proofs: the store invariant store_wf (distinct internal ids below the counter, edges between
   stored nodes) is kept by every load and import, so the hypothesis `store_wf s` of the round-trip
   theorems holds in every reachable store. *)
From Coq Require Import List NArith Bool.
From FIM Require Import Base.Str Model.Serial1Graph.
From FIM Require Import Proofs.Serial1Store Proofs.Serial1Main.
Import ListNotations.

Theorem add_graph_wf s gid g : store_wf s = true -> graph_shape g = true -> store_wf (fst (add_graph s gid g)) = true.
Proof.
  intros W SH. apply graph_shape_iff in SH as [ND CL]. rewrite (add_graph_eq s gid g ND CL).
  apply store_wf_swf in W. apply (cleared_swf s gid) in W.
  destruct (graph_ids_ok g); apply store_wf_swf; [|exact W].
  apply merge_swf; [exact W|]. rewrite cleared_next. apply stamp_fresh, relabelled_fresh; assumption.
Qed.

Theorem add_graph_direct_wf s gid g : store_wf s = true -> graph_shape g = true ->
  store_wf (fst (add_graph_direct s gid g)) = true.
Proof.
  intros W SH. apply graph_shape_iff in SH as [ND CL]. rewrite (add_graph_direct_eq s gid g ND CL).
  apply store_wf_swf, merge_swf; [apply cleared_swf, store_wf_swf, W|].
  rewrite cleared_next. apply relabelled_fresh; assumption.
Qed.

(* every import of a text that denotes an nx graph keeps the invariant, whatever the outcome *)
Theorem import_via_wf ep s t gid : store_wf s = true ->
  (forall g, text_graph t = Some g -> graph_shape g = true) ->
  store_wf (fst (import_via ep s t gid)) = true.
Proof.
  intros W SH. change (forall g, read_any t = Some g -> graph_shape g = true) in SH.   (* text_graph is read_any *)
  assert (I1 : store_wf (fst (import_string s t gid)) = true).
  { unfold import_string. destruct (read_any t) as [g|] eqn:R; [|exact W].
    destruct (nonempty g); [apply add_graph_wf; [exact W|apply SH; reflexivity]|exact W]. }
  assert (I2 : store_wf (fst (import_string_direct s t)) = true).
  { unfold import_string_direct. destruct (get_graph_id t) as [x| |]; try exact W.
    destruct (read_any t) as [g|] eqn:R; [|exact W].
    destruct (nonempty g); [apply add_graph_direct_wf; [exact W|apply SH; reflexivity]|exact W]. }
  destruct ep; assumption.
Qed.

Theorem empty_store_wf : store_wf empty_store = true.
Proof. reflexivity. Qed.

Theorem loads_wf ops : Forall (fun x : bool * str * nxg => graph_shape (snd x) = true) ops ->
  store_wf (fold_left load_op ops empty_store) = true.
Proof.
  generalize empty_store_wf. generalize empty_store.
  induction ops as [|[[d gid] g] r IH]; intros s W F; [exact W|]. inversion F; subst.
  apply IH; [|assumption]. simpl in *. destruct d; [apply add_graph_direct_wf|apply add_graph_wf]; assumption.
Qed.
