(* C07 - removals, the invariant: deleting an owner makes its elements exempt orphans (WFr_delete_owner); neighbourhoods
   after a removal; InvD g0 E d s = "the state is the graph before the call minus the set d, and satisfies the rules
   relaxed for the set E the call is going to delete", with its three moves: remove_cp_and_links on an interface
   (step_remove_cp), delete_node on an owner (step_delete_owner), and `finish` when all of E is gone.
   Rests on T7RelUnits (WFr, remove_cp_and_links as a unit) and T7RelRun (deletions as runs). *)
From Coq Require Import List Bool.
From FIM Require Import Base.Str Model.T7Graph Model.T7Ops Model.T7WF Model.T7Steps Model.T7Rel Proofs.T7Tables Proofs.T7WFRefl
     Proofs.T7Frame Proofs.T7Units Proofs.T7RelUnits Proofs.T7RelRun Proofs.T7Api4 Proofs.T7Api6.
Import ListNotations.

Lemma first_nb_remove g d y r k :
  d y = false -> first_nb (remove_set g d) y r k = filter (fun j => negb (d j)) (first_nb g y r k).
Proof.
  intro Hy. unfold first_nb. rewrite (rs_nbrs g d y Hy).
  induction (nbrs g y) as [|[j r'] l IH]; simpl; [reflexivity|].
  destruct (d j) eqn:Dj; simpl.
  - rewrite IH. destruct (rel_eqb r' r && cls_is g j k); simpl; [rewrite Dj; reflexivity | reflexivity].
  - rewrite (rs_cls g d j k Dj). destruct (rel_eqb r' r && cls_is g j k); simpl; [rewrite Dj; simpl; f_equal; exact IH | exact IH].
Qed.
Lemma any_nb_remove g d y k :
  d y = false -> any_nb (remove_set g d) y k = filter (fun j => negb (d j)) (any_nb g y k).
Proof.
  intro Hy. unfold any_nb. rewrite (rs_nbrs g d y Hy).
  induction (nbrs g y) as [|[j r'] l IH]; simpl; [reflexivity|].
  destruct (d j) eqn:Dj; simpl.
  - rewrite IH. destruct (cls_is g j k); simpl; [rewrite Dj; reflexivity | reflexivity].
  - rewrite (rs_cls g d j k Dj). destruct (cls_is g j k); simpl; [rewrite Dj; simpl; f_equal; exact IH | exact IH].
Qed.

Lemma nb_where_remove_sub g d y (F : graph -> str -> rel -> bool) o :
  d y = false -> (forall j r, d j = false -> F (remove_set g d) j r = F g j r) ->
  In o (nb_where (remove_set g d) y (F (remove_set g d))) -> In o (nb_where g y (F g)) /\ d o = false.
Proof.
  intros Hy HF H. apply In_nb_where in H as [r [H1 H2]]. rewrite (rs_nbrs g d y Hy) in H1.
  apply filter_In in H1 as [H1 H3]. simpl in H3. apply negb_true_iff in H3. split; [|exact H3].
  apply In_nb_where. exists r. split; [exact H1|]. rewrite <- (HF o r H3). exact H2.
Qed.
Lemma scope_remove_sub g d n o :
  d (nid n) = false -> In o (scope_of (remove_set g d) n) -> In o (scope_of g n) /\ d o = false.
Proof.
  intros Hn H. unfold scope_of in *. destruct (ncls n); try destruct H.
  - unfold comp_owners in *.
    apply (nb_where_remove_sub g d (nid n) (fun g j r => rel_eqb r Has && (cls_is g j KNode || cls_is g j KComposite)) o Hn); [|exact H].
    intros j r Hj. rewrite !(rs_cls g d _ _ Hj). reflexivity.
  - unfold ns_owners in *.
    apply (nb_where_remove_sub g d (nid n) (fun g j r => rel_eqb r Has && (cls_is g j KNode || cls_is g j KComposite || cls_is g j KComp)) o Hn); [|exact H].
    intros j r Hj. rewrite !(rs_cls g d _ _ Hj). reflexivity.
  - unfold cp_owners in *.
    apply (nb_where_remove_sub g d (nid n) (fun g j r => rel_eqb r Connects && (cls_is g j KNS || typ_is g (nid n) sSubInterface && cls_is g j KCP && negb (typ_is g j sSubInterface))) o Hn); [|exact H].
    intros j r Hj. rewrite !(rs_cls g d _ _ Hj), (rs_typ g d _ _ Hj), (rs_typ g d _ _ Hn). reflexivity.
Qed.

(* z is an element one of whose owners is x *)
Definition owned_in (g : graph) (x z : str) : bool :=
  existsb (fun n => str_eqb (nid n) z && mem_str x (scope_of g n)) (gnodes g).

Lemma WFr_delete_owner g eo ep x :
  WFr eo ep g -> cls_is g x KCP = false -> cls_is g x KLink = false ->
  WFr (fun z => eo z || owned_in g x z) ep (remove_set g (fun y => str_eqb y x)).
Proof.
  intros W C1 C2. apply (WFr_remove_set g _ eo ep _ ep W).
  intros n Hn Hd He. apply orb_false_iff in He as [He Ho]. split; [exact He|].
  assert (NO : forall o, In o (scope_of g n) -> str_eqb o x = false).
  { intros o Hin. destruct (str_eqb o x) eqn:E; [|reflexivity]. apply str_eqb_eq in E. subst o. exfalso.
    assert (X : owned_in g x (nid n) = true).
    { unfold owned_in. apply existsb_exists. exists n. split; [exact Hn|]. rewrite str_eqb_refl. simpl. apply mem_str_In. exact Hin. }
    congruence. }
  unfold scope_of in NO. destruct (ncls n) eqn:Hc; try exact I; try exact NO.
  split; [exact NO|]. intros Ht Hp. split; [exact Hp|]. intros l Hl. split.
  - destruct (str_eqb l x) eqn:E; [|reflexivity]. apply str_eqb_eq in E. subst l. apply In_first_nb in Hl as [_ Hl]. congruence.
  - intros y Hy. destruct (str_eqb y x) eqn:E; [|reflexivity]. apply str_eqb_eq in E. subst y. apply In_first_nb in Hy as [_ Hy]. congruence.
Qed.

(* the invariant of a removal call.  g0: the graph before the call (well-formed); E: the elements the call is going to delete for sure and that may be
   orphans / pending on the way; d: what has been deleted so far. *)
Section Rem.
Variable g0 : graph.
Hypothesis W0 : WF g0.
Variable E : str -> bool.

Definition InvD (d : str -> bool) (s : st) : Prop := sg s = remove_set g0 d /\ WFr E E (sg s).

Lemma InvD_init s : sg s = g0 -> InvD (fun _ => false) s.
Proof.
  intro H. split; [rewrite H; symmetry; apply remove_set_none|]. rewrite H. apply WF_WFr in W0.
  eapply WFr_mono; [| |exact W0]; intros x X; discriminate X.
Qed.

Lemma alive_has_id d s y : InvD d s -> has_id g0 y = true -> d y = false -> has_id (sg s) y = true.
Proof. intros [G _] H D. rewrite G. apply has_id_remove_keep; assumption. Qed.
Lemma has_id_alive d s y : InvD d s -> has_id (sg s) y = true -> has_id g0 y = true /\ d y = false.
Proof. intros [G _] H. rewrite G in H. apply has_id_remove_inv in H. exact H. Qed.
Lemma InvD_sane d s : InvD d s -> sane (sg s).
Proof. intros [_ W]. exact (WFr_sane _ _ _ W). Qed.

(* remove_cp_and_links on an interface that is there; the service ports it strands are scheduled *)
Lemma step_remove_cp d s x :
  InvD d s -> has_id g0 x = true -> d x = false -> cls_is g0 x KCP = true ->
  (forall c z, (c = x \/ In c (first_nb (sg s) x Connects KCP)) -> In z (peers (sg s) c) ->
               typ_is g0 z sServicePort = true -> E z = true) ->
  let d' := fun y => d y || mem_str y (D_cp (sg s) x true) in
  remove_cp_and_links x true s = (mkSt (remove_set g0 d') (sdr s), Ok tt) /\ InvD d' (mkSt (remove_set g0 d') (sdr s)).
Proof.
  intros I Hx Dx Cx H2 d'. pose proof I as [G W].
  assert (Hxs : has_id (sg s) x = true) by (eapply alive_has_id; eauto).
  assert (Cxs : cls_is (sg s) x KCP = true) by (rewrite G, (rs_cls g0 d _ _ Dx); exact Cx).
  assert (Eq : remove_set (sg s) (fun y => mem_str y (D_cp (sg s) x true)) = remove_set g0 d').
  { rewrite G at 1. rewrite remove_set_twice. reflexivity. }
  split.
  - rewrite (cp_unit_run x true s (InvD_sane _ _ I) Hxs). rewrite Eq. reflexivity.
  - split; [reflexivity|]. simpl. rewrite <- Eq.
    pose proof (WFr_remove_cp (sg s) E E x true W Cxs (or_introl eq_refl)) as W1.
    apply (WFr_restrict _ _ _ _ _ W1); [auto|].
    intros n Hn Hc Ht He. apply orb_true_iff in He as [He|He]; [exact He|].
    apply In_remove_set_nodes in Hn as [Hn _].
    assert (Hn0 : In n (gnodes g0)) by (rewrite G in Hn; apply In_remove_set_nodes in Hn; tauto).
    unfold cp_stranded in He. apply existsb_exists in He as [c [Hc' Hz]]. apply mem_str_In in Hz.
    apply (H2 c (nid n)); [| exact Hz | rewrite (typ_is_node g0 n _ (wf_ids _ W0) Hn0), Ht; apply ostr_eqb_eq; reflexivity].
    unfold cp_ifs in Hc'. apply (proj1 (In_dedup _ _)) in Hc'. destruct Hc' as [<-|Hc']; [left; reflexivity|].
    right. unfold cp_extra in Hc'. apply filter_In in Hc'. tauto.
Qed.

(* deleting an owner whose elements are all scheduled *)
Lemma step_delete_owner d s x :
  InvD d s -> has_id g0 x = true -> d x = false -> cls_is g0 x KCP = false -> cls_is g0 x KLink = false ->
  (forall n, In n (gnodes g0) -> In x (scope_of g0 n) -> E (nid n) = true) ->
  let d' := fun y => d y || str_eqb y x in
  delete_node x s = (mkSt (remove_set g0 d') (sdr s), Ok tt) /\ InvD d' (mkSt (remove_set g0 d') (sdr s)).
Proof.
  intros I Hx Dx C1 C2 HO d'. pose proof I as [G W].
  assert (Hxs : has_id (sg s) x = true) by (eapply alive_has_id; eauto).
  assert (Eq : remove_set (sg s) (fun y => str_eqb y x) = remove_set g0 d').
  { rewrite G at 1. rewrite remove_set_twice. reflexivity. }
  split.
  - rewrite (delete_node_ok x s (InvD_sane _ _ I) Hxs). rewrite Eq. reflexivity.
  - split; [reflexivity|]. simpl. rewrite <- Eq.
    assert (C1s : cls_is (sg s) x KCP = false) by (rewrite G, (rs_cls g0 d _ _ Dx); exact C1).
    assert (C2s : cls_is (sg s) x KLink = false) by (rewrite G, (rs_cls g0 d _ _ Dx); exact C2).
    pose proof (WFr_delete_owner (sg s) E E x W C1s C2s) as W1.
    apply (WFr_restrict _ _ _ _ _ W1); [|auto].
    intros n Hn He. apply orb_true_iff in He as [He|He]; [exact He|].
    unfold owned_in in He. apply existsb_exists in He as [m [Hm Hb]]. apply andb_true_iff in Hb as [Em Hb].
    apply str_eqb_eq in Em. apply mem_str_In in Hb. rewrite <- Em.
    rewrite G in Hm. apply In_remove_set_nodes in Hm as [Hm0 Dm].
    rewrite G in Hb. apply (scope_remove_sub g0 d m x Dm) in Hb as [Hb _]. apply HO; assumption.
Qed.

(* at the end every scheduled element is gone *)
Lemma finish d s : InvD d s -> (forall y, E y = true -> has_id g0 y = true -> d y = true) -> WF (sg s).
Proof.
  intros [G W] H. apply WF_WFr.
  assert (X : forall n, In n (gnodes (sg s)) -> E (nid n) = true -> False).
  { intros n Hn He. rewrite G in Hn. apply In_remove_set_nodes in Hn as [Hn Dn].
    rewrite (H _ He) in Dn; [discriminate | apply has_id_In; eauto]. }
  apply (WFr_restrict _ _ _ _ _ W); [intros n Hn He | intros n Hn _ _ He]; exfalso; eauto.
Qed.
End Rem.
