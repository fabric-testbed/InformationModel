(* C05: concrete witnesses (evaluated by vm_compute) - documented differences of the two storage flavours
   OUTSIDE the quantifier of C05 (import / clone), and non-vacuity instances of the proved theorems.  The same histories are replayed on the real
   code by harness/c05.py (refuted_witnesses) on every run. *)
From Coq Require Import List NArith.
From FIM Require Import Model.Store Model.StoreDisjoint Model.PGSpec.
Import ListNotations.
Open Scope N_scope.

(* interned names used below: g0=10 g1=11 n0=20 n1=21 c0=30 r0=40 p0=50 v0=60 *)
Definition w_reimport : list op :=
  [OAddNode 10 20 30 None; OImport 10 (mkI [(1, [(k_nodeid, PV 21); (k_class, PV 30)])] []); OListIds 10].
Definition w_merge : list op :=
  [OAddNode 10 20 30 (Some [(50, PV 60)]); OAddNode 11 20 30 None; OMerge 10 20 11 (Some [(50, s_overwrite)])].

Definition results_eqb (a b : list res) : bool := list_eqb res_eqb a b.

(* import onto a live id: replaced vs kept *)
Lemma agree_reimport_live_refuted :
  exists ops, (forall o, In o ops -> in_spec_scope o = true) /\
              results_eqb (sresults init_store ops) (dresults init_dstore ops) = false.
Proof. exists w_reimport. split; [apply forallb_forall|]; vm_compute; reflexivity. Qed.

(* merge_nodes raising KeyError (policy needs a property the other node lacks) changes nothing *)
Lemma merge_fails_nonvacuous :
  snd (sstep (srun (firstn 2 w_merge) init_store) (OMerge 10 20 11 (Some [(50, s_overwrite)]))) = Err EKey /\
  fst (sstep (srun (firstn 2 w_merge) init_store) (OMerge 10 20 11 (Some [(50, s_overwrite)]))) = srun (firstn 2 w_merge) init_store.
Proof. vm_compute. split; reflexivity. Qed.

(* a 16-step history inside refine_scope0 with existing partners, two graphs, links, updates, listing *)
Definition w_agree : list op :=
  [OAddNode 10 20 30 None; OAddNode 10 21 31 (Some [(50, PV 60)]); OAddLink 10 20 40 21 None;
   OAddNode 11 20 30 None; OAddNode 10 20 31 None; OUpdNode 10 20 50 (PV 61); OUnsetNode 10 20 k_name;
   OUnsetNode 10 21 51; OUpdLink 10 21 20 40 50 (PV 60); OMatching 10 11; OListIds 10; ODelNode 10 20;
   OGetLink 10 20 21; ODelGraph 11; OGraphExists 11; OMatching 10 11].

Lemma agree_nonvacuous :
  forallb refine_scope0 w_agree = true /\
  sresults init_store w_agree =
    [Ok RUnit; Ok RUnit; Ok RUnit; Ok RUnit; Err EQuery; Ok RUnit; Err EQuery; Ok RUnit; Ok RUnit;
     Ok (RVals [PV 20]); Ok (RVals [PV 20; PV 21]); Ok RUnit; Err EQuery; Ok RUnit; Ok (RBool false); Ok (RVals [])] /\
  dresults init_dstore w_agree = sresults init_store w_agree.
Proof. vm_compute. repeat split. Qed.

Lemma merge_nonvacuous :
  let ops := [OAddNode 10 20 30 (Some [(50, PV 60)]); OAddNode 10 21 30 None; OAddLink 10 20 40 21 None;
              OAddNode 11 20 30 (Some [(50, PV 61)]); OAddNode 11 22 30 None; OAddLink 11 20 40 22 None] in
  let s := srun ops init_store in
  exists G', s_merge (sg s) 10 20 11 (Some [(50, s_combine)]) = (G', Ok RUnit) /\
             nx_node G' 1 = Some [(k_graphid, PV 10); (k_nodeid, PV 20); (k_class, PV 30); (50, PL [PV 60; PV 61])] /\
             nx_node G' 3 = None /\ nx_edge G' 1 2 <> None /\ nx_edge G' 1 4 <> None.
Proof. eexists. vm_compute. repeat split; discriminate. Qed.
