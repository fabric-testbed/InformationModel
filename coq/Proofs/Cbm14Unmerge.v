(* C14 - sunmerge key by key; unmerge is the inverse of merge when the merged model brings no connection between
   two elements that are already there. *)
From Coq Require Import List NArith Bool.
From FIM Require Import Base.ListFacts Model.Cbm14Spec Proofs.Cbm14Assoc Proofs.Cbm14Merge.
Import ListNotations.
Open Scope N_scope.

Definition nodup_keys (C : cbm) : Prop := NoDup (map fst (nodes C)) /\ NoDup (map fst (edges C)).

Lemma smerge_nodup C A C' : wf_adm A -> nodup_keys C -> smerge C A = Some C' -> nodup_keys C'.
Proof.
  intros (WA1 & WA2 & _) [N1 N2] H. apply smerge_Some in H as (_ & Hn & He). unfold nodup_keys.
  rewrite Hn, He. unfold merge_nodes, merge_edges. rewrite !map_app.
  rewrite (keys_map (fun k c => match getn k (adm_nodes A) with Some a => upd (adm_id A) a c | None => c end)),
          (keys_map (fun _ a => stamp (adm_id A) a)).
  split; [apply (NoDup_keys_beyond N.eqb N.eqb_eq) | apply (NoDup_keys_beyond ekey_eqb ekey_eqb_eq)]; assumption.
Qed.

Lemma sunmerge_get_node C g k :
  NoDup (map fst (nodes C)) ->
  getn k (nodes (sunmerge C g)) =
  match getn k (nodes C) with
  | Some c => if alive (unm g c) then Some (unm g c) else None
  | None => None
  end.
Proof.
  intro ND. unfold sunmerge; simpl. unfold getn.
  rewrite (get_filter_val N.eqb N.eqb_eq (fun kc => alive (snd kc))).
  - rewrite (get_map N.eqb N.eqb_eq (fun _ c => unm g c)). destruct (get N.eqb k (nodes C)); reflexivity.
  - rewrite (keys_map (fun _ c => unm g c)). exact ND.
Qed.

Lemma sunmerge_node_inv C g k c' :
  NoDup (map fst (nodes C)) -> getn k (nodes (sunmerge C g)) = Some c' ->
  exists c, getn k (nodes C) = Some c /\ c' = unm g c /\ alive c' = true.
Proof.
  intro ND. rewrite sunmerge_get_node; auto. destruct (getn k (nodes C)) as [c|]; [|discriminate].
  destruct (alive (unm g c)) eqn:E; [|discriminate]. intro X; inversion X; subst. eauto.
Qed.

Lemma sunmerge_get_edge C g e :
  NoDup (map fst (edges C)) ->
  gete e (edges (sunmerge C g)) =
  match gete e (edges C) with
  | Some d => if hasn (fst e) (nodes (sunmerge C g)) && hasn (snd e) (nodes (sunmerge C g)) then Some d else None
  | None => None
  end.
Proof.
  intro ND. unfold sunmerge at 1; simpl. unfold gete.
  rewrite (get_filter_val ekey_eqb ekey_eqb_eq); auto.
Qed.

Lemma sunmerge_nodup C g : nodup_keys C -> nodup_keys (sunmerge C g).
Proof.
  intros [N1 N2]. unfold nodup_keys, sunmerge; simpl. split.
  - apply NoDup_map_filter. rewrite (keys_map (fun _ c => unm g c)). exact N1.
  - apply NoDup_map_filter. exact N2.
Qed.

Definition keyed (C : cbm) : Prop :=
  forall k c g x, getn k (nodes C) = Some c -> (c_ld c = Some (g, x) \/ c_cd c = Some (g, x)) -> In g (c_con c).
Definition no_dangling (C : cbm) : Prop :=
  forall e, hase e (edges C) = true -> hasn (fst e) (nodes C) = true /\ hasn (snd e) (nodes C) = true.
Definition all_alive (C : cbm) : Prop := forall k c, getn k (nodes C) = Some c -> alive c = true.
(* what every combined model built by the operations satisfies (Cbm14Hist.hinv_all, Cbm14Inv.Inv_wf_cbm) *)
Definition wf_cbm (C : cbm) : Prop := nodup_keys C /\ all_alive C /\ keyed C /\ no_dangling C.
Definition not_contributor (g : N) (C : cbm) : Prop :=
  forall k c, getn k (nodes C) = Some c -> ~ In g (c_con c).
(* the merged model brings no connection between two elements that are already there *)
Definition no_new_inner_edges (C : cbm) (A : adm) : Prop :=
  forall e, hase e (adm_edges A) = true -> hasn (fst e) (nodes C) = true -> hasn (snd e) (nodes C) = true ->
            hase e (edges C) = true.

Lemma filter_app_self g l : ~ In g l -> filter (fun x => negb (x =? g)) (l ++ [g]) = l.
Proof.
  intro H. rewrite filter_app, filter_notin; auto. simpl. rewrite N.eqb_refl. simpl. apply app_nil_r.
Qed.

Lemma drop_join g c a : (forall x, c <> Some (g, x)) -> drop_d g (join_d g c a) = c.
Proof.
  destruct c as [[g' x]|]; simpl.
  - intro H. destruct (g' =? g) eqn:E; auto. apply N.eqb_eq in E. subst. destruct (H x eq_refl).
  - intros _. destruct a; simpl; auto. rewrite N.eqb_refl. reflexivity.
Qed.

Lemma drop_d_other g d : (forall x, d <> Some (g, x)) -> drop_d g d = d.
Proof. intro H. replace d with (join_d g d None) at 1 by (destruct d; reflexivity). apply drop_join, H. Qed.

Lemma unm_upd g a c :
  ~ In g (c_con c) -> (forall x, c_ld c <> Some (g, x)) -> (forall x, c_cd c <> Some (g, x)) ->
  unm g (upd g a c) = c.
Proof.
  intros H1 H2 H3. destruct c as [cl ot co ld cd]; unfold unm, upd; simpl in *.
  rewrite filter_app_self, !drop_join; auto.
Qed.

Lemma unm_same g c :
  ~ In g (c_con c) -> (forall x, c_ld c <> Some (g, x)) -> (forall x, c_cd c <> Some (g, x)) ->
  unm g c = c.
Proof.
  intros H1 H2 H3. destruct c as [cl ot co ld cd]; unfold unm; simpl in *.
  rewrite filter_notin, !drop_d_other; auto.
Qed.

Lemma unmerge_nodes C A C' k :
  wf_cbm C -> wf_adm A -> not_contributor (adm_id A) C -> smerge C A = Some C' ->
  getn k (nodes (sunmerge C' (adm_id A))) = getn k (nodes C).
Proof.
  intros (ND & AL & KY & _) WA NC H.
  pose proof (smerge_nodup _ _ _ WA ND H) as [ND' _].
  rewrite sunmerge_get_node; auto. rewrite (smerge_get_node _ _ _ k H).
  destruct (getn k (nodes C)) as [c|] eqn:Hc.
  - assert (forall x, c_ld c <> Some (adm_id A, x)) as K1 by (intros x E; eapply NC; eauto).
    assert (forall x, c_cd c <> Some (adm_id A, x)) as K2 by (intros x E; eapply NC; eauto).
    destruct (getn k (adm_nodes A)); [rewrite unm_upd | rewrite unm_same]; eauto;
      rewrite (AL k c Hc); reflexivity.
  - destruct (getn k (adm_nodes A)); auto.
    unfold unm, stamp, alive; simpl. rewrite N.eqb_refl. reflexivity.
Qed.

Lemma unmerge_edges C A C' e :
  wf_cbm C -> wf_adm A -> not_contributor (adm_id A) C -> no_new_inner_edges C A -> smerge C A = Some C' ->
  gete e (edges (sunmerge C' (adm_id A))) = gete e (edges C).
Proof.
  intros WC WA NC NI H. pose proof WC as (ND & AL & KY & DG).
  pose proof (smerge_nodup _ _ _ WA ND H) as [_ ND'].
  rewrite sunmerge_get_edge; auto.
  assert (forall k, hasn k (nodes (sunmerge C' (adm_id A))) = hasn k (nodes C)) as HH.
  { intro k. rewrite !hasn_is_some, (unmerge_nodes C A C' k); auto. }
  rewrite !HH, (smerge_get_edge _ _ _ e H).
  specialize (DG e). specialize (NI e). rewrite hase_is_some in DG, NI. rewrite hase_is_some in NI.
  destruct (gete e (edges C)) as [d|].
  - destruct (DG eq_refl) as [-> ->]. reflexivity.
  - destruct (gete e (adm_edges A)) as [d|]; auto.
    destruct (hasn (fst e) (nodes C)), (hasn (snd e) (nodes C)); simpl; auto.
    discriminate (NI eq_refl eq_refl eq_refl).
Qed.

Theorem unmerge_inverse C A C' :
  wf_cbm C -> wf_adm A -> not_contributor (adm_id A) C -> no_new_inner_edges C A ->
  smerge C A = Some C' -> eqv (sunmerge C' (adm_id A)) C.
Proof.
  intros WC WA NC NI H. split.
  - intro k. rewrite (unmerge_nodes C A C' k); auto; try apply WC.
    destruct (getn k (nodes C)); simpl; auto using eqv_node_refl.
  - intro e. apply (unmerge_edges C A C' e); auto.
Qed.
