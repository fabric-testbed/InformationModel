(* C07 - the building calls of Model/T7Ops.v keep the invariant WF: symbolic execution of the monadic programs
   down to the unit mutations of Model/T7Steps.v, whose side conditions follow from the guards of the code. *)
From Coq Require Import List Bool.
From FIM Require Import Base.Str Gen.Rules Model.T7Graph Model.T7Ops Model.T7WF Model.T7Steps
     Proofs.T7Tables Proofs.T7WFRefl Proofs.T7Frame Proofs.T7Units.
Import ListNotations.

Lemma bind_inv {A B} (m : M A) (f : A -> M B) s s' r :
  bind m f s = (s', r) ->
  (exists s1 a, m s = (s1, Ok a) /\ f a s1 = (s', r)) \/ (exists e, m s = (s', Err e) /\ r = Err e).
Proof.
  unfold bind. destruct (m s) as [s1 [a|e]]; intro H.
  - left. eauto.
  - right. inversion H; subst. eauto.
Qed.
Lemma ret_inv {A} (a : A) s s' r : ret a s = (s', r) -> s' = s /\ r = Ok a.
Proof. unfold ret. intro H. inversion H. auto. Qed.
Lemma raise_inv {A} e s s' (r : res A) : raise e s = (s', r) -> s' = s /\ r = Err e.
Proof. unfold raise. intro H. inversion H. auto. Qed.
Lemma guard_inv b e s s' r : guard b e s = (s', r) -> s' = s /\ ((b = true /\ r = Ok tt) \/ (b = false /\ r = Err e)).
Proof. unfold guard. destruct b; intro H; [apply ret_inv in H | apply raise_inv in H]; destruct H; subst; auto. Qed.
Lemma getg_inv s s' r : getg s = (s', r) -> s' = s /\ r = Ok (sg s).
Proof. unfold getg. intro H. inversion H. auto. Qed.
Lemma putg_inv g s s' r : putg g s = (s', r) -> sg s' = g /\ r = Ok tt.
Proof. unfold putg. intro H. inversion H. auto. Qed.

(* computations that only read the graph *)
Definition reads {A} (m : M A) : Prop := forall s s' r, m s = (s', r) -> sg s' = sg s.
Lemma reads_ret {A} (a : A) : reads (ret a).
Proof. intros s s' r H. apply ret_inv in H as [-> _]. reflexivity. Qed.
Lemma reads_raise {A} e : reads (@raise A e).
Proof. intros s s' r H. apply raise_inv in H as [-> _]. reflexivity. Qed.
Lemma reads_bind {A B} (m : M A) (f : A -> M B) : reads m -> (forall a, reads (f a)) -> reads (bind m f).
Proof.
  intros Hm Hf s s' r H. apply bind_inv in H as [[s1 [a [H1 H2]]]|[e [H1 _]]].
  - rewrite (Hf _ _ _ _ H2). eapply Hm; eauto.
  - eapply Hm; eauto.
Qed.
Lemma reads_guard b e : reads (guard b e).
Proof. intros s s' r H. apply guard_inv in H as [-> _]. reflexivity. Qed.
Lemma reads_getg : reads getg.
Proof. intros s s' r H. apply getg_inv in H as [-> _]. reflexivity. Qed.
Lemma reads_draw : reads draw.
Proof. intros s s' r H. unfold draw in H. destruct (sdr s); inversion H; reflexivity. Qed.
Lemma reads_mapM {A B} (f : A -> M B) l : (forall a, reads (f a)) -> reads (mapM f l).
Proof.
  intro H. induction l as [|a l IH]; simpl; [apply reads_ret|].
  apply reads_bind; [apply H|]. intro. apply reads_bind; [exact IH | intro; apply reads_ret].
Qed.
Lemma reads_for_each {A} (l : list A) (f : A -> M unit) : (forall a, reads (f a)) -> reads (for_each l f).
Proof.
  intro H. induction l as [|a l IH]; simpl; [apply reads_ret|]. apply reads_bind; [apply H | intro; exact IH].
Qed.

Create HintDb reads.
#[export] Hint Resolve reads_ret reads_raise reads_guard reads_getg reads_draw : reads.
#[export] Hint Extern 2 (reads (bind _ _)) => apply reads_bind; [|intro] : reads.
#[export] Hint Extern 2 (reads (mapM _ _)) => apply reads_mapM; intro : reads.
#[export] Hint Extern 2 (reads (for_each _ _)) => apply reads_for_each; intro : reads.

Lemma reads_id_or_draw o : reads (id_or_draw o).
Proof. destruct o; simpl; auto with reads. Qed.
Lemma reads_find1 x : reads (find1 x).
Proof. unfold find1. apply reads_bind; [apply reads_getg|]. intro g. destruct (find_nodes g x) as [|n [|? ?]]; auto with reads. Qed.
Lemma reads_check_name k s : reads (check_name k s).
Proof. apply reads_guard. Qed.
Lemma reads_name_prop n : reads (name_prop n).
Proof. unfold name_prop. destruct (nname n); auto with reads. Qed.
#[export] Hint Resolve reads_id_or_draw reads_find1 reads_check_name reads_name_prop : reads.
#[export] Hint Extern 1 (reads props) => unfold props : reads.
#[export] Hint Extern 1 (reads (props _)) => unfold props : reads.

Lemma reads_check_node_unique k n : reads (check_node_unique k n).
Proof. unfold check_node_unique. auto with reads. Qed.
Lemma reads_q_first_nb x r k : reads (q_first_nb x r k).
Proof. unfold q_first_nb. auto 6 with reads. Qed.
Lemma reads_need k x : reads (need k x).
Proof. unfold need. auto with reads. Qed.
Lemma reads_check_class x ks : reads (check_class x ks).
Proof. unfold check_class. auto with reads. Qed.
Lemma reads_type_is x t : reads (type_is x t).
Proof. unfold type_is, type_of_handle. auto 6 with reads. Qed.
#[export] Hint Resolve reads_check_node_unique reads_q_first_nb reads_need reads_check_class reads_type_is : reads.
#[export] Hint Extern 1 (reads (nss_of _)) => unfold nss_of : reads.
#[export] Hint Extern 1 (reads (components_of _)) => unfold components_of : reads.
#[export] Hint Extern 1 (reads (cps_of_ns_or_link _)) => unfold cps_of_ns_or_link : reads.
#[export] Hint Extern 1 (reads (child_cps _)) => unfold child_cps : reads.

Lemma find1_val x s s' n : find1 x s = (s', Ok n) -> s' = s /\ find_nodes (sg s) x = [n].
Proof.
  unfold find1, bind, getg, ret, raise. destruct (find_nodes (sg s) x) as [|m [|? ?]]; intro H; inversion H. auto.
Qed.
Lemma getg_val s s' g : getg s = (s', Ok g) -> s' = s /\ g = sg s.
Proof. intro H. apply getg_inv in H as [-> H]. inversion H. auto. Qed.
Lemma guard_ok_val b e s s' : guard b e s = (s', Ok tt) -> s' = s /\ b = true.
Proof. intro H. apply guard_inv in H as [-> [[H _]|[_ H]]]; [auto | discriminate]. Qed.
Lemma q_first_nb_val x r k s s' l : q_first_nb x r k s = (s', Ok l) -> s' = s /\ l = first_nb (sg s) x r k /\ has_id (sg s) x = true.
Proof.
  unfold q_first_nb. intro H. apply bind_inv in H as [[s1 [n [H1 H2]]]|[e [_ H]]]; [|discriminate].
  apply find1_val in H1 as [-> H1]. unfold bind, getg, ret in H2. injection H2 as <- <-. eauto using find_nodes_has_id.
Qed.
Lemma need_val k x s s' : need k x s = (s', Ok tt) -> s' = s /\ resolve (sg s) k x = true.
Proof.
  unfold need. intro H. apply bind_inv in H as [[s1 [g [H1 H2]]]|[e [_ H]]]; [|discriminate].
  apply getg_val in H1 as [-> ->]. apply guard_ok_val in H2. exact H2.
Qed.
Lemma check_class_val x ks s s' : check_class x ks s = (s', Ok tt) -> s' = s /\ exists n, find_nodes (sg s) x = [n] /\ existsb (cls_eqb (ncls n)) ks = true.
Proof.
  unfold check_class, props. intro H. apply bind_inv in H as [[s1 [n [H1 H2]]]|[e [_ H]]]; [|discriminate].
  apply find1_val in H1 as [-> H1]. apply guard_ok_val in H2 as [-> H2]. eauto.
Qed.
Lemma check_class_cls x ks s n :
  find_nodes (sg s) x = [n] -> existsb (cls_eqb (ncls n)) ks = true -> exists k, In k ks /\ cls_is (sg s) x k = true.
Proof.
  intros F E. apply existsb_exists in E as [k [Hk Ek]]. exists k. split; [exact Hk|].
  unfold cls_is, cls_of. rewrite F. exact Ek.
Qed.
(* the class-checked neighbour queries: nss_of, components_of, cps_of_ns_or_link, child_cps *)
Lemma class_nb_val x ks r k s s' l :
  (check_class x ks ;;; q_first_nb x r k) s = (s', Ok l) ->
  s' = s /\ l = first_nb (sg s) x r k /\ exists c, In c ks /\ cls_is (sg s) x c = true.
Proof.
  intro H. apply bind_inv in H as [[s1 [[] [Hc Hq]]]|[e [_ Hx]]]; [|discriminate].
  apply check_class_val in Hc as [-> [m [Fm Em]]]. apply q_first_nb_val in Hq as [-> [-> _]].
  eauto using check_class_cls.
Qed.

Lemma nss_of_val x s s' l : nss_of x s = (s', Ok l) -> s' = s /\ l = first_nb (sg s) x Has KNS.
Proof. intro H. apply class_nb_val in H. tauto. Qed.
Lemma components_of_val x s s' l : components_of x s = (s', Ok l) -> s' = s /\ l = first_nb (sg s) x Has KComp.
Proof. intro H. apply class_nb_val in H. tauto. Qed.
Lemma cps_of_ns_or_link_val x s s' l :
  cps_of_ns_or_link x s = (s', Ok l) -> s' = s /\ l = first_nb (sg s) x Connects KCP.
Proof. intro H. apply class_nb_val in H. tauto. Qed.
Lemma child_cps_val i s s' ch : child_cps i s = (s', Ok ch) -> s' = s /\ ch = first_nb (sg s) i Connects KCP /\ cls_is (sg s) i KCP = true.
Proof. intro H. apply class_nb_val in H as [-> [-> [k [[<-|[]] Hk]]]]. auto. Qed.

Lemma name_prop_val n s s' nm : name_prop n s = (s', Ok nm) -> s' = s /\ nname n = Some nm.
Proof. unfold name_prop, ret, raise. destruct (nname n); intro H; inversion H. auto. Qed.
Lemma type_is_val x t s s' b : type_is x t s = (s', Ok b) -> s' = s /\ b = typ_is (sg s) x t.
Proof.
  unfold type_is, type_of_handle, props, bind, ret. destruct (find1 x s) as [s1 [n|e]] eqn:F; [|discriminate].
  apply find1_val in F as [-> F]. intro H. injection H as <- <-. unfold typ_is, typ_of. rewrite F. auto.
Qed.

Lemma names_mapM_val l s s' names :
  mapM (fun c => n <- props c ;; nm <- name_prop n ;; ret (Some nm)) l s = (s', Ok names) ->
  s' = s /\ names = map (name_of (sg s)) l.
Proof.
  revert s s' names. induction l as [|c l IH]; simpl; intros s s' names H.
  - apply ret_inv in H as [-> H]. inversion H. auto.
  - unfold props, name_prop, bind, ret in H. destruct (find1 c s) as [s1 [n|e]] eqn:F; [|discriminate].
    apply find1_val in F as [-> F]. destruct (nname n) as [nm|] eqn:En; [|discriminate].
    destruct (mapM _ l s) as [s2 [ys|e]] eqn:M; [|discriminate]. apply IH in M as [-> ->]. injection H as <- <-.
    split; [reflexivity|]. f_equal. unfold name_of. rewrite F. symmetry. exact En.
Qed.

Lemma fresh_ns_cache_val x s s' c :
  fresh_ns_cache x s = (s', Ok c) -> s' = s /\ c = map (name_of (sg s)) (first_nb (sg s) x Connects KCP).
Proof.
  unfold fresh_ns_cache. intro H. apply bind_inv in H as [[s1 [l [H1 H2]]]|[e [_ H]]]; [|discriminate].
  apply cps_of_ns_or_link_val in H1 as [-> ->]. apply names_mapM_val in H2. exact H2.
Qed.
Lemma find_by_name_lazy_val name : forall l s s' c, find_by_name_lazy l name s = (s', Ok c) -> s' = s /\ In c l.
Proof.
  induction l as [|x l IH]; simpl; intros s s' c H; [discriminate|].
  unfold props, name_prop, bind, ret, raise in H. destruct (find1 x s) as [s1 [n|e]] eqn:F; [|discriminate].
  apply find1_val in F as [-> _]. destruct (nname n) as [nm|]; [|discriminate].
  destruct (str_eqb nm name); [inversion H; auto | apply IH in H as [-> H]; auto].
Qed.
Lemma find_node_by_name_val name k s s' x :
  find_node_by_name name k s = (s', Ok x) -> s' = s /\ exists n, In n (gnodes (sg s)) /\ nid n = x /\ ncls n = k /\ nname n = Some name.
Proof.
  unfold find_node_by_name, bind, getg, ret, raise. destruct (nodes_named (sg s) k name) as [|n [|? ?]] eqn:E; intro H; inversion H; subst.
  split; [reflexivity|]. exists n. assert (Hin : In n (nodes_named (sg s') k name)) by (rewrite E; left; reflexivity).
  apply filter_In in Hin as [A B]. apply andb_true_iff in B as [B C]. apply cls_eqb_eq in B. apply ostr_eqb_eq in C. auto.
Qed.
Lemma reads_find_node_by_name name k : reads (find_node_by_name name k).
Proof.
  unfold find_node_by_name. apply reads_bind; [apply reads_getg|]. intro g.
  destruct (nodes_named g k name) as [|n [|? ?]]; auto with reads.
Qed.
#[export] Hint Resolve reads_find_node_by_name : reads.

(* Interface.get_peers: the peers over links, kept when they have the asked type *)
Definition peer_filter (g : graph) (itype : option str) (p : str) : bool :=
  match itype with None => true | Some t => typ_is g p t end.

Lemma get_peers_filter_val itype : forall l s s' l',
  filterM (fun p => n <- props p ;;
                    guard (match nname n with Some _ => true | None => false end) EAssert ;;;
                    guard (cls_eqb (ncls n) KCP) EAssert ;;;
                    ret (match itype with
                         | None => true
                         | Some t => match ntyp n with Some u => str_eqb u t | None => false end
                         end)) l s = (s', Ok l') ->
  s' = s /\ l' = filter (peer_filter (sg s) itype) l.
Proof.
  induction l as [|p l IH]; intros s s' l' H; cbn [filterM] in H.
  - apply ret_inv in H as [-> H]. inversion H. auto.
  - unfold props, guard, bind, ret, raise in H. destruct (find1 p s) as [s1 [n|e]] eqn:F; [|discriminate].
    apply find1_val in F as [-> F]. destruct (nname n); [|discriminate]. destruct (cls_eqb (ncls n) KCP); [|discriminate].
    destruct (filterM _ l s) as [s2 [ys|e]] eqn:M; [|discriminate]. apply IH in M as [-> ->]. injection H as <- <-.
    split; [reflexivity|]. simpl. replace (peer_filter (sg s) itype p) with
      (match itype with Some t => match ntyp n with Some u => str_eqb u t | None => false end | None => true end); [reflexivity|].
    unfold peer_filter, typ_is, typ_of. rewrite F. destruct itype; reflexivity.
Qed.

Definition raw_peers (g : graph) (i : str) : list str := map snd (second_nb g i Connects KLink KCP).

Lemma get_peers_val i itype s s' ps :
  get_peers i itype s = (s', Ok ps) ->
  s' = s /\ ps = match raw_peers (sg s) i with [] => None | l => Some (filter (peer_filter (sg s) itype) l) end.
Proof.
  unfold get_peers, find_peers, q_second_nb, raw_peers, bind, getg, ret. destruct (find1 i s) as [s1 [n|e]] eqn:F; [|discriminate].
  apply find1_val in F as [-> _]. destruct (second_nb (sg s) i Connects KLink KCP) as [|x l]; intro H; [inversion H; auto|].
  destruct (filterM _ _ s) as [s2 [l'|e]] eqn:M; [|discriminate]. apply get_peers_filter_val in M as [-> ->]. inversion H. auto.
Qed.

(* the state after `m ;;; ret b` is the state after m *)
Lemma then_ret_state {A B} (m : M A) (b : B) s s' r : (m ;;; ret b) s = (s', r) -> exists r0, m s = (s', r0).
Proof. unfold bind, ret. destruct (m s) as [s1 [a|e]]; intro H; inversion H; eauto. Qed.

Lemma bind_assoc {A B C} (m : M A) (f : A -> M B) (k : B -> M C) s :
  bind m (fun x => bind (f x) k) s = bind (bind m f) k s.
Proof. unfold bind. destruct (m s) as [s1 [a|e]]; [|reflexivity]. destruct (f a s1) as [s2 [b|e]]; reflexivity. Qed.

Lemma add_node_inv n s s' r :
  add_node n s = (s', r) ->
  (r = Ok tt /\ has_id (sg s) (nid n) = false /\ sg s' = g_add_node (sg s) n) \/ (exists e, r = Err e /\ sg s' = sg s).
Proof.
  unfold add_node. intro H. apply bind_inv in H as [[s1 [g [H1 H2]]]|[e [H1 _]]].
  - apply getg_val in H1 as [-> ->]. apply bind_inv in H2 as [[s2 [[] [H2 H3]]]|[e [H2 Hr]]].
    + apply guard_ok_val in H2 as [-> H2]. apply negb_true_iff in H2. apply putg_inv in H3 as [H3 ->]. left. auto.
    + apply guard_inv in H2 as [-> _]. right. eauto.
  - apply getg_inv in H1 as [_ H1]. discriminate.
Qed.
(* delete_node, update_node and the second half of add_link: look x up, then replace the graph *)
Lemma find1_put_inv x (F : graph -> graph) s s' r :
  (find1 x ;;; g <- getg ;; putg (F g)) s = (s', r) ->
  (r = Ok tt /\ has_id (sg s) x = true /\ sg s' = F (sg s)) \/ (exists e, r = Err e /\ sg s' = sg s).
Proof.
  intro H. apply bind_inv in H as [[s1 [n [H1 H2]]]|[e [H1 Hr]]].
  - apply find1_val in H1 as [-> H1]. unfold bind, getg, putg in H2. inversion H2. left. eauto using find_nodes_has_id.
  - right. exists e. split; [exact Hr|]. eapply reads_find1; eauto.
Qed.
Lemma add_link_inv a rl b s s' r :
  add_link a rl b s = (s', r) ->
  (r = Ok tt /\ has_id (sg s) a = true /\ has_id (sg s) b = true /\ sg s' = g_add_edge (sg s) a rl b) \/ (exists e, r = Err e /\ sg s' = sg s).
Proof.
  unfold add_link. intro H. apply bind_inv in H as [[s1 [na [H1 H2]]]|[e [H1 Hr]]].
  - apply find1_val in H1 as [-> H1]. apply find1_put_inv in H2 as [[-> [Hb G]]|X]; [left | right; exact X].
    eauto using find_nodes_has_id.
  - right. exists e. split; [exact Hr|]. eapply reads_find1; eauto.
Qed.
Lemma update_node_inv x f s s' r :
  update_node x f s = (s', r) ->
  (r = Ok tt /\ sg s' = g_update (sg s) x f) \/ (exists e, r = Err e /\ sg s' = sg s).
Proof. intro H. apply (find1_put_inv x (fun g => g_update g x f)) in H as [[-> [_ G]]|X]; auto. Qed.
Lemma delete_node_inv x s s' r :
  delete_node x s = (s', r) ->
  (r = Ok tt /\ sg s' = g_del_node (sg s) x) \/ (exists e, r = Err e /\ sg s' = sg s).
Proof. intro H. apply (find1_put_inv x (fun g => g_del_node g x)) in H as [[-> [_ G]]|X]; auto. Qed.

(* when a reading prefix is followed by a continuation *)
Lemma bind_reads {A B} (m : M A) (f : A -> M B) s s' r :
  reads m -> bind m f s = (s', r) ->
  (exists s1 a, m s = (s1, Ok a) /\ sg s1 = sg s /\ f a s1 = (s', r)) \/ (exists e, r = Err e /\ sg s' = sg s).
Proof.
  intros Hm H. apply bind_inv in H as [[s1 [a [H1 H2]]]|[e [H1 Hr]]].
  - left. exists s1, a. split; [exact H1|]. split; [eapply Hm; eauto | exact H2].
  - right. exists e. split; [exact Hr | eapply Hm; eauto].
Qed.

Lemma nodes_named_nil_free g k name : nodes_named g k name = [] -> name_free g k (Some name) = true.
Proof.
  intro H. apply forallb_forall. intros m Hm. apply negb_true_iff.
  destruct (cls_eqb (ncls m) k && ostr_eqb (nname m) (Some name)) eqn:E; [|reflexivity].
  assert (X : In m (nodes_named g k name)) by (apply filter_In; auto). rewrite H in X. destruct X.
Qed.

Lemma guard_ok_val' b e s s' (u : unit) : guard b e s = (s', Ok u) -> s' = s /\ b = true.
Proof. destruct u. apply guard_ok_val. Qed.
Lemma check_node_unique_val k name s s' u :
  check_node_unique k name s = (s', Ok u) -> s' = s /\ (u = true -> name_free (sg s) k (Some name) = true).
Proof.
  unfold check_node_unique, bind, getg, ret. intro H. injection H as <- <-. split; [reflexivity|].
  intro E. apply nodes_named_nil_free. destruct (nodes_named (sg s) k name); [reflexivity | discriminate].
Qed.

(* peel a reading prefix off H : bind m f s = (s', r).  `fin e Hr Hg` closes the branch in which m failed (Hr : r = Err e,
   Hg : sg s' = sg s); in the other branch the first characterising lemma that fits m says what m returned in the state
   before.  The list below is closed and tried in order: for a reading program that is not in it (later files register
   further `reads_*` hints, e.g. for get_parent, parent_of_iface, owner_of_iface) the last line applies -- the new state
   has the same graph, Hm is left as it is, and its `_val` lemma has to be applied by hand after the call.
   guard_ok_val' is guard_ok_val for `Ok u` with u : unit a variable, which is what `destruct` leaves here. *)
Ltac peel_by H fin :=
  apply bind_reads in H; [| solve [auto 8 with reads]];
  let s1 := fresh "s" in let a := fresh "a" in let Hm := fresh "Hm" in let Hg := fresh "Hg" in
  let e := fresh "e" in let Hr := fresh "Hr" in
  destruct H as [[s1 [a [Hm [Hg H]]]] | [e [Hr Hg]]]; [| fin e Hr Hg];
  first [ apply getg_val in Hm; destruct Hm as [-> ->]; clear Hg
        | apply guard_ok_val' in Hm; destruct Hm as [-> Hm]; clear Hg
        | apply check_node_unique_val in Hm; destruct Hm as [-> Hm]; clear Hg
        | apply q_first_nb_val in Hm; destruct Hm as [-> [-> Hm]]; clear Hg
        | apply need_val in Hm; destruct Hm as [-> Hm]; clear Hg
        | apply check_class_val in Hm; destruct Hm as [-> Hm]; clear Hg
        | apply find1_val in Hm; destruct Hm as [-> Hm]; clear Hg
        | apply name_prop_val in Hm; destruct Hm as [-> Hm]; clear Hg
        | apply type_is_val in Hm; destruct Hm as [-> ->]; clear Hg
        | apply cps_of_ns_or_link_val in Hm; destruct Hm as [-> ->]; clear Hg
        | apply fresh_ns_cache_val in Hm; destruct Hm as [-> ->]; clear Hg
        | apply nss_of_val in Hm; destruct Hm as [-> ->]; clear Hg
        | apply components_of_val in Hm; destruct Hm as [-> ->]; clear Hg
        | apply child_cps_val in Hm; destruct Hm as [-> [-> Hm]]; clear Hg
        | apply find_by_name_lazy_val in Hm; destruct Hm as [-> Hm]; clear Hg
        | apply find_node_by_name_val in Hm; destruct Hm as [-> Hm]; clear Hg
        | apply get_peers_val in Hm; destruct Hm as [-> Hm]; clear Hg
        | rewrite <- Hg in *; clear Hg ].
(* ... when the goal is WF of the final graph and W : WF of the current one *)
Ltac peelw H W := peel_by H ltac:(fun e Hr Hg => rewrite Hg; exact W).
(* ... when the goal also says what a returned value is like *)
Ltac peelr H W := peel_by H ltac:(fun e Hr Hg => rewrite Hg, Hr; split; [exact W | intros ? X; discriminate X]).

Lemma type_allowed_vocab k t id name lab : type_allowed k t = true -> vocab_ok (mkNode id k (Some t) (Some name) lab) = true.
Proof. unfold type_allowed, vocab_ok, vocab_ok_in. simpl. auto. Qed.

(* element without owner edge, as the constructors add it *)
Lemma api_add_plain id k t name lab s s' r :
  WF (sg s) -> type_allowed k t = true -> In k [KNode; KNS; KLink] -> name_free (sg s) k (Some name) = true ->
  add_node (mk id k (Some t) name lab) s = (s', r) ->
  WF (sg s') /\ (r = Ok tt -> has_id (sg s) id = false /\ sg s' = g_add_node (sg s) (mk id k (Some t) name lab)).
Proof.
  intros W T Hk NF H. apply add_node_inv in H as [[_ [Hf Hg]]|[e [-> Hg]]]; rewrite Hg; [|split; [exact W | discriminate]].
  split; [|auto]. apply WF_add_plain; [exact W|]. unfold plain_ok, fresh, new_node_ok, mk in *. simpl in *.
  rewrite Hf, NF, (type_allowed_vocab _ _ id name lab T). destruct Hk as [<-|[<-|[<-|[]]]]; reflexivity.
Qed.

(* Topology.add_node: the new node has no neighbour *)
Lemma api_add_node_run sub name nid ntype s s' r :
  WF (sg s) -> type_allowed KNode ntype = true -> t_add_node sub name nid ntype s = (s', r) ->
  WF (sg s') /\ forall id, r = Ok id -> cls_is (sg s') id KNode = true /\ nbrs (sg s') id = [].
Proof.
  intros W T H. unfold t_add_node in H.
  (* the reading steps of t_add_node before its add_node: getg, two guards, id_or_draw, check_name, check_node_unique, guard *)
  do 7 peelr H W.
  apply bind_inv in H as [[s6 [[] [H1 H2]]]|[e [H1 ->]]]; [apply ret_inv in H2 as [-> ->]|];
    apply (api_add_plain _ _ _ _ _ _ _ _ W T) in H1; simpl; auto;
    destruct H1 as [W1 G]; (split; [exact W1|]); [|intros ? X; discriminate X].
  intros id E. injection E as <-. destruct (G eq_refl) as [Hf ->].
  exact (add_node_new _ (mk _ _ _ _ _) (wf_edge_ends _ W) Hf).
Qed.
Lemma api_add_node sub name nid ntype s s' r :
  WF (sg s) -> type_allowed KNode ntype = true ->
  t_add_node sub name nid ntype s = (s', r) -> WF (sg s').
Proof. intros W T H. exact (proj1 (api_add_node_run _ _ _ _ _ _ _ W T H)). Qed.

Lemma find_nodes_single g x : NoDup (map nid (gnodes g)) -> has_id g x = true -> exists n, find_nodes g x = [n].
Proof.
  intros ND H. apply has_id_In in H as [n [Hn E]]. exists n. rewrite <- E. apply find_nodes_unique; assumption.
Qed.
Lemma find1_ok x s : NoDup (map nid (gnodes (sg s))) -> has_id (sg s) x = true -> exists n, find1 x s = (s, Ok n).
Proof.
  intros ND H. destruct (find_nodes_single _ _ ND H) as [n E]. exists n. unfold find1, bind, getg. rewrite E. reflexivity.
Qed.
Lemma add_link_ok a rl b s :
  NoDup (map nid (gnodes (sg s))) -> has_id (sg s) a = true -> has_id (sg s) b = true ->
  add_link a rl b s = (mkSt (g_add_edge (sg s) a rl b) (sdr s), Ok tt).
Proof.
  intros ND Ha Hb. destruct (find1_ok a s ND Ha) as [na E1]. destruct (find1_ok b s ND Hb) as [nb E2].
  unfold add_link, bind. rewrite E1, E2. reflexivity.
Qed.
Lemma add_link_inv_ok a rl b s s' r :
  NoDup (map nid (gnodes (sg s))) -> has_id (sg s) a = true -> has_id (sg s) b = true ->
  add_link a rl b s = (s', r) -> r = Ok tt /\ sg s' = g_add_edge (sg s) a rl b.
Proof. intros ND Ha Hb H. rewrite (add_link_ok _ _ _ _ ND Ha Hb) in H. inversion H. auto. Qed.

Lemma nodup_add_node g n : NoDup (map nid (gnodes g)) -> has_id g (nid n) = false -> NoDup (map nid (gnodes (g_add_node g n))).
Proof. intros ND H. simpl. rewrite map_app. simpl. apply NoDup_snoc; [exact ND | apply has_id_false_notin; exact H]. Qed.

Lemma name_in_sibling g name ss a r k :
  ss = first_nb g a r k -> negb (name_in g name ss) = true -> sibling_free g a r k (Some name) = true.
Proof.
  intros -> H. apply negb_true_iff in H. apply forallb_forall. intros j Hj. apply negb_true_iff.
  exact (proj1 (existsb_false _ _) H j Hj).
Qed.

(* element + owner edge, as the constructors do it: add_node then add_link; the edge cannot fail *)
Lemma add_owned_inv n a rl s s' r :
  WF (sg s) -> (has_id (sg s) (nid n) = false -> owned_ok (sg s) n a rl = true) ->
  (add_node n ;;; add_link a rl (nid n)) s = (s', r) ->
  (r = Ok tt /\ owned_ok (sg s) n a rl = true /\ sg s' = add_owned (sg s) n a rl) \/ (exists e, r = Err e /\ sg s' = sg s).
Proof.
  intros W OK H. apply bind_inv in H as [[s1 [[] [H1 H2]]]|[e [H1 Hr]]].
  - apply add_node_inv in H1 as [[_ [Hf Hg]]|[e [He _]]]; [|discriminate]. specialize (OK Hf). left.
    destruct (owned_ok_R _ _ _ _ OK) as [OKR _]. apply add_link_inv_ok in H2.
    + destruct H2 as [-> Hg2]. rewrite Hg2, Hg. auto.
    + rewrite Hg. apply nodup_add_node; [apply (wf_ids _ W) | exact Hf].
    + rewrite Hg, has_id_add_node, (aw_has_a _ _ _ _ OKR). reflexivity.
    + rewrite Hg, has_id_add_node, str_eqb_refl. apply orb_true_r.
  - apply add_node_inv in H1 as [[H1 _]|[e' [_ Hg]]]; [discriminate | eauto].
Qed.
Lemma api_add_owned n a rl s s' r :
  WF (sg s) -> (has_id (sg s) (nid n) = false -> owned_ok (sg s) n a rl = true) ->
  bind (add_node n) (fun _ => add_link a rl (nid n)) s = (s', r) ->
  WF (sg s') /\ (r = Ok tt -> sg s' = add_owned (sg s) n a rl).
Proof.
  intros W OK H. destruct (add_owned_inv _ _ _ _ _ _ W OK H) as [[-> [OK' G]]|[e [-> G]]]; rewrite G.
  - auto using WF_add_owned.
  - split; [exact W | discriminate].
Qed.

(* the side condition of add_owned for an element as the constructors make it *)
Lemma owned_ok_mk g id k t name lab a r :
  has_id g id = false -> type_allowed k t = true -> owner_shape_ok g (mk id k (Some t) name lab) a r = true ->
  sibling_free g a r k (Some name) = true -> owned_ok g (mk id k (Some t) name lab) a r = true.
Proof.
  intros Hf T Sh SF. unfold owned_ok, fresh, new_node_ok. rewrite Sh. unfold mk in *. simpl.
  rewrite Hf, SF, (type_allowed_vocab _ _ id name lab T). reflexivity.
Qed.

(* NetworkService(NEW) without interfaces: top-level *)
Lemma api_new_service_top name sid nstype s s' r :
  WF (sg s) -> type_allowed KNS nstype = true ->
  new_service name sid nstype None s = (s', r) -> WF (sg s').
Proof.
  intros W T H. unfold new_service in H.
  peelw H W. peelw H W.
  apply bind_reads in H; [| solve [auto 8 with reads]].
  destruct H as [[s1 [a1 [Hm1 [Hg1 H]]]] | [e [Hr Hg]]]; [| rewrite Hg; exact W].
  apply bind_inv in Hm1 as [[s2 [u [Hu Hgu]]]|[e [_ Hx]]]; [|discriminate].
  apply check_node_unique_val in Hu as [-> Hu]. apply guard_ok_val' in Hgu as [-> Hgu]. clear Hg1.
  rewrite bind_assoc in H. apply then_ret_state in H as [r0 H]. apply then_ret_state in H as [r1 H].
  apply (api_add_plain _ _ _ _ _ _ _ _ W T) in H; simpl; auto. apply H.
Qed.

(* ... under an owner p; the caller has checked the names of p's services; the new service has no interface *)
Lemma api_new_service_owned_run name sid nstype p s s' r :
  WF (sg s) -> type_allowed KNS nstype = true ->
  (cls_is (sg s) p KNode = true \/ cls_is (sg s) p KComposite = true \/ cls_is (sg s) p KComp = true) ->
  sibling_free (sg s) p Has KNS (Some name) = true ->
  new_service name sid nstype (Some p) s = (s', r) ->
  WF (sg s') /\ forall id, r = Ok id -> cls_is (sg s') id KNS = true /\ first_nb (sg s') id Connects KCP = [].
Proof.
  intros W T Hp SF H. unfold new_service in H. do 2 peelr H W. (* id_or_draw, check_name *)
  apply bind_inv in H as [[s1 [[] [H0 H]]]|[e [H0 _]]]; [|apply ret_inv in H0 as [_ H0]; discriminate].
  apply ret_inv in H0 as [-> _]. rewrite bind_assoc in H.
  assert (OKf : has_id (sg s0) (nid (mk a KNS (Some nstype) name false)) = false ->
                owned_ok (sg s0) (mk a KNS (Some nstype) name false) p Has = true).
  { intro Hf. apply owned_ok_mk; auto.
    unfold owner_shape_ok. simpl. destruct Hp as [Hp|[Hp|Hp]]; rewrite Hp, ?orb_true_r; reflexivity. }
  apply bind_inv in H as [[s2 [[] [H1 H2]]]|[e [H1 ->]]];
    [| split; [exact (proj1 (api_add_owned _ _ _ _ _ _ W OKf H1)) | intros ? X; discriminate X]].
  apply (add_owned_inv _ _ _ _ _ _ W OKf) in H1 as [[_ [OK G]]|[e [E _]]]; [|discriminate E].
  apply ret_inv in H2 as [-> ->]. rewrite G. split; [apply WF_add_owned; assumption|]. intros id E. injection E as <-.
  pose proof (ao_cls_new _ _ _ _ OK KNS) as E1. pose proof (ao_nbrs_x _ _ _ _ W OK) as E2. simpl in E1, E2.
  split; [exact E1|]. unfold first_nb. rewrite E2. reflexivity.
Qed.
Lemma api_new_service_owned name sid nstype p s s' r :
  WF (sg s) -> type_allowed KNS nstype = true ->
  (cls_is (sg s) p KNode = true \/ cls_is (sg s) p KComposite = true \/ cls_is (sg s) p KComp = true) ->
  sibling_free (sg s) p Has KNS (Some name) = true ->
  new_service name sid nstype (Some p) s = (s', r) -> WF (sg s').
Proof. intros W T Hp SF H. exact (proj1 (api_new_service_owned_run _ _ _ _ _ _ _ W T Hp SF H)). Qed.

(* Node.add_network_service *)
Lemma api_node_add_ns_run n name sid nstype s s' r :
  WF (sg s) -> type_allowed KNS nstype = true -> node_add_ns n name sid nstype s = (s', r) ->
  WF (sg s') /\ forall id, r = Ok id -> cls_is (sg s') id KNS = true /\ first_nb (sg s') id Connects KCP = [].
Proof.
  intros W T H. unfold node_add_ns in H.
  apply bind_reads in H; [| solve [auto 8 with reads]].
  destruct H as [[s1 [ss [Hm [_ H]]]] | [e [Hr Hg]]]; [| rewrite Hg, Hr; split; [exact W | intros ? X; discriminate X]].
  apply class_nb_val in Hm as [-> [-> [k [Hk Hc]]]]. do 2 peelr H W. (* getg, the guard on the sibling names *)
  apply (api_new_service_owned_run _ _ _ _ _ _ _ W T) in H; [exact H | | eapply name_in_sibling; eauto].
  destruct Hk as [<-|[<-|[]]]; auto.
Qed.
Lemma api_node_add_ns n name sid nstype s s' r :
  WF (sg s) -> type_allowed KNS nstype = true ->
  node_add_ns n name sid nstype s = (s', r) -> WF (sg s').
Proof. intros W T H. exact (proj1 (api_node_add_ns_run _ _ _ _ _ _ _ W T H)). Qed.

(* Topology.add_network_service without interfaces *)
Lemma api_add_ns_nil fl sub name sid nstype s s' r :
  WF (sg s) -> type_allowed KNS nstype = true ->
  t_add_ns fl sub name sid nstype [] s = (s', r) -> WF (sg s').
Proof.
  intros W T H. unfold t_add_ns in H. apply then_ret_state in H as [r0 H]. eapply api_new_service_top; eauto.
Qed.

Lemma api_update_node x f s s' r :
  WF (sg s) -> relabel_ok (sg s) x f = true -> update_node x f s = (s', r) -> WF (sg s').
Proof.
  intros W OK H. apply update_node_inv in H as [[_ Hg]|[e [_ Hg]]]; rewrite Hg; [|exact W].
  apply WF_relabel; assumption.
Qed.

Lemma wf_new_node_ok g n : WF g -> In n (gnodes g) -> new_node_ok n = true.
Proof.
  intros W Hn. unfold new_node_ok. apply andb_true_iff. split; [apply fields_ok_P; apply (wf_fields _ W); exact Hn | apply vocab_ok_P; apply (wf_vocab _ W); exact Hn].
Qed.

(* a relabelling that keeps id, class, type and name (only "Labels present" may change) is always admissible *)
Lemma relabel_ok_neutral g x f :
  WF g -> (forall n, nid (f n) = nid n /\ ncls (f n) = ncls n /\ ntyp (f n) = ntyp n /\ nname (f n) = nname n) ->
  relabel_ok g x f = true.
Proof.
  intros W Hf. unfold relabel_ok. apply forallb_forall. intros n Hn.
  destruct (str_eqb (nid n) x); [|reflexivity]. simpl.
  destruct (Hf n) as [A [B [C D]]]. rewrite A, B, C, D, str_eqb_refl, cls_eqb_refl.
  rewrite !(proj2 (ostr_eqb_eq _ _) eq_refl). simpl. rewrite ?andb_true_r.
  pose proof (wf_new_node_ok g n W Hn) as N. unfold new_node_ok, fields_ok, vocab_ok, vocab_ok_in in *. rewrite B, C, D. exact N.
Qed.

(* set_property('name') and set_properties(name=...): an optional scope check that only reads, the syntax check, the update *)
Definition checked_set_name (chk : bool) (k : cls) (x v : str) : M unit :=
  (if chk then find1 x ;;; g <- getg ;; guard (negb (name_taken g x v)) ETopology else ret tt) ;;;
  check_name k v ;;; update_node x (set_name v).
Lemma checked_set_name_inv chk k x v s s' r :
  checked_set_name chk k x v s = (s', r) ->
  (r = Ok tt /\ sg s' = g_update (sg s) x (set_name v)) \/ (exists e, r = Err e /\ sg s' = sg s).
Proof.
  intro H. unfold checked_set_name in H.
  apply bind_reads in H; [| destruct chk; solve [auto 8 with reads]].
  destruct H as [[s1 [u [_ [<- H]]]] | X]; [|right; exact X].
  apply bind_reads in H; [| solve [auto 8 with reads]].
  destruct H as [[s2 [u' [_ [<- H]]]] | X]; [|right; exact X].
  exact (update_node_inv _ _ _ _ _ H).
Qed.

Lemma api_set_property fl rf p v s s' r :
  WF (sg s) ->
  (p = PName \/ p = PNames -> relabel_ok (sg s) (ref_id rf) (set_name v) = true) ->
  (p = PTypeNode -> relabel_ok (sg s) (ref_id rf) (set_typ v) = true) ->
  elem_set_property fl rf p v s = (s', r) -> WF (sg s').
Proof.
  intros W HN HT H.
  assert (NT : forall f, (forall n, nid (f n) = nid n /\ ncls (f n) = ncls n /\ ntyp (f n) = ntyp n /\ nname (f n) = nname n) ->
               update_node (ref_id rf) f s = (s', r) -> WF (sg s'))
    by (intros f Hf; apply api_update_node, relabel_ok_neutral; assumption).
  assert (SN : forall chk, checked_set_name chk (ref_cls rf) (ref_id rf) v s = (s', r) ->
               relabel_ok (sg s) (ref_id rf) (set_name v) = true -> WF (sg s')).
  { intros chk Hc OK. apply checked_set_name_inv in Hc as [[_ ->]|[e [_ ->]]]; [apply WF_relabel; assumption | exact W]. }
  unfold elem_set_property in H. destruct p.
  - exact (SN _ H (HN (or_introl eq_refl))).
  - destruct rf; try (apply raise_inv in H as [-> _]; exact W); refine (NT _ _ H); auto.
  - refine (NT _ _ H). auto.
  - refine (NT _ _ H). intros []. auto.
  - refine (NT _ _ H). auto.
  - eapply api_update_node; eauto.
  - exact (SN _ H (HN (or_intror eq_refl))).
Qed.

Lemma api_unset_property rf p s s' r :
  WF (sg s) -> elem_unset_property rf p s = (s', r) -> WF (sg s').
Proof.
  intros W H. unfold elem_unset_property in H. destruct p;
    try (apply raise_inv in H as [-> _]; exact W); try (apply ret_inv in H as [-> _]; exact W);
    (eapply api_update_node; [exact W | | exact H]; apply relabel_ok_neutral; [exact W | intro n; destruct n; auto]).
Qed.

(* after set_name v the same update is neutral *)
Lemma relabel_ok_again g x v : WF g -> relabel_ok (relabel g x (set_name v)) x (set_name v) = true.
Proof.
  intro W. unfold relabel_ok. apply forallb_forall. intros n Hn.
  destruct (str_eqb (nid n) x) eqn:Ex; [|reflexivity]. simpl.
  rewrite str_eqb_refl, cls_eqb_refl, !(proj2 (ostr_eqb_eq _ _) eq_refl). simpl.
  unfold relabel, g_update in Hn. simpl in Hn. apply in_map_iff in Hn as [m [E Hm]].
  destruct (str_eqb (nid m) x) eqn:Em.
  - subst n. simpl. rewrite str_eqb_refl. simpl. rewrite !andb_true_r.
    pose proof (wf_new_node_ok g m W Hm) as N. unfold new_node_ok, fields_ok, vocab_ok, vocab_ok_in in *. simpl.
    destruct (ntyp m); [|discriminate]. apply andb_true_iff in N as [_ N]. simpl. exact N.
  - subst n. rewrite Em in Ex. discriminate.
Qed.

Lemma api_rename fl rf new s s' r :
  WF (sg s) -> relabel_ok (sg s) (ref_id rf) (set_name new) = true ->
  elem_rename fl rf new s = (s', r) -> WF (sg s').
Proof.
  intros W OK H. unfold elem_rename in H. apply bind_inv in H as [[s1 [[] [H1 H2]]]|[e [H1 _]]].
  - apply (checked_set_name_inv (fl_rename_check fl)) in H1 as [[_ H1]|[e [He _]]]; [|discriminate He].
    eapply api_update_node; [| | exact H2]; rewrite H1; [apply WF_relabel; assumption | apply relabel_ok_again; exact W].
  - apply (api_set_property fl rf PName new s s' (Err e) W (fun _ => OK)); [intro X; discriminate X | exact H1].
Qed.

Lemma g_del_node_remove_set g x : g_del_node g x = remove_set g (fun y => str_eqb y x).
Proof. reflexivity. Qed.

Lemma owner_no_link g y k o : In o (owners g y k) -> cls_is g o KLink = false.
Proof.
  intro H. apply In_nb_where in H as [r [_ H]].
  destruct k; try discriminate H; simpl in H; apply andb_true_iff in H as [_ H];
    repeat (apply orb_true_iff in H as [H|H]); try (apply (cls_is_unique _ _ _ _ H); discriminate).
  apply andb_true_iff in H as [H _]. apply andb_true_iff in H as [_ H]. apply (cls_is_unique _ _ _ _ H). discriminate.
Qed.

(* deleting a link none of whose ends is a service port is a closed removal *)
Lemma closed_del_link g l :
  WF g -> cls_is g l KLink = true ->
  (forall y, In y (first_nb g l Connects KCP) -> typ_is g y sServicePort = false) ->
  closed_b g (fun y => str_eqb y l) = true.
Proof.
  intros W Hl SP. unfold closed_b. apply forallb_forall. intros n Hn.
  destruct (str_eqb (nid n) l) eqn:E; [reflexivity|]. simpl.
  assert (NE : forall o, cls_is g o KLink = false -> negb (str_eqb o l) = true).
  { intros o Ho. apply negb_true_iff, str_eqb_neq. intro Eo. subst o. congruence. }
  assert (OW : forall k, forallb (fun o => negb (str_eqb o l)) (owners g (nid n) k) = true).
  { intro k. apply forallb_forall. intros o Ho. apply NE, (owner_no_link _ _ _ _ Ho). }
  destruct (ncls n) eqn:Hc; try reflexivity; [apply (OW KComp) | apply (OW KNS) |].
  rewrite cp_owners_eq, OW. destruct (is_type n sServicePort) eqn:Et; [|reflexivity]. simpl.
  apply forallb_forall. intros l' Hl'. apply andb_true_iff. split.
  - (* a service port on l would be one of the ends of l *)
    apply negb_true_iff, str_eqb_neq. intro El. subst l'. apply In_first_nb in Hl' as [Hl' _]. apply nbrs_sym in Hl'.
    assert (Hin : In (nid n) (first_nb g l Connects KCP)).
    { apply In_first_nb. split; [exact Hl'|]. rewrite (cls_is_node g n _ (wf_ids _ W) Hn), Hc. reflexivity. }
    specialize (SP _ Hin). rewrite (typ_is_node g n _ (wf_ids _ W) Hn) in SP. unfold is_type in Et. congruence.
  - apply forallb_forall. intros y Hy. apply In_first_nb in Hy as [_ Hy]. apply NE, (cls_is_unique _ _ _ _ Hy). discriminate.
Qed.

Lemma api_remove_link fl name s s' r :
  WF (sg s) -> remove_link_pre (sg s) name = true -> t_remove_link fl name s = (s', r) -> WF (sg s').
Proof.
  intros W P H. unfold t_remove_link in H.
  peelw H W. destruct Hm as [n [Hn [Hid [Hc Hname]]]]. peelw H W. peelw H W. peelw H W.
  unfold remove_network_link in H. peelw H W.
  apply delete_node_inv in H as [[_ Hg]|[e [_ Hg]]]; rewrite Hg; [|exact W].
  rewrite g_del_node_remove_set. apply WF_remove_set; [exact W|].
  apply closed_del_link; [exact W | rewrite <- Hid, (cls_is_node _ n _ (wf_ids _ W) Hn), Hc; reflexivity |].
  intros y Hy. unfold remove_link_pre in P. rewrite forallb_forall in P. specialize (P _ Hn).
  rewrite Hc, Hname, cls_eqb_refl, (proj2 (ostr_eqb_eq _ _) eq_refl), Hid in P. simpl in P.
  rewrite forallb_forall in P. apply negb_true_iff. apply P. exact Hy.
Qed.

Lemma typ_is_excl g x t1 t2 : typ_is g x t1 = true -> str_eqb t1 t2 = false -> typ_is g x t2 = false.
Proof.
  unfold typ_is. destruct (typ_of g x) as [c|]; [|discriminate]. intros H1 H2. apply str_eqb_eq in H1. subst c. exact H2.
Qed.

Lemma existsb_map_sibling g name l a r k :
  l = first_nb g a r k ->
  negb (existsb (fun o => ostr_eqb o (Some name)) (map (name_of g) l)) = true ->
  sibling_free g a r k (Some name) = true.
Proof.
  intros -> H. apply negb_true_iff in H. apply forallb_forall. intros j Hj. apply negb_true_iff.
  exact (proj1 (existsb_false _ _) H _ (in_map _ _ _ Hj)).
Qed.

(* Interface(NEW): new interface / sub-interface (not a service port) under an existing owner *)
Lemma api_new_interface sub name iid parent itype lab s s' r :
  WF (sg s) -> type_allowed KCP itype = true -> str_eqb itype sServicePort = false ->
  (if str_eqb itype sSubInterface then cls_is (sg s) parent KCP && negb (typ_is (sg s) parent sSubInterface)
   else cls_is (sg s) parent KNS) = true ->
  sibling_free (sg s) parent Connects KCP (Some name) = true ->
  new_interface sub name iid parent itype lab s = (s', r) -> WF (sg s').
Proof.
  intros W T NSP Sh SF H. unfold new_interface in H.
  peelw H W. peelw H W. peelw H W. apply then_ret_state in H as [r0 H].
  apply api_add_owned in H; [tauto | exact W |]. intro Hf. apply owned_ok_mk; auto.
  unfold owner_shape_ok, is_type. simpl. rewrite NSP. exact Sh.
Qed.

(* Interface.add_child_interface *)
Lemma api_add_sub sub i name cid has_vlan s s' r :
  WF (sg s) -> iface_add_child sub i name cid has_vlan s = (s', r) -> WF (sg s').
Proof.
  intros W H. unfold iface_add_child in H.
  peelw H W. peelw H W. peelw H W. rename Hm0 into Hk.
  apply bind_reads in H; [| solve [auto 8 with reads]].
  destruct H as [[s4 [names [Hn [Hg H]]]] | [e [Hr Hg]]]; [| rewrite Hg; exact W].
  apply names_mapM_val in Hn as [-> ->]. clear Hg.
  peelw H W. peelw H W. peelw H W. peelw H W. apply then_ret_state in H as [r0 H].
  apply (api_new_interface sub name cid i sSubInterface true _ _ _ W eq_refl eq_refl) in H; [exact H | |].
  - rewrite Hk, (typ_is_excl _ _ _ sSubInterface Hm); reflexivity.
  - eapply existsb_map_sibling; eauto.
Qed.

Lemma no_edge_after_add g a i j :
  no_edge g a j = true -> i <> j -> a <> j -> no_edge (g_add_edge g a Connects i) a j = true.
Proof.
  intros H Hij Haj. rewrite no_edge_In in *. intros e He. apply in_app_or in He as [He|[<-|[]]].
  - apply filter_In in He as [He _]. auto.
  - unfold same_ends. simpl. apply str_eqb_neq in Hij, Haj. rewrite Hij, Haj, andb_false_r. reflexivity.
Qed.

Lemma link_loop id ifs : forall s s' r,
  WF (sg s) -> cls_is (sg s) id KLink = true -> NoDup ifs ->
  (forall i, In i ifs -> cls_is (sg s) i KCP = true /\ typ_is (sg s) i sServicePort = false /\ no_edge (sg s) id i = true) ->
  (forall y, In y (first_nb (sg s) id Connects KCP) -> typ_is (sg s) y sServicePort = false) ->
  for_each ifs (fun i => add_link id Connects i) s = (s', r) -> WF (sg s').
Proof.
  induction ifs as [|i ifs IH]; intros s s' r W Hl ND Hi Hy H; simpl in H.
  - apply ret_inv in H as [-> _]. exact W.
  - inversion ND as [|? ? Hnot ND']; subst.
    destruct (Hi i (or_introl eq_refl)) as [Ci [Ti Ni]].
    assert (OK : link_edge_ok (sg s) id i = true).
    { unfold link_edge_ok. rewrite Hl, Ci, Ti, Ni. simpl. apply forallb_forall. intros y Hy'. rewrite (Hy _ Hy'). reflexivity. }
    apply bind_inv in H as [[s1 [[] [H1 H2]]]|[e [H1 _]]];
      apply add_link_inv in H1 as [[H1 [_ [_ Hg]]]|[e' [He Hg]]]; try discriminate; [|rewrite Hg; exact W].
    assert (W1 : WF (sg s1)) by (rewrite Hg; apply (WF_add_link_edge _ _ _ W OK)).
    apply (IH s1 s' r W1); [rewrite Hg; exact Hl | exact ND' | | | exact H2]; rewrite Hg.
    + intros j Hj. destruct (Hi j (or_intror Hj)) as [Cj [Tj Nj]].
      split; [exact Cj|]. split; [exact Tj|].
      apply no_edge_after_add; [exact Nj | intro E; subst; contradiction |].
      intro E. subst j. discriminate (cls_is_inj _ _ _ _ Hl Cj).
    + intros y Hy'. apply In_first_nb in Hy' as [Hy' Cy].
      rewrite (nbrs_add_edge _ _ _ _ _ Ni) in Hy'. apply in_app_or in Hy' as [Hy'|Hy'].
      * apply (Hy y). apply In_first_nb. split; [exact Hy' | exact Cy].
      * unfold nb_of in Hy'. simpl in Hy'. rewrite str_eqb_refl in Hy'. destruct Hy' as [Hy'|[]]. inversion Hy'; subst y. exact Ti.
Qed.

Lemma has_name_free g k name :
  negb (existsb (has_name name) (filter (fun n => cls_eqb (ncls n) k) (gnodes g))) = true -> name_free g k (Some name) = true.
Proof.
  intro H. apply negb_true_iff in H. apply forallb_forall. intros m Hm. apply negb_true_iff.
  destruct (cls_eqb (ncls m) k) eqn:E; [|reflexivity]. exact (proj1 (existsb_false _ _) H m (proj2 (filter_In _ _ _) (conj Hm E))).
Qed.

(* Link(NEW): the link element, then one edge per interface; the new link has no neighbour yet *)
Lemma new_link_edges id name ltype ifs s s' r :
  WF (sg s) -> type_allowed KLink ltype = true -> add_link_pre (sg s) ifs = true -> name_free (sg s) KLink (Some name) = true ->
  (add_node (mk id KLink (Some ltype) name false) ;;; for_each ifs (fun i => add_link id Connects i) ;;; ret id) s = (s', r) ->
  WF (sg s').
Proof.
  intros W T P NF H.
  unfold add_link_pre in P. apply andb_true_iff in P as [ND PF]. apply nodup_b_NoDup in ND. rewrite forallb_forall in PF.
  apply bind_inv in H as [[s1 [[] [Ha Hb]]]|[e [Ha _]]];
    apply (api_add_plain _ _ _ _ _ _ _ _ W T) in Ha; simpl; auto; destruct Ha as [W1 G]; [|exact W1].
  destruct (G eq_refl) as [Hf G1]. apply then_ret_state in Hb as [r0 Hb].
  assert (Old : forall i, In i ifs -> find_nodes (sg s1) i = find_nodes (sg s) i).
  { intros i Hi. rewrite G1. apply find_nodes_add_node_old; [exact Hf|]. specialize (PF _ Hi). apply andb_true_iff in PF as [C _]. exact (cls_is_has_id _ _ _ C). }
  destruct (add_node_new _ (mk id KLink (Some ltype) name false) (wf_edge_ends _ W) Hf) as [Cl Nb]. rewrite <- G1 in Cl, Nb. simpl in Cl, Nb.
  apply (link_loop id ifs _ _ _ W1) in Hb; auto.
  - intros i Hi. rewrite (cls_is_ext _ _ _ _ (Old i Hi)), (typ_is_ext _ _ _ _ (Old i Hi)).
    specialize (PF _ Hi). apply andb_true_iff in PF as [C1 C2]. apply negb_true_iff in C2. split; [exact C1|]. split; [exact C2|].
    rewrite G1. apply (no_edge_fresh_l (sg s) id i (wf_edge_ends _ W) Hf).
  - intros y Hy. apply In_first_nb in Hy as [Hy _]. rewrite Nb in Hy. destruct Hy.
Qed.

Lemma api_new_link sub name lid ltype ifs s s' r :
  WF (sg s) -> type_allowed KLink ltype = true -> add_link_pre (sg s) ifs = true -> name_free (sg s) KLink (Some name) = true ->
  new_link sub name lid ltype ifs s = (s', r) -> WF (sg s').
Proof.
  intros W T P NF H. unfold new_link in H. peelw H W. peelw H W. peelw H W. peelw H W. peelw H W.
  exact (new_link_edges _ _ _ _ _ _ _ W T P NF H).
Qed.

Lemma api_add_link fl sub name lid ltype ifs s s' r :
  WF (sg s) -> type_allowed KLink ltype = true -> add_link_pre (sg s) ifs = true ->
  t_add_link fl sub name lid ltype ifs s = (s', r) -> WF (sg s').
Proof.
  intros W T P H. unfold t_add_link in H.
  peelw H W. peelw H W. peelw H W. apply then_ret_state in H as [r0 H].
  apply (api_new_link _ _ _ _ _ _ _ _ W T P) in H; [exact H | apply has_name_free; assumption].
Qed.
