(* C16 proofs (Labels): acceptance = membership in the documented domain, on every entry point, and
   accepted objects re-decode.  Generic in the regenerated tables; the only facts taken from them are
   (by computation) that every call site uses whole-string matching and that the field list has no
   duplicates. *)
From Coq Require Import List Bool.
From FIM Require Import Base.ListFacts Base.Str Base.Regex Base.RegexSound Gen.UnicodeClasses Gen.LabelValidators
  Model.Labels16 Model.Labels16Spec.
Import ListNotations.

Lemma lv_gen_ok_true : lv_gen_ok = true /\ uc_ok = true.
Proof. split; reflexivity. Qed.

(* every regex call site is a whole-string match *)
Lemma modes_full :
  label_scalar_mode = Full /\ label_list_mode = Full /\ tag_mode = Full /\
  forallb (fun x => mmode_eqb (snd (snd x)) Full) name_rules = true.
Proof. repeat split; vm_compute; reflexivity. Qed.

Lemma scalar_full : label_scalar_mode = Full. Proof. apply modes_full. Qed.
Lemma list_full : label_list_mode = Full. Proof. apply modes_full. Qed.
Lemma tag_full : tag_mode = Full. Proof. apply modes_full. Qed.

Lemma re_match_full r s : re_match Full r s = true <-> re_lang r s.
Proof. apply py_fullmatch_spec. Qed.

Lemma first_err_none f l : first_err f l = None <-> Forall (fun x => f x = None) l.
Proof.
  induction l as [|x l IH]; simpl; split; intro H; auto.
  - destruct (f x) eqn:E; [discriminate|]. constructor; [exact E | apply IH; exact H].
  - inversion H; subst. rewrite H2. apply IH; assumption.
Qed.

Lemma forallb_Forall {A} (p : A -> bool) l : forallb p l = true <-> Forall (fun x => p x = true) l.
Proof.
  induction l as [|x l IH]; simpl; split; intro H; auto.
  - apply andb_true_iff in H as [H1 H2]. constructor; [exact H1 | apply IH; exact H2].
  - inversion H; subst. apply andb_true_iff; split; [assumption | apply IH; assumption].
Qed.

Lemma Forall_and_iff {A} (P Q : A -> Prop) l : Forall (fun x => P x /\ Q x) l <-> Forall P l /\ Forall Q l.
Proof. split; [apply Forall_and_inv | intros [H1 H2]; apply List.Forall_and; assumption]. Qed.

Lemma Forall_iff {A} (P Q : A -> Prop) l : (forall x, P x <-> Q x) -> (Forall P l <-> Forall Q l).
Proof. intro H. split; intro F; eapply Forall_impl; try exact F; intros a; apply H. Qed.

Lemma Forall_one {A} (P : A -> Prop) x : Forall P [x] <-> P x.
Proof. split; [apply Forall_inv | intro; constructor; auto]. Qed.

Lemma forall_some {A} (a : A) (P : A -> Prop) : (forall x, Some a = Some x -> P x) <-> P a.
Proof. split; [intro H; apply H; reflexivity | intros H x [= <-]; exact H]. Qed.

Lemma range_check_spec rk s : range_check rk s = None <-> range_spec rk s.
Proof.
  destruct rk as [b | sep b0 b1 c]; cbn [range_check range_spec].
  - destruct (py_int s) as [z|]; [destruct (in_bounds b z) eqn:B|]; split; try discriminate; eauto;
      intros (z' & [= <-] & Hb); congruence.
  - split.
    + destruct (split_on sep s) as [|p0 [|p1 rest]]; cbn [hd nth_error];
        (destruct (py_int _) as [x|] eqn:E0; [|discriminate]); (destruct (in_bounds b0 x) eqn:B0; [|discriminate]);
        cbn [negb]; try discriminate.
      destruct (py_int p1) as [y|] eqn:E1; [|discriminate]. destruct (in_bounds b1 y) eqn:B1; [|discriminate].
      cbn [negb]. destruct (cmpb c x y) eqn:C; [|discriminate]. intros _. exists p0, p1, rest, x, y. auto 10.
    + intros (p0 & p1 & rest & x & y & -> & E0 & E1 & B0 & B1 & C). cbn [hd nth_error].
      rewrite E0, B0, E1, B1, C. reflexivity.
Qed.

Definition regex_ok (k s : str) : Prop := forall r, lookup k label_validators = Some r -> re_lang r s.
Definition range_ok (k s : str) : Prop := forall rk, lookup k label_lambdas = Some rk -> range_spec rk s.

Lemma regex_phase_spec k v : is_strs v = true ->
  (regex_phase k v = None <-> Forall (regex_ok k) (elems v)).
Proof.
  intro Hs. unfold regex_phase, regex_ok. destruct (lookup k label_validators) as [r|].
  2: { split; [|reflexivity]. intros _. apply Forall_forall. intros s _ r [=]. }
  rewrite (Forall_iff _ (fun s => re_match Full r s = true)) by (intro; rewrite forall_some, re_match_full; reflexivity).
  destruct v as [s | l | |]; try discriminate; cbn [elems].
  - rewrite scalar_full, Forall_one. destruct (re_match Full r s); split; intro; (discriminate || reflexivity).
  - rewrite list_full, <- forallb_Forall. destruct (forallb (re_match Full r) l); split; intro; (discriminate || reflexivity).
Qed.

Lemma range_phase_spec k v : range_phase k v = None <-> Forall (range_ok k) (elems v).
Proof.
  unfold range_phase, range_ok. destruct (lookup k label_lambdas) as [rk|].
  - rewrite first_err_none. apply Forall_iff. intro s. rewrite forall_some. apply range_check_spec.
  - split; [|reflexivity]. intros _. apply Forall_forall. intros s _ rk [=].
Qed.

Lemma in_domain_split k l : Forall (in_domain k) l <-> Forall (regex_ok k) l /\ Forall (range_ok k) l.
Proof. unfold in_domain. apply Forall_and_iff. Qed.

(* set_one by cases.  Either the value is stored: it has the documented type, passed the regex and the range phase,
   and nothing is raised.  Or the object is left as it is; then, if the keyword is a field, something is raised, and
   it is not the case that a value of the documented type passed both phases. *)
Lemma set_one_cases fg st k v :
  (set_one fg st (k, v) = (lset st k v, None) /\ is_strs v = true /\
   regex_phase k v = None /\ range_phase k v = None) \/
  (fst (set_one fg st (k, v)) = st /\
   (mem_str k label_fields = true -> snd (set_one fg st (k, v)) <> None /\
      (is_strs v = true -> regex_phase k v = None -> range_phase k v <> None))).
Proof.
  unfold set_one.
  destruct v as [s | l | |]; try (right; split; [reflexivity | intros _; split; [discriminate | intros [=]]]);
    (destruct (mem_str k label_fields); [|right; split; [reflexivity | intros [=]]]); cbn [negb];
    (destruct (regex_phase k _);
       [right; split; [reflexivity | intros _; split; [discriminate | intros _ [=]]]|]);
    (destruct (range_phase k _);
       [right; split; [reflexivity | intros _; split; [discriminate | intros _ _; discriminate]] | left; auto]).
Qed.

(* the loop body accepts a value for a known field exactly when every element is in the documented
   domain of that field; scalar and list alike *)
Theorem accept_iff_domain fg st k v :
  mem_str k label_fields = true -> is_strs v = true ->
  (snd (set_one fg st (k, v)) = None <-> Forall (in_domain k) (elems v)).
Proof.
  intros Hk Hs. rewrite in_domain_split, <- regex_phase_spec, <- range_phase_spec by exact Hs.
  destruct (set_one_cases fg st k v) as [(E & _ & R & G)|(_ & N)].
  - rewrite E. split; auto.
  - destruct (N Hk) as [N1 N2]. split; [intro H; destruct (N1 H) | intros [R G]; destruct (N2 Hs R G)].
Qed.

Theorem accepted_is_stored fg st k v :
  mem_str k label_fields = true -> snd (set_one fg st (k, v)) = None -> fst (set_one fg st (k, v)) = lset st k v.
Proof.
  intros Hk H. destruct (set_one_cases fg st k v) as [(E & _)|(_ & N)]; [rewrite E; reflexivity|].
  destruct (proj1 (N Hk) H).
Qed.

Lemma set_one_accepts fg st k v : mem_str k label_fields = true -> is_strs v = true ->
  Forall (in_domain k) (elems v) -> set_one fg st (k, v) = (lset st k v, None).
Proof.
  intros Hk Hs Hd. apply (accept_iff_domain fg st k v Hk Hs) in Hd.
  destruct (set_one_cases fg st k v) as [(E & _)|(_ & N)]; [exact E | destruct (proj1 (N Hk) Hd)].
Qed.

Theorem rejected_unchanged fg st kv : snd (set_one fg st kv) <> None -> fst (set_one fg st kv) = st.
Proof.
  destruct kv as [k v]. intro H. destruct (set_one_cases fg st k v) as [(E & _)|(E & _)]; [|exact E].
  rewrite E in H. destruct (H eq_refl).
Qed.

Lemma mem_str_In k l : mem_str k l = true <-> In k l.
Proof. apply (existsb_eqb_In str_eqb str_eqb_eq). Qed.

Lemma lset_keys st k v : map fst (lset st k v) = map fst st.
Proof.
  induction st as [|[k' v'] st IH]; simpl; [reflexivity|].
  destruct (str_eqb k k'); simpl; [reflexivity | rewrite IH; reflexivity].
Qed.

Lemma lset_inv st k v : labels_inv st -> val_ok k (Some v) -> labels_inv (lset st k v).
Proof.
  unfold labels_inv. intros H Hv. induction st as [|[k' v'] st IH]; simpl; [constructor|].
  inversion H; subst. destruct (str_eqb k k') eqn:E.
  - apply str_eqb_eq in E; subst. constructor; [exact Hv | assumption].
  - constructor; [assumption | apply IH; assumption].
Qed.

Lemma init_inv : labels_inv labels_init.
Proof. unfold labels_inv, labels_init. apply Forall_forall. intros kv H. apply in_map_iff in H as (f & <- & _). exact I. Qed.

Lemma set_one_inv fg st kv : labels_inv st -> labels_inv (fst (set_one fg st kv)).
Proof.
  intro H. destruct kv as [k v]. destruct (set_one_cases fg st k v) as [(E & Hs & R & G)|(E & _)]; rewrite E; [|exact H].
  apply lset_inv; [exact H|]. split; [exact Hs|].
  apply in_domain_split. rewrite <- regex_phase_spec, <- range_phase_spec by exact Hs. auto.
Qed.

(* _set_fields keeps the invariant whether or not it raises (fields set before a raise stay set) *)
Theorem set_fields_inv fg kws : forall st, labels_inv st -> labels_inv (fst (set_fields fg st kws)).
Proof.
  induction kws as [|kv kws IH]; intros st H; cbn [set_fields]; [exact H|].
  pose proof (set_one_inv fg st kv H) as H1. destruct (set_one fg st kv) as [st' [e|]]; cbn [fst] in *; [exact H1 | apply IH; exact H1].
Qed.

Lemma set_one_keys fg st kv : map fst (fst (set_one fg st kv)) = map fst st.
Proof.
  destruct kv as [k v]. destruct (set_one_cases fg st k v) as [(E & _)|(E & _)]; rewrite E; [apply lset_keys | reflexivity].
Qed.

Lemma set_fields_keys fg kws : forall st, map fst (fst (set_fields fg st kws)) = map fst st.
Proof.
  induction kws as [|kv kws IH]; intro st; cbn [set_fields]; [reflexivity|].
  pose proof (set_one_keys fg st kv) as H1. destruct (set_one fg st kv) as [st' [e|]]; cbn [fst] in *; [exact H1 | rewrite IH; exact H1].
Qed.

Lemma init_wf : labels_wf labels_init.
Proof. unfold labels_wf, labels_init. rewrite map_map. exact (map_id label_fields). Qed.

Lemma as_result_ok p st : as_result p = Ok st -> fst p = st.
Proof. destruct p as [s [e|]]; simpl; intro H; inversion H; reflexivity. Qed.

(* _set_fields on an object that satisfies the invariant, when it does not raise: constructor, update and
   from_json differ only in the object they start from and in what they forgive *)
Lemma set_fields_ok_inv fg st0 kws st : labels_inv st0 -> labels_wf st0 ->
  as_result (set_fields fg st0 kws) = Ok st -> labels_inv st /\ labels_wf st.
Proof.
  intros Hi Hw H. apply as_result_ok in H. subst. split; [apply set_fields_inv, Hi|].
  unfold labels_wf. rewrite set_fields_keys. exact Hw.
Qed.

Theorem ctor_inv kws st : labels_ctor kws = Ok st -> labels_inv st /\ labels_wf st.
Proof. apply set_fields_ok_inv; [apply init_inv | apply init_wf]. Qed.

Theorem update_inv lab kws st : labels_inv lab -> labels_wf lab -> labels_update lab kws = Ok st -> labels_inv st /\ labels_wf st.
Proof. apply set_fields_ok_inv. Qed.

Theorem from_dict_inv d st : labels_from_dict d = Ok st -> labels_inv st /\ labels_wf st.
Proof. apply set_fields_ok_inv; [apply init_inv | apply init_wf]. Qed.

Theorem every_entry_point e st : run_entry e = Ok st -> labels_inv st /\ labels_wf st.
Proof.
  destruct e as [kws | base kws | d]; cbn [run_entry].
  - apply ctor_inv.
  - destruct (labels_ctor base) as [lab|] eqn:E; [|discriminate]. apply ctor_inv in E as [Hi Hw]. apply update_inv; assumption.
  - apply from_dict_inv.
Qed.

(* objects reachable through any sequence of constructor / update / from_json calls *)
Inductive reachable : lobj -> Prop :=
| R_ctor kws st : labels_ctor kws = Ok st -> reachable st
| R_from_json d st : labels_from_dict d = Ok st -> reachable st
| R_update lab kws st : reachable lab -> labels_update lab kws = Ok st -> reachable st.

Theorem reachable_inv st : reachable st -> labels_inv st /\ labels_wf st.
Proof.
  induction 1 as [kws st H | d st H | lab kws st Hl [Hi Hw] H].
  - apply ctor_inv in H; exact H.
  - apply from_dict_inv in H; exact H.
  - eapply update_inv; eassumption.
Qed.

(* what "stored" means for a reader of the object *)
Lemma lookup_In {V} k (t : list (str * V)) v : lookup k t = Some v -> In (k, v) t.
Proof.
  induction t as [|[k' v'] t IH]; simpl; [discriminate|].
  destruct (str_eqb k k') eqn:E; intro H.
  - apply str_eqb_eq in E. inversion H; subst. left; reflexivity.
  - right; apply IH; exact H.
Qed.

Theorem stored_values_in_domain st k v : labels_inv st -> lget st k = Some v -> is_strs v = true /\ Forall (in_domain k) (elems v).
Proof.
  unfold lget, labels_inv. intros Hi H. destruct (lookup k st) as [[v'|]|] eqn:E; try discriminate. inversion H; subst.
  apply lookup_In in E. rewrite Forall_forall in Hi. apply (Hi _ E).
Qed.

Definition blank (l : lobj) : lobj := map (fun kv => (fst kv, @None lval)) l.

Lemma lset_app_notin done k v rest ov :
  ~ In k (map fst done) -> lset (done ++ (k, ov) :: rest) k v = done ++ (k, Some v) :: rest.
Proof.
  induction done as [|[k' v'] done IH]; simpl; intro H.
  - rewrite str_eqb_refl. reflexivity.
  - destruct (str_eqb k k') eqn:E.
    + apply str_eqb_eq in E. subst. exfalso. apply H. left; reflexivity.
    + rewrite IH; [reflexivity | tauto].
Qed.

(* loop invariant of _set_fields over the encoding of todo: the fields done stay, the still blank ones get their values *)
Lemma recode_gen fg : forall todo done,
  NoDup (map fst done ++ map fst todo) -> labels_inv todo ->
  (forall k, In k (map fst todo) -> mem_str k label_fields = true) ->
  set_fields fg (done ++ blank todo) (labels_encode todo) = (done ++ todo, None).
Proof.
  induction todo as [|[k ov] todo IH]; intros done Hnd Hi Hk.
  - simpl. rewrite app_nil_r. reflexivity.
  - inversion Hi as [|? ? Hv Hi']; subst. cbn [fst snd] in Hv.
    assert (IH' : set_fields fg (done ++ (k, ov) :: blank todo) (labels_encode todo) = (done ++ (k, ov) :: todo, None)).
    { change (done ++ (k, ov) :: blank todo) with (done ++ [(k, ov)] ++ blank todo).
      change (done ++ (k, ov) :: todo) with (done ++ [(k, ov)] ++ todo). rewrite !app_assoc.
      apply IH; [rewrite map_app, <- app_assoc; exact Hnd | exact Hi' | intros k0 H0; apply Hk; right; exact H0]. }
    destruct ov as [v|]; [|exact IH']. destruct Hv as [Hs Hd].
    change (labels_encode ((k, Some v) :: todo)) with ((k, v) :: labels_encode todo).
    change (blank ((k, Some v) :: todo)) with ((k, @None lval) :: blank todo). cbn [set_fields].
    rewrite (set_one_accepts _ _ _ _ (Hk k (or_introl eq_refl)) Hs Hd), lset_app_notin; [exact IH'|].
    intro Hin. apply NoDup_remove_2 in Hnd. apply Hnd, in_or_app. left; exact Hin.
Qed.

Fixpoint nodup_strb (l : list str) : bool :=
  match l with [] => true | x :: r => negb (mem_str x r) && nodup_strb r end.

Lemma nodup_strb_NoDup l : nodup_strb l = true -> NoDup l.
Proof.
  induction l as [|x l IH]; simpl; intro H; constructor; apply andb_true_iff in H as [H1 H2].
  - intro Hin. apply mem_str_In in Hin. rewrite Hin in H1. discriminate.
  - apply IH; exact H2.
Qed.

Lemma label_fields_nodup : NoDup label_fields.
Proof. apply nodup_strb_NoDup. vm_compute. reflexivity. Qed.

Lemma In_encode st k v : In (k, v) (labels_encode st) <-> In (k, Some v) st.
Proof.
  unfold labels_encode. rewrite in_flat_map. split.
  - intros ([k' [v'|]] & Hin & H); simpl in H; [|contradiction]. destruct H as [[= <- <-]|[]]. exact Hin.
  - intro H. exists (k, Some v). split; [exact H | left; reflexivity].
Qed.

Lemma from_json_keys_encode st : labels_wf st -> from_json_keys (labels_encode st) = labels_encode st.
Proof.
  intro Hw. unfold from_json_keys. destruct from_json_prefilters; [|reflexivity].
  apply filter_all. intros [k v] H. apply In_encode, (in_map fst) in H. rewrite Hw in H. apply mem_str_In; exact H.
Qed.

(* _set_fields of the non-None fields of a documented object, on a fresh object, rebuilds it *)
Lemma set_fields_encode fg st : labels_inv st -> labels_wf st ->
  set_fields fg labels_init (labels_encode st) = (st, None).
Proof.
  intros Hi Hw.
  assert (Hb : labels_init = [] ++ blank st) by (unfold labels_init, blank; rewrite <- Hw, map_map; reflexivity).
  rewrite Hb. apply recode_gen; [simpl; rewrite Hw; apply label_fields_nodup | exact Hi |].
  intros k Hk. rewrite Hw in Hk. apply mem_str_In; exact Hk.
Qed.

(* whatever was accepted is accepted again after to_dict/to_json -> from_json, and gives the same object *)
Theorem accepted_recodes st : labels_inv st -> labels_wf st -> labels_recode st = Ok st.
Proof.
  intros Hi Hw. unfold labels_recode, labels_from_dict.
  rewrite (from_json_keys_encode st Hw), set_fields_encode by assumption. reflexivity.
Qed.

Corollary entry_point_recodes e st : run_entry e = Ok st -> labels_recode st = Ok st.
Proof. intro H. apply every_entry_point in H as [Hi Hw]. apply accepted_recodes; assumption. Qed.

Lemma boundaries_hold :
  forallb (fun x => Bool.eqb (scalar_accepted (fst (fst x)) (snd (fst x))) (snd x) &&
                    Bool.eqb (list_accepted (fst (fst x)) (snd (fst x))) (snd x)) boundary_table = true.
Proof. vm_compute. reflexivity. Qed.
