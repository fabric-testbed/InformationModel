(* C05: import (add_graph / add_graph_direct) and clone inside the refinement: both storage models
   refine the reference model's `import g G` / `clone g g2` (the graph's nodes and links replace what
   the id held); the one-graph-per-id store does so exactly where [in_disjoint_scope] holds, and
   deviates in a precisely stated way elsewhere. *)
From Coq Require Import List NArith Bool Lia.
From FIM Require Import Base.Assoc Model.Store Model.StoreDisjoint Model.PGSpec.
From FIM Require Import Proofs.IsolationBase Proofs.IsolationShared Proofs.IsolationFrame Proofs.IsolationDisjoint.
From FIM Require Import Proofs.RefineBase Proofs.RefineUnique Proofs.RefineSim Proofs.RefineStores Proofs.IsolationClone.
Import ListNotations.
Open Scope N_scope.

(* imported graphs are networkx graphs: every link joins two of the graph's nodes, one link per pair *)
Definition import_ok (ig : igraph) : Prop := edges_ok ig = true /\ pdist (map fst (iedges ig)).

Lemma keys_ok_import_ok ig : keys_ok ig = true -> import_ok ig.
Proof.
  unfold keys_ok, links_distinct. intro H. apply andb_true_iff in H as [H H2]. apply andb_true_iff in H as [_ H1].
  split; [exact H1 | now apply pdistb_pdist].
Qed.

(* add_graph stamps the relabelled nodes, add_graph_direct does not *)
Definition stamped (st : option N) (l : list node) : list node :=
  match st with Some g => stamp g l | None => l end.

Lemma stamped_fst st l : map fst (stamped st l) = map fst l.
Proof. destruct st; [apply map_fst_stamp | reflexivity]. Qed.

(* ---------- what g sees after a relabelled graph, all of whose nodes g sees, was added to an nx.Graph in
   which g saw nothing ---------- *)
Lemma import_view G g first st ns es :
  NoDup (ids G) -> (forall i, In i (ids G) -> i < first) -> EClosed G -> EDist G ->
  filter (in_g g) (gn G) = [] -> import_ok (mkI ns es) ->
  (forall nd, In nd (stamped st (relabel_nodes ns first)) -> in_g g nd = true) ->
  view (nx_add_all G (stamped st (relabel_nodes ns first)) (map (relabel_edge ns first) es)) g =
  (stamped st (relabel_nodes ns first), map (relabel_edge ns first) es).
Proof.
  intros Hnd Hlt Hcl Hd Hold [Hok Hpd] Hg.
  apply (view_add_all_own G g _ _ first (length ns)); auto.
  - now rewrite stamped_fst, relabel_nodes_fst.
  - intros a b ps Hin. rewrite stamped_fst. exact (relabel_edges_in (mkI ns es) first a b ps Hok Hin).
  - apply pdist_relabel; [|exact Hpd]. intros a b ps Hin. exact (edges_ok_In (mkI ns es) a b ps Hok Hin).
Qed.

(* ---------- the imported content as the reference model sees it ---------- *)
Lemma aget_relabel ns : forall f a i, index_of a ns f = Some i -> aget i (relabel_nodes ns f) = aget a ns.
Proof.
  induction ns as [|[k ps] r IH]; intros f a i; cbn [index_of relabel_nodes aget]; [discriminate|].
  destruct (N.eqb a k) eqn:E.
  - intro H. inversion H; subst i. now rewrite N.eqb_refl.
  - intro H. pose proof (index_of_bounds _ _ _ _ H) as B.
    assert (N.eqb i f = false) by (apply N.eqb_neq; lia). rewrite H0. now apply IH.
Qed.

Lemma key_nid_relabel st ns f a :
  ahas a ns = true -> key_nid (stamped st (relabel_nodes ns f)) (relab ns f a) = key_nid ns a.
Proof.
  intro Ha. unfold relab, key_nid. destruct (index_of_some a ns f Ha) as [i Hi]. rewrite Hi.
  destruct st as [g|]; cbn [stamped]; [|now rewrite (aget_relabel ns f a i Hi)].
  unfold stamp. rewrite (@aget_map_snd props (aset k_graphid (PV g))), (aget_relabel ns f a i Hi).
  destruct (aget a ns); [|reflexivity]. cbn [option_map]. unfold nid_key. now rewrite aget_aset_other by discriminate.
Qed.

Lemma map_relabel_snd {B} (F : props -> B) ns f :
  map (fun x => F (snd x)) (relabel_nodes ns f) = map (fun x => F (snd x)) ns.
Proof. revert f; induction ns as [|[k ps] r IH]; intro f; cbn; [reflexivity|]. now rewrite IH. Qed.

Lemma abs_imported st ns es f :
  edges_ok (mkI ns es) = true ->
  abs_of_view (stamped st (relabel_nodes ns f), map (relabel_edge ns f) es) = sp_of_igraph st (mkI ns es).
Proof.
  intro Hok. unfold abs_of_view, sp_of_igraph. cbn [fst snd inodes iedges]. f_equal.
  - destruct st as [g|]; cbn [stamped]; [|exact (map_relabel_snd (fun ps => ps) ns f)].
    unfold stamp. rewrite map_map. exact (map_relabel_snd (aset k_graphid (PV g)) ns f).
  - rewrite map_map. apply map_ext_in. intros [[a b] ps] Hin.
    destruct (edges_ok_In (mkI ns es) a b ps Hok Hin) as [Ha Hb].
    unfold relabel_edge, abs_edge. fold (relab ns f a) (relab ns f b).
    now rewrite !key_nid_relabel.
Qed.

Lemma existsb_missing_snd (l : list node) : existsb node_id_missing l = existsb sp_missing (map snd l).
Proof. induction l as [|[i ps] r IH]; cbn; [reflexivity|]. now rewrite IH. Qed.

(* the reference model's clone is its import of what the source graph id sees *)
Lemma sp_clone_import sp g g2 ns es :
  sget sp g = abs_of_view (ns, es) -> sp_clone sp g g2 = match ns with [] => (sp, Err EQuery) | _ => sp_import sp g2 (mkI ns es) end.
Proof.
  intro E. unfold sp_clone, sp_import, sp_of_igraph. rewrite E. unfold abs_of_view. cbn [sn se fst snd inodes iedges].
  destruct ns as [|nd r]; [reflexivity|]. rewrite existsb_missing_snd. cbn [map]. now rewrite map_map.
Qed.

Lemma relabel_in_g g ns f :
  forallb (fun n => has_val (snd n) k_graphid g) ns = true -> forall nd, In nd (relabel_nodes ns f) -> in_g g nd = true.
Proof.
  revert f; induction ns as [|[k ps] r IH]; intros f H nd Hin; cbn in *; [contradiction|].
  apply andb_true_iff in H as [H1 H2]. destruct Hin as [Hin|Hin]; [subst nd; exact H1 | now apply (IH (N.succ f))].
Qed.

(* ---------- the shared store: both imports replace what g sees by the imported graph ---------- *)
Lemma s_import_refines s sp g st ig n' :
  SInv s -> EClosed (sg s) -> EDist (sg s) -> import_ok ig -> refines_shared s sp ->
  (forall nd, In nd (stamped st (inodes (relabel ig (snext s)))) -> in_g g nd = true) ->
  refines_shared (mkS (nx_add_all (sg (s_del_graph s g)) (stamped st (inodes (relabel ig (snext s)))) (iedges (relabel ig (snext s)))) n')
     (sput sp g (sp_of_igraph st ig)).
Proof.
  intros HI Hcl Hd Hio HR Hg. pose proof (SInv_del_graph s g HI) as [H1 H2].
  apply (refines_shared_update _ _ s sp g (sp_of_igraph st ig) HR); [| |intro; apply sget_sput]; cbn [sg].
  - intros g' Hne. apply frame_import; auto; [apply Hio | apply stamped_fst|].
    intros nd Hin. apply (in_g_other g g'); auto.
  - destruct ig as [ns es]. unfold relabel in *. cbn [inodes iedges] in *. unfold abs_nxg.
    rewrite import_view; auto.
    + now apply abs_imported, Hio.
    + unfold s_del_graph. cbn [sg]. now apply closed_remove_nodes.
    + unfold s_del_graph, nx_remove_nodes. cbn [sg]. now apply EDist_filter_edges.
    + apply remove_graph_no_nodes.
Qed.

Lemma s_add_graph_refines s sp g ig :
  SInv s -> EClosed (sg s) -> EDist (sg s) -> import_ok ig -> refines_shared s sp ->
  refines_shared (fst (s_add_graph s g ig)) (fst (sp_import sp g ig)) /\ snd (s_add_graph s g ig) = snd (sp_import sp g ig).
Proof.
  intros HI Hcl Hd Hio HR. unfold s_add_graph, sp_import.
  (* [inodes (relabel ig f)] is [relabel_nodes (inodes ig) f] by computation; the cast lets the rewrite find it *)
  rewrite (missing_relabel (inodes ig) _ : existsb _ (inodes (relabel ig _)) = _).
  destruct (existsb node_id_missing (inodes ig)); cbn [fst snd]; (split; [|reflexivity]).
  - apply (refines_shared_update _ _ s sp g empty_sg HR); [|apply sim_del_graph | intro; apply sget_sput].
    intros g' Hne. apply frame_del_graph_nxg; [apply SInv_NoDup, HI | congruence].
  - apply (s_import_refines s sp g (Some g)); auto. apply in_g_stamp.
Qed.

Theorem shared_step_refines_storage s sp o :
  SInv s -> EClosed (sg s) -> EDist (sg s) -> refine_scope o = true -> refines_shared s sp ->
  refines_shared (fst (sstep s o)) (fst (spec_step sp o)) /\ snd (sstep s o) = snd (spec_step sp o).
Proof.
  intros HI Hcl Hd Hsc HR. pose proof HI as [Hnd Hlt].
  destruct o; try (apply shared_step_refines; auto; fail); cbn in Hsc; try discriminate; cbn [sstep spec_step].
  - apply s_add_graph_refines; auto. now apply keys_ok_import_ok.
  - apply andb_true_iff in Hsc as [Hk Hdir]. split; [|reflexivity].
    apply (s_import_refines s sp g None); auto; [now apply keys_ok_import_ok | now apply relabel_in_g].
  - unfold s_clone. rewrite (extract_is_view (sg s) g Hnd).
    destruct (view (sg s) g) as [ns es] eqn:Ev. cbn [fst snd].
    rewrite (sp_clone_import sp g g2 ns es) by (rewrite <- (HR g); unfold abs_shared, abs_nxg; now rewrite Ev).
    destruct ns as [|nd0 r0] eqn:Ens; [split; [exact HR | reflexivity]|]. rewrite <- Ens in *.
    apply s_add_graph_refines; auto. split.
    + apply (extract_edges_ok (sg s) g). rewrite (extract_is_view (sg s) g Hnd), Ev. cbn [fst snd]. now rewrite Ens.
    + cbn [iedges]. assert (E : es = filter (in_ids (ids_in (sg s) g)) (ge (sg s))) by (unfold view in Ev; now inversion Ev).
      rewrite E. apply (EDist_filter_edges _ (sg s) []), Hd.
Qed.

Lemma refine_wf_op o : refine_scope o = true -> wf_op o = true.
Proof.
  destruct o; cbn; auto; intro H.
  - now apply keys_ok_import_ok in H as [H _].
  - apply andb_true_iff in H as [H _]. now apply keys_ok_import_ok in H as [H _].
Qed.

Theorem shared_refines_run_storage ops : forall s sp,
  SInv s -> EClosed (sg s) -> EDist (sg s) -> refines_shared s sp -> (forall o, In o ops -> refine_scope o = true) ->
  sresults s ops = spec_results sp ops /\ refines_shared (srun ops s) (spec_run ops sp).
Proof.
  induction ops as [|o r IH]; intros s sp HI Hcl Hd HR Hsc; cbn [sresults spec_results srun spec_run fold_left]; [auto|].
  assert (Ho : refine_scope o = true) by (apply Hsc; now left).
  destruct (shared_step_refines_storage s sp o HI Hcl Hd Ho HR) as [HR' Hres].
  destruct (IH (fst (sstep s o)) (fst (spec_step sp o))) as [A B]; auto.
  - now apply SInv_step.
  - apply closed_step_all; auto. now apply refine_wf_op.
  - now apply EDist_step.
  - intros; apply Hsc; now right.
  - split; [now rewrite Hres, A | exact B].
Qed.

Theorem shared_refines_spec_storage ops :
  (forall o, In o ops -> refine_scope o = true) ->
  sresults init_store ops = spec_results [] ops /\
  forall g, abs_shared (srun ops init_store) g = sget (spec_run ops []) g.
Proof.
  intro H. apply shared_refines_run_storage; auto; [apply SInv_init | apply EClosed_init | apply EDist_init | intro g; reflexivity].
Qed.

(* ---------- the one-graph-per-id store: a stored import is the imported graph ---------- *)
Lemma d_import_refines d sp g st ig c :
  refines_disjoint d sp -> import_ok ig ->
  (forall nd, In nd (stamped st (inodes (relabel ig 1))) -> in_g g nd = true) ->
  refines_disjoint (dput_ctr (dput d g (nx_add_all empty_nxg (stamped st (inodes (relabel ig 1))) (iedges (relabel ig 1)))) g c)
     (sput sp g (sp_of_igraph st ig)).
Proof.
  intros HR Hio Hg. apply (refines_disjoint_update _ _ d sp g (sp_of_igraph st ig) HR); [| |intro; apply sget_sput].
  - intros g' Hg'. rewrite dget_dput_ctr. apply dget_put_other; congruence.
  - rewrite dget_dput_ctr, dget_dput, N.eqb_refl. destruct ig as [ns es]. unfold relabel in *. cbn [inodes iedges] in *.
    unfold abs_nxg. rewrite import_view; auto.
    + now apply abs_imported, Hio.
    + constructor.
    + intros i [].
    + intros a b ps [].
    + exact I.
Qed.

(* add_graph onto an id without nodes is the reference model's import *)
Lemma d_add_graph_refines d sp g ig :
  refines_disjoint d sp -> gn (dget d g) = [] -> import_ok ig ->
  refines_disjoint (fst (d_add_graph d g ig)) (fst (sp_import sp g ig)) /\ snd (d_add_graph d g ig) = snd (sp_import sp g ig).
Proof.
  intros HR Hempty Hio. unfold d_add_graph, sp_import. rewrite Hempty.
  rewrite (missing_relabel (inodes ig) _ : existsb _ (inodes (relabel ig _)) = _).
  destruct (existsb node_id_missing (inodes ig)); cbn [fst snd]; (split; [|reflexivity]).
  - apply (refines_disjoint_update _ _ d sp g empty_sg HR); [reflexivity | apply abs_sees_none; now rewrite Hempty | intro; apply sget_sput].
  - apply (d_import_refines d sp g (Some g)); auto. apply in_g_stamp.
Qed.

Theorem disjoint_step_refines_storage d sp o :
  DInv d -> DWf d -> DHome d -> refine_scope o = true -> in_disjoint_scope sp o = true -> refines_disjoint d sp ->
  refines_disjoint (fst (dstep d o)) (fst (spec_step sp o)) /\ snd (dstep d o) = snd (spec_step sp o).
Proof.
  intros HI Hwf Hhome Hsc Hds HR.
  assert (Hcl : forall g, EClosed (dget d g)) by (intro g; apply Hwf).
  assert (Hview : forall x, sget sp x = abs_of_view (gn (dget d x), ge (dget d x))).
  { intro x. rewrite <- (HR x). unfold abs_disjoint, abs_nxg. now rewrite (view_whole _ x (Hhome x) (Hcl x)). }
  assert (Hex : forall x, sp_exists (sget sp x) = match gn (dget d x) with [] => false | _ => true end).
  { intro x. unfold sp_exists. rewrite Hview. unfold abs_of_view. cbn [sn fst]. now destruct (gn (dget d x)). }
  destruct o; try (apply disjoint_step_refines; auto; fail); cbn in Hsc, Hds; try discriminate; cbn [dstep spec_step].
  - (* import onto an id that holds no nodes *)
    apply d_add_graph_refines; auto; [|now apply keys_ok_import_ok].
    rewrite Hex in Hds. now destruct (gn (dget d g)).
  - (* direct import: always replaces *)
    apply andb_true_iff in Hsc as [Hk Hdir]. split; [|reflexivity].
    apply (d_import_refines d sp g None); [exact HR | now apply keys_ok_import_ok | now apply relabel_in_g].
  - (* clone: from a graph without nodes (refused by both), or onto an id that holds none *)
    rewrite (sp_clone_import sp g g2 _ _ (Hview g)).
    destruct (d_clone_cases d g g2) as [[Esrc E]|[Esrc E]]; rewrite E.
    + rewrite Esrc. split; [exact HR | reflexivity].
    + rewrite !Hex in Hds. destruct (gn (dget d g)) eqn:En; [congruence|]. rewrite <- En.
      apply d_add_graph_refines; auto.
      * cbn in Hds. now destruct (gn (dget d g2)).
      * split; [apply extract_edges_ok_disjoint; apply Hwf | apply (Hwf g)].
Qed.

Lemma refine_home_scope o : refine_scope o = true -> home_scope o = true.
Proof.
  destruct o; cbn; auto; intro H.
  all: try (now apply andb_true_iff in H as [_ H]).
  all: try (apply scope_ident_key in H; now rewrite H).
  all: try (now apply scope_ident_free).
  destruct ps; [now apply scope_ident_free | reflexivity].
Qed.

Theorem disjoint_refines_run_storage ops : forall d sp,
  DInv d -> DWf d -> DHome d -> refines_disjoint d sp -> (forall o, In o ops -> refine_scope o = true) ->
  disjoint_scope_run sp ops = true ->
  dresults d ops = spec_results sp ops /\ refines_disjoint (drun ops d) (spec_run ops sp).
Proof.
  induction ops as [|o r IH]; intros d sp HI Hwf Hh HR Hsc Hds;
    cbn [dresults spec_results drun spec_run fold_left disjoint_scope_run] in *; [auto|].
  assert (Ho : refine_scope o = true) by (apply Hsc; now left).
  apply andb_true_iff in Hds as [Hd1 Hd2].
  destruct (disjoint_step_refines_storage d sp o HI Hwf Hh Ho Hd1 HR) as [HR' Hres].
  destruct (IH (fst (dstep d o)) (fst (spec_step sp o))) as [A B]; auto.
  - now apply DInv_step.
  - apply DWf_step; auto. now apply refine_wf_op.
  - apply DHome_step; auto. now apply refine_home_scope.
  - intros; apply Hsc; now right.
  - split; [now rewrite Hres, A | exact B].
Qed.

Theorem disjoint_refines_spec_storage ops :
  (forall o, In o ops -> refine_scope o = true) -> disjoint_scope_run [] ops = true ->
  dresults init_dstore ops = spec_results [] ops /\
  forall g, abs_disjoint (drun ops init_dstore) g = sget (spec_run ops []) g.
Proof.
  intros H Hds. apply disjoint_refines_run_storage; auto.
  - apply DInv_init.
  - apply DWf_init.
  - intro g. reflexivity.
  - intro g. reflexivity.
Qed.

Theorem backends_agree_storage ops :
  (forall o, In o ops -> refine_scope o = true) -> disjoint_scope_run [] ops = true ->
  sresults init_store ops = dresults init_dstore ops /\
  forall g, abs_shared (srun ops init_store) g = abs_disjoint (drun ops init_dstore) g.
Proof.
  intros H Hd. destruct (shared_refines_spec_storage ops H) as [A1 A2]. destruct (disjoint_refines_spec_storage ops H Hd) as [B1 B2].
  split; [congruence | intro g; now rewrite A2, B2].
Qed.

(* histories of the operations C05 quantifies over contain no import / clone: there the domain condition is void *)
Lemma scope0_disjoint_run ops : forall sp, (forall o, In o ops -> refine_scope0 o = true) -> disjoint_scope_run sp ops = true.
Proof.
  induction ops as [|o r IH]; intros sp H; cbn [disjoint_scope_run]; [reflexivity|].
  rewrite IH by (intros; apply H; now right). rewrite andb_true_r.
  specialize (H o (or_introl eq_refl)). destruct o; cbn in *; auto; discriminate.
Qed.

Theorem backends_agree ops :
  (forall o, In o ops -> refine_scope0 o = true) ->
  sresults init_store ops = dresults init_dstore ops /\
  forall g, abs_shared (srun ops init_store) g = abs_disjoint (drun ops init_dstore) g.
Proof.
  intro H. apply backends_agree_storage; [|now apply scope0_disjoint_run].
  intros o Ho. specialize (H o Ho). destruct o; try discriminate; exact H.
Qed.

(* ---------- where the one-graph-per-id store deviates from the reference model, precisely ---------- *)
(* import onto an id that holds nodes: nothing happens (the reference replaces the graph) *)
Theorem disjoint_reimport_live_skips d g ig :
  gn (dget d g) <> [] -> dstep d (OImport g ig) = (d, Ok RUnit).
Proof. intro H. cbn [dstep]. unfold d_add_graph. destruct (gn (dget d g)); [congruence | reflexivity]. Qed.

(* clone of a graph that holds nodes onto an id that holds nodes: nothing happens, the call returns normally *)
Theorem disjoint_clone_live_skips d g g2 :
  gn (dget d g) <> [] -> gn (dget d g2) <> [] -> dstep d (OClone g g2) = (d, Ok RUnit).
Proof.
  intros H0 H. cbn [dstep]. destruct (d_clone_cases d g g2) as [[E0 _]|[_ E]]; [contradiction|]. rewrite E.
  unfold d_add_graph. destruct (gn (dget d g2)); [congruence | reflexivity].
Qed.

(* clone of a graph without nodes is refused by both stores (and by the reference), nothing changes (fix fdc67eb) *)
Theorem clone_absent_source_agrees s d g g2 :
  fst (view (sg s) g) = [] -> NoDup (ids (sg s)) -> gn (dget d g) = [] ->
  sstep s (OClone g g2) = (s, Err EQuery) /\ dstep d (OClone g g2) = (d, Err EQuery).
Proof.
  intros Hs Hnd Hd. cbn [sstep dstep]. split.
  - unfold s_clone. rewrite (extract_is_view (sg s) g Hnd), Hs. reflexivity.
  - destruct (d_clone_cases d g g2) as [[_ E]|[E0 _]]; [exact E | contradiction].
Qed.

(* ---------- the extended reference model (cross-graph links) is the reference model on merge-free histories ---------- *)
Fixpoint xspec_results (X : xspec) (ops : list op) : list res :=
  match ops with [] => [] | o :: r => snd (xspec_step X o) :: xspec_results (fst (xspec_step X o)) r end.
Definition xspec_run (ops : list op) (X : xspec) : xspec := fold_left (fun X o => fst (xspec_step X o)) ops X.

Lemma x_maintain_nil o r : x_maintain [] o r = [].
Proof. destruct o; cbn; try reflexivity; [destruct r as [x|e]; [|destruct e]; reflexivity | destruct (is_ok r); reflexivity]. Qed.

Lemma xspec_step_merge_free sp o :
  merge_free o = true ->
  xspec_step (mkX sp []) o = (mkX (fst (spec_step sp o)) [], snd (spec_step sp o)).
Proof.
  intro H. destruct o; try discriminate; unfold xspec_step; cbn [xs xl];
    destruct (spec_step sp _) as [sp' rr]; cbn [fst snd]; now rewrite x_maintain_nil.
Qed.

Theorem xspec_merge_free ops : forall sp,
  (forall o, In o ops -> merge_free o = true) ->
  xspec_results (mkX sp []) ops = spec_results sp ops /\ xspec_run ops (mkX sp []) = mkX (spec_run ops sp) [].
Proof.
  induction ops as [|o r IH]; intros sp H; cbn [xspec_results spec_results xspec_run spec_run fold_left]; [auto|].
  rewrite (xspec_step_merge_free sp o) by (apply H; now left). cbn [fst snd].
  destruct (IH (fst (spec_step sp o))) as [A B]; [intros; apply H; now right|].
  split; [now rewrite A | exact B].
Qed.
