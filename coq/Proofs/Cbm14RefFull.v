(* C14 - FULL refinement for whole histories: the store-level model simulates the abstract model, nodes and
   connections; the abstract theorems transfer to the store level. *)
From Coq Require Import List NArith Bool Permutation.
From FIM Require Import Model.Cbm14Store Model.Cbm14Check Model.Cbm14Spec Model.Cbm14Abs Proofs.Cbm14Assoc Proofs.Cbm14Merge
     Proofs.Cbm14Unmerge Proofs.Cbm14Inv Proofs.Cbm14Hist Proofs.Cbm14Dec Proofs.Cbm14Frame Proofs.Cbm14RefBase
     Proofs.Cbm14RefEdge Proofs.Cbm14RefMerge Proofs.Cbm14RefUnmerge Proofs.Cbm14RefSnap Proofs.Cbm14RefHist Proofs.Cbm14RefOrder.
Import ListNotations.
Open Scope N_scope.

Definition fhop_of (st : store) (o : op) : hop :=
  match o with
  | OpMerge adm _ => HMerge (abs_adm adm st)
  | OpUnmerge g => HUnmerge g
  | OpSnap new => HSnap new
  | OpRollback sid => HRollback sid
  end.

(* documented domain: as for the node part, and a merged source is a well-formed model without self-loops *)
Definition fpre (cbm : N) (o : op) (st : store) (hs : hstate) : Prop :=
  pre cbm o st hs /\
  match o with OpMerge adm _ => wf_admb (abs_adm adm st) = true /\ noselfb adm st = true | _ => True end.

Record FSim (cbm : N) (st : store) (hs : hstate) : Prop := mkFSim {
  fs_J : J (s_next st) (s_nodes st);
  fs_EB : ebelow (s_next st) (s_edges st);
  fs_ok : cbm_ok cbm (s_nodes st);
  fs_n : forall k, getn k (abs_nodes cbm st) = getn k (nodes (h_cur hs));
  fs_e : forall e, gete e (abs_edges cbm st) = gete e (edges (h_cur hs));
  fs_inv : HInv hs;
  fs_snaps : forall id C ms, getn id (h_snaps hs) = Some (C, ms) ->
             id <> cbm /\ gexists id st = true /\ cbm_ok id (s_nodes st) /\
             (forall k, getn k (abs_nodes id st) = getn k (nodes C)) /\
             (forall e, gete e (abs_edges id st) = gete e (edges C))
}.

Lemma noselfb_sound adm st :
  noselfb adm st = true -> forall n, In n (of_gid adm st) -> edat (s_edges st) (n_int n) (n_int n) = None.
Proof.
  unfold noselfb. rewrite forallb_forall. intros H n Hn. apply edat_none_iff.
  specialize (H n Hn). apply negb_true_iff in H. exact H.
Qed.

Lemma hasn_ext {V} k (l l' : list (N * V)) : getn k l = getn k l' -> hasn k l = hasn k l'.
Proof. intro H. rewrite !hasn_is_some, H. reflexivity. Qed.

Lemma fsim_core cbm st hs : FSim cbm st hs -> Core cbm st hs.
Proof.
  intros [Jst EB W CN CE HI SN]. constructor; auto.
  intros id C ms G. destruct (SN id C ms G) as (N1 & G1 & O1 & A1 & _). auto.
Qed.

Lemma fpre_wf cbm o st hs : fpre cbm o st hs -> op_wf (fhop_of st o).
Proof. intros [_ X]. destruct o; simpl; auto. apply wf_admb_sound. apply X. Qed.

(* the node half is the simulation argument of Cbm14RefHist with abs_adm for a merged source; what is added here
   is what each operation does to the connections of the combined graph and of the snapshots *)
Theorem fsim_step cbm o st hs st' :
  FSim cbm st hs -> fpre cbm o st hs -> step cbm o st = OOk st' -> FSim cbm st' (hstep hs (fhop_of st o)).
Proof.
  intros S PF H. pose proof PF as [P PX].
  destruct (core_step abs_adm (fun _ _ => eq_refl) (fun _ _ => eq_refl) cbm o st hs st' (fsim_core _ _ _ S) P (fpre_wf _ _ _ _ PF) H)
    as [J' W' CN' HI' SN'].
  pose proof (fsim_core _ _ _ S) as SC. destruct S as [Jst EB W CN CE HI SN]. pose proof Jst as (U & B & K).
  (* the connections: of the combined graph afterwards, of every snapshot afterwards, and their ids *)
  cut (ebelow (s_next st') (s_edges st') /\
       (forall e, gete e (abs_edges cbm st') = gete e (edges (h_cur (hstep hs (fhop_of st o))))) /\
       (forall id C ms, getn id (h_snaps (hstep hs (fhop_of st o))) = Some (C, ms) ->
                        forall e, gete e (abs_edges id st') = gete e (edges C))).
  { intros (EB' & CE' & SE'). constructor; auto.
    intros id C ms G. destruct (SN' id C ms G) as (N1 & G1 & O1 & A1). split; auto. split; auto. split; auto. split; auto. apply (SE' id C ms G). }
  destruct o as [adm tmp|g|new|sid]; simpl in P, H; simpl fhop_of in *.
  - destruct (merge_not_refused abs_adm (fun _ _ => eq_refl) (fun _ _ => eq_refl) cbm adm tmp st hs st' SC P H) as (C' & SM & ->).
    destruct P as (NE & NA & FR & NM). destruct PX as [_ NSb]. cbn [h_cur h_snaps].
    assert (cbm_wf cbm (s_nodes st)) as W0 by (intros n Hn Gn; apply (W n Hn Gn)).
    destruct (merge_refines_edges cbm adm tmp st st' Jst EB W0 NE FR (noselfb_sound adm st NSb) H) as (ME & EB').
    split; [exact EB'|]. split.
    + intro e. rewrite ME, get_merge_edges, (smerge_get_edge _ _ _ e SM), CE. reflexivity.
    + intros id C ms G e. destruct (SN id C ms G) as (N1 & G1 & _ & _ & A2).
      assert (id <> tmp) as N2 by (intro; subst; congruence).
      rewrite (merge_other_edges cbm adm tmp st st' id Jst EB W0 NE FR H N1 N2 e). apply A2.
  - destruct (unmerge_refines_nodes cbm g st Jst W P) as (st1 & E & UG & _).
    rewrite E in H. inversion H; subst st1; clear H.
    destruct (unmerge_refines_edges cbm g st Jst W P) as (st2 & E2 & UE & OE & EB').
    rewrite E in E2. inversion E2; subst st2; clear E2.
    split; [exact (EB' EB)|]. split.
    + intro e. cbn [hstep h_cur]. rewrite UE, !sunmerge_get_edge'.
      assert (forall k, getn k (nodes (sunmerge (abs_cbm cbm st) g)) = getn k (nodes (sunmerge (h_cur hs) g))) as SNG
        by (intro k; rewrite <- UG; apply CN').
      rewrite (hasn_ext _ _ _ (SNG (fst e))), (hasn_ext _ _ _ (SNG (snd e))).
      change (edges (abs_cbm cbm st)) with (abs_edges cbm st). rewrite CE. reflexivity.
    + intros id C ms G e. destruct (SN id C ms G) as (N1 & _ & _ & _ & A2). rewrite (OE id e N1). apply A2.
  - destruct P as (GE & FR).
    destruct (snapshot_refines_nodes cbm new st Jst GE FR) as (st1 & E & _).
    rewrite E in H. inversion H; subst st1; clear H.
    destruct (snapshot_refines_edges cbm new st Jst EB GE FR) as (st2 & E2 & SE & OE & EB').
    rewrite E in E2. inversion E2; subst st2; clear E2.
    assert (new <> cbm) as NN by (intro; subst; congruence).
    cbn [hstep]. rewrite (core_fresh_snap cbm st hs new SC FR). cbn [h_cur h_snaps].
    split; [exact EB'|]. split.
    + intro e. rewrite (OE cbm e (not_eq_sym NN)). apply CE.
    + intros id C ms G e. unfold getn in G. simpl in G. fold (@getn (Cbm14Spec.cbm * list adm)) in G.
      destruct (id =? new) eqn:EI.
      * apply N.eqb_eq in EI. subst id. inversion G; subst C ms. rewrite SE. apply CE.
      * apply N.eqb_neq in EI. destruct (SN id C ms G) as (_ & _ & _ & _ & A2). rewrite (OE id e EI). apply A2.
  - apply (has_get N.eqb) in P as [[C ms] G]. fold (@getn (Cbm14Spec.cbm * list adm)) in G.
    destruct (SN sid C ms G) as (N1 & G1 & _ & _ & A2).
    destruct (rollback_refines_nodes cbm sid st Jst N1 G1) as (st1 & E & _).
    rewrite E in H. inversion H; subst st1; clear H.
    destruct (rollback_refines_edges cbm sid st Jst N1 G1) as (st2 & E2 & RE & OE & EB').
    rewrite E in E2. inversion E2; subst st2; clear E2.
    cbn [hstep]. rewrite G. cbn [h_cur h_snaps].
    split; [exact (EB' EB)|]. split.
    + intro e. rewrite RE. apply A2.
    + intros id C0 ms0 G0 e. unfold getn in G0.
      rewrite (get_filter_key N.eqb N.eqb_eq (fun k => negb (k =? sid))) in G0.
      destruct (id =? sid) eqn:EI; simpl in G0; [discriminate|]. apply N.eqb_neq in EI.
      destruct (SN id C0 ms0 G0) as (M1 & _ & _ & _ & M5). rewrite (OE id e M1 EI). apply M5.
Qed.

Fixpoint fsim_run (cbm : N) (st : store) (hs : hstate) (ops : list op) : option (store * hstate) :=
  match ops with
  | [] => Some (st, hs)
  | o :: r => match step cbm o st with
              | OOk st' => fsim_run cbm st' (hstep hs (fhop_of st o)) r
              | _ => None
              end
  end.
Fixpoint fpre_run (cbm : N) (st : store) (hs : hstate) (ops : list op) : Prop :=
  match ops with
  | [] => True
  | o :: r => fpre cbm o st hs /\
              match step cbm o st with
              | OOk st' => fpre_run cbm st' (hstep hs (fhop_of st o)) r
              | _ => True
              end
  end.
Fixpoint fhops_run (cbm : N) (st : store) (ops : list op) : list hop :=
  match ops with
  | [] => []
  | o :: r => fhop_of st o :: match step cbm o st with OOk st' => fhops_run cbm st' r | _ => [] end
  end.

Theorem fsim_run_ok cbm ops : forall st hs st' hs',
  FSim cbm st hs -> fpre_run cbm st hs ops -> fsim_run cbm st hs ops = Some (st', hs') ->
  FSim cbm st' hs' /\ hs' = hrun hs (fhops_run cbm st ops).
Proof. exact (run_by_ok abs_adm fpre FSim fsim_step cbm ops). Qed.

Lemma fsim_init cbm st :
  J (s_next st) (s_nodes st) -> ebelow (s_next st) (s_edges st) -> gexists cbm st = false -> FSim cbm st hinit.
Proof.
  intros Jst EB GE. destruct (core_init cbm st Jst GE) as [_ W CN HI _].
  constructor; auto; simpl.
  - intro e. rewrite (abs_edges_at _ cbm st e Jst). unfold conn_at. rewrite (no_gid_at cbm st GE (fst e)).
    destruct (snd e <? fst e); reflexivity.
  - intros id C ms G. discriminate.
Qed.

(* the abstraction of the combined graph IS (equivalent to) the abstract combined model *)
Lemma fsim_eqv cbm st hs : FSim cbm st hs -> eqv (abs_cbm cbm st) (h_cur hs).
Proof. intro S. apply eqv_of_gets; [apply (fs_n _ _ _ S) | apply (fs_e _ _ _ S)]. Qed.

Lemma hase_ext {V} e (l l' : list (ekey * V)) : gete e l = gete e l' -> hase e l = hase e l'.
Proof. unfold hase, has, gete. intros ->. reflexivity. Qed.

Lemma no_new_inner_ext C C' A :
  (forall k, getn k (nodes C) = getn k (nodes C')) -> (forall e, gete e (edges C) = gete e (edges C')) ->
  no_new_inner_edges C A -> no_new_inner_edges C' A.
Proof.
  intros H1 H2 N e He X Y. rewrite <- (hase_ext e _ _ (H2 e)). apply N; auto.
  - rewrite (hasn_ext _ _ _ (H1 (fst e))). exact X.
  - rewrite (hasn_ext _ _ _ (H1 (snd e))). exact Y.
Qed.

(* unmerge is the inverse of merge on the store; known finding F2 is exactly the hypothesis no_new_inner_edges *)
Theorem store_unmerge_inverse cbm adm tmp st hs st1 st2 :
  FSim cbm st hs -> fpre cbm (OpMerge adm tmp) st hs ->
  no_new_inner_edges (abs_cbm cbm st) (abs_adm adm st) ->
  merge_adm cbm adm tmp st = OOk st1 -> unmerge_adm cbm adm st1 = OOk st2 ->
  eqv (abs_cbm cbm st2) (abs_cbm cbm st).
Proof.
  intros S P NI H1 H2.
  destruct (merge_not_refused abs_adm (fun _ _ => eq_refl) (fun _ _ => eq_refl) cbm adm tmp st hs st1 (fsim_core _ _ _ S) (proj1 P) H1)
    as (C' & SM & HS).
  assert (FSim cbm st1 (hstep hs (fhop_of st (OpMerge adm tmp)))) as S1 by (eapply fsim_step; eauto).
  simpl fhop_of in S1. rewrite HS in S1.
  assert (gexists cbm st1 = true) as GE1.
  { unfold unmerge_adm in H2. destruct (gexists cbm st1); auto. discriminate. }
  assert (FSim cbm st2 (hstep (mkH C' (h_ms hs ++ [abs_adm adm st]) (h_snaps hs)) (fhop_of st1 (OpUnmerge adm)))) as S2.
  { eapply fsim_step; eauto. split; [exact GE1|exact I]. }
  destruct (fs_inv _ _ _ S) as [IC _]. destruct P as [(_ & _ & _ & NM) [WA _]].
  assert (~ In adm (map adm_id (h_ms hs))) as NIn by (intro X; apply mem_In in X; congruence).
  apply (eqv_trans _ (sunmerge C' adm)); [apply (fsim_eqv _ _ _ S2)|].
  apply (eqv_trans _ (h_cur hs)); [|apply eqv_sym; apply (fsim_eqv _ _ _ S)].
  apply (unmerge_inverse (h_cur hs) (abs_adm adm st) C'); auto.
  - apply (Inv_wf_cbm _ _ IC).
  - apply wf_admb_sound. exact WA.
  - apply (Inv_not_contributor _ _ adm IC NIn).
  - apply (no_new_inner_ext (abs_cbm cbm st)); auto; [apply (fs_n _ _ _ S) | apply (fs_e _ _ _ S)].
Qed.

Theorem store_rollback cbm id mid st hs st' hs' :
  FSim cbm st hs ->
  fpre_run cbm st hs (OpSnap id :: mid ++ [OpRollback id]) ->
  fsim_run cbm st hs (OpSnap id :: mid ++ [OpRollback id]) = Some (st', hs') ->
  forallb (fun o => negb (otouches id o)) mid = true ->
  eqv (abs_cbm cbm st') (abs_cbm cbm st).
Proof.
  intros S P H T.
  destruct (fsim_run_ok cbm _ st hs st' hs' S P H) as [S' _].
  apply (eqv_trans _ (h_cur hs')); [apply (fsim_eqv _ _ _ S')|].
  destruct (run_by_rollback abs_adm cbm id mid st hs st' hs' H) as [-> _]; auto.
  - apply (core_fresh_snap cbm st hs id (fsim_core _ _ _ S)). apply P.
  - apply eqv_sym. apply (fsim_eqv _ _ _ S).
Qed.

Lemma abs_edges_gE g st :
  abs_edges g st = flat_map (edge_abs g st) (gE (gints g st) (s_edges st)).
Proof.
  rewrite abs_edges_flat. unfold gE. induction (s_edges st) as [|e r IH]; simpl; auto.
  destruct (Cbm14Store.touches (gints g st) e) eqn:T; simpl; [rewrite IH; reflexivity|].
  unfold Cbm14Store.touches in T. apply orb_false_iff in T as [TA TB]. apply memN_false in TA, TB.
  unfold edge_abs at 1.
  destruct (nid_of_int (of_gid g st) (e_a e)) eqn:A; [|exact IH].
  exfalso. apply TA. unfold gints. apply nid_of_int_in in A. exact A.
Qed.

Lemma abs_adm_same g st st' : Same g st st' -> abs_adm g st' = abs_adm g st.
Proof.
  intros [H1 H2]. unfold abs_adm, abs_adm_nodes. rewrite H1. f_equal.
  rewrite (abs_edges_gE g st'), (abs_edges_gE g st).
  assert (gints g st' = gints g st) as G by (unfold gints; rewrite H1; reflexivity).
  rewrite G, H2. apply flat_map_ext. intro e. unfold edge_abs. rewrite H1. reflexivity.
Qed.

Definition fadms_of (st0 : store) (l : list (N * N)) : list adm := map (fun p => abs_adm (fst p) st0) l.

Lemma Same_sym_gints g a b : Same g a b -> gints g b = gints g a.
Proof. intros [H _]. unfold gints. rewrite H. reflexivity. Qed.

(* merging the same delegation models in two orders gives EQUIVALENT combined graphs (nodes and connections) *)
Theorem store_order_independent cbm st hs l1 l2 st1 hs1 st2 hs2 :
  FSim cbm st hs ->
  Permutation (map fst l1) (map fst l2) -> ~ In cbm (map fst l1) ->
  (forall a, In a (map fst l1) -> gexists a st = true /\ Good a st) ->
  pairwise_compatible (fadms_of st l1) ->
  fpre_run cbm st hs (mops l1) -> fsim_run cbm st hs (mops l1) = Some (st1, hs1) ->
  fpre_run cbm st hs (mops l2) -> fsim_run cbm st hs (mops l2) = Some (st2, hs2) ->
  eqv (abs_cbm cbm st1) (abs_cbm cbm st2).
Proof.
  intros S0 PM NC GS PC P1 R1 P2 R2.
  destruct (order_independent abs_adm (fun _ _ => eq_refl) (fun _ _ => eq_refl) (fun g a b X => abs_adm_same g a b X)
              fpre FSim fsim_core (fun _ _ _ _ p => proj1 p) (fun c o s h _ p => fpre_wf c o s h p) fsim_step
              cbm st hs l1 l2 st1 hs1 st2 hs2 S0 PM NC GS PC P1 R1 P2 R2) as (S1 & S2 & EQ).
  apply (eqv_trans _ (h_cur hs1)); [apply (fsim_eqv _ _ _ S1)|].
  apply (eqv_trans _ (h_cur hs2)); [exact EQ|apply eqv_sym; apply (fsim_eqv _ _ _ S2)].
Qed.

Theorem unmerge_refines cbm g st :
  J (s_next st) (s_nodes st) -> cbm_ok cbm (s_nodes st) -> gexists cbm st = true ->
  exists st', unmerge_adm cbm g st = OOk st' /\ eqv (abs_cbm cbm st') (sunmerge (abs_cbm cbm st) g).
Proof.
  intros Jst W GE.
  destruct (unmerge_refines_nodes cbm g st Jst W GE) as (st1 & E & UG & _).
  destruct (unmerge_refines_edges cbm g st Jst W GE) as (st2 & E2 & UE & _).
  rewrite E in E2. inversion E2; subst st2. exists st1. split; auto. apply eqv_of_gets; auto.
Qed.

Theorem snapshot_refines cbm new st :
  J (s_next st) (s_nodes st) -> ebelow (s_next st) (s_edges st) -> gexists cbm st = true -> gexists new st = false ->
  exists st', snapshot cbm new st = OOk st' /\
              eqv (abs_cbm new st') (abs_cbm cbm st) /\ eqv (abs_cbm cbm st') (abs_cbm cbm st).
Proof.
  intros Jst EB GE FR.
  destruct (snapshot_refines_nodes cbm new st Jst GE FR) as (st1 & E & SG & OT & _).
  destruct (snapshot_refines_edges cbm new st Jst EB GE FR) as (st2 & E2 & SE & OE & _).
  rewrite E in E2. inversion E2; subst st2. exists st1. split; auto.
  assert (new <> cbm) as NN by (intro; subst; congruence).
  split; apply eqv_of_gets; auto.
  - intro k. simpl nodes. rewrite !getn_abs, OT; auto.
  - intro e. apply OE. auto.
Qed.

Theorem rollback_refines cbm sid st :
  J (s_next st) (s_nodes st) -> sid <> cbm -> gexists sid st = true ->
  exists st', rollback cbm sid st = OOk st' /\ eqv (abs_cbm cbm st') (abs_cbm sid st).
Proof.
  intros Jst NE GE.
  destruct (rollback_refines_nodes cbm sid st Jst NE GE) as (st1 & E & RG & _).
  destruct (rollback_refines_edges cbm sid st Jst NE GE) as (st2 & E2 & RE & _).
  rewrite E in E2. inversion E2; subst st2. exists st1. split; auto. apply eqv_of_gets; auto.
Qed.

Lemma ex_full :
  rgoodb 0 ex_store = true /\ goodb 1 ex_store = true /\ gexists 0 ex_store = false /\
  fpre_run 0 ex_store hinit ex_sops /\
  exists st' hs', fsim_run 0 ex_store hinit ex_sops = Some (st', hs') /\
                  map adm_id (h_ms hs') = [1] /\ map fst (edges (h_cur hs')) = [(10, 11)] /\
                  map fst (abs_edges 0 st') = [(10, 11)].
Proof.
  split; [vm_compute; reflexivity|]. split; [vm_compute; reflexivity|]. split; [vm_compute; reflexivity|]. split.
  - vm_compute. repeat split; try reflexivity; try discriminate.
  - eexists. eexists. split; [vm_compute; reflexivity|]. split; [|split]; vm_compute; reflexivity.
Qed.
