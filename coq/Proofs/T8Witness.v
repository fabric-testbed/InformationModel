(* C08: concrete graphs (G1-G8, G10-G15).  Non-vacuity of the hypotheses of the theorems, and the graph on which the link
   equation fails without WL.  The scenarios G1, G3-G6 (behaviour repaired by the fixes 4c6e5fb / 13b815d / edd75a8) are
   also in corpus/C08/w_*.json for the harness. *)
From Coq Require Import List NArith Bool.
From FIM Require Import Model.T8Graph Model.T8Ops Proofs.T8Sound Proofs.T8Complete
     Proofs.T8Fixed Proofs.T8Link Proofs.T8Art Proofs.T8Eq.
Import ListNotations.
Open Scope N_scope.

(* G1: node n1 (1) with a SmartNIC (2, service 3, dedicated ports 4 and 5, sub-interface 6 on port 5);
   node n2 (10) with a shared NIC (11, service 12, port 13); top-level service net (7) with service ports
   8 (peer of port 4 over link 9), 14 (peer of port 13 over link 15), 16 (peer of sub-interface 6 over 17) *)
Definition G1 : graph := mkGraph
  [ mkNode 1 CNode 10 1 false 1; mkNode 2 CComp 11 2 false 1; mkNode 3 CNS 12 3 false 1;
    mkNode 4 CCP 4 4 false 1; mkNode 5 CCP 4 5 false 1; mkNode 6 CCP 5 6 false 1;
    mkNode 7 CNS 13 7 false 1; mkNode 8 CCP 1 8 false 1; mkNode 9 CLink 14 9 false 1;
    mkNode 10 CNode 10 10 false 1; mkNode 11 CComp 15 11 false 1; mkNode 12 CNS 12 12 false 1;
    mkNode 13 CCP 16 13 false 1; mkNode 14 CCP 1 14 false 1; mkNode 15 CLink 17 15 false 1;
    mkNode 16 CCP 1 16 false 1; mkNode 17 CLink 14 17 false 1 ]
  [ mkEdge 1 2 RHas; mkEdge 2 3 RHas; mkEdge 3 4 RConnects; mkEdge 3 5 RConnects; mkEdge 5 6 RConnects;
    mkEdge 7 8 RConnects; mkEdge 4 9 RConnects; mkEdge 8 9 RConnects;
    mkEdge 10 11 RHas; mkEdge 11 12 RHas; mkEdge 12 13 RConnects; mkEdge 7 14 RConnects;
    mkEdge 13 15 RConnects; mkEdge 14 15 RConnects; mkEdge 7 16 RConnects; mkEdge 6 17 RConnects;
    mkEdge 16 17 RConnects ].

Definition trace_of {A} (r : (A + exn) * st) : list N := sortN (snd (snd r)).
Definition ok_of {A} (r : (A + exn) * st) : bool := match fst r with inl _ => true | inr _ => false end.

(* removing n2: the node, its component, service and port, the peering service port 14 and link 15 *)
Example ex_remove_node_n2 :
  ok_of (run (exec true (ORemoveNode 10) []) G1) = true /\
  trace_of (run (exec true (ORemoveNode 10) []) G1) = [10; 11; 12; 13; 14; 15].
Proof. vm_compute. split; reflexivity. Qed.

Lemma link2_of_ends g l i j : class_of g l = CLink -> i <> j -> cpn g l = [i; j] \/ cpn g l = [j; i] -> link2 g l i j.
Proof.
  intros Hc Hne He. split; [exact Hc|]. split; [exact Hne|]. intros y. destruct He as [-> | ->]; simpl; intuition auto.
Qed.

Lemma link2_G1_15 : link2 G1 15 13 14.
Proof. apply link2_of_ends; [reflexivity | discriminate | vm_compute; auto]. Qed.

Lemma link2_G1_17 : link2 G1 17 6 16.
Proof. apply link2_of_ends; [reflexivity | discriminate | vm_compute; auto]. Qed.

(* sub-interface 6 hangs on port 5 alone *)
Lemma sole_G1_5_6 : sole G1 5 6.
Proof.
  assert (E1 : cpn G1 5 = [6]) by (vm_compute; reflexivity).
  assert (E2 : cpn G1 6 = [5]) by (vm_compute; reflexivity).
  unfold sole. rewrite E1, E2. simpl. split; [auto|]. split; [auto|]. intros y [H|[]]. auto.
Qed.

(* removing n1: the connected sub-interface 6 is disconnected too - service ports 8 and 16 and links 9, 17 go *)
Example ex_remove_node_n1 :
  ok_of (run (exec true (ORemoveNode 1) []) G1) = true /\
  trace_of (run (exec true (ORemoveNode 1) []) G1) = [1; 2; 3; 4; 5; 6; 8; 9; 16; 17] /\
  sortN (disc_list G1 (node_interface_list G1 1)) = [4; 5; 6] /\ topo_nodes G1 1 = [1] /\
  type_of G1 16 = T_ServicePort.
Proof. vm_compute. repeat split; reflexivity. Qed.

(* hypotheses of handles_disconnect hold for "net.disconnect_interface(port 13)" *)
Example ex_disconnect_hyps :
  class_of G1 7 = CNS /\ sortN (cpn G1 7) = [8; 14; 16] /\ get_peers_typed G1 13 T_ServicePort = Some [14] /\ cpn G1 14 = [] /\
  ok_of (run (exec true (ODisconnect 7 13) [[8; 14; 16]]) G1) = true /\
  trace_of (run (exec true (ODisconnect 7 13) [[8; 14; 16]]) G1) = [14; 15].
Proof. vm_compute. repeat split; reflexivity. Qed.

(* G2: two peered services a (1), b (2): service ports 3 and 4 facing each other over link 5 *)
Definition G2 : graph := mkGraph
  [ mkNode 1 CNS 13 1 false 1; mkNode 2 CNS 13 2 false 1; mkNode 3 CCP 1 3 false 1; mkNode 4 CCP 1 4 false 1;
    mkNode 5 CLink 14 5 false 1 ]
  [ mkEdge 1 3 RConnects; mkEdge 2 4 RConnects; mkEdge 3 5 RConnects; mkEdge 4 5 RConnects ].

Example ex_unpeer_hyps :
  unpeer_ends G2 1 2 = Some [(3, 4)] /\ cpn G2 3 = [] /\ cpn G2 4 = [] /\ class_of G2 3 = CCP /\ class_of G2 4 = CCP /\
  cpn G2 1 = [3] /\ cpn G2 2 = [4] /\
  fst (run (exec true (OUnpeer 1 2) [[3]; [4]]) G2) = inl [[]; []] /\
  trace_of (run (exec true (OUnpeer 1 2) [[3]; [4]]) G2) = [3; 4; 5].
Proof. vm_compute. repeat split; reflexivity. Qed.

(* G3: services a (1) and b (2) do NOT peer; both are connected to interfaces (5, 7) of one node-side
   service (6): a - sp 3 - link 4 - 5 - 6 - 7 - link 8 - sp 9 - b *)
Definition G3 : graph := mkGraph
  [ mkNode 1 CNS 13 1 false 1; mkNode 2 CNS 13 2 false 1; mkNode 3 CCP 1 3 false 1; mkNode 4 CLink 14 4 false 1;
    mkNode 5 CCP 4 5 false 1; mkNode 6 CNS 12 6 false 1; mkNode 7 CCP 4 7 false 1; mkNode 8 CLink 14 8 false 1;
    mkNode 9 CCP 1 9 false 1 ]
  [ mkEdge 1 3 RConnects; mkEdge 3 4 RConnects; mkEdge 4 5 RConnects; mkEdge 5 6 RConnects; mkEdge 6 7 RConnects;
    mkEdge 7 8 RConnects; mkEdge 8 9 RConnects; mkEdge 2 9 RConnects ].

(* not peered: no chain of four connects edges from a to b; unpeer raises and deletes nothing *)
Example ex_unpeer_not_peered :
  chains4 G3 1 2 = [] /\ unpeer_ends G3 1 2 = None /\
  fst (run (exec true (OUnpeer 1 2) [[3]; [9]]) G3) = inr ETopology /\
  trace_of (run (exec true (OUnpeer 1 2) [[3]; [9]]) G3) = [].
Proof. vm_compute. repeat split; reflexivity. Qed.

Lemma G3_not_peered : forall x m y, In x (cn G3 1) -> In m (cn G3 x) -> In y (cn G3 m) -> ~ In 2 (cn G3 y).
Proof.
  assert (E1 : cn G3 1 = [3]) by (vm_compute; reflexivity).
  assert (E3 : cn G3 3 = [1; 4]) by (vm_compute; reflexivity).
  assert (E4 : cn G3 4 = [3; 5]) by (vm_compute; reflexivity).
  assert (E5 : cn G3 5 = [4; 6]) by (vm_compute; reflexivity).
  intros x m y Hx. rewrite E1 in Hx. destruct Hx as [<-|[]]. rewrite E3. intros [<-|[<-|[]]].
  - rewrite E1. intros [<-|[]]. rewrite E3. simpl. intuition discriminate.
  - rewrite E4. intros [<-|[<-|[]]]; [rewrite E3 | rewrite E5]; simpl; intuition discriminate.
Qed.

(* G4: interface 2 is linked (3) to another node interface 4, not to a service port *)
Definition G4 : graph := mkGraph
  [ mkNode 1 CNS 13 1 false 1; mkNode 2 CCP 4 2 false 1; mkNode 3 CLink 14 3 false 1; mkNode 4 CCP 4 4 false 1 ]
  [ mkEdge 2 3 RConnects; mkEdge 3 4 RConnects ].

(* the peer of interface 2 is not a ServicePort: disconnect_interface returns and deletes nothing *)
Example ex_disconnect_non_service_port :
  fst (run (exec true (ODisconnect 1 2) [[]]) G4) = inl [[]] /\ trace_of (run (exec true (ODisconnect 1 2) [[]]) G4) = [].
Proof. vm_compute. split; reflexivity. Qed.

(* G5 / G6: stale handle caches *)
Definition G5 : graph := mkGraph
  [ mkNode 1 CNS 13 1 false 1; mkNode 2 CCP 18 7 false 1 ] [ mkEdge 1 2 RConnects ].
Definition G6 : graph := mkGraph
  [ mkNode 1 CCP 4 1 false 1; mkNode 2 CCP 5 7 false 1 ] [ mkEdge 1 2 RConnects ].

(* the handle lists follow the removal; the hypotheses of handles_remove_interface / handles_remove_child hold *)
Example ex_remove_interface_handle :
  class_of G5 1 = CNS /\ cpn G5 1 = [2] /\ cpn G5 2 = [] /\
  fst (run (exec false (ORemoveInterface 1 7) [[2]]) G5) = inl [[]].
Proof. vm_compute. repeat split; reflexivity. Qed.

Example ex_remove_child_handle :
  cpn G6 1 = [2] /\ peer_cps G6 2 = [] /\
  fst (run (exec true (ORemoveChild 1 7) [[2]]) G6) = inl [[]].
Proof. vm_compute. repeat split; reflexivity. Qed.

(* G7: a NIC's own service (1) with its physical port 2, connected over link 3 to service port 4 of service 5:
   a chain of four connects edges exists, but its end 2 is not a ServicePort: unpeer raises (fix 0d94156) *)
Definition G7 : graph := mkGraph
  [ mkNode 1 CNS 12 1 false 1; mkNode 2 CCP 4 2 false 1; mkNode 3 CLink 14 3 false 1; mkNode 4 CCP 1 4 false 1;
    mkNode 5 CNS 13 5 false 1 ]
  [ mkEdge 1 2 RConnects; mkEdge 2 3 RConnects; mkEdge 3 4 RConnects; mkEdge 4 5 RConnects ].

Example ex_unpeer_node_port :
  unpeer_ends G7 1 5 = Some [(2, 4)] /\ both_sp G7 (2, 4) = false /\
  fst (run (exec true (OUnpeer 1 5) [[2]; [4]]) G7) = inr ETopology /\
  trace_of (run (exec true (OUnpeer 1 5) [[2]; [4]]) G7) = [].
Proof. vm_compute. repeat split; reflexivity. Qed.

(* removing the peered service 1 of G2 through the API: the other service's port 4 goes too (fix 18b6247) *)
Example ex_remove_peered_service :
  by_name G2 CNS 1 = [1] /\ disc_list G2 (cpn G2 1) = [3] /\ type_of G2 4 = T_ServicePort /\
  ok_of (run (exec true (ORemoveNsTopo 1) []) G2) = true /\
  trace_of (run (exec true (ORemoveNsTopo 1) []) G2) = [1; 3; 4; 5].
Proof. vm_compute. repeat split; reflexivity. Qed.

Lemma link2_G2_5 : link2 G2 5 3 4.
Proof. apply link2_of_ends; [reflexivity | discriminate | vm_compute; auto]. Qed.

(* removing the peering link 5 of G2 by hand is refused (fix 65db950) *)
Example ex_remove_peering_link :
  by_name G2 CLink 5 = [5] /\ link_has_service_port G2 5 = true /\
  fst (run (exec true (ORemoveLink 5) []) G2) = inr ETopology /\ trace_of (run (exec true (ORemoveLink 5) []) G2) = [].
Proof. vm_compute. repeat split; reflexivity. Qed.

(* the interfaces of n1 in G1 are not connected to each other *)
Lemma G1_self_peer_free : self_peer_free G1 (ORemoveNode 1) 6.
Proof.
  unfold self_peer_free, disc_ifs. intros jj [n [Hn Hjj]].
  assert (E1 : topo_nodes G1 1 = [1]) by (vm_compute; reflexivity). rewrite E1 in Hn. destruct Hn as [<-|[]].
  assert (E2 : disc_list G1 (node_interface_list G1 1) = [4; 5; 6]) by (vm_compute; reflexivity).
  rewrite E2 in Hjj.
  assert (P4 : peer_cps G1 4 = [8]) by (vm_compute; reflexivity).
  assert (P5 : peer_cps G1 5 = []) by (vm_compute; reflexivity).
  assert (P6 : peer_cps G1 6 = [16]) by (vm_compute; reflexivity).
  assert (C8 : cpn G1 8 = []) by (vm_compute; reflexivity).
  assert (C16 : cpn G1 16 = []) by (vm_compute; reflexivity).
  destruct Hjj as [<-|[<-|[<-|[]]]].
  - rewrite P4. split; [simpl; intuition discriminate|]. intros p [<-|[]] _. rewrite C8. intros [].
  - rewrite P5. split; [intros []|]. intros p [].
  - rewrite P6. split; [simpl; intuition discriminate|]. intros p [<-|[]] _. rewrite C16. intros [].
Qed.

(* G8: "peered AND connected": node-level service 1 has port 2, connected over link 3 to service port 4 of service 5;
   the two services also peer: service port 6 of 1 - link 7 - service port 8 of 5.  Two 5-node connects paths. *)
Definition G8 : graph := mkGraph
  [ mkNode 1 CNS 12 1 false 1; mkNode 2 CCP 19 2 false 1; mkNode 3 CLink 14 3 false 1; mkNode 4 CCP 1 4 false 1;
    mkNode 5 CNS 13 5 false 1; mkNode 6 CCP 1 6 false 1; mkNode 7 CLink 14 7 false 1; mkNode 8 CCP 1 8 false 1 ]
  [ mkEdge 1 2 RConnects; mkEdge 2 3 RConnects; mkEdge 3 4 RConnects; mkEdge 4 5 RConnects;
    mkEdge 1 6 RConnects; mkEdge 6 7 RConnects; mkEdge 7 8 RConnects; mkEdge 5 8 RConnects ].

(* the shortest-path unpeer has two candidate paths (which one networkx takes decides between success and
   "do not peer"); the rewrite of C08-6 finds the one peering pair and removes exactly it *)
Example ex_unpeer6_peered_and_connected :
  (exists l, unpeer_ends G8 1 5 = Some l /\ length l = 2%nat) /\
  fst (run (exec true (OUnpeer 1 5) [[2; 6]; [4; 8]]) G8) = inr EAmbig /\
  unpeer_pairs G8 1 5 = [(6, 8)] /\ cpn G8 6 = [] /\ cpn G8 8 = [] /\ class_of G8 1 = CNS /\
  fst (run (exec true (OUnpeer6 1 5) [[2; 6]; [4; 8]]) G8) = inl [[2]; [4]] /\
  trace_of (run (exec true (OUnpeer6 1 5) [[2; 6]; [4; 8]]) G8) = [6; 7; 8].
Proof. split; [eexists; split; vm_compute; reflexivity|]. vm_compute. repeat split; reflexivity. Qed.

(* G7 (a NIC's own service vs the service its port is connected to): no pair, C08-6 raises as well *)
Example ex_unpeer6_node_port :
  unpeer_pairs G7 1 5 = [] /\ fst (run (exec true (OUnpeer6 1 5) [[2]; [4]]) G7) = inr ETopology.
Proof. vm_compute. split; reflexivity. Qed.

(* ---- links of three ends ---- *)
(* G10: link 1 with three ends 2, 3, 4; each end is the port of its own node-level service (5, 6, 7) *)
Definition G10 : graph := mkGraph
  [ mkNode 1 CLink 14 1 false 1; mkNode 2 CCP 16 2 false 1; mkNode 3 CCP 16 3 false 1; mkNode 4 CCP 16 4 false 1;
    mkNode 5 CNS 12 5 false 1; mkNode 6 CNS 12 6 false 1; mkNode 7 CNS 12 7 false 1 ]
  [ mkEdge 1 2 RConnects; mkEdge 1 3 RConnects; mkEdge 1 4 RConnects;
    mkEdge 5 2 RConnects; mkEdge 6 3 RConnects; mkEdge 7 4 RConnects ].

Lemma WL_G10 : WL G10.
Proof. apply wlb_sound. vm_compute. reflexivity. Qed.
Lemma WL_G1 : WL G1.
Proof. apply wlb_sound. vm_compute. reflexivity. Qed.

(* removing service 5 takes end 2: two ends survive, the link stays; then removing service 6 too: one end survives,
   the link goes (computed here on the graph after the first removal) *)
Example ex_three_end_link :
  trace_of (run (exec false (ORemoveNsTopo 5) []) G10) = [2; 5] /\
  trace_of (run (exec false (ORemoveNsTopo 6) []) (fst (snd (run (exec false (ORemoveNsTopo 5) []) G10)))) = [1; 3; 6].
Proof. vm_compute. split; reflexivity. Qed.

(* G11: WL fails - port 2 of service 1 and its sub-interface 3 are BOTH ends of link 4 (third end: 5).  Removing the
   port takes 2 and 3 in one call after one test "exactly two?" (no: three): the link stays with a single end. *)
Definition G11 : graph := mkGraph
  [ mkNode 1 CNS 12 1 false 1; mkNode 2 CCP 4 2 false 1; mkNode 3 CCP 5 3 false 1; mkNode 4 CLink 14 4 false 1;
    mkNode 5 CCP 16 5 false 1 ]
  [ mkEdge 1 2 RConnects; mkEdge 2 3 RConnects; mkEdge 2 4 RConnects; mkEdge 3 4 RConnects; mkEdge 4 5 RConnects ].

Example link_iff_needs_WL :
  wlb G11 = false /\
  ok_of (run (exec false (ORemoveInterface 1 2) [[2]]) G11) = true /\
  trace_of (run (exec false (ORemoveInterface 1 2) [[2]]) G11) = [2; 3] /\
  class_of G11 4 = CLink /\ sortN (cpn G11 4) = [2; 3; 5] /\
  surv (snd (snd (run (exec false (ORemoveInterface 1 2) [[2]]) G11))) (cpn G11 4) = [5].
Proof. vm_compute. repeat split; reflexivity. Qed.

(* G12: node 1 with two node-level services 2 and 3 that PEER WITH EACH OTHER: service port 4 of 2 - link 6 - service
   port 5 of 3.  remove_node: the loop disconnects 4 (deleting its peer 5 and the link) and then SKIPS 5 (fix 5286851);
   the hypothesis self_peer_free of C08_artefact_ports_deleted fails for ii = 5, WP holds, and the port 4 across the
   link from the skipped 5 is deleted with the node *)
Definition G12 : graph := mkGraph
  [ mkNode 1 CNode 10 1 false 1; mkNode 2 CNS 12 2 false 1; mkNode 3 CNS 12 3 false 1;
    mkNode 4 CCP 1 4 false 1; mkNode 5 CCP 1 5 false 1; mkNode 6 CLink 14 6 false 1 ]
  [ mkEdge 1 2 RHas; mkEdge 1 3 RHas; mkEdge 2 4 RConnects; mkEdge 3 5 RConnects; mkEdge 4 6 RConnects; mkEdge 5 6 RConnects ].

Lemma WP_G12 : WP G12.
Proof. apply wpb_sound. vm_compute. reflexivity. Qed.
Lemma WP_G1 : WP G1.
Proof. apply wpb_sound. vm_compute. reflexivity. Qed.

Lemma link2_G12 : link2 G12 6 5 4.
Proof. apply link2_of_ends; [reflexivity | discriminate | vm_compute; auto]. Qed.

Example ex_own_services_peer :
  ok_of (run (exec true (ORemoveNode 1) []) G12) = true /\
  trace_of (run (exec true (ORemoveNode 1) []) G12) = [1; 2; 3; 4; 5; 6] /\
  topo_nodes G12 1 = [1] /\ sortN (disc_list G12 (node_interface_list G12 1)) = [4; 5] /\
  peer_cps G12 4 = [5] /\ type_of G12 4 = T_ServicePort.
Proof. vm_compute. repeat split; reflexivity. Qed.

Lemma WQ_G1 : WQ G1.
Proof. apply wqb_sound. vm_compute. reflexivity. Qed.
Lemma WQ_G12 : WQ G12.
Proof. apply wqb_sound. vm_compute. reflexivity. Qed.
Lemma WQ_G10 : WQ G10.
Proof. apply wqb_sound. vm_compute. reflexivity. Qed.

(* G13: dedicated port 2 of service 1 with its ONLY sub-interface 3, marked (nmark); the port is connected to service
   port 5 of service 6 over link 4.  The prune of proposed_fixes/C08-8 removes the sub-interface and nothing else - the
   port above it is not owned by it; prune before C08-8 does not visit the sub-interface at all. *)
Definition G13 : graph := mkGraph
  [ mkNode 1 CNS 12 1 false 1; mkNode 2 CCP 4 2 false 1; mkNode 3 CCP 5 3 true 1; mkNode 4 CLink 14 4 false 1;
    mkNode 5 CCP 1 5 false 1; mkNode 6 CNS 13 6 false 1 ]
  [ mkEdge 1 2 RConnects; mkEdge 2 3 RConnects; mkEdge 2 4 RConnects; mkEdge 4 5 RConnects; mkEdge 5 6 RConnects ].

Example ex_prune_only_child :
  trace_of (run (exec true OPrune7 []) G13) = [] /\
  ok_of (run (exec true OPrune8 []) G13) = true /\
  trace_of (run (exec true OPrune8 []) G13) = [3] /\
  with_children G13 2 = [2; 3] /\ marked G13 3 = true.
Proof. vm_compute. repeat split; reflexivity. Qed.

(* G14: Facility node 1 (marked) with service 2 and port 3, the port connected to service port 5 of service 6 over link
   4.  Topology.nodes leaves Facility nodes out: prune before proposed_fixes/C08-9 does not visit node 1 and deletes
   nothing; afterwards it removes the facility with what it owns and the peering artefacts (link 4, service port 5),
   and service 6 stays. *)
Definition G14 : graph := mkGraph
  [ mkNode 1 CNode 2 1 true 1; mkNode 2 CNS 12 2 false 1; mkNode 3 CCP 11 3 false 1; mkNode 4 CLink 14 4 false 1;
    mkNode 5 CCP 1 5 false 1; mkNode 6 CNS 13 6 false 1 ]
  [ mkEdge 1 2 RHas; mkEdge 2 3 RConnects; mkEdge 3 4 RConnects; mkEdge 4 5 RConnects; mkEdge 5 6 RConnects ].

Example ex_prune_facility :
  trace_of (run (exec true OPrune8 []) G14) = [] /\
  ok_of (run (exec true OPrune9 []) G14) = true /\
  trace_of (run (exec true OPrune9 []) G14) = [1; 2; 3; 4; 5] /\
  prune_nodes G14 = [] /\ all_of_class G14 CNode = [1] /\ type_of G14 1 = T_Facility /\ marked G14 1 = true.
Proof. vm_compute. repeat split; reflexivity. Qed.

(* G15: node 1 has component 2 with service 3 and dedicated port 4; sub-interface 5 of that port carries a PLAIN link 6
   (Topology.add_link, no ServicePort) to port 7 of service 8.  Removing the component (or the node) deletes the
   sub-interface with its port AND the link on the sub-interface; port 7 and service 8 stay.  G15 satisfies the
   hypothesis WQ of the equation theorems, so "a link is deleted iff it had two ends and lost one" speaks about link 6. *)
Definition G15 : graph := mkGraph
  [ mkNode 1 CNode 11 1 false 1; mkNode 2 CComp 12 2 false 1; mkNode 3 CNS 13 3 false 1; mkNode 4 CCP 4 4 false 1;
    mkNode 5 CCP 5 5 false 1; mkNode 6 CLink 14 6 false 1; mkNode 7 CCP 4 7 false 1; mkNode 8 CNS 13 8 false 1 ]
  [ mkEdge 1 2 RHas; mkEdge 2 3 RHas; mkEdge 3 4 RConnects; mkEdge 4 5 RConnects; mkEdge 5 6 RConnects;
    mkEdge 6 7 RConnects; mkEdge 7 8 RConnects ].

Example ex_link_on_subinterface :
  ok_of (run (exec true (ORemoveComponent 1 2) []) G15) = true /\
  trace_of (run (exec true (ORemoveComponent 1 2) []) G15) = [2; 3; 4; 5; 6] /\
  ok_of (run (exec true (ORemoveNode 1) []) G15) = true /\
  trace_of (run (exec true (ORemoveNode 1) []) G15) = [1; 2; 3; 4; 5; 6] /\
  type_of G15 5 = T_SubInterface /\ first_neighbor G15 6 RConnects CCP = [5; 7].
Proof. vm_compute. repeat split; reflexivity. Qed.
Lemma WQ_G15 : WQ G15.
Proof. apply wqb_sound. vm_compute. reflexivity. Qed.
