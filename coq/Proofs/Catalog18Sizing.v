(* C18, instance sizing: the threshold-cell argument.

   map_caps cat req depends on req only through the candidate list filter (fits req) (values cat).
   Two requests that compare the same way (>=) with every catalogue value of each dimension have the same
   candidate list; `rep_of` sends a coordinate to the least catalogue value >= it, or max+1 when there is
   none, and that representative compares the same way with every catalogue value.  So the behaviour on ALL
   of Z^3 is determined by the finitely many representatives `reps cat` (`sizing_all_requests`, which does not
   depend on how list.sort works).  That `class_ok` holds of each representative is shown for the regenerated
   catalogue at the end: by argument where the candidates stand in lexicographic order (`listed_class_ok`:
   list.sort returns such a list as it is), by running the model on the remaining cells. *)
From Coq Require Import List ZArith Bool Lia String Sorted.
From FIM Require Import Base.ListFacts Base.Str Base.PySort Gen.Catalog Model.Catalog18 Proofs.PySortPerm Proofs.Catalog18Generic Proofs.Catalog18Lookup.
Import ListNotations.
Open Scope Z_scope.

Definition max_of (vs : list Z) : Z := fold_right Z.max 0 vs.
Definition min_of (v : Z) (l : list Z) : Z := fold_right Z.min v l.

Definition rep_of (vs : list Z) (x : Z) : Z :=
  match filter (fun v => x <=? v) vs with
  | [] => max_of vs + 1
  | v :: l => min_of v l
  end.

Definition axis (vs : list Z) : list Z := (max_of vs + 1) :: nodup Z.eq_dec vs.

Lemma max_of_ge vs v : In v vs -> v <= max_of vs.
Proof.
  induction vs as [|a vs IH]; simpl; [tauto|]. intros [->|H]; [lia|]. specialize (IH H). lia.
Qed.

Lemma min_of_le v l : min_of v l <= v /\ forall u, In u l -> min_of v l <= u.
Proof.
  induction l as [|a l [IH1 IH2]]; simpl; [split; [lia|tauto]|].
  split; [lia|]. intros u [->|H]; [lia|]. specialize (IH2 u H). lia.
Qed.

Lemma min_of_in v l : In (min_of v l) (v :: l).
Proof.
  induction l as [|a l IH]; simpl; [auto|].
  destruct (Z.min_spec a (min_of v l)) as [[_ ->]|[_ ->]]; [auto|].
  destruct IH as [H|H]; [left; exact H|right; right; exact H].
Qed.

Lemma rep_same vs x v : In v vs -> (v >=? x) = (v >=? rep_of vs x).
Proof.
  intro Hv. unfold rep_of.
  destruct (filter (fun v => x <=? v) vs) as [|w l] eqn:E.
  - assert (Hlt : v < x).
    { destruct (Z.ltb_spec v x) as [|Hge]; [assumption|]. exfalso.
      assert (Hin : In v (filter (fun v => x <=? v) vs)) by (apply filter_In; split; [assumption|apply Z.leb_le; lia]).
      rewrite E in Hin. exact Hin. }
    pose proof (max_of_ge vs v Hv). rewrite !Z.geb_leb.
    transitivity false; [|symmetry]; apply Z.leb_gt; lia.
  - destruct (min_of_le w l) as [M1 M2].
    assert (Hm : x <= min_of w l).
    { assert (Hin : In (min_of w l) (filter (fun v => x <=? v) vs)) by (rewrite E; apply min_of_in).
      apply filter_In in Hin. destruct Hin as [_ Hin]. apply Z.leb_le in Hin. exact Hin. }
    rewrite !Z.geb_leb.
    destruct (Z.leb_spec x v) as [Hxv|Hxv].
    + symmetry. apply Z.leb_le.
      assert (Hin : In v (w :: l)) by (rewrite <- E; apply filter_In; split; [assumption|apply Z.leb_le; lia]).
      destruct Hin as [<-|Hin]; [assumption|apply M2; assumption].
    + symmetry. apply Z.leb_gt. lia.
Qed.

Lemma rep_in_axis vs x : In (rep_of vs x) (axis vs).
Proof.
  unfold rep_of, axis.
  destruct (filter (fun v => x <=? v) vs) as [|w l] eqn:E; [left; reflexivity|].
  right. apply nodup_In.
  assert (Hin : In (min_of w l) (filter (fun v => x <=? v) vs)) by (rewrite E; apply min_of_in).
  apply filter_In in Hin. tauto.
Qed.

Definition dim_vals (f : caps3 -> Z) (cat : list inst_entry) : list Z := map (fun e => f (snd e)) cat.

Definition req_rep (cat : list inst_entry) (req : caps3) : caps3 :=
  (rep_of (dim_vals core cat) (core req), rep_of (dim_vals ram cat) (ram req), rep_of (dim_vals disk cat) (disk req)).

(* one representative per threshold cell *)
Definition reps (cat : list inst_entry) : list caps3 :=
  let ac := axis (dim_vals core cat) in
  let ar := axis (dim_vals ram cat) in
  let ad := axis (dim_vals disk cat) in
  flat_map (fun c => flat_map (fun r => map (fun d => (c, r, d)) ad) ar) ac.

(* two requests are in the same cell when they compare alike with every catalogue value *)
Definition same_cell (cat : list inst_entry) (r1 r2 : caps3) : Prop :=
  forall x, In x (map snd cat) -> fits r1 x = fits r2 x.

Lemma same_cell_candidates cat r1 r2 : same_cell cat r1 r2 -> candidates cat r1 = candidates cat r2.
Proof. intro H. unfold candidates. apply filter_ext_in. exact H. Qed.

Lemma same_cell_map_caps cat r1 r2 : same_cell cat r1 r2 -> map_caps cat r1 = map_caps cat r2.
Proof. intro H. unfold map_caps. rewrite (same_cell_candidates _ _ _ H). reflexivity. Qed.

Lemma rep_same_cell cat req : same_cell cat req (req_rep cat req).
Proof.
  intros x Hx. apply in_map_iff in Hx. destruct Hx as [e [<- He]].
  unfold fits, req_rep. cbn [core ram disk fst snd].
  rewrite <- (rep_same (dim_vals core cat) (core req) (core (snd e))),
          <- (rep_same (dim_vals ram cat) (ram req) (ram (snd e))),
          <- (rep_same (dim_vals disk cat) (disk req) (disk (snd e))); [reflexivity| | |];
    unfold dim_vals; apply in_map_iff; exists e; split; auto.
Qed.

Lemma rep_in_reps cat req : In (req_rep cat req) (reps cat).
Proof.
  unfold reps, req_rep. cbv zeta.
  apply in_flat_map. exists (rep_of (dim_vals core cat) (core req)). split; [apply rep_in_axis|].
  apply in_flat_map. exists (rep_of (dim_vals ram cat) (ram req)). split; [apply rep_in_axis|].
  apply in_map_iff. exists (rep_of (dim_vals disk cat) (disk req)). split; [reflexivity|apply rep_in_axis].
Qed.

Definition le3 (a b : caps3) : bool := (core a <=? core b) && (ram a <=? ram b) && (disk a <=? disk b).
Definition caps_eqb (a b : caps3) : bool := (core a =? core b) && (ram a =? ram b) && (disk a =? disk b).
Definition entry_eqb (a b : inst_entry) : bool := str_eqb (fst a) (fst b) && caps_eqb (snd a) (snd b).

Lemma caps_eqb_eq a b : caps_eqb a b = true <-> a = b.
Proof.
  destruct a as [[a1 a2] a3], b as [[b1 b2] b3]. unfold caps_eqb. cbn [core ram disk fst snd].
  rewrite !andb_true_iff, !Z.eqb_eq. split; [intros [[-> ->] ->]; reflexivity|intro H; inversion H; auto].
Qed.
Lemma entry_eqb_eq a b : entry_eqb a b = true <-> a = b.
Proof.
  destruct a as [n c], b as [n' c']. unfold entry_eqb. cbn [fst snd].
  rewrite andb_true_iff, str_eqb_eq, caps_eqb_eq. split; [intros [-> ->]; reflexivity|intro H; inversion H; auto].
Qed.

Definition fits_some (cat : list inst_entry) (req : caps3) : bool := existsb (fun x => fits req (snd x)) cat.

(* the answer for a representative: an entry of the catalogue, named by the result, which -- when something
   fits -- fits and has no other fitting entry below it, and otherwise is the last entry *)
Definition answer_ok (cat : list inst_entry) (req : caps3) (e : inst_entry) : bool :=
  if fits_some cat req
  then fits req (snd e)
       && forallb (fun x => implb (fits req (snd x) && le3 (snd x) (snd e)) (entry_eqb x e)) cat
  else opt_eqb entry_eqb (last_opt cat) (Some e).

Definition class_ok (cat : list inst_entry) (rep : caps3) : bool :=
  match map_caps cat rep with
  | None => false
  | Some n => match find (fun e => str_eqb (fst e) n) cat with
              | None => false
              | Some e => answer_ok cat rep e
              end
  end.

Lemma answer_ok_same_cell cat r1 r2 e : same_cell cat r1 r2 -> In e cat -> answer_ok cat r1 e = answer_ok cat r2 e.
Proof.
  intros H He. unfold answer_ok, fits_some.
  assert (Hf : forall x, In x cat -> fits r1 (snd x) = fits r2 (snd x)).
  { intros x Hx. apply H. apply in_map. exact Hx. }
  assert (E1 : existsb (fun x => fits r1 (snd x)) cat = existsb (fun x => fits r2 (snd x)) cat).
  { clear He. induction cat as [|a cat IH]; simpl; [reflexivity|].
    rewrite (Hf a (or_introl eq_refl)). f_equal. apply IH.
    - intros x Hx. apply H. simpl. right. exact Hx.
    - intros x Hx. apply Hf. right. exact Hx. }
  rewrite E1, (Hf e He).
  destruct (existsb (fun x => fits r2 (snd x)) cat); [|reflexivity].
  f_equal. apply forallb_ext_in. intros x Hx. rewrite (Hf x Hx). reflexivity.
Qed.

Definition sizing_spec (cat : list inst_entry) (req : caps3) : Prop :=
  exists e, In e cat /\ map_caps cat req = Some (fst e) /\
    ((exists x, In x cat /\ fits req (snd x) = true) ->
        fits req (snd e) = true /\
        forall x, In x cat -> fits req (snd x) = true -> le3 (snd x) (snd e) = true -> x = e) /\
    ((forall x, In x cat -> fits req (snd x) = false) -> last_opt cat = Some e).

Lemma class_ok_spec cat req : class_ok cat req = true -> sizing_spec cat req.
Proof.
  unfold class_ok. destruct (map_caps cat req) as [n|] eqn:Em; [|discriminate].
  destruct (find (fun e => str_eqb (fst e) n) cat) as [e|] eqn:Ef; [|discriminate].
  apply find_some in Ef. destruct Ef as [He Hn]. apply str_eqb_eq in Hn.
  intro Hok. exists e. split; [exact He|]. split; [rewrite Hn; exact Em|].
  unfold answer_ok, fits_some in Hok.
  destruct (existsb (fun x => fits req (snd x)) cat) eqn:Ex.
  - apply andb_true_iff in Hok. destruct Hok as [Hfit Hall]. split.
    + intros _. split; [exact Hfit|]. intros x Hx Hfx Hle.
      rewrite forallb_forall in Hall. specialize (Hall x Hx). rewrite Hfx, Hle in Hall. simpl in Hall.
      apply entry_eqb_eq. exact Hall.
    + intro Hnone. exfalso. apply existsb_exists in Ex. destruct Ex as [x [Hx Hfx]].
      rewrite (Hnone x Hx) in Hfx. discriminate.
  - split.
    + intros [x [Hx Hfx]]. exfalso.
      assert (existsb (fun x => fits req (snd x)) cat = true) by (apply existsb_exists; exists x; auto). congruence.
    + intros _. destruct (last_opt cat) as [l|]; simpl in Hok; [|discriminate].
      apply entry_eqb_eq in Hok. congruence.
Qed.

Lemma sizing_spec_same_cell cat r1 r2 : same_cell cat r1 r2 -> sizing_spec cat r2 -> sizing_spec cat r1.
Proof.
  intros H [e [He [Hm [Hs Hn]]]].
  assert (Hf : forall x, In x cat -> fits r1 (snd x) = fits r2 (snd x)).
  { intros x Hx. apply H. apply in_map. exact Hx. }
  exists e. split; [exact He|]. split; [rewrite (same_cell_map_caps _ _ _ H); exact Hm|]. split.
  - intros [x [Hx Hfx]]. destruct Hs as [Hfit Hmin]; [exists x; split; [exact Hx|rewrite <- Hf; assumption]|].
    split; [rewrite Hf; assumption|]. intros y Hy Hfy. apply Hmin; [exact Hy|rewrite <- Hf; assumption].
  - intro Hnone. apply Hn. intros x Hx. rewrite <- Hf; auto.
Qed.

Theorem sizing_all_requests cat : forallb (class_ok cat) (reps cat) = true -> forall req : caps3, sizing_spec cat req.
Proof.
  intros Hc req. rewrite forallb_forall in Hc.
  apply (sizing_spec_same_cell cat req (req_rep cat req) (rep_same_cell cat req)).
  apply class_ok_spec. apply Hc. apply rep_in_reps.
Qed.

Definition lex_lt (a b : caps3) : Prop :=
  core a < core b \/ core a = core b /\ (ram a < ram b \/ ram a = ram b /\ disk a < disk b).
Definition lex_ltb (a b : caps3) : bool :=
  (core a <? core b) || (core a =? core b) && ((ram a <? ram b) || (ram a =? ram b) && (disk a <? disk b)).
Fixpoint chainb (p : caps3) (l : list caps3) : bool :=
  match l with [] => true | x :: r => lex_ltb p x && chainb x r end.
Definition listedb (l : list caps3) : bool := match l with [] => true | x :: r => chainb x r end.

Lemma lex_ltb_lt a b : lex_ltb a b = true -> lex_lt a b.
Proof. unfold lex_ltb, lex_lt. lia. Qed.

Lemma lex_lt_trans a b c : lex_lt a b -> lex_lt b c -> lex_lt a c.
Proof. unfold lex_lt. lia. Qed.

Lemma listedb_sorted l : listedb l = true -> StronglySorted lex_lt l.
Proof.
  intro H. apply Sorted_StronglySorted; [exact lex_lt_trans|].
  destruct l as [|p l]; [constructor|]. cbn [listedb] in H. revert p H.
  induction l as [|x l IH]; intros p H; [repeat constructor|].
  cbn [chainb] in H. apply andb_true_iff in H. destruct H as [H1 H2].
  constructor; [apply IH; exact H2|constructor; apply lex_ltb_lt; exact H1].
Qed.

Lemma sorted_filter {X} (R : X -> X -> Prop) f l : StronglySorted R l -> StronglySorted R (filter f l).
Proof.
  induction 1 as [|x l _ IH Hx]; cbn [filter]; [constructor|].
  destruct (f x); [|exact IH]. constructor; [exact IH|].
  apply Forall_forall. intros y Hy. apply filter_In in Hy. rewrite Forall_forall in Hx. apply Hx, Hy.
Qed.

Lemma sorted_ascending x l : StronglySorted lex_lt (x :: l) -> ascending clt3 x l.
Proof.
  revert x. induction l as [|y l IH]; intros x H; [exact I|].
  apply StronglySorted_inv in H. destruct H as [H1 H2]. split; [|apply IH; exact H1].
  apply Forall_inv in H2. unfold lex_lt in H2. unfold clt3. lia.
Qed.

Lemma sorted_snd_inj p : forall cat : list inst_entry, StronglySorted lex_lt (filter p (map snd cat)) ->
  forall x y, In x cat -> In y cat -> p (snd x) = true -> snd x = snd y -> x = y.
Proof.
  assert (irr : forall v, ~ lex_lt v v) by (unfold lex_lt; lia).
  assert (hd : forall (a y : inst_entry) cat, StronglySorted lex_lt (filter p (map snd (a :: cat))) ->
            In y cat -> p (snd a) = true -> snd a = snd y -> False).
  { intros a y cat Hs Hy Hp E. cbn [map filter] in Hs. rewrite Hp in Hs.
    apply StronglySorted_inv in Hs. destruct Hs as [_ Hs]. rewrite Forall_forall in Hs.
    apply (irr (snd a)). rewrite E at 2. apply Hs, filter_In. split; [apply in_map, Hy|congruence]. }
  induction cat as [|a cat IH]; intros Hs x y Hx Hy Hp E; [destruct Hx|].
  destruct Hx as [<-|Hx], Hy as [<-|Hy]; [reflexivity|destruct (hd _ _ _ Hs Hy Hp E)| |].
  - symmetry in E. destruct (hd _ _ _ Hs Hx (eq_ind _ (fun v => p v = true) Hp _ (eq_sym E)) E).
  - apply IH; auto. cbn [map filter] in Hs. destruct (p (snd a)); [apply StronglySorted_inv in Hs; apply Hs|exact Hs].
Qed.

Lemma index_eq_complete c : forall l, In c l -> exists i, index_eq c l = Some i.
Proof.
  induction l as [|y l IH]; intros H; [destruct H|]. cbn [index_eq].
  destruct (ceq3 y c) eqn:E; [exists O; reflexivity|]. destruct H as [->|H].
  - unfold ceq3 in E. rewrite !Z.eqb_refl in E. discriminate.
  - destruct (IH H) as [i ->]. eexists; reflexivity.
Qed.

Lemma nth_entry : forall (cat : list inst_entry) i c, nth_error (map snd cat) i = Some c ->
  exists e, nth_error cat i = Some e /\ snd e = c /\ nth_error (map fst cat) i = Some (fst e).
Proof.
  induction cat as [|a cat IH]; intros [|i] c H; try discriminate; cbn [map nth_error] in *; [|apply IH, H].
  inversion H. eauto.
Qed.

Lemma find_by_name (cat : list inst_entry) e : NoDup (map fst cat) -> In e cat ->
  find (fun e' => str_eqb (fst e') (fst e)) cat = Some e.
Proof.
  induction cat as [|a cat IH]; intros ND He; [destruct He|]. cbn [find]. inversion ND as [|? ? Hn ND']; subst.
  destruct He as [->|He]; [rewrite str_eqb_refl; reflexivity|].
  destruct (str_eqb (fst a) (fst e)) eqn:E; [|apply IH; assumption].
  apply str_eqb_eq in E. destruct Hn. rewrite E. apply in_map, He.
Qed.

Lemma last_opt_keys (cat : list inst_entry) : last_opt (map fst cat) = option_map fst (last_opt cat).
Proof. unfold last_opt. rewrite <- map_rev. induction cat as [|a r _] using rev_ind; [reflexivity|]. rewrite !rev_unit. reflexivity. Qed.

Lemma fits_some_candidates cat req : fits_some cat req = negb (match candidates cat req with [] => true | _ => false end).
Proof.
  unfold fits_some, candidates. induction cat as [|a cat IH]; [reflexivity|]. cbn [existsb map filter].
  destruct (fits req (snd a)); [reflexivity|exact IH].
Qed.

(* Unique names, and a request whose candidates appear in the catalogue in lexicographic order: list.sort sees
   one ascending run and returns it untouched; the first candidate is the lexicographic minimum of the
   fitting entries, hence Pareto-minimal. *)
Section Listed.
Variables (cat : list inst_entry) (l : inst_entry).
Hypothesis names : NoDup (map fst cat).
Hypothesis last : last_opt cat = Some l.

Theorem listed_class_ok req : StronglySorted lex_lt (candidates cat req) -> class_ok cat req = true.
Proof.
  intro Hs. pose proof Hs as listed. unfold candidates in listed.
  unfold class_ok, map_caps, pick. cbv zeta. pose proof (fits_some_candidates cat req) as Hfs.
  destruct (candidates cat req) as [|c0 cs] eqn:Ec.
  - rewrite last_opt_keys, last. cbn [option_map].
    rewrite (find_by_name cat l names (last_opt_in _ _ last)).
    unfold answer_ok. rewrite Hfs, last. cbn [negb opt_eqb]. apply entry_eqb_eq. reflexivity.
  - unfold py_sort_first. rewrite (py_sort_ascending clt3 c0 cs (sorted_ascending c0 cs Hs)).
    assert (Hc0 : In c0 (map snd cat) /\ fits req c0 = true) by (apply filter_In; fold (candidates cat req); rewrite Ec; left; reflexivity).
    destruct Hc0 as [Hin Hfit].
    destruct (index_eq_complete c0 _ Hin) as [i Ei]. rewrite Ei. apply index_eq_spec in Ei.
    destruct (nth_entry cat i c0 Ei) as [e [En [Ee ->]]]. apply nth_error_In in En.
    rewrite (find_by_name cat e names En). unfold answer_ok. rewrite Hfs, Ee, Hfit. cbn [negb andb].
    apply forallb_forall. intros x Hx.
    destruct (fits req (snd x)) eqn:Efx; [|reflexivity]. destruct (le3 (snd x) c0) eqn:Ele; [|reflexivity].
    cbn [andb implb]. apply entry_eqb_eq. apply (sorted_snd_inj (fits req) cat listed); auto.
    assert (Hxc : In (snd x) (c0 :: cs)) by (rewrite <- Ec; apply filter_In; split; [apply in_map, Hx|exact Efx]).
    destruct Hxc as [<-|Hxc]; [congruence|]. exfalso.
    apply StronglySorted_inv in Hs. destruct Hs as [_ Hs]. rewrite Forall_forall in Hs. specialize (Hs _ Hxc).
    unfold lex_lt in Hs. unfold le3 in Ele. lia.
Qed.

(* in particular when every size above t cores is so listed and the request is for more than t cores *)
Corollary above_class_ok t : StronglySorted lex_lt (filter (fun x => t <? core x) (map snd cat)) ->
  forall req, t < core req -> class_ok cat req = true.
Proof.
  intros Hl req Ht. apply listed_class_ok. unfold candidates.
  rewrite <- (filter_filter_sub _ (fun x => t <? core x)) by (unfold fits; lia). apply sorted_filter, Hl.
Qed.
End Listed.

Lemma forallb_cases {X} (P q : X -> bool) l :
  (forall x, q x = false -> P x = true) -> forallb P (filter q l) = true -> forallb P l = true.
Proof.
  intros H. rewrite !forallb_forall. intros Hq x Hx.
  destruct (q x) eqn:E; [apply Hq, filter_In; auto|apply H, E].
Qed.

Lemma catalog_translated : catalog_gen_ok = true.
Proof. vm_cast_no_check (eq_refl true). Qed.

(* the last entry dominates every entry ("the largest size") *)
Definition last_is_largest (cat : list inst_entry) : bool :=
  match last_opt cat with
  | Some l => forallb (fun x => le3 (snd x) (snd l)) cat
  | None => false
  end.
Lemma catalogue_last_largest_b : last_is_largest catalogue = true.
Proof. vm_cast_no_check (eq_refl true). Qed.
Theorem catalogue_last_largest : exists l, last_opt catalogue = Some l /\ forall x, In x catalogue -> le3 (snd x) (snd l) = true.
Proof.
  pose proof catalogue_last_largest_b as H. unfold last_is_largest in H.
  destruct (last_opt catalogue) as [l|]; [|discriminate].
  exists l. split; [reflexivity|]. rewrite forallb_forall in H. exact H.
Qed.

(* names are unique, spell the capacities, and get_instance_capacities returns them *)
Definition size_name (c : caps3) : str :=
  S"fabric.c" ++ str_of_Z (core c) ++ S".m" ++ str_of_Z (ram c) ++ S".d" ++ str_of_Z (disk c).
Lemma catalogue_names_spelled : forallb (fun e => str_eqb (fst e) (size_name (snd e))) catalogue = true.
Proof. vm_cast_no_check (eq_refl true). Qed.

Fixpoint nodupb {X} (eqb : X -> X -> bool) (l : list X) : bool :=
  match l with [] => true | x :: r => negb (existsb (eqb x) r) && nodupb eqb r end.
Lemma nodupb_NoDup {X} (eqb : X -> X -> bool) l : (forall x, eqb x x = true) -> nodupb eqb l = true -> NoDup l.
Proof.
  intro Hr. induction l as [|x l IH]; cbn [nodupb]; [constructor|]. intro H. apply andb_true_iff in H. destruct H as [H1 H2].
  constructor; [|apply IH; exact H2]. intro Hin. apply negb_true_iff in H1.
  assert (existsb (eqb x) l = true) by (apply existsb_exists; exists x; auto). congruence.
Qed.

(* The three numbers in a name, read back.  A name determines its capacities, so names are distinct because
   capacities are: 377000 comparisons of number triples instead of as many of strings with a common prefix. *)
Fixpoint digit_runs (s cur : str) : list str :=
  match s with
  | [] => [rev cur]
  | c :: r => if (48 <=? c)%N && (c <=? 57)%N then digit_runs r (c :: cur) else rev cur :: digit_runs r []
  end.
Definition name_caps (n : str) : caps3 :=
  match map Z_of_str (filter (fun d => negb (str_eqb d [])) (digit_runs n [])) with
  | [Some c; Some m; Some d] => (c, m, d)
  | _ => (0, 0, 0)
  end.
Lemma catalogue_names_read : map name_caps (map fst catalogue) = map snd catalogue.
Proof. vm_compute. reflexivity. Qed.
Lemma catalogue_values_unique_b : nodupb caps_eqb (map snd catalogue) = true.
Proof. vm_cast_no_check (eq_refl true). Qed.
Theorem catalogue_names_unique : NoDup (map fst catalogue).
Proof.
  apply (NoDup_map_inv name_caps). rewrite catalogue_names_read.
  apply (nodupb_NoDup caps_eqb); [intro x; apply caps_eqb_eq; reflexivity|exact catalogue_values_unique_b].
Qed.

Lemma get_caps_In : forall (cat : list inst_entry) e, NoDup (map fst cat) -> In e cat -> get_caps cat (fst e) = Some (snd e).
Proof.
  induction cat as [|[k v] cat IH]; intros e ND He; [destruct He|]. cbn [get_caps]. inversion ND as [|? ? Hn ND']; subst.
  destruct He as [<-|He]; [cbn [fst snd]; rewrite str_eqb_refl; reflexivity|].
  destruct (str_eqb k (fst e)) eqn:E; [|apply IH; assumption].
  apply str_eqb_eq in E. destruct Hn. cbn [fst]. rewrite E. apply in_map, He.
Qed.
Theorem catalogue_names_agree : forall e, In e catalogue ->
  fst e = size_name (snd e) /\ get_caps catalogue (fst e) = Some (snd e).
Proof.
  intros e He. split; [|apply get_caps_In; [exact catalogue_names_unique|exact He]].
  pose proof catalogue_names_spelled as H. rewrite forallb_forall in H. apply str_eqb_eq, H, He.
Qed.

(* The shipped catalogue lists every size above two cores in lexicographic order, which settles all cells but
   those of one- and two-core requests.  The one- and two-core sizes stand in a block near the end, so those
   candidate lists can have a descent and list.sort has to merge: on these 108 cells the model is run. *)
Lemma catalogue_listed_above_2 : listedb (filter (fun x => 2 <? core x) (map snd catalogue)) = true.
Proof. vm_compute. reflexivity. Qed.

Lemma catalogue_small_cells_ok : forallb (class_ok catalogue) (filter (fun r => core r <=? 2) (reps catalogue)) = true.
Proof. vm_cast_no_check (eq_refl true). Qed.

Lemma catalogue_cells_ok : forallb (class_ok catalogue) (reps catalogue) = true.
Proof.
  destruct catalogue_last_largest as [l [Hl _]].
  apply (forallb_cases _ (fun r => core r <=? 2)); [|exact catalogue_small_cells_ok].
  intros r Hr. apply (above_class_ok catalogue l catalogue_names_unique Hl 2); [|lia].
  apply listedb_sorted, catalogue_listed_above_2.
Qed.

Theorem sizing_catalogue : forall req : caps3, sizing_spec catalogue req.
Proof. exact (sizing_all_requests catalogue catalogue_cells_ok). Qed.

Theorem same_cell_same_answer : forall cat r1 r2, same_cell cat r1 r2 ->
  candidates cat r1 = candidates cat r2 /\ map_caps cat r1 = map_caps cat r2.
Proof. intros cat r1 r2 H. split; [apply same_cell_candidates|apply same_cell_map_caps]; exact H. Qed.

Theorem every_request_has_rep : forall cat req, In (req_rep cat req) (reps cat) /\ same_cell cat req (req_rep cat req).
Proof. intros. split; [apply rep_in_reps|apply rep_same_cell]. Qed.
