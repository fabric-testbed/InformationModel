(* C12, the Delegation / Delegations API of Model/Deleg12.v: details and delegations round trip through the JSON value,
   rejection rules, the invariants d_inv / ds_inv, and the decoder loop decode_items shared with Deleg12Text.v.
   Rests on Base/ListFacts.v and the model only; every other Deleg12*.v file rests on this one. *)
From Coq Require Import List ZArith Bool String.
From FIM Require Import Base.ListFacts Base.Str Gen.DelegGen Model.Deleg12.
Import ListNotations.

Lemma str_mem_In k l : str_mem k l = true <-> In k l.
Proof.
  induction l as [|x l IH]; simpl.
  - split; [discriminate|tauto].
  - rewrite orb_true_iff, IH, str_eqb_eq. tauto.
Qed.

Lemma str_mem_false k l : str_mem k l = false <-> ~ In k l.
Proof. rewrite <- str_mem_In. symmetry. apply not_true_iff_false. Qed.

Lemma str_nodup_NoDup l : str_nodup l = true <-> NoDup l.
Proof.
  induction l as [|x l IH]; simpl.
  - split; [constructor|reflexivity].
  - rewrite andb_true_iff, negb_true_iff, str_mem_false, IH, NoDup_cons_iff. tauto.
Qed.

Lemma NoDup_mid_l {A} (l r : list A) x : NoDup (l ++ x :: r) -> ~ In x l.
Proof. intros ND H. apply (NoDup_remove_2 _ _ _ ND). apply in_or_app. left. exact H. Qed.

Lemma dtype_eqb_eq a b : dtype_eqb a b = true <-> a = b.
Proof. destruct a, b; simpl; split; intro H; congruence || reflexivity. Qed.

Lemma dtype_eqb_refl a : dtype_eqb a a = true.
Proof. destruct a; reflexivity. Qed.

Lemma has_id_In id items : has_id id items = true <-> In id (map d_id items).
Proof.
  unfold has_id. induction items as [|d r IH]; simpl.
  - split; [discriminate|tauto].
  - rewrite orb_true_iff, IH, str_eqb_eq. tauto.
Qed.

Lemma has_id_false id items : has_id id items = false <-> ~ In id (map d_id items).
Proof. rewrite <- has_id_In. symmetry. apply not_true_iff_false. Qed.

Lemma lookup_None {A} k (l : list (str * A)) : lookup k l = None <-> ~ In k (map fst l).
Proof.
  induction l as [|[k' v] r IH]; simpl; [tauto|].
  destruct (str_eqb k' k) eqn:E.
  - apply str_eqb_eq in E. split; [discriminate|tauto].
  - apply str_eqb_neq in E. rewrite IH. tauto.
Qed.

Lemma lookup_In {A} k (l : list (str * A)) v : lookup k l = Some v -> In (k, v) l.
Proof.
  induction l as [|[k' v'] r IH]; simpl; [discriminate|].
  destruct (str_eqb k' k) eqn:E; [|auto].
  apply str_eqb_eq in E as ->. intro H. injection H as <-. left. reflexivity.
Qed.

Lemma lookup_In_nodup {A} n (v : A) g : NoDup (map fst g) -> In (n, v) g -> lookup n g = Some v.
Proof.
  induction g as [|[k w] r IH]; intros ND HI; [contradiction|]. simpl in *.
  apply NoDup_cons_iff in ND as [NI ND]. destruct HI as [H|H].
  - injection H as -> ->. rewrite str_eqb_refl. reflexivity.
  - destruct (str_eqb k n) eqn:E; [|auto].
    apply str_eqb_eq in E as ->. destruct NI. exact (in_map fst _ _ H).
Qed.

Lemma forallb_Forall {A} (f : A -> bool) (P : A -> Prop) l : (forall x, f x = true -> P x) ->
  forallb f l = true -> Forall P l.
Proof. intros H F. apply Forall_forall. intros x Hx. apply H. exact (proj1 (forallb_forall f l) F x Hx). Qed.

(* an object heap only grows at its end: a handle that was valid stays valid *)
Lemma nth_error_grow {A} (h : list A) x k y : nth_error h k = Some y -> nth_error (h ++ [x]) k = Some y.
Proof. intro H. rewrite nth_error_app1; [exact H|]. apply nth_error_Some. congruence. Qed.

Lemma bind_ext {A B} (r : res A) (f g : A -> res B) : (forall a, f a = g a) -> bind r f = bind r g.
Proof. intro H. destruct r; [apply H|reflexivity]. Qed.

Lemma deleg_gen_ok_true : deleg_gen_ok = true.
Proof. vm_compute. reflexivity. Qed.

Lemma wire_names_ok : wire_names_distinct = true.
Proof. vm_compute. reflexivity. Qed.

Lemma field_names_nodup : str_nodup deleg_cap_fields = true /\ str_nodup deleg_lab_fields = true.
Proof. split; vm_compute; reflexivity. Qed.

Lemma fields_NoDup ty : NoDup (fields_of ty).
Proof. destruct ty; simpl; apply str_nodup_NoDup; apply field_names_nodup. Qed.

Lemma enum_members_ok :
  delegation_type_members = ["CAPACITY"; "LABEL"]%string /\
  delegation_format_members = ["PoolDefinition"; "PoolReference"; "SinglePool"]%string.
Proof. split; vm_compute; reflexivity. Qed.

Lemma kept_keys fs vs k : In k (map fst (kept_pairs fs vs)) -> In k fs.
Proof.
  revert vs. induction fs as [|f fs IH]; intros [|[x|] vs]; cbn [kept_pairs map In]; try tauto.
  - destruct (dropped (Some x)); cbn [map fst In]; [|intros [H|H]; [left; exact H|]]; right; eapply IH; eassumption.
  - right. eapply IH. eassumption.
Qed.

(* every field reads back its own value when the dropped values are exactly the defaults *)
Lemma lookup_kept_pairs (dflt : option dval) fs vs : NoDup fs ->
  Forall2 (fun _ v => dropped v = true -> v = dflt) fs vs ->
  map (fun f => match lookup f (kept_pairs fs vs) with Some v => Some v | None => dflt end) fs = vs.
Proof.
  intros ND F. induction F as [|f v fs vs Dv F IH]; [reflexivity|].
  apply NoDup_cons_iff in ND as [NI ND]. specialize (IH ND).
  assert (NK : lookup f (kept_pairs fs vs) = None).
  { apply lookup_None. intro H. apply NI. eapply kept_keys. exact H. }
  (* a binding of f in front changes no lookup of the other fields *)
  assert (TL : forall x, map (fun g => match lookup g ((f, x) :: kept_pairs fs vs) with Some w => Some w | None => dflt end) fs = vs).
  { intro x. etransitivity; [|exact IH]. apply map_ext_in. intros g Hg. cbn [lookup].
    destruct (str_eqb f g) eqn:E; [apply str_eqb_eq in E; subst; contradiction|reflexivity]. }
  cbn [map kept_pairs]. destruct v as [x|]; [destruct (dropped (Some x)) eqn:Ed|].
  - rewrite NK, IH, (Dv eq_refl). reflexivity.
  - rewrite TL. cbn [lookup]. rewrite str_eqb_refl. reflexivity.
  - rewrite NK, IH, Dv; reflexivity.
Qed.

Lemma first_error_In lc ty d : first_error lc ty d = None -> forall kv, In kv d -> check_item lc ty kv = None.
Proof.
  induction d as [|a r IH]; intros H kv HI; [contradiction|]. cbn [first_error] in H.
  destruct (check_item lc ty a) eqn:C; [discriminate|]. destruct HI as [<-|HI]; [exact C|apply IH; assumption].
Qed.

Section WithValidators.
Variable lc : str -> dval -> option exn.

Lemma is_field_In ty k : In k (fields_of ty) -> is_field ty k = true.
Proof.
  unfold is_field. intro H. apply existsb_exists. exists k. split; [exact H|apply str_eqb_refl].
Qed.

(* one value of a field: what val_ok asks is what the constructor's loop checks *)
Lemma check_item_val_ok ty f x : is_field ty f = true ->
  (check_item lc ty (f, x) = None <-> val_ok lc ty f (Some x) = true).
Proof.
  intro F. unfold check_item. cbn [fst snd]. destruct ty, x as [z|s|l]; cbn [val_ok]; rewrite ?F, ?Z.ltb_antisym;
    try destruct (0 <=? z)%Z; try destruct (lc f _); cbn [negb]; split; congruence.
Qed.

Lemma val_ok_dropped ty f v : val_ok lc ty f v = true -> dropped v = true -> v = default_of ty.
Proof.
  destruct ty, v as [[z| |]|]; try discriminate; try reflexivity.
  intros _ D. apply Z.eqb_eq in D. subst. reflexivity.
Qed.

Lemma val_ok_default ty f : val_ok lc ty f (default_of ty) = true.
Proof. destruct ty; reflexivity. Qed.

Lemma vals_ok_Forall2 ty (R : str -> option dval -> Prop) : (forall f v, val_ok lc ty f v = true -> R f v) ->
  forall fs vs, vals_ok lc ty fs vs = true -> Forall2 R fs vs.
Proof.
  intros HR. induction fs as [|f fs IH]; intros [|v vs] H; try discriminate; [constructor|].
  apply andb_true_iff in H as [Hv H]. constructor; auto.
Qed.

Lemma vals_ok_map ty fs g : (forall f, In f fs -> val_ok lc ty f (g f) = true) -> vals_ok lc ty fs (map g fs) = true.
Proof.
  induction fs as [|f r IH]; intro H; [reflexivity|]. cbn [map vals_ok].
  rewrite H, IH; [reflexivity| |left; reflexivity]. intros g' Hg. apply H. right. exact Hg.
Qed.

Lemma kept_pairs_accepted ty fs vs : Forall2 (fun f v => val_ok lc ty f v = true) fs vs ->
  (forall f, In f fs -> is_field ty f = true) -> first_error lc ty (kept_pairs fs vs) = None.
Proof.
  induction 1 as [|f v fs vs Hv F IH]; intro Sub; [reflexivity|]. cbn [kept_pairs].
  specialize (IH (fun g Hg => Sub g (or_intror Hg))).
  destruct v as [x|]; [|exact IH]. destruct (dropped (Some x)); [exact IH|].
  cbn [first_error]. rewrite IH, (proj2 (check_item_val_ok ty f x (Sub f (or_introl eq_refl))) Hv). reflexivity.
Qed.

(* the details of a delegation / pool survive to_dict followed by the constructor *)
Lemma details_roundtrip x dd : det_ok lc x = true -> det_to_dict x = Some dd ->
  obj_of_dict lc (det_kind x) dd = Ok x.
Proof.
  destruct x as [k vs]. unfold det_ok, det_to_dict. cbn [det_kind det_vals]. intros OK E.
  assert (dd = kept_pairs (fields_of k) vs) as -> by (destruct (kept_pairs (fields_of k) vs); congruence).
  unfold obj_of_dict.
  rewrite (kept_pairs_accepted k _ _ (vals_ok_Forall2 k _ (fun _ _ H => H) _ _ OK) (is_field_In k)).
  f_equal. f_equal. apply lookup_kept_pairs; [apply fields_NoDup|].
  exact (vals_ok_Forall2 k _ (val_ok_dropped k) _ _ OK).
Qed.

(* the constructor only builds objects of the class: one value per field, each acceptable *)
Lemma obj_of_dict_kind ty dd x : obj_of_dict lc ty dd = Ok x -> det_kind x = ty.
Proof.
  unfold obj_of_dict. destruct (first_error lc ty dd); intro H; [discriminate|]. injection H as <-. reflexivity.
Qed.

Lemma constructor_builds_ok ty dd x : obj_of_dict lc ty dd = Ok x -> det_ok lc x = true.
Proof.
  unfold obj_of_dict. destruct (first_error lc ty dd) eqn:FE; [discriminate|]. intro H. injection H as <-.
  unfold det_ok. cbn [det_kind det_vals]. apply vals_ok_map. intros f Hf.
  destruct (lookup f dd) as [v|] eqn:L; [|apply val_ok_default].
  apply check_item_val_ok; [apply is_field_In; exact Hf|]. apply (first_error_In lc ty dd FE). apply lookup_In. exact L.
Qed.

Lemma rejects_details_on_ref d x : d_fmt d = FRef -> set_details d x = Err EDelegation.
Proof. intro H. unfold set_details. rewrite H. reflexivity. Qed.

Lemma rejects_mixed d x : det_kind x <> d_type d -> set_details d x = Err EDelegation.
Proof.
  intro H. unfold set_details.
  destruct (dtype_eqb (det_kind x) (d_type d)) eqn:E; [apply dtype_eqb_eq in E; contradiction|].
  destruct (d_fmt d); reflexivity.
Qed.

Lemma set_details_accepts d x : d_fmt d <> FRef -> det_kind x = d_type d ->
  set_details d x = Ok (mkD (d_type d) (d_id d) (d_fmt d) (d_pool d) (Some x)).
Proof.
  intros F K. unfold set_details. rewrite K, dtype_eqb_refl. destruct (d_fmt d); try reflexivity. contradiction.
Qed.

Lemma set_details_Ok_inv d x d' : set_details d x = Ok d' ->
  d_fmt d <> FRef /\ det_kind x = d_type d /\ d' = mkD (d_type d) (d_id d) (d_fmt d) (d_pool d) (Some x).
Proof.
  unfold set_details. destruct (dtype_eqb (det_kind x) (d_type d)) eqn:K; [apply dtype_eqb_eq in K|].
  - destruct (d_fmt d); intro H; try discriminate; injection H as <-; repeat split; trivial; discriminate.
  - destruct (d_fmt d); discriminate.
Qed.

Lemma set_details_ok_iff d x : (exists d', set_details d x = Ok d') <-> (d_fmt d <> FRef /\ det_kind x = d_type d).
Proof.
  split.
  - intros [d' H]. apply set_details_Ok_inv in H. tauto.
  - intros [F K]. eexists. apply set_details_accepts; assumption.
Qed.

Lemma rejects_duplicate ds d : d_type d = ds_type ds -> In (d_id d) (map d_id (ds_items ds)) ->
  add_delegation ds d = Err EDelegation.
Proof.
  intros T H. unfold add_delegation. rewrite T, dtype_eqb_refl. simpl.
  apply has_id_In in H. rewrite H. reflexivity.
Qed.

Lemma rejects_foreign_type ds d : d_type d <> ds_type ds -> add_delegation ds d = Err EAssertion.
Proof.
  intros T. unfold add_delegation.
  destruct (dtype_eqb (d_type d) (ds_type ds)) eqn:E; [apply dtype_eqb_eq in E; contradiction|reflexivity].
Qed.

Lemma add_accepts ds d : d_type d = ds_type ds -> ~ In (d_id d) (map d_id (ds_items ds)) ->
  add_delegation ds d = Ok (mkDs (ds_type ds) (ds_items ds ++ [d])).
Proof.
  intros T H. unfold add_delegation. rewrite T, dtype_eqb_refl. simpl.
  apply has_id_false in H. rewrite H. reflexivity.
Qed.

Lemma add_ok_inv ds d ds' : add_delegation ds d = Ok ds' ->
  d_type d = ds_type ds /\ ~ In (d_id d) (map d_id (ds_items ds)) /\ ds' = mkDs (ds_type ds) (ds_items ds ++ [d]).
Proof.
  unfold add_delegation. destruct (dtype_eqb (d_type d) (ds_type ds)) eqn:E; simpl; [|discriminate].
  destruct (has_id (d_id d) (ds_items ds)) eqn:H; [discriminate|]. intro R. injection R as <-.
  apply dtype_eqb_eq in E. apply has_id_false in H. tauto.
Qed.

(* invariant of the container under any sequence of add attempts: ids unique, all of the container's type *)
Definition ds_inv (ds : delegations) : Prop :=
  NoDup (map d_id (ds_items ds)) /\ Forall (fun d => d_type d = ds_type ds) (ds_items ds).

Definition add_try (ds : delegations) (d : deleg) : delegations :=
  match add_delegation ds d with Ok ds' => ds' | Err _ => ds end.

Lemma ds_inv_empty ty : ds_inv (mkDs ty []).
Proof. split; constructor. Qed.

Lemma add_ok_ds_inv ds d ds' : add_delegation ds d = Ok ds' -> ds_inv ds -> ds_inv ds'.
Proof.
  intros E [ND TY]. apply add_ok_inv in E as (T & NI & ->). split; cbn [ds_items ds_type].
  - rewrite map_app. apply NoDup_snoc; assumption.
  - apply Forall_app. split; [exact TY|constructor; [exact T|constructor]].
Qed.

Lemma add_try_inv ds d : ds_inv ds -> ds_inv (add_try ds d).
Proof. unfold add_try. destruct (add_delegation ds d) eqn:E; [apply (add_ok_ds_inv _ _ _ E)|trivial]. Qed.

Lemma container_invariant ty ops : ds_inv (fold_left add_try ops (mkDs ty [])).
Proof. apply fold_left_inv; [intros ds d _; apply add_try_inv|apply ds_inv_empty]. Qed.

(* one add_delegations call with several arguments, all of the container's type: every argument goes in exactly when no
   id is repeated (against the container or inside the call); otherwise the first repetition raises *)
Lemma batch_spec args : forall ds, Forall (fun d => d_type d = ds_type ds) args ->
  (NoDup (map d_id (ds_items ds ++ args)) ->
   add_delegations ds args = (mkDs (ds_type ds) (ds_items ds ++ args), None)) /\
  (NoDup (map d_id (ds_items ds)) -> ~ NoDup (map d_id (ds_items ds ++ args)) ->
   snd (add_delegations ds args) = Some EDelegation).
Proof.
  induction args as [|d r IH]; intros ds T.
  - rewrite app_nil_r. split; [destruct ds; reflexivity|contradiction].
  - apply Forall_cons_iff in T as [Td Tr]. cbn [add_delegations].
    destruct (in_dec str_eq_dec (d_id d) (map d_id (ds_items ds))) as [HI|NI].
    + rewrite (rejects_duplicate ds d Td HI). split; [|reflexivity].
      intro ND. rewrite map_app in ND. destruct (NoDup_mid_l _ (map d_id r) _ ND HI).
    + rewrite (add_accepts ds d Td NI). destruct (IH (mkDs (ds_type ds) (ds_items ds ++ [d])) Tr) as [A R].
      cbn [ds_type ds_items] in A, R. rewrite <- app_assoc in A, R. split; [exact A|].
      intro ND. apply R. rewrite map_app. apply NoDup_snoc; assumption.
Qed.

(* invariant of a Delegation under any sequence of set_details attempts: a reference never carries
   details, details are always of the delegation's type, and the pool name is the one the constructor leaves
   (none on a single-pool delegation, never the reserved name on a definition) *)
Definition d_inv (d : deleg) : Prop :=
  (d_fmt d = FRef -> d_details d = None) /\ (forall x, d_details d = Some x -> det_kind x = d_type d) /\
  ctor_shape d = true.

Definition set_try (d : deleg) (x : det) : deleg :=
  match set_details d x with Ok d' => d' | Err _ => d end.

Lemma new_deleg_inv ty id fmt pool d0 : new_deleg ty id fmt pool = Ok d0 ->
  d_inv d0 /\ d_type d0 = ty /\ d_id d0 = id /\ d_fmt d0 = fmt /\ d_details d0 = None.
Proof.
  unfold new_deleg. destruct fmt, pool as [p|]; try discriminate;
    [destruct (str_eqb p single_pool_name) eqn:E; [discriminate|]|..];
    intro H; injection H as <-; unfold d_inv, ctor_shape, str_neqb; cbn; rewrite ?E; repeat split; congruence.
Qed.

Lemma set_details_d_inv d x d' : set_details d x = Ok d' -> d_inv d -> d_inv d'.
Proof.
  intros E (_ & _ & I3). apply set_details_Ok_inv in E as (F & K & ->).
  unfold d_inv, ctor_shape in *. cbn. repeat split; [contradiction|congruence|exact I3].
Qed.

Lemma set_try_inv d x : d_inv d -> d_inv (set_try d x).
Proof. unfold set_try. destruct (set_details d x) eqn:E; [apply (set_details_d_inv _ _ _ E)|trivial]. Qed.

Lemma delegation_invariant ty id fmt pool d0 xs : new_deleg ty id fmt pool = Ok d0 ->
  d_inv (fold_left set_try xs d0).
Proof. intro N. apply fold_left_inv; [intros d x _; apply set_try_inv|apply new_deleg_inv in N as [I0 _]; exact I0]. Qed.

(* the constructor followed by set_details, as both decoders call them *)
Lemma new_set_inv ty id fmt pool x d : bind (new_deleg ty id fmt pool) (fun d0 => set_details d0 x) = Ok d ->
  d_type d = ty /\ d_id d = id /\ d_inv d.
Proof.
  destruct (new_deleg ty id fmt pool) as [d0|] eqn:N; [|discriminate]. cbn [bind]. intro SD.
  apply new_deleg_inv in N as (I0 & <- & <- & _). pose proof (set_details_d_inv _ _ _ SD I0).
  apply set_details_Ok_inv in SD as (_ & _ & ->). cbn. tauto.
Qed.

(* the decoder on an entry with details as the encoder writes it *)
Lemma entry_of_with_details ty id pid dd : entry_of_json lc ty id (with_details ty pid dd) =
  bind (obj_of_dict lc ty dd) (fun x =>
  bind (new_deleg ty id (if str_eqb pid single_pool_name then FSingle else FDef)
                        (if str_eqb pid single_pool_name then None else Some pid)) (fun d => set_details d x)).
Proof. destruct ty; reflexivity. Qed.

Lemma with_details_decoded ty id pid x dd : det_kind x = ty -> det_ok lc x = true -> det_to_dict x = Some dd ->
  entry_of_json lc ty id (with_details ty pid dd) =
  Ok (if str_eqb pid single_pool_name then mkD ty id FSingle None (Some x) else mkD ty id FDef (Some pid) (Some x)).
Proof.
  intros K OK ED. rewrite entry_of_with_details, <- K, (details_roundtrip x dd OK ED). cbn [bind].
  destruct (str_eqb pid single_pool_name) eqn:E; cbn [new_deleg]; rewrite ?E; cbn [bind];
    apply set_details_accepts; [discriminate|reflexivity|discriminate|reflexivity].
Qed.

Lemma entry_roundtrip ty d : deleg_ok lc ty d = true ->
  exists j, entry_to_json ty d = Ok j /\ entry_of_json lc ty (d_id d) j = Ok d.
Proof.
  destruct d as [dt id fmt pool det]. unfold deleg_ok, entry_to_json, details_as_dict, det_nonempty.
  cbn [d_type d_id d_fmt d_pool d_details].
  intro H. apply andb_true_iff in H as [T H]. apply dtype_eqb_eq in T as ->.
  destruct fmt, pool as [p|], det as [x|]; try discriminate.
  2: eexists; split; reflexivity.
  all: rewrite !andb_true_iff, ?dtype_eqb_eq in H; destruct (det_to_dict x) as [dd|] eqn:ED; [|intuition discriminate];
    eexists; split; [reflexivity|]; rewrite (with_details_decoded ty id _ x dd) by tauto.
  - destruct H as [[[NP _] _] _]. apply negb_true_iff in NP. unfold str_neqb in NP. rewrite NP. reflexivity.
  - rewrite str_eqb_refl. reflexivity.
Qed.

(* the loop of from_json over the members of a document, for any decoder of one member: entry_of_json on typed entries
   here, xentry_of_json on raw JSON values in Deleg12Text.v *)
Fixpoint decode_items {J} (dec : str -> J -> res deleg) (m : list (str * J)) (ds : delegations) : res delegations :=
  match m with
  | [] => Ok ds
  | (k, j) :: r => bind (dec k j) (fun d => bind (add_delegation ds d) (fun ds' => decode_items dec r ds'))
  end.

Lemma from_json_items_decode ty doc : forall ds,
  from_json_items lc ty doc ds = decode_items (entry_of_json lc ty) doc ds.
Proof.
  induction doc as [|[k j] r IH]; intro ds; [reflexivity|]. cbn [from_json_items decode_items].
  apply bind_ext. intro d. apply bind_ext. exact IH.
Qed.

End WithValidators.

Section DecodeItems.
Context {J : Type} (dec : str -> J -> res deleg).

Lemma decode_items_map {J'} (dec' : str -> J' -> res deleg) (f : J -> J') :
  (forall k j, dec' k (f j) = dec k j) ->
  forall m ds, decode_items dec' (map (fun kj => (fst kj, f (snd kj))) m) ds = decode_items dec m ds.
Proof.
  intros H. induction m as [|[k j] r IH]; intro ds; [reflexivity|]. cbn [map decode_items fst snd]. rewrite H.
  apply bind_ext. intro d. apply bind_ext. exact IH.
Qed.

Lemma decode_items_entries m : forall ds ds', decode_items dec m ds = Ok ds' ->
  forall k j, In (k, j) m -> exists d, dec k j = Ok d.
Proof.
  induction m as [|[k0 j0] r IH]; intros ds ds' H k j HI; [contradiction|]. cbn [decode_items] in H.
  destruct (dec k0 j0) as [d|e] eqn:E; [|discriminate]. cbn [bind] in H.
  destruct (add_delegation ds d) as [ds1|e]; [|discriminate]. cbn [bind] in H.
  destruct HI as [HI|HI]; [injection HI as <- <-; exists d; exact E|eapply IH; eassumption].
Qed.

(* when the member decoder builds delegations of the requested type and id that satisfy d_inv, whatever the loop
   accepts satisfies the container's invariants, with the ids of the document in order *)
Lemma decode_items_inv ty (dec_inv : forall k j d, dec k j = Ok d -> d_type d = ty /\ d_id d = k /\ d_inv d) m :
  forall ds ds', decode_items dec m ds = Ok ds' ->
  ds_type ds = ty -> ds_inv ds -> Forall d_inv (ds_items ds) ->
  ds_type ds' = ty /\ ds_inv ds' /\ Forall d_inv (ds_items ds') /\
  map d_id (ds_items ds') = map d_id (ds_items ds) ++ map fst m.
Proof.
  induction m as [|[k0 j0] r IH]; intros ds ds' H T I DI.
  - injection H as <-. rewrite app_nil_r. tauto.
  - cbn [decode_items] in H.
    destruct (dec k0 j0) as [d|e] eqn:E; [|discriminate]. cbn [bind] in H.
    destruct (add_delegation ds d) as [ds1|e] eqn:A; [|discriminate]. cbn [bind] in H.
    apply dec_inv in E as (_ & <- & Dd). pose proof (add_ok_ds_inv _ _ _ A I) as I1.
    apply add_ok_inv in A as (_ & _ & ->).
    destruct (IH _ _ H T I1) as (T' & I' & D' & M).
    { apply Forall_app. split; [exact DI|constructor; [exact Dd|constructor]]. }
    rewrite M. cbn [ds_items]. rewrite map_app, <- app_assoc. tauto.
Qed.

End DecodeItems.

Section WithValidators.
Variable lc : str -> dval -> option exn.

Lemma items_roundtrip ty items : forall acc,
  forallb (deleg_ok lc ty) items = true -> NoDup (map d_id (acc ++ items)) ->
  exists doc, to_json_items ty items = Ok doc /\ map fst doc = map d_id items /\
              from_json_items lc ty doc (mkDs ty acc) = Ok (mkDs ty (acc ++ items)).
Proof.
  induction items as [|d r IH]; intros acc OK ND.
  - exists []. rewrite app_nil_r. repeat split.
  - simpl in OK. apply andb_true_iff in OK as [Od Or].
    destruct (entry_roundtrip lc ty d Od) as (j & EJ & DJ).
    destruct (IH (acc ++ [d]) Or) as (doc & TJ & KS & FJ); [rewrite <- app_assoc; exact ND|].
    exists ((d_id d, j) :: doc). cbn [to_json_items from_json_items]. rewrite EJ, DJ, TJ. cbn [bind].
    split; [reflexivity|]. split; [simpl; f_equal; exact KS|].
    assert (T : d_type d = ty) by (apply andb_true_iff in Od as [T _]; apply dtype_eqb_eq; exact T).
    assert (NI : ~ In (d_id d) (map d_id acc)).
    { rewrite map_app in ND. exact (NoDup_mid_l _ (map d_id r) _ ND). }
    rewrite (add_accepts (mkDs ty acc) d T NI). cbn [bind ds_type ds_items]. rewrite FJ, <- app_assoc. reflexivity.
Qed.

(* encode then decode is the identity on well-formed Delegations (same ids in the same order, formats,
   pool names, details) *)
Lemma delegations_roundtrip ds : ds_wf lc ds = true ->
  exists doc, to_json ds = Ok doc /\ map fst doc = map d_id (ds_items ds) /\
              from_json lc (ds_type ds) doc = Ok ds.
Proof.
  destruct ds as [ty items]. unfold ds_wf, to_json, from_json. cbn [ds_type ds_items].
  intro H. apply andb_true_iff in H as [OK ND]. apply str_nodup_NoDup in ND.
  exact (items_roundtrip ty items [] OK ND).
Qed.

Lemma entry_no_pool_key ty id j : j_pool_id j = None -> j_pool j = None ->
  entry_of_json lc ty id j = Err EDelegation.
Proof. intros A B. unfold entry_of_json. rewrite A, B. reflexivity. Qed.

(* details on a reference: rejected, whatever they are *)
Lemma entry_details_on_ref ty id j : j_pool_id j = None -> (j_caps j <> None \/ j_labs j <> None) ->
  entry_of_json lc ty id j = Err EDelegation.
Proof.
  intros A B. unfold entry_of_json. rewrite A. destruct (j_pool j); [|reflexivity].
  destruct (j_caps j), (j_labs j); try reflexivity. destruct B as [B|B]; contradiction.
Qed.

(* content of the other type next to a pool_id: rejected, whatever else the entry holds *)
Lemma entry_mixed ty id j p : j_pool_id j = Some p ->
  (match ty with TCap => j_labs j | TLab => j_caps j end) <> None ->
  entry_of_json lc ty id j = Err EDelegation.
Proof.
  intros A B. unfold entry_of_json. rewrite A.
  destruct (match ty with TCap => j_labs j | TLab => j_caps j end); [reflexivity|contradiction].
Qed.

Lemma entry_missing_details ty id j p : j_pool_id j = Some p ->
  (match ty with TCap => j_labs j | TLab => j_caps j end) = None ->
  (match ty with TCap => j_caps j | TLab => j_labs j end) = None ->
  entry_of_json lc ty id j = Err EKey.
Proof. intros A O B. unfold entry_of_json. rewrite A, O, B. reflexivity. Qed.

Lemma entry_bad_details ty id j p dd e : j_pool_id j = Some p ->
  (match ty with TCap => j_labs j | TLab => j_caps j end) = None ->
  (match ty with TCap => j_caps j | TLab => j_labs j end) = Some dd ->
  first_error lc ty dd = Some e ->
  entry_of_json lc ty id j = Err e.
Proof. intros A O B C. unfold entry_of_json, obj_of_dict. rewrite A, O, B, C. reflexivity. Qed.

(* an entry the decoder accepts has one of the three shapes of the format *)
Lemma entry_accepted_clean ty id j d : entry_of_json lc ty id j = Ok d -> entry_clean ty j = true.
Proof.
  unfold entry_of_json, entry_clean. destruct (j_pool_id j) as [pid|].
  - destruct ty; destruct (j_caps j), (j_labs j); try discriminate; reflexivity.
  - destruct (j_pool j); [|discriminate]. destruct (j_caps j), (j_labs j); try discriminate. reflexivity.
Qed.

Lemma from_json_entries ty doc ds : from_json lc ty doc = Ok ds ->
  forall k j, In (k, j) doc -> exists d, entry_of_json lc ty k j = Ok d.
Proof. unfold from_json. rewrite from_json_items_decode. apply decode_items_entries. Qed.

Lemma entry_of_json_inv ty id j d : entry_of_json lc ty id j = Ok d ->
  d_type d = ty /\ d_id d = id /\ d_inv d.
Proof.
  unfold entry_of_json. destruct (j_pool_id j) as [pid|].
  - destruct (match ty with TCap => j_labs j | TLab => j_caps j end); [discriminate|].
    destruct (match ty with TCap => j_caps j | TLab => j_labs j end) as [dd|]; [|discriminate].
    destruct (obj_of_dict lc ty dd) as [x|e]; [|discriminate]. apply new_set_inv.
  - destruct (j_pool j) as [p|]; [|discriminate]. destruct (j_caps j), (j_labs j); try discriminate.
    intro N. apply new_deleg_inv in N. tauto.
Qed.

(* whatever from_json accepts satisfies the API invariants: the ids are those of the document in order,
   all distinct, every delegation is of the requested type, no reference carries details *)
Lemma from_json_inv ty doc ds : from_json lc ty doc = Ok ds ->
  ds_type ds = ty /\ ds_inv ds /\ Forall d_inv (ds_items ds) /\ map d_id (ds_items ds) = map fst doc.
Proof.
  unfold from_json. rewrite from_json_items_decode. intro H.
  exact (decode_items_inv _ ty (entry_of_json_inv ty) doc _ _ H eq_refl (ds_inv_empty ty) (Forall_nil _)).
Qed.

(* every entry of an accepted document has one of the three shapes: mixed content and details on a reference
   are ALWAYS rejected *)
Lemma from_json_clean ty doc ds : from_json lc ty doc = Ok ds ->
  forall k j, In (k, j) doc -> entry_clean ty j = true.
Proof.
  intros H k j HI. destruct (from_json_entries ty doc ds H k j HI) as [d E].
  eapply entry_accepted_clean. exact E.
Qed.

Lemma from_json_rejects_unclean ty doc : (exists k j, In (k, j) doc /\ entry_clean ty j = false) ->
  exists e, from_json lc ty doc = Err e.
Proof.
  intros (k & j & HI & HC). destruct (from_json lc ty doc) as [ds|e] eqn:E; [|exists e; reflexivity].
  rewrite (from_json_clean ty doc ds E k j HI) in HC. discriminate.
Qed.

(* full strength: whatever the API built (invariants d_inv / ds_inv, proved above for every call sequence),
   with details objects the constructor built: if to_json encodes it, from_json gives it back *)
Lemma encoded_deleg_ok ty d j : d_type d = ty -> d_inv d ->
  (forall x, d_details d = Some x -> det_ok lc x = true) ->
  entry_to_json ty d = Ok j -> deleg_ok lc ty d = true.
Proof.
  intros T (I1 & I2 & I3) DO E. unfold deleg_ok. rewrite T, dtype_eqb_refl. cbn [andb].
  unfold ctor_shape in I3. unfold entry_to_json, details_as_dict in E.
  destruct (d_fmt d) eqn:F, (d_pool d) as [p|] eqn:PL; try discriminate.
  2: rewrite (I1 eq_refl); reflexivity.
  all: destruct (d_details d) as [x|] eqn:D; [|discriminate]; destruct (det_to_dict x) eqn:DD; [|discriminate];
    rewrite ?I3, (I2 x eq_refl), T, dtype_eqb_refl, (DO x eq_refl); unfold det_nonempty; rewrite DD; reflexivity.
Qed.

Lemma to_json_items_inv ty items doc : to_json_items ty items = Ok doc ->
  forall d, In d items -> exists j, entry_to_json ty d = Ok j.
Proof.
  revert doc. induction items as [|a r IH]; intros doc H d HI; [contradiction|]. cbn [to_json_items] in H.
  destruct (entry_to_json ty a) as [j|] eqn:E; [|discriminate]. cbn [bind] in H.
  destruct (to_json_items ty r) as [doc'|] eqn:R; [|discriminate].
  destruct HI as [<-|HI]; [exists j; exact E|eapply IH; [reflexivity|exact HI]].
Qed.

Lemma api_roundtrip ds doc : ds_inv ds -> Forall d_inv (ds_items ds) ->
  Forall (fun d => forall x, d_details d = Some x -> det_ok lc x = true) (ds_items ds) ->
  to_json ds = Ok doc ->
  map fst doc = map d_id (ds_items ds) /\ from_json lc (ds_type ds) doc = Ok ds.
Proof.
  intros [ND TY] DI DO TJ.
  assert (W : ds_wf lc ds = true).
  { unfold ds_wf. apply andb_true_iff. split; [|apply str_nodup_NoDup; exact ND].
    apply forallb_forall. intros d Hd. unfold to_json in TJ.
    destruct (to_json_items_inv _ _ _ TJ d Hd) as [j E].
    rewrite Forall_forall in TY, DI, DO.
    eapply encoded_deleg_ok; [apply TY; exact Hd|apply DI; exact Hd|apply DO; exact Hd|exact E]. }
  destruct (delegations_roundtrip ds W) as (doc' & TJ' & KS & FJ). rewrite TJ in TJ'. injection TJ' as <-.
  split; assumption.
Qed.

End WithValidators.

Definition accept_all : str -> dval -> option exn := fun _ _ => None.
