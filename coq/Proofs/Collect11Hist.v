(* C11: the ASM path against the topology path for any enumeration order of the graph; histories on a long-lived
   collector (what a fresh collector answers is a function of the current slice only; what the same collector
   answers is the exact accumulation); the log line. *)
From Coq Require Import List ZArith NArith Bool String Permutation.
From FIM Require Import Base.Str Base.ListFacts Gen.CollectGen Model.Collect11 Model.Collect11Spec
  Proofs.Collect11Attrs Proofs.Collect11Main Proofs.Collect11Log.
Import ListNotations.

Definition g_nodes (g : agraph) := flat_map (fun e => match e with GNode n => [n] | _ => [] end) g.
Definition g_ports (g : agraph) := flat_map (fun e => match e with GPort p => [p] | _ => [] end) g.
Definition g_svcs (g : agraph) := flat_map (fun e => match e with GSvc v => [v] | _ => [] end) g.
Definition g_facs (g : agraph) := flat_map (fun e => match e with GFac f => [f] | _ => [] end) g.

Lemma flat_map_map {X Y Z} (h : X -> Y) (sel : Y -> list Z) l : flat_map sel (map h l) = flat_map (fun x => sel (h x)) l.
Proof. induction l as [|x r IH]; simpl; [reflexivity|]. rewrite IH. reflexivity. Qed.

Lemma flat_map_single {X} (l : list X) : flat_map (fun x => [x]) l = l.
Proof. induction l as [|x r IH]; simpl; congruence. Qed.

Lemma flat_map_none {X Y} (l : list X) : flat_map (fun _ => @nil Y) l = [].
Proof. apply flat_map_nil. reflexivity. Qed.

Lemma slice_of_graph_of_slice s : slice_of_graph (graph_of_slice s) = s.
Proof.
  destruct s as [ns ps vs fs]. unfold slice_of_graph, graph_of_slice. cbn [sl_nodes sl_ports sl_svcs sl_facs].
  f_equal; rewrite !flat_map_app, !flat_map_map; cbv beta iota; rewrite flat_map_single, !flat_map_none, ?app_nil_r;
    reflexivity.
Qed.

Lemma Forall2_gelem l l' : Forall2 gelem_eqv l l' ->
  Forall2 node_eqv (g_nodes l) (g_nodes l') /\ g_ports l = g_ports l' /\ g_svcs l = g_svcs l' /\ g_facs l = g_facs l'.
Proof.
  induction 1 as [|a b l l' Hab _ IH]; [repeat split; constructor|].
  destruct IH as (I1 & I2 & I3 & I4). unfold g_nodes, g_ports, g_svcs, g_facs in *.
  destruct a, b; simpl in Hab; try contradiction; subst; simpl; repeat split; try assumption; try congruence.
  constructor; assumption.
Qed.

Theorem graph_eqv_slice g g' : graph_eqv g g' -> slice_eqv (slice_of_graph g) (slice_of_graph g').
Proof.
  intros (l & Hp & Hf). destruct (Forall2_gelem _ _ Hf) as (F1 & F2 & F3 & F4).
  unfold slice_eqv, slice_of_graph. cbn [sl_nodes sl_ports sl_svcs sl_facs].
  fold (g_nodes g) (g_nodes g') (g_ports g) (g_ports g') (g_svcs g) (g_svcs g') (g_facs g) (g_facs g').
  split; [|split; [|split]].
  - exists (g_nodes l). split; [apply Permutation_flat_map; exact Hp | exact F1].
  - rewrite <- F3. apply Permutation_flat_map. exact Hp.
  - rewrite <- F4. apply Permutation_flat_map. exact Hp.
  - rewrite <- F2. intro x. unfold g_ports. rewrite Hp. reflexivity.
Qed.

Theorem run_asm g : run [OAsm g] = Ok (collected (slice_of_graph g)).
Proof. unfold run. simpl. unfold collect_asm. apply collect_topo_ok. Qed.

Theorem asm_enumeration_independent g g' k : graph_eqv g g' ->
  Permutation (getk k (collected (slice_of_graph g))) (getk k (collected (slice_of_graph g'))).
Proof. intro H. apply reload_invariant, graph_eqv_slice, H. Qed.

(* the statement's clause: collecting from the topology object (slice s in its listing order) and from the serialized
   model (graph g = the same elements in ANY enumeration order) gives the same attributes *)
Theorem topo_vs_asm s g ma k : graph_eqv (graph_of_slice s) g -> run [OAsm g] = Ok ma ->
  Permutation (getk k (collected s)) (getk k ma) /\ (In k (keys (collected s)) <-> In k (keys ma)).
Proof.
  intros H Hr. rewrite run_asm in Hr. assert (E : ma = collected (slice_of_graph g)) by congruence. subst ma.
  apply graph_eqv_slice in H. rewrite slice_of_graph_of_slice in H.
  split; [apply reload_invariant | apply reload_same_keys]; exact H.
Qed.

Theorem log_topo_vs_asm s g : graph_eqv (graph_of_slice s) g ->
  log_run [OAsm g] = logged (slice_of_graph g) /\ slice_eqv s (slice_of_graph g).
Proof.
  intro H. split; [reflexivity|]. apply graph_eqv_slice in H. rewrite slice_of_graph_of_slice in H. exact H.
Qed.

Fixpoint hist_pure (m : attrs) (es : list hev) : attrs * list attrs :=
  match es with
  | [] => (m, [])
  | HSame s :: r => let m' := topo_pure m s in let '(mf, o) := hist_pure m' r in (mf, m' :: o)
  | HFresh s :: r => let '(mf, o) := hist_pure m r in (mf, collected s :: o)
  end.

Lemma hist_pure_same m s r :
  hist_pure m (HSame s :: r) = (fst (hist_pure (topo_pure m s) r), topo_pure m s :: snd (hist_pure (topo_pure m s) r)).
Proof. simpl. destruct (hist_pure (topo_pure m s) r). reflexivity. Qed.

Lemma hist_pure_fresh m s r :
  hist_pure m (HFresh s :: r) = (fst (hist_pure m r), collected s :: snd (hist_pure m r)).
Proof. simpl. destruct (hist_pure m r). reflexivity. Qed.

Lemma hist_fold es : forall m outs,
  fold_left (fun acc e => bind acc (fun st => hist_step st e)) es (Ok (m, outs))
  = Ok (fst (hist_pure m es), outs ++ snd (hist_pure m es)).
Proof.
  induction es as [|e r IH]; intros m outs; [simpl; rewrite app_nil_r; reflexivity|].
  destruct e as [s|s]; cbn [fold_left hist_step bind]; rewrite collect_topo_ok; cbn [bind]; rewrite IH, <- app_assoc.
  - rewrite hist_pure_same. reflexivity.
  - rewrite hist_pure_fresh. reflexivity.
Qed.

Theorem hist_run_ok es : hist_run es = Ok (hist_pure init_attrs es).
Proof. unfold hist_run. rewrite hist_fold. simpl. destruct (hist_pure init_attrs es); reflexivity. Qed.

(* a collector created for the occasion answers with a function of the CURRENT slice only, whatever was collected
   before (by it: nothing; by the long-lived collector: anything) *)
Theorem history_memoryless es : forall m i s,
  nth_error es i = Some (HFresh s) -> nth_error (snd (hist_pure m es)) i = Some (collected s).
Proof.
  induction es as [|e r IH]; intros m i s H; [destruct i; discriminate|].
  destruct i as [|i]; simpl in H.
  - injection H as ->. rewrite hist_pure_fresh. reflexivity.
  - destruct e as [s0|s0]; [rewrite hist_pure_same | rewrite hist_pure_fresh]; apply IH, H.
Qed.

Theorem history_memoryless_run es mf outs i s :
  hist_run es = Ok (mf, outs) -> nth_error es i = Some (HFresh s) -> nth_error outs i = Some (collected s).
Proof.
  intros H Hn. rewrite hist_run_ok in H. injection H as H.
  rewrite <- (history_memoryless es init_attrs i s Hn), H. reflexivity.
Qed.

(* the long-lived collector: its mapping is the fold of the slices it was fed, and nothing else *)
Lemma hist_same_state es : forall m, fst (hist_pure m es) = fold_left topo_pure (same_slices es) m.
Proof.
  induction es as [|[s|s] r IH]; intro m; [reflexivity | rewrite hist_pure_same | rewrite hist_pure_fresh]; apply IH.
Qed.

Lemma hist_final es mf outs : hist_run es = Ok (mf, outs) -> mf = fold_left topo_pure (same_slices es) init_attrs.
Proof. intro H. rewrite hist_run_ok in H. injection H as H. rewrite <- hist_same_state, H. reflexivity. Qed.

Lemma fold_getk ss m k : k <> A_RESOURCE_TYPE ->
  getk k (fold_left topo_pure ss m) = put k (flat_map (required_of k) ss) (getk k m).
Proof.
  intro H. rewrite (getk_fold k topo_pure required) by (intros; apply topo_getk, H). rewrite sel_flat_map. reflexivity.
Qed.

Lemma fold_type ss : forall m,
  getk A_RESOURCE_TYPE (fold_left topo_pure ss m) = if existsb has_switch ss then sw_val else getk A_RESOURCE_TYPE m.
Proof.
  induction ss as [|s r IH]; intro m; simpl; [reflexivity|].
  rewrite IH, type_closed. destruct (has_switch s); simpl; [destruct (existsb has_switch r); reflexivity | reflexivity].
Qed.

Theorem same_collector_multi es mf outs k : hist_run es = Ok (mf, outs) -> In k multi_keys ->
  getk k mf = flat_map (required_of k) (same_slices es).
Proof.
  intros H Hk. assert (Ht := multi_not_type k Hk).
  rewrite (hist_final _ _ _ H), fold_getk, init_get by exact Ht. apply put_multi, Hk.
Qed.

Theorem same_collector_set es mf outs k v : hist_run es = Ok (mf, outs) -> In k set_keys ->
  (In v (getk k mf) <-> exists s, In s (same_slices es) /\ In v (required_of k s)) /\ NoDup (getk k mf).
Proof.
  intros H Hk. assert (Ht := set_not_type k Hk).
  rewrite (hist_final _ _ _ H), fold_getk, init_get, put_set by assumption.
  split; [|apply addus_NoDup; constructor].
  rewrite addus_In, in_flat_map. simpl. tauto.
Qed.

Theorem same_collector_type es mf outs : hist_run es = Ok (mf, outs) ->
  getk A_RESOURCE_TYPE mf = [AS (if existsb has_switch (same_slices es) then S"switch-p4" else S"sliver")].
Proof.
  intro H. rewrite (hist_final _ _ _ H), fold_type. destruct (existsb has_switch (same_slices es)); reflexivity.
Qed.

(* collecting the same slice twice in a row with one collector: per-resource values are listed twice (the code
   accumulates), the site sets and the resource type are unchanged *)
Theorem twice_in_a_row s k :
  (In k multi_keys -> getk k (topo_pure (collected s) s) = getk k (collected s) ++ getk k (collected s)) /\
  (In k set_keys -> getk k (topo_pure (collected s) s) = getk k (collected s)) /\
  getk A_RESOURCE_TYPE (topo_pure (collected s) s) = getk A_RESOURCE_TYPE (collected s).
Proof.
  split; [|split].
  - intro Hk. rewrite multi_closed by exact Hk. rewrite multi_exact by exact Hk. reflexivity.
  - intro Hk. rewrite set_closed by exact Hk. rewrite set_exact by exact Hk.
    apply addus_absorbed. intros v Hv. apply addus_In. right. exact Hv.
  - rewrite type_closed, type_exact. unfold resource_type, sw_val. destruct (has_switch s); reflexivity.
Qed.

Theorem summary_counts s :
  sm_vms (summary_of (logged s)) = tally_vms s /\ sm_cores (summary_of (logged s)) = tally_cores s /\
  sm_p4s (summary_of (logged s)) = tally_switches s /\
  (forall x, In x (sm_sites (summary_of (logged s))) <-> site_used s x) /\
  (forall f, In f (sm_facs (summary_of (logged s))) <-> facility_used s f) /\
  sm_comps (summary_of (logged s)) = map (fun kv => colon (fst kv) (str_of_Z (snd kv))) (l_comps (logged s)) /\
  sm_svcs (summary_of (logged s))
    = map (fun kv => colon (fst kv) (str_of_Z (snd kv))) (filter (fun kv => negb (str_eqb (fst kv) (S"OVS"))) (tally_services s)) /\
  (forall key, dget key (sm_vmdetails (summary_of (logged s)))
               = countb (str_eqb key) (map vmdetail_key (flat_map vm_caps (sl_nodes s)))).
Proof.
  unfold summary_of. cbn [sm_vms sm_cores sm_p4s sm_sites sm_facs sm_comps sm_svcs sm_vmdetails].
  rewrite log_vms, log_cores, log_switches, log_services, log_vm_caps.
  repeat split; try (apply log_sites); try (apply log_facilities); try reflexivity.
  intro key. apply (dget_fold_inc vmdetail_key key _ []).
Qed.
