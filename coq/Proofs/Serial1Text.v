(* C01 proofs, text layer: the reader undoes each writer on every XML-legal string: a legal string reaches
   the reader unchanged (a CR travels as the character reference &#13;). *)
From Coq Require Import String.
From Coq Require Import List NArith Bool Lia ZifyBool.
From Coq Require Import Decimal DecimalN.
From FIM Require Import Base.Str Model.Serial1Text.
Import ListNotations.
Open Scope N_scope.

Lemma str_to_uint_to_str u : str_to_uint (uint_to_str u) = Some u.
Proof. induction u; simpl; try rewrite IHu; reflexivity. Qed.

Definition digit_char (c : N) : bool := (48 <=? c) && (c <=? 57).

Lemma uint_to_str_digits u : forallb digit_char (uint_to_str u) = true.
Proof. induction u; simpl; try rewrite IHu; reflexivity. Qed.

Lemma uint_to_str_nonnil u : u <> Nil -> uint_to_str u <> [].
Proof. destruct u; simpl; congruence. Qed.

Lemma N_to_uint_nonnil n : N.to_uint n <> Nil.
Proof.
  destruct n as [|p]; simpl; [discriminate|]. apply DecimalPos.Unsigned.to_uint_nonnil.
Qed.

Lemma N_of_dec_of_N n : N_of_dec (dec_of_N n) = Some n.
Proof.
  unfold N_of_dec, dec_of_N.
  destruct (uint_to_str (N.to_uint n)) eqn:E.
  - exfalso. apply (uint_to_str_nonnil (N.to_uint n)); [apply N_to_uint_nonnil | exact E].
  - rewrite <- E, str_to_uint_to_str. simpl. f_equal. apply DecimalN.Unsigned.of_to.
Qed.

Lemma dec_digits n : forallb digit_char (dec_of_N n) = true.
Proof. apply uint_to_str_digits. Qed.

Lemma unesc_ref body : forall acc r,
  forallb (fun c => negb (c =? 59)) body = true ->
  unesc (Some acc) (body ++ 59 :: r) =
  match decode_ref (List.rev acc ++ body) with
  | Some ch => option_map (cons ch) (unesc None r)
  | None => None
  end.
Proof.
  induction body as [|b body IH]; intros acc r H.
  - simpl. rewrite app_nil_r. reflexivity.
  - simpl in H. apply andb_true_iff in H as [Hb H].
    simpl. destruct (b =? 59) eqn:E; [discriminate|].
    rewrite IH by exact H. simpl. rewrite <- app_assoc. reflexivity.
Qed.

Lemma forallb_impl {A} (p q : A -> bool) l :
  (forall x, p x = true -> q x = true) -> forallb p l = true -> forallb q l = true.
Proof.
  intros Hpq. induction l as [|x l IH]; simpl; [auto|].
  intro H. apply andb_true_iff in H as [H1 H2]. rewrite (Hpq _ H1), (IH H2). reflexivity.
Qed.

Lemma unesc_char_ref c r :
  xml_legal_char c = true ->
  unesc None (char_ref c ++ r) = option_map (cons c) (unesc None r).
Proof.
  intro L. unfold char_ref.
  change ((38 :: 35 :: dec_of_N c ++ [59]) ++ r) with (38 :: ((35 :: dec_of_N c ++ [59]) ++ r)).
  replace ((35 :: dec_of_N c ++ [59]) ++ r) with ((35 :: dec_of_N c) ++ 59 :: r)
    by (simpl; rewrite <- app_assoc; reflexivity).
  cbn [unesc]. change (38 =? 38) with true. cbn iota.
  rewrite unesc_ref.
  - (* no entity name starts with #: decode_ref goes to its numeric branch by computation *)
    change (decode_ref (List.rev [] ++ 35 :: dec_of_N c))
      with (match N_of_dec (dec_of_N c) with Some ch => if xml_legal_char ch then Some ch else None | None => None end).
    rewrite N_of_dec_of_N, L. reflexivity.
  - simpl. apply (forallb_impl digit_char); [|apply dec_digits].
    intros x Hx. unfold digit_char in Hx. lia.
Qed.

Lemma unesc_plain c r :
  xml_legal_char c = true -> c <> 38 -> c <> 60 ->
  unesc None (c :: r) = option_map (cons c) (unesc None r).
Proof.
  intros L H1 H2. cbn [unesc].
  destruct (N.eqb_spec c 38); [contradiction|]. destruct (N.eqb_spec c 60); [contradiction|].
  rewrite L. reflexivity.
Qed.

(* a table of replacements tried in order, then a character reference where [ref] asks for one, else the
   character itself; et_escape_char and lx_escape_char ARE such chains, lx_attr_escape_char up to one split *)
Fixpoint escape (tbl : list (N * str)) (ref : N -> bool) (c : N) : str :=
  match tbl with
  | [] => if ref c then char_ref c else [c]
  | (k, e) :: r => if c =? k then e else escape r ref c
  end.
Definition ents : list (N * str) := [(38, S"&amp;"); (60, S"&lt;"); (62, S"&gt;")].
Definition attr_ref (c : N) : bool := (c =? 9) || (c =? 10) || (c =? 13) || (127 <? c).

Lemma et_escape_eq s : et_escape s = flat_map (escape ents (N.ltb 127)) s.
Proof. reflexivity. Qed.
Lemma lx_escape_eq s : lx_escape s = flat_map (escape (ents ++ [(13, char_ref 13)]) (N.ltb 127)) s.
Proof. reflexivity. Qed.
Lemma lx_attr_escape_eq s : lx_attr_escape s = flat_map (escape (ents ++ [(34, S"&quot;")]) attr_ref) s.
Proof.
  apply flat_map_ext. intro c. unfold lx_attr_escape_char, attr_ref. simpl.
  destruct ((c =? 9) || (c =? 10) || (c =? 13)); reflexivity.
Qed.

Lemma escape_cases (P : str -> Prop) tbl (ref : N -> bool) c :
  (forall e, In (c, e) tbl -> P e) -> (~ In c (map fst tbl) -> P (if ref c then char_ref c else [c])) ->
  P (escape tbl ref c).
Proof.
  induction tbl as [|[k e] r IH]; simpl; intros He Hd; [apply Hd; tauto|].
  destruct (N.eqb_spec c k) as [->|NE]; [apply He; left; reflexivity|].
  apply IH; [intros e' H; apply He; right; exact H|]. intro H. apply Hd. intros [E|E]; [congruence|exact (H E)].
Qed.

(* the reader undoes a table whose entries it decodes, provided & and < are among the replaced *)
Definition decodes (ke : N * str) : Prop :=
  forall r, unesc None (snd ke ++ r) = option_map (cons (fst ke)) (unesc None r).

Lemma unesc_escape tbl ref c r : Forall decodes tbl -> In 38 (map fst tbl) -> In 60 (map fst tbl) ->
  xml_legal_char c = true -> unesc None (escape tbl ref c ++ r) = option_map (cons c) (unesc None r).
Proof.
  intros T A L Lc. apply escape_cases.
  - intros e H. exact (proj1 (Forall_forall _ _) T _ H r).
  - intro NI. destruct (ref c); [apply unesc_char_ref, Lc|]. apply unesc_plain; [exact Lc| |]; intros ->; auto.
Qed.

Lemma unescape_escape tbl ref s : Forall decodes tbl -> In 38 (map fst tbl) -> In 60 (map fst tbl) ->
  xml_legal s = true -> xml_unescape (flat_map (escape tbl ref) s) = Some s.
Proof.
  intros T A L. unfold xml_unescape. induction s as [|c s IH]; simpl; intro Ls; [reflexivity|].
  apply andb_true_iff in Ls as [Lc Ls]. rewrite unesc_escape, IH by assumption. reflexivity.
Qed.

Lemma unescape_et s : xml_legal s = true -> xml_unescape (et_escape s) = Some s.
Proof. rewrite et_escape_eq. apply unescape_escape; [repeat constructor|simpl; tauto..]. Qed.
Lemma unescape_lx s : xml_legal s = true -> xml_unescape (lx_escape s) = Some s.
Proof. rewrite lx_escape_eq. apply unescape_escape; [repeat constructor|simpl; tauto..]. Qed.
Lemma unescape_lx_attr s : xml_legal s = true -> xml_unescape (lx_attr_escape s) = Some s.
Proof. rewrite lx_attr_escape_eq. apply unescape_escape; [repeat constructor|simpl; tauto..]. Qed.

Definition not_cr (c : N) : bool := negb (c =? 13).

Lemma splitjoin_from_id t : forall cr, forallb not_cr t = true -> (cr = true -> match t with 10 :: _ => False | _ => True end) ->
  splitjoin_from cr t = t.
Proof.
  induction t as [|c t IH]; intros cr H Hcr; [reflexivity|].
  simpl in H. apply andb_true_iff in H as [H1 H]. unfold not_cr in H1.
  simpl. destruct (c =? 13) eqn:E13; [discriminate|].
  destruct (N.eqb_spec c 10) as [->|N10].
  - destruct cr; [exfalso; apply Hcr; reflexivity|]. f_equal. apply IH; [exact H|discriminate].
  - f_equal. apply IH; [exact H|discriminate].
Qed.

Lemma eol_norm_id t : forallb not_cr t = true -> eol_norm t = t.
Proof. intro H. apply splitjoin_from_id; [exact H|discriminate]. Qed.

Lemma digit_char_not_cr x : digit_char x = true -> not_cr x = true.
Proof. unfold digit_char, not_cr. lia. Qed.

Lemma char_ref_not_cr c : forallb not_cr (char_ref c) = true.
Proof.
  unfold char_ref. simpl. rewrite forallb_app. simpl. rewrite andb_true_r.
  apply (forallb_impl digit_char); [apply digit_char_not_cr|apply dec_digits].
Qed.

Lemma flat_map_forallb {A B} (f : A -> list B) (q : B -> bool) l :
  (forall x, forallb q (f x) = true) -> forallb q (flat_map f l) = true.
Proof.
  intro H. induction l as [|x l IH]; simpl; [reflexivity|]. rewrite forallb_app, H, IH. reflexivity.
Qed.

(* what holds of the table's entries, of every character reference and of the characters left alone holds of
   the whole output *)
Lemma escape_forallb (q : N -> bool) tbl ref s :
  Forall (fun ke => forallb q (snd ke) = true) tbl -> (forall c, forallb q (char_ref c) = true) ->
  (forall c, ~ In c (map fst tbl) -> ref c = false -> q c = true) ->
  forallb q (flat_map (escape tbl ref) s) = true.
Proof.
  intros T R D. apply flat_map_forallb. intro c. apply escape_cases.
  - intros e H. apply (proj1 (Forall_forall _ _) T _ H).
  - intro NI. destruct (ref c) eqn:E; [apply R|]. simpl. rewrite (D c NI E). reflexivity.
Qed.

Lemma lx_escape_not_cr s : forallb not_cr (lx_escape s) = true.
Proof.
  rewrite lx_escape_eq. apply escape_forallb; [repeat constructor|apply char_ref_not_cr|]. intros c NI _. unfold not_cr.
  destruct (N.eqb_spec c 13) as [->|]; [exfalso; apply NI; simpl; tauto|reflexivity].
Qed.

(* replacing the raw CRs of the ElementTree text gives exactly what lxml would have written *)
Lemma cr_ref_id t : forallb not_cr t = true -> cr_ref t = t.
Proof.
  induction t as [|c t IH]; [reflexivity|]. simpl. intro H. apply andb_true_iff in H as [H1 H2].
  unfold not_cr in H1. destruct (c =? 13); [discriminate|]. simpl. f_equal. apply IH, H2.
Qed.
Lemma cr_ref_app a b : cr_ref (a ++ b) = cr_ref a ++ cr_ref b.
Proof. unfold cr_ref. apply flat_map_app. Qed.

Lemma cr_ref_escape tbl ref c : Forall (fun ke => forallb not_cr (snd ke) = true) tbl -> ref 13 = false ->
  cr_ref (escape tbl ref c) = escape (tbl ++ [(13, char_ref 13)]) ref c.
Proof.
  intros T R. induction T as [|[k e] r He _ IH]; simpl.
  - destruct (N.eqb_spec c 13) as [->|NE]; [rewrite R; apply app_nil_r|]. apply cr_ref_id.
    destruct (ref c); [apply char_ref_not_cr|]. simpl. unfold not_cr. rewrite (proj2 (N.eqb_neq c 13) NE). reflexivity.
  - destruct (c =? k); [apply cr_ref_id, He|exact IH].
Qed.

Lemma cr_ref_et s : cr_ref (et_escape s) = lx_escape s.
Proof.
  rewrite et_escape_eq, lx_escape_eq. induction s as [|c s IH]; [reflexivity|]. cbn [flat_map].
  rewrite cr_ref_app, IH, cr_ref_escape; [reflexivity|repeat constructor|reflexivity].
Qed.

Definition attr_clean (c : N) : bool := not_cr c && negb (c =? 9) && negb (c =? 10).

Lemma char_ref_attr_clean c : forallb attr_clean (char_ref c) = true.
Proof.
  unfold char_ref. simpl. rewrite forallb_app. simpl. rewrite andb_true_r.
  apply (forallb_impl digit_char); [|apply dec_digits].
  intros x Hx. unfold digit_char in Hx. unfold attr_clean, not_cr. lia.
Qed.

Lemma lx_attr_escape_clean s : forallb attr_clean (lx_attr_escape s) = true.
Proof.
  rewrite lx_attr_escape_eq. apply escape_forallb; [repeat constructor|apply char_ref_attr_clean|].
  intros c _. unfold attr_ref, attr_clean, not_cr. lia.
Qed.

Lemma attr_ws_id t : forallb attr_clean t = true -> attr_ws t = t.
Proof.
  induction t as [|c t IH]; [reflexivity|]. simpl. intro H. apply andb_true_iff in H as [H1 H2].
  rewrite IH by exact H2. f_equal.
  unfold attr_clean, not_cr in H1.
  destruct ((c =? 9) || (c =? 10) || (c =? 13)) eqn:E; [lia|reflexivity].
Qed.

Theorem text_in_legal s : xml_legal s = true -> text_in s = Some s.
Proof.
  intro L. unfold text_in. rewrite cr_ref_et, eol_norm_id by apply lx_escape_not_cr.
  apply unescape_lx, L.
Qed.

Theorem text_out_legal s : xml_legal s = true -> text_out s = Some s.
Proof.
  intro L. unfold text_out. rewrite eol_norm_id by apply lx_escape_not_cr.
  apply unescape_lx, L.
Qed.

Theorem attr_out_legal s : xml_legal s = true -> attr_out s = Some s.
Proof.
  intro L. unfold attr_out.
  pose proof (lx_attr_escape_clean s) as C.
  rewrite eol_norm_id.
  - rewrite attr_ws_id by exact C. apply unescape_lx_attr, L.
  - revert C. apply forallb_impl. intro x. unfold attr_clean. lia.
Qed.

Theorem text_trip_legal s : xml_legal s = true -> text_trip s = Some s.
Proof. intro L. unfold text_trip. rewrite text_in_legal by exact L. apply text_out_legal, L. Qed.

(* a CR is carried as a reference on both legs *)
Theorem text_trip_cr_example : text_trip [97; 13; 10; 98; 13] = Some [97; 13; 10; 98; 13].
Proof. reflexivity. Qed.

(* text that is not XML is refused (the writer raises), e.g. a vertical tab *)
Theorem text_in_illegal_example : text_in [97; 11; 98] = None /\ text_in [0] = None.
Proof. split; reflexivity. Qed.
