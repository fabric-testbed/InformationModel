(* C02: element level - get after set returns the stored value, get after unset returns the absent
   value.  Generic in the class k (tables enter only through the boolean checks). *)
From Coq Require Import List String Bool.
From FIM Require Import Base.ListFacts Model.Sliver2Kinds Gen.PropMap Model.Sliver2Map Model.Sliver2WF
  Proofs.Sliver2Assoc Proofs.Sliver2MapRT.
Import ListNotations.

(* the lemmas of this file must not depend on the CONTENT of the regenerated tables *)
Local Opaque enums type_enum to_base from_base to_specific from_specific setters getters init_attrs
  sliver_property_to_graph no_unset_properties child_keys node_id_prop.

Lemma from_val_cong k d1 d2 fe :
  pget (snd (fst fe)) d1 = pget (snd (fst fe)) d2 -> from_val k d1 fe = from_val k d2 fe.
Proof. unfold from_val. intro H. rewrite H. reflexivity. Qed.

Lemma from_val_target k d fe xv : from_val k d fe = Ok xv -> target k fe = Some (fst xv).
Proof.
  unfold from_val, target. destruct (find_setter k (fst (fst fe))) as [[x st]|]; [|discriminate].
  destruct (dec_val k (snd fe) (pget (snd (fst fe)) d)); simpl; [|discriminate].
  destruct (apply_setter st a); simpl; intro H; inversion H; reflexivity.
Qed.

Lemma from_props_all_ok k d r :
  from_props k d = Ok r -> forall fe, In fe (from_table k) -> exists xv, from_val k d fe = Ok xv.
Proof.
  unfold from_props. intros H fe Hfe.
  destruct (fold_from_spec k d _ _ _ H) as [xs [HF _]].
  destruct (Forall2_in_l _ _ _ fe HF Hfe) as [b [_ Hb]]. exists b. exact Hb.
Qed.

Lemma keys_of_vals k d : forall F xs,
  Forall2 (fun fe xv => from_val k d fe = Ok xv) F xs ->
  akeys xs = flat_map (fun fe => match target k fe with Some x => [x] | None => [] end) F.
Proof.
  induction 1 as [|fe xv F xs H HF IH]; simpl; [reflexivity|].
  rewrite (from_val_target _ _ _ _ H). simpl. f_equal. exact IH.
Qed.

Lemma from_props_lookup k d :
  tables_symmetric k = true ->
  (forall fe, In fe (from_table k) -> exists xv, from_val k d fe = Ok xv) ->
  exists r, from_props k d = Ok r /\
    forall fe xv, In fe (from_table k) -> from_val k d fe = Ok xv -> alookup (fst xv) r = Some (snd xv).
Proof.
  intros Hs Hall.
  destruct (forall_exists_Forall2 (fun fe xv => from_val k d fe = Ok xv) (from_table k) Hall) as [xs HF].
  exists (asets xs (blank k)). split.
  - unfold from_props. apply fold_from_build. exact HF.
  - intros fe xv Hfe Hv.
    destruct (Forall2_in_l _ _ _ fe HF Hfe) as [b [Hb Hb']].
    rewrite Hv in Hb'. inversion Hb'; subst b.
    destruct (sym_parts k Hs) as [_ [_ [_ [NDt _]]]].
    apply asets_lookup_in.
    + rewrite (keys_of_vals k d _ _ HF). exact NDt.
    + destruct xv; exact Hb.
Qed.

Lemma akeys_aset_notin {V} k (v : V) l : ~ In k (akeys l) -> akeys (aset k v l) = akeys l ++ [k].
Proof.
  induction l as [|[k' v'] r IH]; simpl; intro H; [reflexivity|].
  destruct (String.eqb k k') eqn:E.
  - apply String.eqb_eq in E. subst. exfalso. apply H. left. reflexivity.
  - simpl. f_equal. apply IH. intro; apply H; right; assumption.
Qed.

Lemma to_props_nodup a : forall T acc P,
  NoDup (map gp T) -> NoDup (akeys acc) -> (forall g, In g (akeys acc) -> ~ In g (map gp T)) ->
  to_props_entries T a acc = Ok P -> NoDup (akeys P).
Proof.
  induction T as [|t r IH]; intros acc P ND NDacc Hdis H; simpl in H.
  - inversion H; subst. exact NDacc.
  - inversion ND as [|? ? NI ND']; subst.
    destruct (to_entry_val a t) as [o|e]; simpl in H; [|discriminate].
    destruct o as [p|].
    + assert (Hn : ~ In (snd (fst t)) (akeys acc)).
      { intro Hc. apply (Hdis _ Hc). left. reflexivity. }
      apply (IH _ _ ND') in H; [exact H| |].
      * rewrite akeys_aset_notin by exact Hn. apply NoDup_snoc; assumption.
      * intros g Hg. rewrite akeys_aset_notin in Hg by exact Hn. apply in_app_or in Hg as [Hg|[Hg|[]]].
        -- intro Hc. apply (Hdis g Hg). right. exact Hc.
        -- subst g. exact NI.
    + apply (IH _ _ ND') in H; [exact H | exact NDacc |].
      intros g Hg Hc. apply (Hdis g Hg). right. exact Hc.
Qed.

Lemma to_props_result_nodup k a P : tables_symmetric k = true -> to_props k a = Ok P -> NoDup (akeys P).
Proof.
  intros Hs HP. destruct (sym_parts k Hs) as [_ [NDg _]].
  unfold to_props in HP.
  refine (to_props_nodup a (to_table k) [] P NDg _ _ HP).
  - simpl. constructor.
  - intros g Hg. simpl in Hg. contradiction.
Qed.

Lemma emitted_attr_ok k a P fe x pv :
  tables_symmetric k = true -> akeys a = data_attrs k ->
  (forall y, In y (data_attrs k) -> aget y a = None \/ attr_ok k a y = true) ->
  to_props k a = Ok P -> In fe (from_table k) -> target k fe = Some x ->
  alookup (snd (fst fe)) P = Some pv -> attr_ok k a x = true.
Proof.
  intros Hs Hkeys Hweak HP Hfe Htx Hl.
  destruct (entry_attr k Hs fe Hfe) as [x' [r [st [Htx' [Hxd [Hfs [Hff [Etf Hinv]]]]]]]].
  rewrite Htx in Htx'. inversion Htx'; subst x'.
  destruct (Hweak x Hxd) as [Hn|Hok]; [|exact Hok].
  unfold attr_ok. rewrite Hff, Etf.
  destruct (alookup_in_keys x a) as [ov Hov]; [rewrite Hkeys; exact Hxd|].
  unfold aget in Hn. rewrite Hov in Hn. subst ov.
  destruct (written_entry k a Hs P HP x _ r Etf) as [o [Hlk Ho]]. rewrite Hl in Hlk.
  destruct o as [p|]; [|discriminate Hlk].
  destruct r as [e|x0]; unfold to_entry_val in Ho; rewrite Hov in Ho.
  - destruct e; try discriminate.
    (* only the unguarded statement (EJsonDumpsAlways) writes an attribute that is None *)
    destruct (snd fe) as [ |c nk|en| |df|c|i|i]; simpl in Hinv; try discriminate.
    destruct df; [|discriminate].
    destruct st as [[c'|]| | | |[c'|]]; simpl in Hinv; try discriminate.
    unfold val_ok, aget. rewrite Hov. reflexivity.
  - destruct (alookup x0 a) as [[vx|]|]; discriminate.
Qed.

Lemma to_entry_emits k a x g e dc st w :
  (forall y, e <> EImagePair y) ->
  val_ok k (RPrimary e) dc st a x = true -> alookup x a = Some (Some w) ->
  exists pv, to_entry_val a (x, g, e) = Ok (Some pv).
Proof.
  intros Hnp Hval Hx. unfold val_ok, aget in Hval. unfold to_entry_val. rewrite Hx in *.
  destruct e; try (exfalso; eapply Hnp; reflexivity).
  all: destruct dc as [ |c nk|en| |df|c|i|i]; try discriminate;
       destruct st as [[c'|]| | | |[c'|]]; try discriminate;
       destruct w; try discriminate; simpl; eexists; reflexivity.
Qed.

Lemma apply_setter_some st v o : apply_setter st (Some v) = Ok o -> exists w, o = Some w.
Proof.
  destruct st as [[c|]| | | |[c|]]; simpl.
  - destruct (val_class v) as [c'|]; [destruct (String.eqb c c')|]; intro H; inversion H; eexists; reflexivity.
  - intro H; inversion H; eexists; reflexivity.
  - destruct v; intro H; inversion H; eexists; reflexivity.
  - destruct v; intro H; inversion H; eexists; reflexivity.
  - destruct v; intro H; inversion H; eexists; reflexivity.
  - destruct (val_class v) as [c'|]; [destruct (String.eqb c c')|]; intro H; inversion H; eexists; reflexivity.
  - intro H; inversion H; eexists; reflexivity.
Qed.

Lemma weak_parts k a : attrs_wf_weak k a = true ->
  akeys a = data_attrs k /\ (forall x, In x (data_attrs k) -> aget x a = None \/ attr_ok k a x = true).
Proof.
  intro H. unfold attrs_wf_weak in H. apply andb_true_iff in H as [H1 H2]. split.
  - apply list_eqb_string_eq. exact H1.
  - intros x Hx. rewrite forallb_forall in H2. specialize (H2 x Hx).
    destruct (aget x a); [right; exact H2 | left; reflexivity].
Qed.

Lemma readable_parts k d : readable k d = true -> (exists r, from_props k d = Ok r) /\ NoDup (akeys d).
Proof.
  unfold readable. intro H. apply andb_true_iff in H as [H1 H2]. split.
  - destruct (from_props k d) as [r|]; [eexists; reflexivity | discriminate].
  - apply nodupb_NoDup. exact H2.
Qed.

Lemma settable_parts k p x : settable k p = Some x ->
  exists st gk, find_setter k p = Some (x, st) /\ find_getter k p = Some (x, gk) /\ In x (data_attrs k).
Proof.
  unfold settable. destruct (find_setter k p) as [[x1 st]|]; [|discriminate].
  destruct (find_getter k p) as [[x2 gk]|]; [|discriminate].
  destruct (String.eqb x1 x2 && mem x1 (data_attrs k)) eqn:E; [|discriminate].
  intro H. inversion H; subst. apply andb_true_iff in E as [E1 E2].
  apply String.eqb_eq in E1. subst. exists st, gk. repeat split. apply mem_true_iff. exact E2.
Qed.

Lemma get_property_via k p x d fe xv :
  tables_symmetric k = true -> settable k p = Some x ->
  (forall fe, In fe (from_table k) -> exists xv, from_val k d fe = Ok xv) ->
  In fe (from_table k) -> target k fe = Some x -> from_val k d fe = Ok xv ->
  get_property k p d = Ok (snd xv).
Proof.
  intros Hs Hset Hall Hfe Htx Hv. destruct (settable_parts k p x Hset) as [_ [gk [_ [Hfg _]]]].
  destruct (from_props_lookup k d Hs Hall) as [r [Hr Hlk]].
  unfold get_property. rewrite Hr. cbn [bind]. rewrite Hfg.
  assert (E := from_val_target k d fe xv Hv). rewrite Htx in E. inversion E as [Ex].
  rewrite (Hlk fe xv Hfe Hv). reflexivity.
Qed.

Lemma attr_emits k a x w :
  tables_symmetric k = true -> In x (data_attrs k) -> attr_ok k a x = true -> alookup x a = Some (Some w) ->
  exists g r pv, to_for k x = Some (g, r) /\
    match r with
    | RPrimary e => to_entry_val a (x, g, e) = Ok (Some pv)
    | RPartner x0 => to_entry_val a (x0, g, EImagePair x) = Ok (Some pv)
    end.
Proof.
  intros Hs Hxd Hok Hx. unfold attr_ok in Hok.
  destruct (to_for k x) as [[g r]|] eqn:Etf; [|discriminate Hok].
  destruct (from_for k x) as [[[g2 dc] st]|]; [|discriminate Hok].
  exists g, r.
  destruct r as [e|x0].
  - destruct e.
    7: { unfold val_ok, aget in Hok. rewrite Hx in Hok. unfold to_entry_val. rewrite Hx.
         destruct w as [r0| | | | | | ]; try discriminate Hok.
         destruct (alookup partner a) as [[[t0| | | | | | ]|]|]; try discriminate Hok.
         eexists. split; reflexivity. }
    all: match goal with
         | |- exists pv, _ /\ to_entry_val ?aa (?xx, ?gg, ?e) = _ =>
             destruct (to_entry_emits k aa xx gg e dc st w) as [pv Hpv];
               [intros y H; discriminate H | exact Hok | exact Hx | exists pv; split; [reflexivity | exact Hpv]]
         end.
  - unfold val_ok, aget in Hok. rewrite Hx in Hok. unfold to_entry_val. rewrite Hx.
    destruct (alookup x0 a) as [[[r0| | | | | | ]|]|]; try discriminate Hok.
    destruct w as [t0| | | | | | ]; try discriminate Hok.
    eexists. split; reflexivity.
Qed.

Lemma attr_skipped k a x g r :
  to_for k x = Some (g, r) -> alookup x a = Some None -> always_written k x = false ->
  match r with
  | RPrimary e => to_entry_val a (x, g, e) = Ok None
  | RPartner x0 => to_entry_val a (x0, g, EImagePair x) = Ok None
  end.
Proof.
  intros Etf Hx Hal. unfold always_written in Hal. rewrite Etf in Hal.
  destruct r as [e|x0]; unfold to_entry_val; rewrite ?Hx.
  - destruct e; try reflexivity. discriminate Hal.
  - destruct (alookup x0 a) as [[v|]|]; reflexivity.
Qed.

Section Update.
  Variables (k : kind) (a1 : attrs) (d pd : props).
  Hypothesis Hs : tables_symmetric k = true.
  Hypothesis Hwk : attrs_wf_weak k a1 = true.
  Hypothesis Hrd : readable k d = true.
  Hypothesis Hpd : to_props k a1 = Ok pd.

  Lemma upd_cases fe : In fe (from_table k) ->
    (alookup (snd (fst fe)) pd = None /\ from_val k (aupdate d pd) fe = from_val k d fe) \/
    (exists pv, alookup (snd (fst fe)) pd = Some pv /\ from_val k (aupdate d pd) fe = Ok (read_back k a1 fe)).
  Proof.
    intro Hfe. destruct (weak_parts k a1 Hwk) as [Hkeys Hweak].
    assert (NDpd := to_props_result_nodup k a1 pd Hs Hpd).
    rewrite aupdate_is_asets.
    destruct (alookup (snd (fst fe)) pd) as [pv|] eqn:El.
    - right. exists pv. split; [reflexivity|].
      rewrite <- (from_val_rd k a1 Hs Hkeys pd Hpd fe Hfe).
      + apply from_val_cong. unfold pget.
        rewrite (asets_lookup_in pd d _ pv NDpd (alookup_some_in _ _ _ El)). rewrite El. reflexivity.
      + intros x' Hx'. eapply emitted_attr_ok; eauto.
    - left. split; [reflexivity|]. apply from_val_cong. unfold pget.
      rewrite asets_lookup_notin; [reflexivity|].
      intro Hc. destruct (alookup_in_keys _ _ Hc) as [v' Hv']. rewrite Hv' in El. discriminate El.
  Qed.

  Lemma upd_all_ok fe : In fe (from_table k) -> exists xv, from_val k (aupdate d pd) fe = Ok xv.
  Proof.
    intro Hfe. destruct (readable_parts k d Hrd) as [[r0 Hr0] _].
    destruct (upd_cases fe Hfe) as [[_ Heq]|[pv [_ Heq]]]; rewrite Heq.
    - apply (from_props_all_ok k d r0 Hr0 fe Hfe).
    - eexists. reflexivity.
  Qed.

  Theorem upd_get_written p x w :
    settable k p = Some x -> aget x a1 = Some w -> get_property k p (aupdate d pd) = Ok (Some w).
  Proof.
    intros Hset Hw. destruct (settable_parts k p x Hset) as [st0 [gk [Hfs [Hfg Hxd]]]].
    destruct (weak_parts k a1 Hwk) as [Hkeys Hweak].
    destruct (alookup_in_keys x a1) as [ov Hov]; [rewrite Hkeys; exact Hxd|].
    unfold aget in Hw. rewrite Hov in Hw. subst ov.
    assert (Hattr : attr_ok k a1 x = true).
    { destruct (Hweak x Hxd) as [Hn|Hok]; [|exact Hok]. unfold aget in Hn. rewrite Hov in Hn. discriminate Hn. }
    destruct (attr_entries k Hs x Hxd) as [fe [r [st [Hfe [Htx [_ [_ [Etf _]]]]]]]].
    set (g := snd (fst fe)) in *.
    destruct (attr_emits k a1 x w Hs Hxd Hattr Hov) as [g' [r' [pv [Etf' Hem]]]].
    rewrite Etf in Etf'. inversion Etf'; subst g' r'.
    destruct (written_entry k a1 Hs pd Hpd x g r Etf) as [o [Hl Ho]].
    assert (Ho' : o = Some pv) by (destruct r; rewrite Hem in Ho; inversion Ho; reflexivity). subst o.
    destruct (upd_cases fe Hfe) as [[Hnone _]|[pv' [_ Heq]]].
    - unfold g in Hl. rewrite Hl in Hnone. discriminate Hnone.
    - rewrite (get_property_via k p x _ fe _ Hs Hset upd_all_ok Hfe Htx Heq).
      unfold read_back. rewrite Htx. cbn [snd]. unfold aget. rewrite Hov. reflexivity.
  Qed.

  Theorem upd_get_frame p x :
    settable k p = Some x -> aget x a1 = None -> always_written k x = false ->
    get_property k p (aupdate d pd) = get_property k p d.
  Proof.
    intros Hset Hw Hal. destruct (settable_parts k p x Hset) as [st0 [gk [Hfs [Hfg Hxd]]]].
    destruct (weak_parts k a1 Hwk) as [Hkeys Hweak].
    destruct (alookup_in_keys x a1) as [ov Hov]; [rewrite Hkeys; exact Hxd|].
    unfold aget in Hw. rewrite Hov in Hw. subst ov.
    destruct (attr_entries k Hs x Hxd) as [fe [r [st [Hfe [Htx [_ [_ [Etf _]]]]]]]].
    set (g := snd (fst fe)) in *.
    assert (Hsk := attr_skipped k a1 x g r Etf Hov Hal).
    destruct (written_entry k a1 Hs pd Hpd x g r Etf) as [o [Hl Ho]].
    assert (Ho' : o = None) by (destruct r; rewrite Hsk in Ho; inversion Ho; reflexivity). subst o.
    destruct (readable_parts k d Hrd) as [[r0 Hr0] _]. assert (Hall0 := from_props_all_ok k d r0 Hr0).
    destruct (Hall0 fe Hfe) as [xv Hxv].
    destruct (upd_cases fe Hfe) as [[_ Heq]|[pv' [Hsome _]]].
    - rewrite (get_property_via k p x d fe xv Hs Hset Hall0 Hfe Htx Hxv). rewrite <- Heq in Hxv.
      exact (get_property_via k p x _ fe xv Hs Hset upd_all_ok Hfe Htx Hxv).
    - unfold g in Hl. rewrite Hl in Hsome. discriminate Hsome.
  Qed.
End Update.

Lemma absent_ok_entry k fe :
  absent_ok k = true -> In fe (from_table k) -> mem (snd (fst fe)) no_unset_properties = false ->
  exists x, target k fe = Some x /\ from_val k [] fe = Ok (x, unset_reads k x).
Proof.
  intros Ha Hfe Hm. unfold absent_ok in Ha. rewrite forallb_forall in Ha. specialize (Ha fe Hfe).
  rewrite Hm in Ha. simpl in Ha.
  destruct (target k fe) as [x|]; [|discriminate]. exists x. split; [reflexivity|].
  destruct (from_val k [] fe) as [[x' v]|]; [|discriminate].
  apply andb_true_iff in Ha as [Hx Hv]. apply String.eqb_eq in Hx. subst x'.
  destruct v as [[ | |c [|]| | | | ]|]; destruct (unset_reads k x) as [[ | |c' [|]| | | | ]|]; try discriminate.
  - apply String.eqb_eq in Hv. subst. reflexivity.
  - apply Bool.eqb_prop in Hv. subst. reflexivity.
  - reflexivity.
Qed.

Theorem unset_get_generic k p d x g :
  tables_symmetric k = true -> absent_ok k = true ->
  settable k p = Some x -> alookup p sliver_property_to_graph = Some g ->
  mem g no_unset_properties = false -> unset_map_ok k p = true -> readable k d = true ->
  exists d', set_property k p None d = Ok d' /\ get_property k p d' = Ok (unset_reads k x).
Proof.
  intros Hs Ha Hset Hmap Hnu Hum Hrd.
  destruct (settable_parts k p x Hset) as [st [gk [Hfs [Hfg Hxd]]]].
  destruct (readable_parts k d Hrd) as [[r0 Hr0] NDd].
  exists (aremove g d). split.
  { unfold set_property, set_property_with, unset_property. rewrite Hmap, Hnu. reflexivity. }
  assert (Hall : forall fe, In fe (from_table k) ->
            (snd (fst fe) = g /\ from_val k (aremove g d) fe = from_val k [] fe) \/
            (snd (fst fe) <> g /\ from_val k (aremove g d) fe = from_val k d fe)).
  { intros fe Hfe. destruct (string_dec (snd (fst fe)) g) as [E|N].
    - left. split; [exact E|]. apply from_val_cong. unfold pget. rewrite E.
      rewrite (alookup_aremove_same g d NDd). reflexivity.
    - right. split; [exact N|]. apply from_val_cong. unfold pget.
      rewrite alookup_aremove_other by (intro E; apply N; symmetry; exact E). reflexivity. }
  assert (Hok : forall fe, In fe (from_table k) -> exists xv, from_val k (aremove g d) fe = Ok xv).
  { intros fe Hfe. destruct (Hall fe Hfe) as [[E Heq]|[N Heq]]; rewrite Heq.
    - destruct (absent_ok_entry k fe Ha Hfe) as [x' [_ Hv]]; [rewrite E; exact Hnu|]. eexists; exact Hv.
    - apply (from_props_all_ok k d r0 Hr0 fe Hfe). }
  destruct (attr_entries k Hs x Hxd) as [fe [r1 [st' [Hfe [Htx [_ [_ [Etf _]]]]]]]].
  unfold unset_map_ok in Hum. rewrite Hset, Hmap, Etf in Hum. apply String.eqb_eq in Hum.
  destruct (Hall fe Hfe) as [[_ Heq]|[N _]]; [|exfalso; apply N; symmetry; exact Hum].
  destruct (absent_ok_entry k fe Ha Hfe) as [x' [Htx' Hv]]; [rewrite <- Hum; exact Hnu|].
  rewrite Htx in Htx'. inversion Htx'; subst x'. rewrite <- Heq in Hv.
  exact (get_property_via k p x _ fe _ Hs Hset Hok Hfe Htx Hv).
Qed.
