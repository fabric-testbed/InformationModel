(* C09 - composite builders with a rollback (add_facility since fix 2982a89, add_switch when it has one):
   whatever step after the node is rejected, removing the node with its service and ports restores the graph. *)
From Coq Require Import List NArith Bool.
From FIM Require Import Base.ListFacts Model.T9Graph Model.T9Ops Proofs.T9Monad Proofs.T9Simple Proofs.T9Ext
     Proofs.T9Rollback Proofs.T9Connect.
Import ListNotations.
Open Scope N_scope.

(* the graph while the builder runs: pre-state, the new node, its service, the ports made so far *)
Definition FS (g : graph) (fac nsn : node) (os : list node) : graph :=
  mkGraph (gnodes g ++ fac :: nsn :: os)
          (gedges g ++ mkEdge (nid fac) (nid nsn) rHas :: map (orphan_edge (nid nsn)) os).

Record fs_ok (g : graph) (fac nsn : node) (os : list node) : Prop := mkFsOk {
  fo_nodup : NoDup (ids g ++ nid fac :: nid nsn :: map nid os);
  fo_fac : ncls fac = cNN;
  fo_ns : ncls nsn = cNS;
  fo_os : forall o, In o os -> ncls o = cCP }.

Lemma ids_FS g fac nsn os : ids (FS g fac nsn os) = ids g ++ nid fac :: nid nsn :: map nid os.
Proof. unfold ids, FS; simpl. rewrite map_app. reflexivity. Qed.

Lemma FS_closed g fac nsn os : closed g -> closed (FS g fac nsn os).
Proof.
  intros Hc e He. rewrite ids_FS. unfold FS in He; simpl in He.
  apply in_app_iff in He as [He|[<-|He]].
  - destruct (Hc e He). split; apply in_app_iff; auto.
  - simpl. split; apply in_app_iff; right; simpl; auto.
  - apply in_map_iff in He as [o [<- Ho]]. simpl. split; apply in_app_iff; right; simpl; auto.
    right; right. apply in_map; auto.
Qed.

Lemma fs_handler g fac nsn os fr : closed g -> fs_ok g fac nsn os ->
  remove_network_node_with_all (nid fac) (mkSt (FS g fac nsn os) fr) = (mkSt g fr, Ok tt).
Proof.
  intros Hcl [Hnd Hfac Hns Hos].
  set (E := FS g fac nsn os).
  assert (HndE : NoDup (ids E)) by (unfold E; rewrite ids_FS; exact Hnd).
  assert (Hf_new : ~ In (nid fac) (ids g)) by (apply NoDup_mid in Hnd as (A & _ & _); exact A).
  assert (Hf_rest : ~ In (nid fac) (nid nsn :: map nid os)) by (apply NoDup_mid in Hnd as (_ & B & _); exact B).
  assert (Hfind : find_node E (nid fac) = Ok fac).
  { apply find_node_unique; auto. unfold E, FS; simpl. apply in_app_iff. right. left. reflexivity. }
  assert (Hadj : adj_rel E (nid fac) rHas = [nid nsn]).
  { unfold adj_rel, E, FS. cbn [gedges]. rewrite flat_map_app.
    fold (adj_es (gedges g) (nid fac) rHas). rewrite (adj_es_untouched _ _ _ (closed_untouched g _ Hcl Hf_new)).
    simpl. unfold other_end at 1; simpl. rewrite N.eqb_refl. simpl. f_equal.
    apply flat_map_nil. intros e He. apply in_map_iff in He as [o [<- Ho]]. reflexivity. }
  assert (Hcls_ns : cls_of E (nid nsn) = Some cNS).
  { unfold cls_of, find_nodes. rewrite (find_nodes_unique (gnodes E) nsn HndE).
    - rewrite Hns. reflexivity.
    - unfold E, FS; simpl. apply in_app_iff. right. right. left. reflexivity. }
  assert (Hfc : first_neighbor E (nid fac) rHas cComp = Ok []).
  { unfold first_neighbor. rewrite Hfind, Hadj. simpl. unfold has_cls. rewrite Hcls_ns. reflexivity. }
  assert (Hfs : first_neighbor E (nid fac) rHas cNS = Ok [nid nsn]).
  { unfold first_neighbor. rewrite Hfind, Hadj. simpl. unfold has_cls. rewrite Hcls_ns. reflexivity. }
  unfold remove_network_node_with_all, bind, ask. simpl sg.
  unfold node_cls. rewrite Hfind. rewrite Hfac. simpl. fold E.
  rewrite Hfc. simpl. rewrite Hfs.
  unfold m_delete_node, mutate, g_delete_node. simpl sg. rewrite Hfind.
  assert (Hraw : remove_node_raw (nid fac) E = extO g nsn [] os).
  { unfold remove_node_raw, E, FS, extO, tail_nodes, tail_edges. simpl. f_equal.
    - rewrite filter_old_nodes by exact Hf_new. simpl. rewrite N.eqb_refl. simpl. f_equal.
      rewrite (neqb_of_neq (nid nsn) (nid fac)) by (intro X; apply Hf_rest; left; auto). simpl. f_equal.
      apply filter_nodes_notin. intros n Hn X. apply Hf_rest. right. rewrite <- X. apply in_map; auto.
    - rewrite filter_old_edges by auto. f_equal.
      simpl. unfold touches at 1; simpl. rewrite N.eqb_refl. simpl.
      apply filter_all. intros e He. apply in_map_iff in He as [o [<- Ho]]. unfold touches, orphan_edge; simpl.
      rewrite (neqb_of_neq (nid nsn) (nid fac)) by (intro X; apply Hf_rest; left; auto).
      rewrite (neqb_of_neq (nid o) (nid fac))
        by (intro X; apply Hf_rest; right; rewrite <- X; apply in_map; auto). reflexivity. }
  rewrite Hraw. simpl for_each. unfold bind at 1.
  rewrite (remove_ns_orphans g nsn os fr Hcl); [reflexivity|].
  apply NoDup_mid in Hnd as (_ & _ & Hnd').
  constructor.
  - constructor.
    + unfold new_ids, conn_ids; simpl.
      assert (X : NoDup ((ids g ++ [nid nsn]) ++ map nid os)) by (rewrite <- app_assoc; exact Hnd').
      apply NoDup_app_l in X. exact X.
    + exact Hns.
    + intros c Hc; destruct Hc.
    + constructor.
    + intros c Hc; destruct Hc.
  - unfold new_ids, conn_ids; simpl. exact Hnd'.
  - exact Hos.
Qed.

(* only the node was made (the service step failed): removing it restores g *)
Lemma node_handler g fac fr : closed g -> ~ In (nid fac) (ids g) -> NoDup (ids g) -> ncls fac = cNN ->
  remove_network_node_with_all (nid fac) (mkSt (mkGraph (gnodes g ++ [fac]) (gedges g)) fr) = (mkSt g fr, Ok tt).
Proof.
  intros Hcl Hnew Hnd Hfac.
  set (E := mkGraph (gnodes g ++ [fac]) (gedges g)).
  assert (HndE : NoDup (ids E)) by (unfold ids, E; simpl; rewrite map_app; simpl; apply NoDup_snoc; auto).
  assert (Hfind : find_node E (nid fac) = Ok fac).
  { apply find_node_unique; auto. unfold E; simpl. apply in_app_iff. right. left. reflexivity. }
  assert (Hunt : untouched (nid fac) (gedges E)) by (unfold E; simpl; apply closed_untouched; auto).
  assert (Hfn : forall k, first_neighbor E (nid fac) rHas k = Ok []).
  { intro k. unfold first_neighbor. rewrite Hfind. unfold adj_rel. fold (adj_es (gedges E) (nid fac) rHas).
    rewrite (adj_es_untouched _ _ _ Hunt). reflexivity. }
  assert (Hraw : remove_node_raw (nid fac) E = g).
  { unfold remove_node_raw. rewrite (filter_untouched _ _ Hunt). unfold E; simpl.
    rewrite filter_old_nodes by exact Hnew. simpl. rewrite N.eqb_refl. simpl. rewrite app_nil_r.
    destruct g; reflexivity. }
  unfold remove_network_node_with_all, bind, ask. simpl sg.
  unfold node_cls. rewrite Hfind. rewrite Hfac. simpl. fold E.
  rewrite Hfn. cbn [for_each]. unfold ret. cbn [sg]. rewrite Hfn.
  unfold m_delete_node, mutate, g_delete_node. simpl sg. rewrite Hfind. rewrite Hraw. reflexivity.
Qed.

Lemma op_add_node_shape fl name node_id ty pure :
  yields (op_add_node fl name node_id (Some ty) pure)
         (fun g id g' => has_node g id = false /\ g' = mkGraph (gnodes g ++ [mkNode id cNN name ty 0]) (gedges g)).
Proof.
  unfold op_add_node. repeat (apply yields_bind; [solve [nm]|intro; cbv beta iota]).
  intros s s1 a H. apply yields_mutate_ret in H as [-> H]. apply add_node_result in H. exact H.
Qed.

Lemma op_add_node_service_shape fl pn name node_id ty pure :
  yields (op_add_node_service fl pn name node_id (Some ty) pure)
         (fun g id g' => closed g -> ~ In id (ids g) /\
                         g' = mkGraph (gnodes g ++ [mkNode id cNS name ty 0]) (gedges g ++ [mkEdge pn id rHas])).
Proof.
  unfold op_add_node_service, new_service.
  apply yields_bind; [nm|intro]. apply yields_bind; [nm|intro]. apply yields_bind; [nm|intro id]. cbv beta iota.
  repeat (apply yields_bind; [solve [nm]|intro]).
  intros s s1 a H.
  apply (yields_node_edge (mkNode id cNS name ty 0) pn rHas _ id) in H as [-> H]; [exact H|reflexivity].
Qed.

(* one more port on the service of the builder *)
Lemma port_step fl g fac nsn os cached name nid0 ty pure s s1 r :
  closed g -> fs_ok g fac nsn os -> sg s = FS g fac nsn os ->
  add_interface_cached fl (nid nsn) cached name nid0 (Some ty) pure s = (s1, r) ->
  match r with
  | Err _ => sg s1 = FS g fac nsn os
  | Ok _ => exists o, sg s1 = FS g fac nsn (os ++ [o]) /\ fs_ok g fac nsn (os ++ [o])
  end.
Proof.
  intros Hcl F Hsg H.
  apply (add_port_cases fl (FS g fac nsn os)) in H;
    [|apply FS_closed; auto|rewrite ids_FS; apply (fo_nodup _ _ _ _ F)
     |rewrite ids_FS; apply in_app_iff; right; right; left; reflexivity|exact Hsg].
  destruct r as [p|e]; [|exact H]. destruct H as [Hnew Hs1]. rewrite ids_FS in Hnew.
  exists (mkNode p cCP name ty 0). split.
  - rewrite Hs1. unfold plus_port, FS; simpl. rewrite map_app. simpl. rewrite <- !app_assoc. reflexivity.
  - destruct F as [Hnd Hf Hn Ho]. constructor; auto.
    + rewrite map_app. simpl.
      replace (ids g ++ nid fac :: nid nsn :: map nid os ++ [p])
        with ((ids g ++ nid fac :: nid nsn :: map nid os) ++ [p]) by (rewrite <- app_assoc; reflexivity).
      apply NoDup_snoc; auto.
    + intros o Hin. apply in_app_iff in Hin as [Hin|[<-|[]]]; auto.
Qed.

Inductive adds_ports (fl : flavour) (ns : N) : M unit -> Prop :=
| ap_done : adds_ports fl ns (ret tt)
| ap_port cached name nid0 ty pure k : adds_ports fl ns k ->
    adds_ports fl ns (_ <- add_interface_cached fl ns cached name nid0 (Some ty) pure ;; k).

Lemma facility_ports_adds fl ns with_id d_intk ports : forall cached k,
  adds_ports fl ns (facility_ports fl ns cached ports with_id d_intk k).
Proof. induction ports; intros; simpl; constructor; auto. Qed.
Lemma switch_ports_adds fl ns with_id d_intk pure_port n : forall cached k,
  adds_ports fl ns (switch_ports fl ns cached n k with_id d_intk pure_port).
Proof. induction n; intros; simpl; constructor; auto. Qed.

(* they fail in a state the handler undoes *)
Lemma adds_ports_fail fl g fac nsn k : closed g -> adds_ports fl (nid nsn) k ->
  forall os s s1 e, fs_ok g fac nsn os -> sg s = FS g fac nsn os -> k s = (s1, Err e) ->
  exists os', sg s1 = FS g fac nsn os' /\ fs_ok g fac nsn os'.
Proof.
  intros Hcl Hk. induction Hk as [|cached name nid0 ty pure k Hk IH]; intros os s s1 e F Hsg H; [discriminate|].
  unfold bind in H.
  destruct (add_interface_cached fl (nid nsn) cached name nid0 (Some ty) pure s) as [s2 r] eqn:E.
  assert (P := port_step fl g fac nsn os _ _ _ _ _ s s2 r Hcl F Hsg E).
  destruct r as [x|e2].
  - destruct P as (o & Hs2 & F2). eapply IH; eauto.
  - inversion H; subst. eauto.
Qed.

Lemma service_step_cases fl g fac name2 nid2 ty pure_ns fr s3 r :
  closed g -> NoDup (ids g) -> ~ In (nid fac) (ids g) -> ncls fac = cNN ->
  op_add_node_service fl (nid fac) name2 nid2 (Some ty) pure_ns
                      (mkSt (mkGraph (gnodes g ++ [fac]) (gedges g)) fr) = (s3, r) ->
  match r with
  | Err _ => sg s3 = mkGraph (gnodes g ++ [fac]) (gedges g)
  | Ok facs => exists nsn, nid nsn = facs /\ sg s3 = FS g fac nsn [] /\ fs_ok g fac nsn []
  end.
Proof.
  intros Hcl Hnd Hnew Hfac H.
  set (G1 := mkGraph (gnodes g ++ [fac]) (gedges g)) in *.
  assert (HclG1 : closed G1).
  { intros e He. unfold G1, ids in *; simpl in *. rewrite map_app. destruct (Hcl e He).
    split; apply in_app_iff; left; auto. }
  destruct r as [facs|e].
  - destruct (op_add_node_service_shape fl (nid fac) name2 nid2 ty pure_ns _ _ _ H HclG1) as [Hn Hs].
    simpl sg in Hn.
    exists (mkNode facs cNS name2 ty 0). split; [reflexivity|]. split.
    + simpl sg in Hs. rewrite Hs. unfold FS, G1; simpl. rewrite <- !app_assoc. reflexivity.
    + constructor; auto; [|intros o []]. simpl.
      unfold G1, ids in Hn; simpl in Hn. rewrite map_app in Hn. simpl in Hn.
      replace (ids g ++ [nid fac; facs]) with ((ids g ++ [nid fac]) ++ [facs]) by (rewrite <- app_assoc; reflexivity).
      apply NoDup_snoc; [apply NoDup_snoc; auto|exact Hn].
  - exact (op_add_node_service_atomic fl (nid fac) name2 nid2 (Some ty) pure_ns _ s3 e H).
Qed.

(* a node, then in a try: its service and a program that adds ports to it; the handler removes the node *)
Lemma builder_atomic fl name node_id ty name2 nid2 nsty pure_ns (k : N -> M unit) g fresh s' e :
  wf_graph g = true -> (forall facs, adds_ports fl facs (k facs)) ->
  (facn <- op_add_node fl name node_id (Some ty) None ;;
   catch_any (facs <- op_add_node_service fl facn name2 nid2 (Some nsty) pure_ns ;; k facs)
             (fun e0 => remove_network_node_with_all facn ;;; raise e0) ;;;
   ret facn) (mkSt g fresh) = (s', Err e) ->
  sg s' = g.
Proof.
  intros Hwf Hk H. assert (Hcl := wf_closed g Hwf). assert (Hnd := wf_nodup g Hwf).
  apply bind_err_cases in H as [H|(s1 & facn & H1 & H)]; [exact (op_add_node_atomic _ _ _ _ _ _ _ _ H)|].
  apply op_add_node_shape in H1 as [Hnew Hs1]. simpl sg in Hnew, Hs1. apply has_node_false_In in Hnew.
  set (fac := mkNode facn cNN name ty 0) in *.
  apply bind_ret_err in H. destruct s1 as [g1 fr1]. simpl in Hs1. subst g1.
  eapply catch_undo; [|exact H]. intros [g2 fr2] e2 Ht. exists fr2.
  apply bind_err_cases in Ht as [Ht|(s3 & facs & H3 & Ht)].
  - assert (Hs2 := service_step_cases fl g fac _ _ _ _ _ _ (Err e2) Hcl Hnd Hnew eq_refl Ht).
    simpl in Hs2. subst g2. apply node_handler; auto.
  - destruct (service_step_cases fl g fac _ _ _ _ _ _ (Ok facs) Hcl Hnd Hnew eq_refl H3) as (nsn & <- & Hs3 & F).
    destruct (adds_ports_fail fl g fac nsn _ Hcl (Hk _) [] s3 _ e2 F Hs3 Ht) as (os & Hs2 & F2).
    simpl in Hs2. subst g2. apply fs_handler; auto.
Qed.

Lemma add_facility_atomic fl name node_id d_ns d_int d_intk nstype pure_ns ports pure_single g fresh s' e :
  wf_graph g = true ->
  op_add_facility fl name node_id d_ns d_int d_intk nstype pure_ns ports pure_single (mkSt g fresh) = (s', Err e) ->
  sg s' = g.
Proof.
  intros Hwf H. unfold op_add_facility, facility_tail in H.
  eapply builder_atomic; [exact Hwf| |exact H].
  intro facs. destruct ports as [[|p l]|]; repeat constructor. apply facility_ports_adds.
Qed.

(* add_switch with the rollback of proposed_fixes/C09-5.patch *)
Lemma add_switch_atomic_rb fl name node_id d_ns d_intk nstype pure_ns nports pure_port g fresh s' e :
  wf_graph g = true ->
  op_add_switch true fl name node_id d_ns d_intk nstype pure_ns nports pure_port (mkSt g fresh) = (s', Err e) ->
  sg s' = g.
Proof.
  intros Hwf H. unfold op_add_switch, switch_tail in H.
  eapply builder_atomic; [exact Hwf| |exact H].
  intro sws. apply switch_ports_adds.
Qed.

(* add_switch without it: atomic only when the node step itself is rejected *)
Lemma add_switch_first_step rb fl name node_id d_ns d_intk nstype pure_ns nports pure_port s s' e :
  op_add_switch rb fl name node_id d_ns d_intk nstype pure_ns nports pure_port s = (s', Err e) ->
  (forall s1 id, op_add_node fl name node_id (Some tSwitch) None s <> (s1, Ok id)) ->
  sg s' = sg s.
Proof.
  intros H Hno. unfold op_add_switch in H.
  apply bind_err_cases in H as [H|(s1 & id & H1 & H)].
  - exact (op_add_node_atomic fl name node_id (Some tSwitch) None s s' e H).
  - exfalso. eapply Hno; eauto.
Qed.
