(* C08: which LINKS are deleted - the exact characterisation, including links of three or more
   ends.  The code deletes a link inside remove_cp_and_links "when exactly two interfaces connect to it" at the
   moment of that call.  Under WL (no link has two ends inside one port family, i.e. two ends that are next to each
   other or hang on a common connection point) every call takes at most one end of a given link, the test is
   evaluated once per lost end, and the outcome does not depend on the order of the calls:

       a link is deleted  <->  it had at least two ends, lost at least one, and at most one survives.

   When WL fails (a port and its sub-interface, or two sub-interfaces of one port, on the same link of >= 3 ends) the
   ends of one family disappear in ONE call after ONE test, and for a node with several components / services the
   result depends on Python's set iteration order - see link_iff_needs_WL in T8Witness.v. *)
From Coq Require Import List NArith Bool Lia Permutation.
From FIM Require Import Model.T8Graph Model.T8Ops Proofs.T8Frame Proofs.T8Query Proofs.T8Hoare Proofs.T8Sound
     Proofs.T8Complete Proofs.T8Inv.
Import ListNotations.

Definition surv (D E : list N) : list N := filter (fun e => negb (memN e D)) E.

(* WL g (well-formed links): two distinct ends of one link are neither next to each other nor next to a common connection
   point - no link has two ends inside one port family *)
Definition WL (g : graph) : Prop :=
  forall l e1 e2, class_of g l = CLink -> In e1 (cpn g l) -> In e2 (cpn g l) -> e1 <> e2 ->
    ~ In e1 (cpn g e2) /\ (forall p, class_of g p = CCP -> In e1 (cpn g p) -> In e2 (cpn g p) -> False).

(* KL g D (the link count invariant of a trace D): a link is in D iff it had at least two ends, at most one of them is
   outside D, and at least one is in D *)
Definition KL (g : graph) (D : list N) : Prop :=
  forall l, class_of g l = CLink ->
    (In l D <-> (2 <= length (cpn g l) /\ length (surv D (cpn g l)) <= 1 /\ exists e, In e (cpn g l) /\ In e D)).

Lemma surv_In D E e : In e (surv D E) <-> In e E /\ ~ In e D.
Proof. unfold surv. rewrite filter_In, negb_true_iff, memN_false. tauto. Qed.

Lemma len_same (a b : list N) : NoDup a -> NoDup b -> (forall x, In x a <-> In x b) -> length a = length b.
Proof. intros Ha Hb H. apply Permutation_length. apply NoDup_Permutation; assumption. Qed.

Lemma surv_NoDup D E : NoDup E -> NoDup (surv D E).
Proof. intros H. unfold surv. apply NoDup_filter. exact H. Qed.

Lemma filter_len_le {A} (f : A -> bool) (l : list A) : length (filter f l) <= length l.
Proof. induction l as [|a l IH]; simpl; [lia|]. destruct (f a); simpl; lia. Qed.

Lemma filter_len_lt {A} (f : A -> bool) (l : list A) :
  length (filter f l) < length l <-> exists x, In x l /\ f x = false.
Proof.
  induction l as [|a l IH]; simpl; [split; [lia | intros [x [[] _]]]|].
  pose proof (filter_len_le f l). destruct (f a) eqn:E; simpl; split.
  - intros H0. destruct (proj1 IH ltac:(lia)) as [x [Hx Hf]]. exists x. auto.
  - intros [x [[<-|Hx] Hf]]; [congruence|]. assert (length (filter f l) < length l) by (apply IH; exists x; auto). lia.
  - intros _. exists a. auto.
  - intros _. lia.
Qed.

(* an end is lost iff fewer survive than there were *)
Lemma lost_iff D E : (exists e, In e E /\ In e D) <-> length (surv D E) < length E.
Proof.
  unfold surv. rewrite filter_len_lt. split; intros [e [He H]]; exists e; (split; [exact He|]).
  - apply negb_false_iff, memN_In. exact H.
  - apply memN_In, negb_false_iff. exact H.
Qed.

Section Link.
Variable g0 : graph.
Hypothesis HW : WL g0.

Lemma cpn_NoDup l : NoDup (cpn g0 l).
Proof. apply first_neighbor_NoDup. Qed.

Lemma KL_del D n : KL g0 D -> ~ In n D ->
  class_of g0 n = CNS \/ class_of g0 n = CComp \/ class_of g0 n = CNode -> KL g0 (n :: D).
Proof.
  intros K Hn Hc l Hl.
  assert (Hln : l <> n) by (intros ->; destruct Hc as [H|[H|H]]; congruence).
  assert (HE : forall e, In e (cpn g0 l) -> e <> n).
  { intros e He ->. apply (cpn_class g0 l) in He. destruct Hc as [H|[H|H]]; congruence. }
  assert (HS : surv (n :: D) (cpn g0 l) = surv D (cpn g0 l)).
  { unfold surv. apply filter_ext_in. intros e He. rewrite memN_cons.
    destruct (N.eqb e n) eqn:E; [apply N.eqb_eq in E; exfalso; exact (HE e He E) | reflexivity]. }
  rewrite HS. split.
  - intros [H|H]; [congruence|]. apply (K l Hl) in H. destruct H as [A [B [e [He Hd]]]].
    split; [exact A|]. split; [exact B|]. exists e. split; [exact He | right; exact Hd].
  - intros [A [B [e [He [H|Hd]]]]]; [exfalso; exact (HE e He (eq_sym H))|].
    right. apply (K l Hl). split; [exact A|]. split; [exact B|]. exists e. auto.
Qed.

Lemma fam_facts s n dp i :
  cons g0 s -> class_of g0 n = CCP -> In i (cp_family (fst s) n dp) ->
  class_of g0 i = CCP /\ ~ In i (snd s) /\ (i = n \/ In i (cpn g0 n)) \/ (i = n /\ class_of g0 i = CCP).
Proof.
  intros C Hn Hi. unfold cp_family in Hi. rewrite dedup_In in Hi. destruct Hi as [<-|Hi]; [right; auto|].
  apply filter_In in Hi. destruct Hi as [Hi _]. rewrite C in Hi.
  apply first_neighbor_restrict in Hi; [|discriminate]. destruct Hi as [Hi [_ Hd]].
  left. split; [apply (cpn_class g0 n); exact Hi|]. split; [exact Hd | right; exact Hi].
Qed.

Lemma fam_class s n dp i : cons g0 s -> class_of g0 n = CCP -> In i (cp_family (fst s) n dp) -> class_of g0 i = CCP.
Proof. intros C Hn Hi. destruct (fam_facts s n dp i C Hn Hi) as [[A _]|[_ A]]; exact A. Qed.

Lemma fam_shape s n dp i : cons g0 s -> class_of g0 n = CCP -> In i (cp_family (fst s) n dp) -> i = n \/ In i (cpn g0 n).
Proof. intros C Hn Hi. destruct (fam_facts s n dp i C Hn Hi) as [[_ [_ A]]|[A _]]; auto. Qed.

(* under WL two members of one family that are ends of the same link coincide *)
Lemma fam_one_end s n dp l f1 f2 :
  cons g0 s -> class_of g0 n = CCP -> class_of g0 l = CLink ->
  In f1 (cp_family (fst s) n dp) -> In f2 (cp_family (fst s) n dp) ->
  In f1 (cpn g0 l) -> In f2 (cpn g0 l) -> f1 = f2.
Proof.
  intros C Hn Hl H1 H2 E1 E2. destruct (N.eq_dec f1 f2) as [|Hne]; [assumption|]. exfalso.
  destruct (fam_shape s n dp f1 C Hn H1) as [->|A1]; destruct (fam_shape s n dp f2 C Hn H2) as [->|A2].
  - apply Hne. reflexivity.
  - destruct (HW l f2 n Hl E2 E1 (fun H => Hne (eq_sym H))) as [W _]. exact (W A2).
  - destruct (HW l f1 n Hl E1 E2 Hne) as [W _]. exact (W A1).
  - destruct (HW l f1 f2 Hl E1 E2 Hne) as [_ W]. exact (W n Hn A1 A2).
Qed.

(* what one returning remove_cp_and_links adds to the trace: the family, and the links that had exactly two ends left, one
   of them in the family *)
Lemma step_new s s' n dp x :
  cons g0 s -> class_of g0 n = CCP -> remove_cp_and_links n dp s = (inl tt, s') -> ~ In x (snd s) ->
  (In x (snd s') <->
   In x (cp_family (fst s) n dp) \/
   (class_of g0 x = CLink /\ length (cpn (fst s) x) = 2 /\ exists e, In e (cp_family (fst s) n dp) /\ In e (cpn g0 x))).
Proof.
  intros C Hn E Hx. destruct (remove_cp_ok g0 n dp s s' C E) as [_ [HnD H]].
  assert (Hl : forall i, In i (cp_family (fst s) n dp) ->
            (In x (first_neighbor (fst s) i RConnects CLink) <-> class_of g0 x = CLink /\ In i (cpn g0 x))).
  { intros i Hi. assert (Hid : ~ In i (snd s)) by (destruct (fam_facts s n dp i C Hn Hi) as [[_ [A _]]|[-> _]]; assumption).
    pose proof (fam_class s n dp i C Hn Hi) as Hic.
    rewrite C, first_neighbor_restrict; [|discriminate]. split.
    - intros [A _]. split; [apply first_neighbor_In in A; tauto|].
      apply (first_neighbor_sym g0 i x RConnects CLink CCP); assumption.
    - intros [A B]. split; [|auto]. apply (first_neighbor_sym g0 x i RConnects CCP CLink); assumption. }
  rewrite H, cp_del_list_In, cp_links_In. split.
  - intros [[A|[i [Hi [A B]]]]|A]; [auto | | contradiction]. right. apply (Hl i Hi) in A. destruct A as [A A']. eauto.
  - intros [A|[A [B [e [He He']]]]]; [auto|]. left. right. exists e. split; [exact He|]. split; [apply (Hl e He); auto | exact B].
Qed.

Lemma KL_cp s s' n dp :
  cons g0 s -> KL g0 (snd s) -> class_of g0 n = CCP -> remove_cp_and_links n dp s = (inl tt, s') -> KL g0 (snd s').
Proof.
  intros C K Hn E. destruct (remove_cp_ok g0 n dp s s' C E) as [_ [HnD H]].
  pose proof (fun x => step_new s s' n dp x C Hn E) as Hnew.
  set (D := snd s) in *. set (D' := snd s') in *. set (F := cp_family (fst s) n dp) in *.
  assert (Hsub : forall x, In x D -> In x D') by (intros x Hx; apply H; right; exact Hx).
  intros l Hl. set (E0 := cpn g0 l) in *. specialize (K l Hl). fold E0 in K. rewrite lost_iff in K |- *.
  (* an end of the link is newly deleted iff it is in the family *)
  assert (Hend : forall y, In y E0 -> (In y D' <-> In y D \/ In y F)).
  { intros y Hy. destruct (in_dec N.eq_dec y D) as [A|A]; [split; auto|]. rewrite (Hnew y A).
    pose proof (cpn_class g0 l y Hy). split; [intros [B|[B _]]; [auto | congruence] | intros [B|B]; [contradiction | auto]]. }
  pose proof (filter_len_le (fun e => negb (memN e D)) E0) as HlenE. fold (surv D E0) in HlenE.
  destruct (in_dec N.eq_dec l D) as [HlD|HlD].
  - (* the link was already gone: fewer ends survive *)
    assert (length (surv D' E0) <= length (surv D E0)).
    { apply NoDup_incl_length; [apply surv_NoDup; apply cpn_NoDup|].
      intros y Hy. apply surv_In in Hy. apply surv_In. split; [tauto|]. intros Hd'. apply (proj2 Hy). apply Hsub. exact Hd'. }
    apply K in HlD. split; [lia | intros _; apply Hsub, K; exact HlD].
  - (* the link is still there: it goes iff two ends were left and the family holds one of them *)
    assert (HlL : In l D' <-> length (cpn (fst s) l) = 2 /\ exists e, In e F /\ In e E0).
    { rewrite (Hnew l HlD). split; [intros [A|[_ A]]; [|exact A] | intros A; right; split; [exact Hl | exact A]].
      rewrite (fam_class s n dp l C Hn A) in Hl. discriminate. }
    assert (Hclen : length (cpn (fst s) l) = length (surv D E0)).
    { apply len_same; [apply first_neighbor_NoDup | apply surv_NoDup; apply cpn_NoDup |].
      intros y. unfold cpn. rewrite C, first_neighbor_restrict; [|discriminate]. rewrite surv_In. fold (cpn g0 l). tauto. }
    destruct (existsb (fun f => memN f E0) F) eqn:EX.
    + (* the family holds an end e of the link: exactly e is lost *)
      apply existsb_exists in EX. destruct EX as [e [HeF HeE]]. apply memN_In in HeE.
      assert (HeD : ~ In e D) by (destruct (fam_facts s n dp e C Hn HeF) as [[_ [A _]]|[-> _]]; assumption).
      assert (Hperm : length (surv D E0) = S (length (surv D' E0))).
      { apply (len_same (surv D E0) (e :: surv D' E0)); [apply surv_NoDup; apply cpn_NoDup | |].
        - constructor; [|apply surv_NoDup; apply cpn_NoDup]. rewrite surv_In, (Hend e HeE). tauto.
        - intros y. simpl. rewrite !surv_In. split.
          + intros [A B]. destruct (N.eq_dec e y) as [->|Hne]; [left; reflexivity|]. right. split; [exact A|].
            rewrite (Hend y A). intros [Hd'|Hf]; [exact (B Hd')|].
            apply Hne. apply (fam_one_end s n dp l e y C Hn Hl HeF Hf HeE A).
          + intros [<-|[A B]]; [split; assumption|]. split; [exact A|]. intros Hd. apply B. apply Hsub. exact Hd. }
      rewrite HlL, Hclen. rewrite K in HlD. split; [intros [A _] | intros A; split; [|exists e; auto]]; lia.
    + (* no member of the family is an end of the link: nothing changes for it *)
      assert (HFE : forall f, In f F -> ~ In f E0).
      { intros f Hf He. assert (A : existsb (fun f => memN f E0) F = true).
        { apply existsb_exists. exists f. split; [exact Hf | apply memN_In; exact He]. } congruence. }
      assert (HS : surv D' E0 = surv D E0).
      { apply filter_ext_in. intros y Hy. f_equal. destruct (memN y D) eqn:A.
        - apply memN_In. apply Hsub. apply memN_In. exact A.
        - apply memN_false. rewrite (Hend y Hy). apply memN_false in A. intros [B|B]; [exact (A B) | exact (HFE y B Hy)]. }
      rewrite HS, <- K, HlL. split; [intros [_ [e [A B]]]; destruct (HFE e A B) | tauto].
Qed.

End Link.

Lemma KL_nil g : KL g [].
Proof.
  intros l Hl. split; [intros []|]. intros [_ [_ [e [_ []]]]].
Qed.

(* THE LINK EQUATION: for every operation except remove_link (and the legacy path-based unpeer), on normal return,
   under WL: a link is among the deleted ids iff it had at least two ends, lost at least one of them, and at most
   one of them survives.  In particular a link of >= 3 ends that keeps >= 2 of them survives, one that keeps <= 1
   goes, and a link of one end stays (without its end). *)
Theorem link_deleted_iff ex o cs g r g' tr :
  WL g -> liftable o = true -> run (exec ex o cs) g = (inl r, (g', tr)) ->
  forall l, class_of g l = CLink ->
    (In l tr <-> (2 <= length (cpn g l) /\ length (surv tr (cpn g l)) <= 1 /\ exists e, In e (cpn g l) /\ In e tr)).
Proof.
  intros HW Hl E.
  exact (lift_exec g (KL g) (KL_del g) (KL_cp g HW) (KL_nil g) ex o cs r g' tr Hl E).
Qed.

(* ---- a decidable version of WL, for concrete graphs ---- *)
Definition wlb (g : graph) : bool :=
  forallb (fun x =>
    if cls_eqb (class_of g (nid x)) CLink
    then forallb (fun e1 => forallb (fun e2 =>
           N.eqb e1 e2 ||
           (negb (memN e1 (cpn g e2)) &&
            forallb (fun p => negb (cls_eqb (class_of g p) CCP && memN e1 (cpn g p) && memN e2 (cpn g p)))
                    (map fst (nbrs g e1))))
           (cpn g (nid x))) (cpn g (nid x))
    else true) (gnodes g).

Lemma class_node g l c : class_of g l = c -> c <> COther -> exists x, In x (gnodes g) /\ nid x = l.
Proof.
  unfold class_of. destruct (find_node g l) as [x|] eqn:F; [|intros <- H; exfalso; apply H; reflexivity].
  intros _ _. unfold find_node in F. apply find_some in F. destruct F as [A B]. apply N.eqb_eq in B. exists x. auto.
Qed.

Lemma wlb_sound g : wlb g = true -> WL g.
Proof.
  intros H l e1 e2 Hl H1 H2 Hne. unfold wlb in H. rewrite forallb_forall in H.
  destruct (class_node g l CLink Hl ltac:(discriminate)) as [x [Hx <-]]. specialize (H x Hx). rewrite Hl in H. simpl in H.
  rewrite forallb_forall in H. specialize (H e1 H1). rewrite forallb_forall in H. specialize (H e2 H2).
  apply orb_true_iff in H. destruct H as [H|H]; [apply N.eqb_eq in H; contradiction|].
  apply andb_true_iff in H. destruct H as [A B]. split.
  - apply negb_true_iff in A. apply memN_false. exact A.
  - intros p Pc P1 P2. rewrite forallb_forall in B.
    assert (Hp : In p (map fst (nbrs g e1))).
    { unfold cpn in P1. apply first_neighbor_In in P1. destruct P1 as [P1 _]. apply nbrs_sym in P1.
      apply in_map_iff. exists (p, RConnects). auto. }
    specialize (B p Hp). apply negb_true_iff in B. rewrite Pc in B. simpl in B. apply andb_false_iff in B.
    destruct B as [B|B]; apply memN_false in B; contradiction.
Qed.
