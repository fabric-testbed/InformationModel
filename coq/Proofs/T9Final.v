(* C09 - runs of add_node, add_link, the service constructor, add_facility, add_switch and peer on the example graphs of
   T9Refuted.v (the instances for the other calls stand next to their theorems). *)
From Coq Require Import List NArith String.
From FIM Require Import Base.Str Gen.T9Names Model.T9Graph Model.T9Ops Proofs.T9Atomic Proofs.T9Refuted.
Import ListNotations.
Open Scope N_scope.

Lemma names_translated : t9_gen_ok = true.
Proof. reflexivity. Qed.

Definition ex_ifs : list iface_h := [mkIface 8 (S "nic1-p1"); mkIface 9 (S "nic1-p2"); mkIface 8 (S "nic1-p1")].
Definition ex_ifs_stale : list iface_h := [mkIface 8 (S "nic1-p1"); mkIface 40 (S "gone")].

Lemma ex_service_hyps :
  wf_graph g_two_nodes = true /\ ifaces_typed g_two_nodes ex_ifs = true /\ supply_apart None supply ex_ifs = true
  /\ ifaces_typed g_two_nodes ex_ifs_stale = true /\ supply_apart None supply ex_ifs_stale = true.
Proof. vm_compute. auto. Qed.

(* two ports connected, the third element repeats the first: TopologyException, rolled back *)
Lemma ex_service_rollback_runs :
  let r := op_add_service Experiment (S "s1") None (Some tL2Bridge) ex_ifs None (mkSt g_two_nodes supply) in
  snd r = Err ETopology /\ sg (fst r) = g_two_nodes /\ List.length (sfresh (fst r)) = 3%nat.
Proof. vm_compute. auto. Qed.
(* a stale handle at position 1: PropertyGraphQueryException, rolled back as well (fix 16ce105) *)
Lemma ex_service_stale_runs :
  let r := op_add_service Experiment (S "s1") None (Some tL2Bridge) ex_ifs_stale None (mkSt g_two_nodes supply) in
  snd r = Err EQuery /\ sg (fst r) = g_two_nodes.
Proof. vm_compute. auto. Qed.
(* a derived link name of 256 characters: ValueError after the ServicePort exists, rolled back *)
Definition long_name (n : nat) : str := repeat 120 n.
Definition g_long : graph :=
  mkGraph [mkNode 1 cNN (long_name 200) tVM 1; mkNode 2 cComp (long_name 47) tNIC 2; mkNode 3 cNS (S "x-l2ovs") tOVS 3;
           mkNode 4 cCP (long_name 50) tSharedPort 4]
          [mkEdge 1 2 rHas; mkEdge 2 3 rHas; mkEdge 3 4 rConnects].
Lemma ex_service_long_runs :
  let r := op_add_service Experiment (S "s1") None (Some tL2Bridge) [mkIface 4 (long_name 50)] None (mkSt g_long supply) in
  snd r = Err EValue /\ sg (fst r) = g_long /\ List.length (sfresh (fst r)) = 5%nat.
Proof. vm_compute. auto. Qed.
Lemma ex_service_ok :
  let r := op_add_service Experiment (S "s1") None (Some tL2Bridge) (firstn 2 ex_ifs) None (mkSt g_two_nodes supply) in
  snd r = Ok 50 /\ List.length (gnodes (sg (fst r))) = 14%nat.
Proof. vm_compute. auto. Qed.

Lemma ex_add_node_dup :
  let r := op_add_node Experiment (S "n1") None (Some tVM) None (mkSt g_two_nodes supply) in
  snd r = Err ETopology /\ sg (fst r) = g_two_nodes.
Proof. vm_compute. auto. Qed.

Lemma ex_link_stale :
  let r := op_add_link Experiment (S "l1") None (Some tPatch) (Some [mkIface 4 (S "nic1-p1"); mkIface 40 (S "gone")]) None
                       (mkSt g_two_nodes supply) in
  snd r = Err EQuery /\ sg (fst r) = g_two_nodes.
Proof. vm_compute. auto. Qed.
Lemma ex_link_ok :
  let r := op_add_link Experiment (S "l1") None (Some tPatch) (Some [mkIface 4 (S "nic1-p1"); mkIface 8 (S "nic1-p1")]) None
                       (mkSt g_two_nodes supply) in
  snd r = Ok 50 /\ List.length (gedges (sg (fst r))) = 9%nat.
Proof. vm_compute. auto. Qed.

(* add_facility: the second port name is invalid: node, service and first port are removed again *)
Lemma ex_facility_late :
  let r := op_add_facility Experiment (S "fac1") None 0 0 [] tVLAN None
             (Some [mkFacPort (S "pa") None; mkFacPort [] None]) None (mkSt g_two_nodes supply) in
  snd r = Err EValue /\ sg (fst r) = g_two_nodes /\ List.length (sfresh (fst r)) = 4%nat.
Proof. vm_compute. auto. Qed.
Lemma ex_facility_ok :
  let r := op_add_facility Experiment (S "fac1") None 0 0 [] tVLAN None
             (Some [mkFacPort (S "pa") None; mkFacPort (S "pb") None]) None (mkSt g_two_nodes supply) in
  snd r = Ok 50 /\ List.length (gnodes (sg (fst r))) = 13%nat.
Proof. vm_compute. auto. Qed.

Lemma ex_switch_rb_late :
  let r := op_add_switch true Experiment (S "sw1") None 0 [] tVLAN None 2 (Some EAssert) (mkSt g_two_nodes supply) in
  snd r = Err EAssert /\ sg (fst r) = g_two_nodes.
Proof. vm_compute. auto. Qed.
Lemma ex_switch_ok :
  let r := op_add_switch false Experiment (S "sw1") None 0 [] tVLAN None 2 None (mkSt g_two_nodes supply) in
  snd r = Ok 50 /\ List.length (gnodes (sg (fst r))) = 13%nat.
Proof. vm_compute. auto. Qed.

(* peer: the other service already has "b-a": TopologyException, the port "a-b" is removed again *)
Lemma ex_peer_hyps :
  wf_graph g_two_services = true /\ node_cls g_two_services 30 = Ok cNS /\ node_cls g_two_services 31 = Ok cNS.
Proof. vm_compute. auto. Qed.
Lemma ex_peer_late :
  let r := op_peer Experiment 30 31 None (mkSt g_two_services supply) in
  snd r = Err ETopology /\ sg (fst r) = g_two_services /\ List.length (sfresh (fst r)) = 7%nat.
Proof. vm_compute. auto. Qed.
Lemma ex_peer_ok :
  let r := op_peer Experiment 30 31 None (mkSt (mkGraph (firstn 2 (gnodes g_two_services)) []) supply) in
  snd r = Ok tt /\ List.length (gnodes (sg (fst r))) = 5%nat /\ List.length (gedges (sg (fst r))) = 4%nat.
Proof. vm_compute. auto. Qed.
