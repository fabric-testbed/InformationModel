(* C11: transform_to_pdp_request routes every collected attribute to exactly its category. *)
From Coq Require Import List ZArith.
From FIM Require Import Base.ListFacts Gen.CollectGen Model.Collect11 Model.Collect11Spec Proofs.Collect11Tables Proofs.Collect11Attrs.
Import ListNotations.

Definition contrib (c : N) (kv : N * list aval) : list pdp_attr :=
  match lookupN (fst kv) attr_table with
  | Some (dt, cat) => if N.eqb c cat then [mkPA (fst kv) dt (snd kv)] else []
  | None => []
  end.

Lemma route_map (acc : N -> list pdp_attr) cat a cs :
  route (map (fun c => (c, acc c)) cs) cat a = map (fun c => (c, acc c ++ if N.eqb c cat then [a] else [])) cs.
Proof.
  unfold route. rewrite map_map. apply map_ext. intro c. simpl.
  destruct (N.eqb c cat); [reflexivity | rewrite app_nil_r; reflexivity].
Qed.

Lemma pdp_step_ok cs kv :
  pdp_step (Ok cs) kv = match lookupN (fst kv) attr_table with
                        | None => Err KeyError
                        | Some (dt, cat) => Ok (route cs cat (mkPA (fst kv) dt (snd kv)))
                        end.
Proof. reflexivity. Qed.

Lemma to_pdp_gen cs m : forall acc,
  (forall kv, In kv m -> lookupN (fst kv) attr_table <> None) ->
  fold_left pdp_step m (Ok (map (fun c => (c, acc c)) cs))
  = Ok (map (fun c => (c, acc c ++ flat_map (contrib c) m)) cs).
Proof.
  induction m as [|kv r IH]; intros acc H; cbn [fold_left flat_map].
  - f_equal. apply map_ext. intro c. rewrite app_nil_r. reflexivity.
  - assert (Hkv : lookupN (fst kv) attr_table <> None) by (apply H; left; reflexivity).
    rewrite pdp_step_ok.
    destruct (lookupN (fst kv) attr_table) as [[dt cat]|] eqn:E; [|congruence].
    rewrite route_map.
    etransitivity.
    { apply (IH (fun c => acc c ++ (if N.eqb c cat then [mkPA (fst kv) dt (snd kv)] else []))).
      intros kv' H'. apply H. right. exact H'. }
    cbv beta. f_equal. apply map_ext. intro c. unfold contrib at 2. rewrite E, <- app_assoc. reflexivity.
Qed.

Definition keys_in_table (m : attrs) : Prop := forall k, In k (keys m) -> lookupN k attr_table <> None.

Theorem pdp_closed m : keys_in_table m ->
  to_pdp m = Ok (map (fun c => (c, flat_map (contrib c) m)) pdp_cats).
Proof.
  intro H. unfold to_pdp.
  rewrite (to_pdp_gen pdp_cats m (fun _ => [])); [reflexivity|].
  intros kv Hkv. apply H, in_map, Hkv.
Qed.

(* a request that was produced had every key in the table: a missing one raises KeyError, and an error stays *)
Theorem to_pdp_keys m p : to_pdp m = Ok p -> keys_in_table m.
Proof.
  unfold to_pdp. generalize (map (fun c : N => (c, @nil pdp_attr)) pdp_cats). intros cs H k Hk.
  apply in_map_iff in Hk as [kv [<- Hkv]]. revert cs H.
  induction m as [|kv0 r IH]; intros cs H; [destruct Hkv|]. cbn [fold_left] in H. rewrite pdp_step_ok in H.
  destruct (lookupN (fst kv0) attr_table) as [[dt cat]|] eqn:E.
  - destruct Hkv as [<-|Hkv]; [congruence | exact (IH Hkv _ H)].
  - rewrite (fold_bind_err (fun kv cs => pdp_step (Ok cs) kv)) in H. discriminate.
Qed.

Lemma pdp_is m p : to_pdp m = Ok p -> p = map (fun c => (c, flat_map (contrib c) m)) pdp_cats.
Proof. intro Hp. rewrite (pdp_closed m (to_pdp_keys m p Hp)) in Hp. congruence. Qed.

Lemma in_attrs_of_cat (g : N -> list pdp_attr) c cs a :
  In a (attrs_of_cat c (map (fun c => (c, g c)) cs)) <-> In c cs /\ In a (g c).
Proof.
  unfold attrs_of_cat. rewrite in_flat_map. split.
  - intros [e [He Ha]]. apply in_map_iff in He as [c' [<- Hc']]. simpl in Ha.
    destruct (N.eqb_spec c' c) as [->|_]; [tauto | destruct Ha].
  - intros [Hc Ha]. exists (c, g c). split; [apply (in_map (fun c => (c, g c))), Hc|].
    simpl. rewrite N.eqb_refl. exact Ha.
Qed.

(* every collected attribute lands in its category, with its type and its whole value list *)
Theorem pdp_routing m p k l dt cat :
  to_pdp m = Ok p -> In (k, l) m -> lookupN k attr_table = Some (dt, cat) ->
  In cat pdp_cats -> In (mkPA k dt l) (attrs_of_cat cat p).
Proof.
  intros Hp Hin Hl Hc. rewrite (pdp_is m p Hp). apply in_attrs_of_cat. split; [exact Hc|].
  apply in_flat_map. exists (k, l). split; [exact Hin|].
  unfold contrib. cbn [fst snd]. rewrite Hl, N.eqb_refl. left. reflexivity.
Qed.

(* and nothing else is in the request: every attribute of category c comes from the mapping and c is its category *)
Theorem pdp_only m p c a :
  to_pdp m = Ok p -> In a (attrs_of_cat c p) ->
  exists l dt, In (pa_id a, l) m /\ lookupN (pa_id a) attr_table = Some (dt, c) /\ a = mkPA (pa_id a) dt l /\ In c pdp_cats.
Proof.
  intros Hp Ha. rewrite (pdp_is m p Hp) in Ha. apply in_attrs_of_cat in Ha as [Hc Ha].
  apply in_flat_map in Ha as [[k l] [Hin Hc']]. unfold contrib in Hc'. cbn [fst snd] in Hc'.
  destruct (lookupN k attr_table) as [[dt cat]|] eqn:E; [|destruct Hc'].
  destruct (N.eqb_spec c cat) as [<-|_]; [|destruct Hc'].
  destruct Hc' as [<-|[]]. exists l, dt. repeat split; assumption.
Qed.

Theorem pdp_categories m p : to_pdp m = Ok p -> map fst p = pdp_cats.
Proof. intro Hp. rewrite (pdp_is m p Hp), map_map. apply map_id. Qed.

Definition allowed_keys : list N := all_model_keys ++ map snd nstype_lut.

Definition Inv (m : attrs) : Prop := NoDup (keys m) /\ forall k, In k (keys m) -> In k allowed_keys.

Lemma keys_upd_shape k f m : keys (upd k f m) = if memN k (keys m) then keys m else keys m ++ [k].
Proof.
  unfold keys. induction m as [|[k0 l] r IH]; simpl; [reflexivity|].
  destruct (N.eqb k k0) eqn:E; simpl; [reflexivity|]. rewrite IH.
  destruct (memN k (map fst r)); reflexivity.
Qed.

Lemma Inv_upd k f m : Inv m -> In k allowed_keys -> Inv (upd k f m).
Proof.
  intros [Hn Hs] Hk. split.
  - rewrite keys_upd_shape. destruct (memN k (keys m)) eqn:E; [exact Hn|].
    apply NoDup_snoc; [exact Hn | apply memN_false; exact E].
  - intros k0 H0. apply keys_upd in H0 as [H0|H0]; [subst; exact Hk | exact (Hs k0 H0)].
Qed.

Ltac allowed := apply memN_In; vm_compute; reflexivity.

Lemma Inv_init : Inv init_attrs.
Proof.
  split; [simpl; constructor; [tauto | constructor]|].
  intros k [Hk|[]]. subst k. allowed.
Qed.

Lemma Inv_write m p : In (fst p) topo_keys -> Inv m -> Inv (write m p).
Proof.
  intros Hp H. apply Inv_upd; [exact H|]. apply memN_In. revert Hp. generalize (fst p).
  apply forallb_forall. reflexivity.
Qed.

Lemma Inv_type m : Inv m -> Inv (dd_set A_RESOURCE_TYPE sw_val m).
Proof. intro H. apply Inv_upd; [exact H | allowed]. Qed.

Lemma Inv_arg k a m : Inv m -> In k allowed_keys -> Inv (apply_arg k a m).
Proof.
  intros H Hk. unfold apply_arg. destruct a as [|s|l]; [exact H | |].
  - destruct s; [exact H | apply Inv_upd; assumption].
  - destruct l; [exact H | apply Inv_upd; assumption].
Qed.

Lemma Inv_step m o m' : Inv m -> step m o = Ok m' -> Inv m'.
Proof.
  intros H Hs. destruct o; simpl in Hs.
  - rewrite collect_topo_ok in Hs. inversion Hs; subst. apply (topo_kept Inv Inv_write Inv_type), H.
  - unfold collect_asm in Hs. rewrite collect_topo_ok in Hs. inversion Hs; subst. apply (topo_kept Inv Inv_write Inv_type), H.
  - inversion Hs; subst. apply (collect_node_kept Inv Inv_write Inv_type), H.
  - rewrite collect_svc_ok in Hs. inversion Hs; subst. apply (collect_svc_kept Inv Inv_write), H.
  - inversion Hs; subst. apply Inv_arg; [apply Inv_arg|]; try allowed.
    destruct sid as [|[|c s0]|]; try exact H. apply Inv_upd; [exact H | allowed].
  - inversion Hs; subst. destruct a as [|[|c s0]|]; try exact H. apply Inv_upd; [exact H | allowed].
  - inversion Hs; subst. apply Inv_arg; [apply Inv_arg|]; try allowed. exact H.
  - destruct ((days * 86400 + secs) * 1000000 + micros <=? 0)%Z; [discriminate|].
    inversion Hs; subst. apply Inv_upd; [exact H | allowed].
Qed.

Lemma Inv_run ops m : run ops = Ok m -> Inv m.
Proof.
  unfold run. generalize init_attrs Inv_init. induction ops as [|o r IH]; simpl; intros m0 H0 H.
  - injection H as <-. exact H0.
  - destruct (step m0 o) as [m1|e] eqn:E; [exact (IH m1 (Inv_step _ _ _ H0 E) H)|].
    rewrite (fold_bind_err (fun o m => step m o)) in H. discriminate.
Qed.

Lemma Inv_in_table m : Inv m -> keys_in_table m.
Proof.
  intros [_ Hs] k Hk. destruct (table_covers k (Hs k Hk)) as (dt & c & E & _). rewrite E. discriminate.
Qed.

(* the request can always be produced (no KeyError) for whatever the collector accumulated *)
Theorem pdp_total ops m : run ops = Ok m -> exists p, to_pdp m = Ok p.
Proof.
  intro H. eexists. apply pdp_closed, Inv_in_table, (Inv_run ops), H.
Qed.

(* full routing statement for any run: each key of the mapping appears in the category of the table, with all values *)
Theorem pdp_routing_run ops m p k :
  run ops = Ok m -> to_pdp m = Ok p -> In k (keys m) ->
  exists dt cat, lookupN k attr_table = Some (dt, cat) /\ In cat pdp_cats /\ In (mkPA k dt (getk k m)) (attrs_of_cat cat p).
Proof.
  intros Hr Hp Hk. pose proof (Inv_run _ _ Hr) as [Hn Hs].
  destruct (table_covers k (Hs k Hk)) as (dt & c & E & Hc). exists dt, c. split; [exact E|]. split; [exact Hc|].
  eapply pdp_routing; try eassumption. apply getk_In, Hk.
Qed.

(* each attribute id occurs once in the whole request *)
Lemma ids_of_cat c m : map pa_id (flat_map (contrib c) m)
  = filter (fun k => match lookupN k attr_table with Some (_, cat) => N.eqb c cat | None => false end) (keys m).
Proof.
  unfold keys. induction m as [|[k l] r IH]; cbn [map flat_map filter fst]; [reflexivity|].
  rewrite map_app, IH. unfold contrib. cbn [fst snd].
  destruct (lookupN k attr_table) as [[dt cat]|]; [|reflexivity].
  destruct (N.eqb c cat); reflexivity.
Qed.

Lemma NoDup_classes {A C} (f : C -> A -> bool) (l : list A) (cs : list C) :
  NoDup l -> NoDup cs -> (forall x c c', f c x = true -> f c' x = true -> c = c') ->
  NoDup (flat_map (fun c => filter (f c) l) cs).
Proof.
  intros Hl Hc Hf. induction Hc as [|c r Hn _ IH]; simpl; [constructor|].
  apply NoDup_app_intro; [apply NoDup_filter, Hl | exact IH|].
  intros x H1 H2. apply filter_In in H1 as [_ H1]. apply in_flat_map in H2 as [c' [Hc' H2]].
  apply filter_In in H2 as [_ H2]. rewrite (Hf x c c' H1 H2) in Hn. exact (Hn Hc').
Qed.

Lemma ids_by_cat (g : N -> list pdp_attr) cs :
  map pa_id (flat_map snd (map (fun c => (c, g c)) cs)) = flat_map (fun c => map pa_id (g c)) cs.
Proof. induction cs as [|c r IH]; simpl; [|rewrite map_app, IH]; reflexivity. Qed.

Lemma ids_once_gen m cs : NoDup (keys m) -> NoDup cs ->
  NoDup (map pa_id (flat_map snd (map (fun c => (c, flat_map (contrib c) m)) cs))).
Proof.
  intros Hn Hc. rewrite ids_by_cat, (flat_map_ext _ _ (fun c => ids_of_cat c m)). apply NoDup_classes; [exact Hn | exact Hc|].
  intros k c c' H1 H2. destruct (lookupN k attr_table) as [[dt cat]|]; [|discriminate].
  apply N.eqb_eq in H1, H2. congruence.
Qed.

Theorem pdp_ids_once m p : NoDup (keys m) -> to_pdp m = Ok p -> NoDup (map pa_id (flat_map snd p)).
Proof.
  intros Hn Hp. rewrite (pdp_is m p Hp).
  apply ids_once_gen; [exact Hn | apply nodupN_NoDup, pdp_cats_distinct].
Qed.
