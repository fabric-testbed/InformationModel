(* C04 on the shared store: the frame theorem (one step, then all histories). *)
From Coq Require Import List NArith Bool Lia.
From FIM Require Import Base.ListFacts Base.Assoc Model.Store Proofs.IsolationBase Proofs.IsolationShared.
Import ListNotations.
Open Scope N_scope.

Definition keeps_home (ps ps' : props) : Prop := forall x, has_val ps' k_graphid x = has_val ps k_graphid x.

Lemma keeps_home_aset p v ps : N.eqb p k_graphid = false -> keeps_home ps (aset p v ps).
Proof. intros H x. apply has_val_aset_other. now apply N.eqb_neq. Qed.

Lemma keeps_home_aremove p ps : memN p no_unset = false -> keeps_home ps (aremove p ps).
Proof. intros H x. apply has_val_aremove_other. intro E; subst p. discriminate H. Qed.

Lemma keeps_home_aupdate u ps : ahas k_graphid u = false -> keeps_home ps (aupdate u ps).
Proof. intros H x. now apply has_val_aupdate_notin. Qed.

Lemma frame_scope_rewrites o : frame_scope o = true -> rewrites keeps_home o.
Proof.
  destruct o; cbn [frame_scope rewrites]; intro H; try exact I; intros; try apply negb_true_iff in H;
    auto using keeps_home_aset, keeps_home_aremove, keeps_home_aupdate.
Qed.

(* a write by g that rewrites no GraphID is invisible to every other graph id: the node or link written
   was found among g's nodes, and with unique internal ids none of them is a node of g' *)
Lemma write_frame G g g' G' :
  NoDup (ids G) -> g <> g' -> pg_write keeps_home g G G' -> view G' g' = view G g'.
Proof.
  intros Hnd Hne W.
  assert (Hout : forall n id, find_node G g n = Some id -> memN id (ids_in G g') = false).
  { intros n id H. eapply ids_in_disjoint, find_node_in; eauto. }
  destruct W as [|n id ps ps' Hf Hn HQ|l p v Hl HQ|a b ia ib ps ps' Hl|a b ia ib ps Ha Hb|n id Hf].
  - reflexivity.
  - destruct (find_node_sound G g n id Hnd Hf) as [ps0 [H1 [H2 _]]]. rewrite Hn in H1. inversion H1; subst ps0.
    pose proof (in_g_other g g' _ H2 Hne) as H3.
    apply (view_set_node G id ps ps' g' Hn H3). unfold in_g in *. cbn [snd] in *. now rewrite HQ.
  - apply find_all_ids_in in Hl. subst l. apply view_same_filter; [|reflexivity].
    apply filter_map_fix. intros [i ps] Hin. cbn [fst snd].
    destruct (memN i (ids_in G g)) eqn:Em; [|now split]. split; [apply HQ|].
    intro Hg'. apply memN_In, (ids_in_disjoint G g g' i Hnd Hne), memN_false in Em.
    exfalso. apply Em, In_ids_in. eauto.
  - apply view_set_edge. eapply Hout, find_link_first; eauto.
  - apply view_add_edge. eauto.
  - apply view_remove_node. eauto.
Qed.

Lemma frame_add_node G g g' newid n c ps G' :
  g <> g' -> nx_node G newid = None ->
  match ps with Some u => ahas k_graphid u = false | None => True end ->
  pg_add_node G g newid n c ps = Some G' -> view G' g' = view G g'.
Proof.
  intros Hne Hn Hps H. rewrite (pg_add_node_fresh _ _ _ _ _ _ _ Hn H). apply view_app_nodes.
  intros nd [<-|[]]. apply (in_g_other g); [|exact Hne]. unfold in_g. cbn [snd].
  destruct ps as [u|]; [rewrite has_val_aupdate_notin by exact Hps|]; apply blank_in_g.
Qed.

Lemma frame_del_graph_nxg G g g' :
  NoDup (ids G) -> g <> g' -> view (nx_remove_nodes G (search G [(k_graphid, g)])) g' = view G g'.
Proof.
  intros Hnd Hne. rewrite search_graphid_ids_in. apply view_remove_nodes.
  intros i Hi. now apply (ids_in_disjoint G g g').
Qed.

Lemma relabel_edges_in ig first a b ps :
  edges_ok ig = true -> In (a, b, ps) (iedges (relabel ig first)) ->
  In a (map fst (inodes (relabel ig first))) /\ In b (map fst (inodes (relabel ig first))).
Proof.
  intros Hok Hin. rewrite relabel_inodes_fst. unfold relabel in *. cbn [iedges inodes] in *.
  rewrite relabel_nodes_length. apply in_map_iff in Hin as [[[a0 b0] q] [E Hin]].
  destruct (edges_ok_In ig a0 b0 q Hok Hin) as [Ha Hb]. unfold relabel_edge in E.
  destruct (index_of_some a0 (inodes ig) first Ha) as [i Hi]. destruct (index_of_some b0 (inodes ig) first Hb) as [j Hj].
  rewrite Hi, Hj in E. inversion E; subst. apply index_of_bounds in Hi, Hj. split; apply seqN_In; lia.
Qed.

Lemma relabel_nodes_snd l f n : In n (relabel_nodes l f) -> exists k, In (k, snd n) l.
Proof.
  revert f; induction l as [|[k ps] r IH]; intro f; simpl; [intros []|].
  intros [H|H].
  - subst n. exists k. now left.
  - destruct (IH _ H) as [k' Hk]. exists k'. now right.
Qed.

(* both imports: the old graph of g is deleted, then nodes none of which g' sees are added under new ids *)
Lemma frame_import s g g' ig NS :
  SInv s -> g <> g' -> edges_ok ig = true ->
  map fst NS = map fst (inodes (relabel ig (snext s))) -> (forall n, In n NS -> in_g g' n = false) ->
  view (nx_add_all (sg (s_del_graph s g)) NS (iedges (relabel ig (snext s)))) g' = view (sg s) g'.
Proof.
  intros HI Hne Hok Hfst Hout. pose proof (SInv_del_graph s g HI) as [H1 H2].
  rewrite <- (frame_del_graph_nxg (sg s) g g' (SInv_NoDup s HI) Hne).
  apply (view_add_all _ _ _ g' (snext s) (length (inodes (relabel ig (snext s))))); auto.
  - rewrite Hfst. apply relabel_inodes_fst.
  - intros [[a b] ps] He. destruct (relabel_edges_in ig (snext s) a b ps Hok He) as [Ha _].
    rewrite relabel_inodes_fst in Ha. apply seqN_In in Ha. apply Ha.
Qed.

Lemma frame_add_graph s g g' ig :
  SInv s -> g <> g' -> edges_ok ig = true ->
  view (sg (fst (s_add_graph s g ig))) g' = view (sg s) g'.
Proof.
  intros HI Hne Hok. unfold s_add_graph. destruct (existsb node_id_missing _); cbn [fst sg].
  - apply frame_del_graph_nxg; [apply HI | exact Hne].
  - apply (frame_import s g g' ig); auto using map_fst_stamp.
    intros n Hn. apply (in_g_other g); [now apply in_g_stamp in Hn | exact Hne].
Qed.

Lemma frame_add_graph_direct s g g' ig :
  SInv s -> g <> g' -> edges_ok ig = true ->
  forallb (fun n => has_val (snd n) k_graphid g) (inodes ig) = true ->
  view (sg (fst (s_add_graph_direct s g ig))) g' = view (sg s) g'.
Proof.
  intros HI Hne Hok Hdir. unfold s_add_graph_direct. cbn [fst sg]. apply (frame_import s g g' ig); auto.
  intros n Hn. apply relabel_nodes_snd in Hn as [k Hk]. rewrite forallb_forall in Hdir.
  apply (in_g_other g); [exact (Hdir _ Hk) | exact Hne].
Qed.

Lemma extract_edges_ok G g ig : s_extract G g = Some ig -> edges_ok ig = true.
Proof.
  unfold s_extract. destruct (search G [(k_graphid, g)]) as [|x r] eqn:E; [discriminate|]. rewrite <- E.
  intros [= <-]. apply forallb_forall. intros [[a b] ps] He. apply filter_In in He as [_ He].
  assert (K : forall c, memN c (search G [(k_graphid, g)]) = true ->
              ahas c (filter (fun n => memN (fst n) (search G [(k_graphid, g)])) (gn G)) = true).
  { intros c Hc. apply ahas_In. rewrite (map_fst_filter_fst (fun i => memN i _)). apply filter_In. split; [|exact Hc].
    apply memN_In, search_In in Hc as [q [Hc _]]. change c with (fst (c, q)). now apply in_map. }
  apply andb_true_iff in He as [Ha Hb]. cbn [inodes]. now rewrite !K.
Qed.

Theorem frame_step s o g' :
  SInv s -> frame_scope o = true -> target o <> g' ->
  view (sg (fst (sstep s o))) g' = view (sg s) g'.
Proof.
  intros HI Hsc Hne. pose proof (SInv_NoDup s HI) as Hnd.
  destruct (mutator o (sg s)) as [x|] eqn:Em.
  { rewrite (sstep_mutator _ _ _ Em). apply (write_frame _ (target o)); auto.
    now apply mutator_write, frame_scope_rewrites. }
  destruct o; try discriminate; cbn [frame_scope target] in Hsc, Hne; cbn [sstep fst sg]; try reflexivity.
  - now apply frame_add_graph.
  - apply andb_true_iff in Hsc as [H1 H2]. now apply frame_add_graph_direct.
  - now apply frame_del_graph_nxg.
  - unfold s_clone. destruct (s_extract (sg s) g) as [ig|] eqn:E; [|reflexivity].
    apply frame_add_graph; auto. eapply extract_edges_ok; eauto.
  - destruct (pg_add_node (sg s) g (snext s) n c ps) as [G'|] eqn:E; cbn [fst sg]; [|reflexivity].
    apply (frame_add_node (sg s) g g' (snext s) n c ps); auto using SInv_next_fresh.
    destruct ps; [now apply negb_true_iff in Hsc | exact I].
Qed.

Theorem frame_histories ops : forall s g',
  SInv s -> (forall o, In o ops -> frame_scope o = true /\ target o <> g') ->
  view (sg (srun ops s)) g' = view (sg s) g'.
Proof.
  induction ops as [|o r IH]; intros s g' HI H; simpl; [reflexivity|].
  rewrite IH.
  - destruct (H o (or_introl eq_refl)). now apply frame_step.
  - now apply SInv_step.
  - intros o' Ho'. apply H. now right.
Qed.

(* from the empty store: no precondition at all on the prefix of the history *)
Theorem frame_after_any_prefix pre ops g' :
  (forall o, In o ops -> frame_scope o = true /\ target o <> g') ->
  view (sg (srun (pre ++ ops) init_store)) g' = view (sg (srun pre init_store)) g'.
Proof.
  intro H. unfold srun. rewrite fold_left_app. apply frame_histories; [|exact H].
  apply SInv_run. apply SInv_init.
Qed.
