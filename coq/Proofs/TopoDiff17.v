(* C17 - lemmas about Model/TopoDiff17.v (Topology.diff over flat graph views).
   One class of a flat view is a dictionary keyed by NodeID: [gfind] is [dget g_id] and [exp_gmod a b] is
   [exp_mod g_id gflags (Some a) (Some b)] by definition, [only_in a b] is [exp_removed g_id (Some a) (Some b)]
   ([only_in_exp]); their readings and the identical-copy cases are those of Proofs/Diff17Lemmas.v. *)
From Coq Require Import List NArith Bool.
Import ListNotations.
From FIM Require Import Base.ListFacts Model.Diff17 Model.TopoDiff17 Proofs.Diff17Lemmas.

Lemma memN_has k l : memN k (gids l) = has g_id k l.
Proof. unfold memN, gids, has. induction l as [|x l IH]; cbn; auto. now rewrite IH, N.eqb_sym. Qed.

Lemma only_in_exp a b : only_in a b = exp_removed g_id (Some a) (Some b).
Proof. unfold only_in, exp_removed. apply filter_ext. intros x. now rewrite memN_has. Qed.

Lemma only_in_self l : only_in l l = [].
Proof. rewrite only_in_exp. apply exp_removed_sub, incl_refl. Qed.

Lemma only_in_spec a b x : In x (only_in a b) <-> In x a /\ ~ In (g_id x) (map g_id b).
Proof. rewrite only_in_exp. apply (exp_removed_spec g_id (Some a) (Some b)). Qed.

Lemma exp_gmod_spec a b x f :
  NoDup (map g_id b) ->
  (In (x, f) (exp_gmod a b) <->
   In x a /\ exists y, In y b /\ g_id y = g_id x /\ f = gflags x y /\ is_none f = false).
Proof. exact (exp_mod_spec g_id gflags (Some a) (Some b) x f). Qed.

Lemma graph_diff_only_in a b :
  same_emptiness a b = true -> graph_diff a b = (only_in a b, only_in b a).
Proof.
  unfold same_emptiness, graph_diff, only_in. intros H. apply eqb_prop in H.
  destruct a, b; cbn in *; try discriminate; reflexivity.
Qed.

Lemma graph_diff_swap a b : graph_diff b a = (snd (graph_diff a b), fst (graph_diff a b)).
Proof. unfold graph_diff. rewrite (orb_comm (isnil b)). destruct (isnil a || isnil b); reflexivity. Qed.

Lemma graph_diff_self l : graph_diff l l = ([], []).
Proof. unfold graph_diff. destruct (isnil l || isnil l); auto. fold (only_in l l). now rewrite only_in_self. Qed.

Lemma opt_ne_refl x : opt_ne x x = false.
Proof. unfold opt_ne. now rewrite optN_eqb_refl. Qed.

Lemma gflags_self n : is_none (gflags n n) = true.
Proof. unfold gflags, is_none. cbn. now rewrite !opt_ne_refl. Qed.

(* NodeIDs being distinct, the pairs with equal NodeID give each element at most one partner; the query reports it
   when the labels differ, and that is every pair with a non-empty flag set when nothing else changes silently *)
Lemma graph_modified_exp a b :
  NoDup (map g_id b) -> no_silent_change a b = true -> graph_modified a b = exp_gmod a b.
Proof.
  intros ND H. unfold graph_modified, exp_gmod. apply flat_map_ext_in. intros n Hn.
  rewrite (flat_map_key g_id (g_id n)); auto.
  2: { intros y Hy. apply N.eqb_neq in Hy. now rewrite N.eqb_sym, Hy. }
  unfold no_silent_change in H. rewrite forallb_forall in H. specialize (H n Hn).
  change (dget g_id (g_id n) b) with (gfind (g_id n) b). destruct (gfind (g_id n) b) as [n1|] eqn:Q; auto.
  apply (dget_some g_id) in Q. destruct Q as [_ Q]. rewrite Q, N.eqb_refl.
  unfold gflags, is_none in *. cbn.
  destruct (opt_ne (g_lab n) (g_lab n1)); cbn in *; auto.
  apply negb_true_iff in H. now rewrite H.
Qed.

Lemma topo_diff_exact_partial a b :
  wf_topo b = true -> visible_pair a b = true -> topo_diff a b = topo_expected a b.
Proof.
  unfold wf_topo, visible_pair. intros W V.
  repeat (apply andb_true_iff in W; destruct W as [W ?]).
  repeat (apply andb_true_iff in V; destruct V as [V ?]).
  unfold topo_diff, topo_expected. cbv zeta.
  rewrite !graph_diff_only_in by assumption. cbn [fst snd].
  rewrite !graph_modified_exp by (auto using nodupb_NoDup). reflexivity.
Qed.

Lemma gfind_nodup l n : NoDup (map g_id l) -> In n l -> gfind (g_id n) l = Some n.
Proof. apply (dget_nodup g_id). Qed.

Lemma graph_modified_self l : wf_class l = true -> graph_modified l l = [].
Proof.
  intros W. apply nodupb_NoDup in W. rewrite graph_modified_exp; auto.
  - apply (exp_mod_sub g_id gflags (Some l) (Some l)); auto using incl_refl, gflags_self.
  - apply forallb_forall. intros n Hn. rewrite gfind_nodup; auto. now rewrite !opt_ne_refl.
Qed.

(* an identical copy: nothing added, removed or modified *)
Lemma topo_diff_self t : wf_topo t = true -> tdiff_empty (topo_diff t t) = true.
Proof.
  unfold wf_topo. intros W. repeat (apply andb_true_iff in W; destruct W as [W ?]).
  unfold topo_diff. cbv zeta. rewrite !graph_diff_self, !graph_modified_self by assumption. reflexivity.
Qed.

(* added (old -> new) = removed (new -> old), all four classes at once *)
Lemma topo_antisym a b :
  td_added (topo_diff a b) = td_removed (topo_diff b a) /\ td_removed (topo_diff a b) = td_added (topo_diff b a).
Proof.
  unfold topo_diff. cbv zeta. cbn [td_added td_removed].
  rewrite (graph_diff_swap (t_nodes a) (t_nodes b)), (graph_diff_swap (t_svcs a) (t_svcs b)),
          (graph_diff_swap (t_comps a) (t_comps b)), (graph_diff_swap (t_ifs a) (t_ifs b)).
  cbn [fst snd]. split; reflexivity.
Qed.

(* the full statement is false of the modelled method: two witnesses *)
Lemma topo_exact_refuted_silent_change :
  wf_topo wt1_old = true /\ wf_topo wt1_new = true /\ topo_diff wt1_old wt1_new <> topo_expected wt1_old wt1_new /\
  tdiff_empty (topo_diff wt1_old wt1_new) = true /\ tdiff_empty (topo_expected wt1_old wt1_new) = false.
Proof. repeat split; try (vm_compute; reflexivity). vm_compute. discriminate. Qed.

Lemma topo_exact_refuted_last_of_class :
  wf_topo wt2_old = true /\ wf_topo wt2_new = true /\ topo_diff wt2_old wt2_new <> topo_expected wt2_old wt2_new /\
  tdiff_empty (topo_diff wt2_old wt2_new) = true /\ tdiff_empty (topo_expected wt2_old wt2_new) = false.
Proof. repeat split; try (vm_compute; reflexivity). vm_compute. discriminate. Qed.
