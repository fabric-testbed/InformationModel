(* C08: "and nothing else" (rests on T8Hoare).  For every operation, every graph and every outcome, each
   deleted id belongs to a set described on the INITIAL graph only: the addressed element, what hangs
   below it by containment, the connection points next to a removed connection point, the links
   attached to those, and (API level) the connection points peering with an interface of the element
   across a link.  No other element can be deleted.
   U_x g n: what the graph-level procedure for an x (cp, ns, comp, node; disc = disconnect) called on n may delete
   (an Upper bound); A_x: the same for the API-level operation, which disconnects first. *)
From Coq Require Import List NArith Bool.
From FIM Require Import Model.T8Graph Model.T8Ops Proofs.T8Frame Proofs.T8Query Proofs.T8Hoare.
Import ListNotations.

Definition cpn (g : graph) (i : N) : list N := first_neighbor g i RConnects CCP.
Definition lks (g : graph) (i : N) : list N := first_neighbor g i RConnects CLink.

(* the family remove_cp_and_links may delete with n: n, and (when parents may go) the CPs next to n *)
Definition fam (g : graph) (n : N) (dp : bool) (i : N) : Prop := i = n \/ (dp = true /\ In i (cpn g n)).
Definition U_cp (g : graph) (n : N) (dp : bool) (x : N) : Prop :=
  fam g n dp x \/ exists i, fam g n dp i /\ In x (lks g i).
Definition U_ns (g : graph) (s : N) (x : N) : Prop :=
  x = s \/ exists i, In i (cpn g s) /\ U_cp g i true x.
Definition U_comp (g : graph) (c : N) (x : N) : Prop :=
  x = c \/ exists s, In s (first_neighbor g c RHas CNS) /\ U_ns g s x.
Definition U_node (g : graph) (n : N) (x : N) : Prop :=
  x = n \/ (exists c, In c (first_neighbor g n RHas CComp) /\ U_comp g c x)
        \/ (exists s, In s (first_neighbor g n RHas CNS) /\ U_ns g s x).
(* disconnecting interface i: a ServicePort across one of its links, with its family and links *)
Definition U_disc (g : graph) (i : N) (x : N) : Prop :=
  exists p, In p (peer_cps g i) /\ type_of g p = T_ServicePort /\ U_cp g p true x.
Definition A_node (g : graph) (nm : N) (x : N) : Prop :=
  exists n, In n (by_name g CNode nm) /\
            (U_node g n x \/ exists i, In i (disc_list g (node_interface_list g n)) /\ U_disc g i x).
(* removing service s through the API: what hangs below it, and what disconnecting its ports may delete *)
Definition A_ns (g : graph) (s : N) (x : N) : Prop :=
  U_ns g s x \/ exists i, In i (disc_list g (cpn g s)) /\ U_disc g i x.
Definition A_comp (g : graph) (n cname : N) (x : N) : Prop :=
  exists c, In c (first_neighbor g n RHas CComp) /\ name_of g c = cname /\
            (U_comp g c x \/ exists i, In i (disc_list g (comp_interface_list g c)) /\ U_disc g i x).

Section Sound.
Variable g0 : graph.

Lemma fn_mono' d x r c y : c <> COther ->
  In y (first_neighbor (restrict g0 d) x r c) -> In y (first_neighbor g0 x r c) /\ ~ In y d.
Proof. intros Hc H. apply first_neighbor_restrict in H; [tauto | exact Hc]. Qed.

Lemma fn_mono d x r c y : c <> COther ->
  In y (first_neighbor (restrict g0 d) x r c) -> In y (first_neighbor g0 x r c).
Proof. intros Hc H. apply (fn_mono' d x r c y Hc H). Qed.

Lemma cp_family_sound d n dp i : In i (cp_family (restrict g0 d) n dp) -> fam g0 n dp i.
Proof.
  unfold cp_family. rewrite dedup_In. intros [<-|H]; [left; reflexivity|].
  apply filter_In in H. destruct H as [H1 H2]. apply andb_true_iff in H2. destruct H2 as [_ H2].
  right. split; [exact H2|]. apply (fn_mono d); [discriminate | exact H1].
Qed.

Lemma cp_del_list_sound d n dp x : In x (cp_del_list (restrict g0 d) n dp) -> U_cp g0 n dp x.
Proof.
  unfold cp_del_list. rewrite dedup_In, in_app_iff. intros [H|H].
  - left. apply (cp_family_sound d). exact H.
  - right. unfold cp_links in H. rewrite dedup_In, in_flat_map in H. destruct H as [i [Hi H]].
    apply filter_In in H. destruct H as [H _]. exists i. split; [apply (cp_family_sound d); exact Hi|].
    apply (fn_mono d); [discriminate | exact H].
Qed.

Lemma Sound_remove_cp n dp : Sound g0 (U_cp g0 n dp) (remove_cp_and_links n dp).
Proof.
  unfold remove_cp_and_links.
  apply Sound_after; [auto with pure | intros _].
  apply Sound_after; [auto with pure | intros _].
  apply Sound_bind_get. intros d. apply Sound_for_each_set. intros x Hx.
  split; [apply Inv_delete | apply Sound_delete]. apply (cp_del_list_sound d). exact Hx.
Qed.

Lemma Sound_remove_ns s : Sound g0 (U_ns g0 s) (remove_ns s).
Proof.
  unfold remove_ns.
  apply Sound_after; [auto with pure | intros _].
  apply Sound_bind_get. intros d.
  apply Sound_bind'; [apply Inv_delete | apply Sound_delete; left; reflexivity | intros _].
  apply Sound_for_each_set. intros i Hi. split; [apply Inv_remove_cp|].
  apply (Sound_weaken g0 (U_cp g0 i true)); [|apply Sound_remove_cp].
  intros x Hx. right. exists i. split; [|exact Hx]. apply (fn_mono d); [discriminate | exact Hi].
Qed.

Lemma Sound_remove_component c : Sound g0 (U_comp g0 c) (remove_component c).
Proof.
  unfold remove_component.
  apply Sound_after; [auto with pure | intros _].
  apply Sound_bind_get. intros d.
  apply Sound_bind'; [apply Inv_delete | apply Sound_delete; left; reflexivity | intros _].
  apply Sound_for_each_set. intros s Hs. split; [apply Inv_remove_ns|].
  apply (Sound_weaken g0 (U_ns g0 s)); [|apply Sound_remove_ns].
  intros x Hx. right. exists s. split; [|exact Hx]. apply (fn_mono d); [discriminate | exact Hs].
Qed.

Lemma Sound_remove_node_graph n : Sound g0 (U_node g0 n) (remove_node_graph n).
Proof.
  unfold remove_node_graph.
  apply Sound_after; [auto with pure | intros _].
  apply Sound_bind_get. intros d.
  apply Sound_bind'.
  - apply Inv_for_each_set. intros c. apply Inv_remove_component.
  - apply Sound_for_each_set. intros c Hc. split; [apply Inv_remove_component|].
    apply (Sound_weaken g0 (U_comp g0 c)); [|apply Sound_remove_component].
    intros x Hx. right. left. exists c. split; [|exact Hx]. apply (fn_mono d); [discriminate | exact Hc].
  - intros _. apply Sound_bind_get. intros d'.
    apply Sound_bind'; [apply Inv_delete | apply Sound_delete; left; reflexivity | intros _].
    apply Sound_for_each_set. intros s Hs. split; [apply Inv_remove_ns|].
    apply (Sound_weaken g0 (U_ns g0 s)); [|apply Sound_remove_ns].
    intros x Hx. right. right. exists s. split; [|exact Hx]. apply (fn_mono d'); [discriminate | exact Hs].
Qed.

Lemma peer_cps_mono d i p : In p (peer_cps (restrict g0 d) i) -> In p (peer_cps g0 i).
Proof.
  unfold peer_cps. rewrite !in_flat_map. intros [l [Hl Hp]].
  exists l. split; [apply (fn_mono d); [discriminate | exact Hl]|].
  apply removeN_In in Hp. destruct Hp as [Hp Hne]. apply removeN_In. split; [|exact Hne].
  apply nbrs_cls_restrict in Hp; [tauto | discriminate].
Qed.

Lemma owner_cps_mono d p i : In i (owner_cps (restrict g0 d) p) -> In i (owner_cps g0 p).
Proof.
  unfold owner_cps. rewrite !in_flat_map. intros [s [Hs Hi]].
  exists s. split; [apply (fn_mono d); [discriminate | exact Hs]|].
  apply removeN_In in Hi. destruct Hi as [Hi Hne]. apply removeN_In. split; [|exact Hne].
  apply nbrs_cls_restrict in Hi; [tauto | discriminate].
Qed.

Lemma node_interface_list_mono d n i :
  In i (node_interface_list (restrict g0 d) n) -> In i (node_interface_list g0 n).
Proof.
  unfold node_interface_list, comp_interface_list. rewrite !in_app_iff, !in_flat_map. intros [H|[c [Hc H]]].
  - left. apply (owner_cps_mono d). exact H.
  - right. exists c. split; [apply (fn_mono d); [discriminate | exact Hc] | apply (owner_cps_mono d); exact H].
Qed.

Lemma type_of_restrict_eq d x t : type_of (restrict g0 d) x = t -> t <> 0%N -> type_of g0 x = t /\ ~ In x d.
Proof.
  unfold type_of. rewrite find_node_restrict. destruct (memN x d) eqn:E.
  - intros <- H. exfalso. apply H. reflexivity.
  - intros H _. split; [exact H | apply memN_false; exact E].
Qed.

Lemma get_peers_typed_In g i t l x :
  get_peers_typed g i t = Some l -> In x l -> In x (peer_cps g i) /\ type_of g x = t.
Proof.
  unfold get_peers_typed, get_peers. remember (peer_cps g i) as pc eqn:E. destruct pc as [|a r]; [discriminate|].
  intros H Hx.
  assert (Hl : l = filter (fun p : N => N.eqb (type_of g p) t) (a :: r)) by congruence.
  rewrite Hl in Hx. apply filter_In in Hx. destruct Hx as [Hx Ht]. apply N.eqb_eq in Ht. auto.
Qed.

Lemma Sound_disconnect_interface i : Sound g0 (U_disc g0 i) (disconnect_interface i).
Proof.
  unfold disconnect_interface.
  apply Sound_after; [auto with pure | intros _].
  apply Sound_bind_get. intros d.
  destruct (get_peers_typed (restrict g0 d) i T_ServicePort) as [[|x [|y r]]|] eqn:E;
    try apply Sound_ret; try apply Sound_fail.
  apply Sound_bind_ret; [apply Inv_remove_cp|].
  apply (Sound_weaken g0 (U_cp g0 x true)); [|apply Sound_remove_cp].
  destruct (get_peers_typed_In _ _ _ _ x E (or_introl eq_refl)) as [Hp Ht].
  destruct (type_of_restrict_eq d x _ Ht ltac:(discriminate)) as [Ht0 _].
  intros z Hz. exists x. split; [apply (peer_cps_mono d); exact Hp | split; [exact Ht0 | exact Hz]].
Qed.

Lemma Sound_disconnect_peers_of i : Sound g0 (U_disc g0 i) (disconnect_peers_of i).
Proof.
  unfold disconnect_peers_of.
  apply Sound_after; [auto with pure | intros _].
  apply Sound_after; [auto with pure | intros p].
  destruct p as [[|x [|y r]]|]; try apply Sound_ret; try apply Sound_fail.
  apply Sound_after; [auto with pure | intros par].
  destruct par as [|s [|s' r']]; try apply Sound_fail.
  apply Sound_bind_ret; [apply Inv_disconnect_interface | apply Sound_disconnect_interface].
Qed.

Lemma Sound_disconnect_step i : Sound g0 (U_disc g0 i) (disconnect_step i).
Proof. apply Sound_guarded, Sound_disconnect_peers_of. Qed.

Lemma disc_list_mono d (l l' : list N) ii :
  (forall i, In i l -> In i l') -> In ii (disc_list (restrict g0 d) l) -> In ii (disc_list g0 l').
Proof.
  intros Hl. unfold disc_list. rewrite !in_flat_map. intros [i [Hi H]]. exists i. split; [apply Hl; exact Hi|].
  unfold with_children in *. destruct H as [<-|H]; [left; reflexivity|]. right.
  destruct (N.eqb (type_of (restrict g0 d) i) T_DedicatedPort) eqn:E; [|destruct H].
  apply N.eqb_eq in E. destruct (type_of_restrict_eq d i _ E ltac:(discriminate)) as [E0 _].
  rewrite E0. simpl. apply (fn_mono d); [discriminate | exact H].
Qed.

Lemma Sound_get_uniq {B} P (q : graph -> list N) e1 e2 (f : N -> M B) :
  (forall d n, q (restrict g0 d) = [n] -> Sound g0 P (f n)) ->
  Sound g0 P (bind (m_get q) (fun x => bind (uniq x e1 e2) f)).
Proof.
  intros H. apply Sound_bind_get. intros d.
  destruct (q (restrict g0 d)) as [|a [|b r]] eqn:E; simpl.
  - intros s Hs y Hy. left. exact Hy.
  - intros s Hs y Hy. unfold bind, ret in Hy. simpl in Hy. exact (H d a E s Hs y Hy).
  - intros s Hs y Hy. left. exact Hy.
Qed.

Lemma topo_nodes_sub d nm n : In n (topo_nodes (restrict g0 d) nm) -> In n (by_name g0 CNode nm).
Proof.
  unfold topo_nodes. intros H. apply filter_In in H. destruct H as [H _].
  apply by_name_restrict in H. tauto.
Qed.

Lemma by_name_sub d c nm n : In n (by_name (restrict g0 d) c nm) -> In n (by_name g0 c nm).
Proof. intros H. apply by_name_restrict in H. tauto. Qed.

Lemma Sound_peers_loop (P : N -> Prop) (q : N -> Prop) l :
  (forall i, In i l -> q i) -> (forall i x, q i -> U_disc g0 i x -> P x) ->
  Sound g0 P (for_each_set disconnect_step l).
Proof.
  intros Hl HP. apply Sound_for_each_set. intros i Hi. split; [apply Inv_disconnect_step|].
  apply (Sound_weaken g0 (U_disc g0 i)); [|apply Sound_disconnect_step].
  intros x Hx. apply (HP i x); [apply Hl; exact Hi | exact Hx].
Qed.

(* the interfaces of the element are read off the current graph by a query that only shrinks under deletions;
   each of them (and the sub-interfaces of a dedicated port) is then disconnected *)
Lemma Sound_disc_then {B} (P : N -> Prop) (q : graph -> list N) (k : M B) :
  (forall d i, In i (q (restrict g0 d)) -> In i (q g0)) ->
  (forall i x, In i (disc_list g0 (q g0)) -> U_disc g0 i x -> P x) ->
  Sound g0 P k ->
  Sound g0 P (bind (m_get (fun g => disc_list g (q g))) (fun ifs => bind (for_each_set disconnect_step ifs) (fun _ => k))).
Proof.
  intros Hq HP Hk. apply Sound_bind_get. intros d.
  apply Sound_bind'; [auto with inv | | intros _; exact Hk].
  apply (Sound_peers_loop _ (fun i => In i (disc_list g0 (q g0)))); [|exact HP].
  intros i Hi. apply (disc_list_mono d (q (restrict g0 d))); [apply Hq | exact Hi].
Qed.

Lemma Sound_node_tail nm n :
  In n (by_name g0 CNode nm) ->
  Sound g0 (A_node g0 nm)
    (bind (m_get (fun g => disc_list g (node_interface_list g n))) (fun ifs =>
     bind (for_each_set disconnect_step ifs) (fun _ =>
     bind (m_get (fun g => by_name g CNode nm)) (fun all =>
     bind (uniq all EQuery EQuery) (fun n' => remove_node_graph n'))))).
Proof.
  intros Hn. apply (Sound_disc_then _ (fun g => node_interface_list g n)).
  - intros d i. apply node_interface_list_mono.
  - intros i x Hi Hx. exists n. split; [exact Hn|]. right. exists i. auto.
  - apply Sound_get_uniq. intros d2 n' E'.
    assert (Hn' : In n' (by_name g0 CNode nm)) by (apply (by_name_sub d2); rewrite E'; left; reflexivity).
    apply (Sound_weaken g0 (U_node g0 n')); [|apply Sound_remove_node_graph].
    intros x Hx. exists n'. split; [exact Hn' | left; exact Hx].
Qed.

Lemma Sound_api_remove_node nm : Sound g0 (A_node g0 nm) (api_remove_node nm).
Proof.
  unfold api_remove_node. apply Sound_get_uniq. intros d n E.
  apply Sound_node_tail. apply (topo_nodes_sub d). rewrite E. left. reflexivity.
Qed.

Lemma Sound_api_remove_facility nm : Sound g0 (A_node g0 nm) (api_remove_facility nm).
Proof.
  unfold api_remove_facility. apply Sound_get_uniq. intros d n E.
  apply Sound_after; [auto with pure | intros t].
  apply Sound_after; [auto with pure | intros _].
  apply Sound_node_tail. apply (by_name_sub d). rewrite E. left. reflexivity.
Qed.

Lemma Sound_api_remove_switch nm : Sound g0 (A_node g0 nm) (api_remove_switch nm).
Proof.
  unfold api_remove_switch. apply Sound_get_uniq. intros d n E.
  apply Sound_after; [auto with pure | intros t].
  apply Sound_after; [auto with pure | intros _].
  apply Sound_api_remove_node.
Qed.

Lemma Sound_api_remove_link nm : Sound g0 (fun x => In x (by_name g0 CLink nm)) (api_remove_link nm).
Proof.
  unfold api_remove_link. apply Sound_get_uniq. intros d n E.
  apply Sound_after; [auto with pure | intros sp].
  apply Sound_after; [auto with pure | intros _].
  unfold remove_link_graph.
  apply Sound_after; [auto with pure | intros _].
  apply Sound_delete. apply (by_name_sub d). rewrite E. left. reflexivity.
Qed.

Lemma Sound_remove_ns_disconnecting s : Sound g0 (A_ns g0 s) (remove_ns_disconnecting s).
Proof.
  apply (Sound_disc_then _ (fun g => first_neighbor g s RConnects CCP)).
  - intros d i. apply fn_mono. discriminate.
  - intros i x Hi Hx. right. exists i. auto.
  - apply (Sound_weaken g0 (U_ns g0 s)); [|apply Sound_remove_ns]. intros x Hx. left. exact Hx.
Qed.

Lemma Sound_api_remove_ns_topo nm :
  Sound g0 (fun x => exists s, In s (by_name g0 CNS nm) /\ A_ns g0 s x) (api_remove_ns_topo nm).
Proof.
  unfold api_remove_ns_topo. apply Sound_get_uniq. intros d n E.
  apply (Sound_weaken g0 (A_ns g0 n)); [|apply Sound_remove_ns_disconnecting].
  intros x Hx. exists n. split; [|exact Hx]. apply (by_name_sub d). rewrite E. left. reflexivity.
Qed.

(* a child of p looked up by name among its neighbours of one class *)
Lemma Sound_get_child {B} (P : N -> Prop) p r c nm e1 e2 (f : N -> M B) : c <> COther ->
  (forall i, In i (first_neighbor g0 p r c) -> name_of g0 i = nm -> Sound g0 P (f i)) ->
  Sound g0 P (bind (m_get (fun g => child_by_name g (first_neighbor g p r c) nm)) (fun l => bind (uniq l e1 e2) f)).
Proof.
  intros Hc Hf. apply Sound_get_uniq. intros d i E.
  assert (Hi : In i (child_by_name (restrict g0 d) (first_neighbor (restrict g0 d) p r c) nm)) by (rewrite E; left; reflexivity).
  apply filter_In in Hi. destruct Hi as [Hi Hn]. apply fn_mono' in Hi; [|exact Hc]. destruct Hi as [Hi Hd].
  apply N.eqb_eq in Hn. rewrite name_of_restrict in Hn; [|apply memN_false; exact Hd]. apply Hf; assumption.
Qed.

Lemma Sound_api_remove_component n cname : Sound g0 (A_comp g0 n cname) (api_remove_component n cname).
Proof.
  unfold api_remove_component.
  apply Sound_after; [auto with pure | intros _].
  apply Sound_get_child; [discriminate|]. intros c Hc1 Hc2.
  apply (Sound_disc_then _ (fun g => comp_interface_list g c)).
  - intros d i. apply owner_cps_mono.
  - intros i x Hi Hx. exists c. split; [exact Hc1|]. split; [exact Hc2|]. right. exists i. auto.
  - apply (Sound_weaken g0 (U_comp g0 c)); [|apply Sound_remove_component].
    intros x Hx. exists c. split; [exact Hc1|]. split; [exact Hc2|]. left. exact Hx.
Qed.

Lemma Sound_api_node_remove_ns n sname :
  Sound g0 (fun x => exists s, In s (first_neighbor g0 n RHas CNS) /\ name_of g0 s = sname /\ A_ns g0 s x)
        (api_node_remove_ns n sname).
Proof.
  unfold api_node_remove_ns.
  apply Sound_after; [auto with pure | intros x0].
  apply Sound_after; [auto with pure | intros _].
  apply Sound_get_child; [discriminate|]. intros s A B.
  apply (Sound_weaken g0 (A_ns g0 s)); [|apply Sound_remove_ns_disconnecting]. intros x Hx. exists s. auto.
Qed.

Lemma Sound_api_disconnect i c : Sound g0 (U_disc g0 i) (api_disconnect i c).
Proof.
  unfold api_disconnect.
  apply Sound_bind'; [apply Inv_disconnect_interface | apply Sound_disconnect_interface | intros r].
  destruct r; apply Sound_ret.
Qed.

Lemma Sound_api_remove_interface ex s iname c :
  Sound g0 (fun x => exists i, In i (cpn g0 s) /\ name_of g0 i = iname /\ U_cp g0 i true x)
        (api_remove_interface ex s iname c).
Proof.
  unfold api_remove_interface.
  apply Sound_after; [auto with pure | intros _].
  apply Sound_after; [auto with pure | intros x0].
  apply Sound_after; [auto with pure | intros _].
  apply Sound_get_child; [discriminate|]. intros i A B.
  apply Sound_bind_ret; [apply Inv_remove_cp|].
  apply (Sound_weaken g0 (U_cp g0 i true)); [|apply Sound_remove_cp]. intros x Hx. exists i. auto.
Qed.

Lemma Sound_api_remove_child p iname c :
  Sound g0 (fun x => exists i, In i (cpn g0 p) /\ name_of g0 i = iname /\ (U_cp g0 i false x \/ U_disc g0 i x))
        (api_remove_child p iname c).
Proof.
  unfold api_remove_child.
  apply Sound_after; [auto with pure | intros x0].
  apply Sound_after; [auto with pure | intros _].
  apply Sound_after; [auto with pure | intros _].
  apply Sound_get_child; [discriminate|]. intros i A B.
  apply Sound_bind'; [apply Inv_disconnect_peers_of | | intros _].
  - apply (Sound_weaken g0 (U_disc g0 i)); [|apply Sound_disconnect_peers_of]. intros x Hx. exists i. auto.
  - apply Sound_bind_ret; [apply Inv_remove_cp|].
    apply (Sound_weaken g0 (U_cp g0 i false)); [|apply Sound_remove_cp]. intros x Hx. exists i. auto.
Qed.

Lemma Sound_api_unpeer_with xy ca cb :
  Sound g0 (fun x => U_cp g0 (fst xy) true x \/ U_cp g0 (snd xy) true x) (api_unpeer_with xy ca cb).
Proof.
  unfold api_unpeer_with.
  apply Sound_bind'; [apply Inv_remove_cp | | intros _].
  - apply (Sound_weaken g0 (U_cp g0 (fst xy) true)); [tauto | apply Sound_remove_cp].
  - apply Sound_bind_ret; [apply Inv_remove_cp|].
    apply (Sound_weaken g0 (U_cp g0 (snd xy) true)); [tauto | apply Sound_remove_cp].
Qed.

Lemma Sound_api_unpeer_checked xy ca cb :
  Sound g0 (fun x => U_cp g0 (fst xy) true x \/ U_cp g0 (snd xy) true x) (api_unpeer_checked xy ca cb).
Proof.
  unfold api_unpeer_checked.
  apply Sound_after; [auto with pure | intros ok].
  apply Sound_after; [auto with pure | intros _]. apply Sound_api_unpeer_with.
Qed.

End Sound.
