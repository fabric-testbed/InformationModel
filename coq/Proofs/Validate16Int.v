(* C16 proofs: py_int (the model of Python's int(str), base 10) accepts exactly the declarative integer
   literals `int_literal` of Model/Labels16Spec.v and returns their value. *)
From Coq Require Import List ZArith Bool Lia.
From FIM Require Import Base.Str Gen.UnicodeClasses Model.Labels16 Model.Labels16Spec.
Import ListNotations.

Lemma in_rng_range t c : in_rng t c = true -> exists lo hi, In (lo, hi) t /\ (lo <= c <= hi)%N.
Proof.
  induction t as [|[lo hi] t IH]; simpl; [discriminate|].
  destruct (N.ltb c lo) eqn:A; [discriminate|]. destruct (N.leb c hi) eqn:B.
  - intros _. exists lo, hi. apply N.ltb_ge in A. apply N.leb_le in B. split; [left; reflexivity | lia].
  - intro H. destruct (IH H) as (lo' & hi' & Hin & Hr). exists lo', hi'. split; [right; exact Hin | exact Hr].
Qed.

Lemma digit_val_in_rng t c d : digit_val_in t c = Some d -> in_rng t c = true.
Proof.
  induction t as [|[lo hi] t IH]; simpl; [discriminate|].
  destruct (N.ltb c lo); [discriminate|]. destruct (N.leb c hi); auto.
Qed.

Lemma tables_disjoint :
  forallb (fun a => forallb (fun b => N.ltb (snd a) (fst b) || N.ltb (snd b) (fst a)) int_space_ranges) int_digit_ranges = true.
Proof. vm_compute. reflexivity. Qed.

Lemma digit_not_space c d : digit_val c = Some d -> is_int_space c = false.
Proof.
  intro H. destruct (is_int_space c) eqn:E; [|reflexivity]. exfalso.
  apply digit_val_in_rng, in_rng_range in H as (lo & hi & Hin & Hr). apply in_rng_range in E as (lo' & hi' & Hin' & Hr').
  pose proof tables_disjoint as D. rewrite forallb_forall in D. specialize (D _ Hin). rewrite forallb_forall in D.
  specialize (D _ Hin'). cbn [fst snd] in D. apply orb_true_iff in D as [D|D]; apply N.ltb_lt in D; lia.
Qed.

(* '_' (95), '+' (43) and '-' (45) are neither digits nor white space in the regenerated tables *)
Lemma small_facts :
  digit_val 95 = None /\ digit_val 43 = None /\ digit_val 45 = None /\ is_int_space 43 = false /\ is_int_space 45 = false.
Proof. repeat split; vm_compute; reflexivity. Qed.

Lemma digit_not_special c d : digit_val c = Some d -> N.eqb c 95 = false /\ N.eqb c 43 = false /\ N.eqb c 45 = false.
Proof.
  intro H. destruct small_facts as (A & B & C & _).
  repeat split; apply N.eqb_neq; intro; subst; congruence.
Qed.

Lemma dg_first s ds : digit_groups s ds -> exists c r d, s = c :: r /\ digit_val c = Some d.
Proof. intro H; inversion H; subst; eauto. Qed.

Lemma dg_last s ds : digit_groups s ds -> exists r c d, s = r ++ [c] /\ digit_val c = Some d.
Proof.
  induction 1 as [c d H | c d s ds H G IH | c d s ds H G IH].
  - exists [], c, d. auto.
  - destruct IH as (r & c' & d' & -> & H'). exists (c :: r), c', d'. auto.
  - destruct IH as (r & c' & d' & -> & H'). exists (c :: 95%N :: r), c', d'. auto.
Qed.

(* a string of digit groups starts with a digit, so the loop does not look at its flag *)
Lemma digits_loop_complete s ds : digit_groups s ds -> forall b, digits_loop s b = Some ds.
Proof.
  induction 1 as [c d H | c d s ds H G IH | c d s ds H G IH]; intro b; cbn [digits_loop];
    destruct (digit_not_special _ _ H) as (-> & _); rewrite H.
  - reflexivity.
  - rewrite IH. reflexivity.
  - rewrite N.eqb_refl, IH. reflexivity.
Qed.

(* after an underscore (b = true) digit groups must follow; otherwise the rest may also be empty or start
   with the one underscore allowed between digits *)
Lemma digits_loop_sound s : forall b ds, digits_loop s b = Some ds ->
  digit_groups s ds \/
  (b = false /\ ((s = [] /\ ds = []) \/ exists s', s = 95%N :: s' /\ digit_groups s' ds)).
Proof.
  induction s as [|c s IH]; intros b ds; cbn [digits_loop].
  - destruct b; [discriminate|]. intros [= <-]. right. auto.
  - destruct (N.eqb c 95) eqn:E95.
    + apply N.eqb_eq in E95 as ->. destruct b; [discriminate|]. intro H. right. split; [reflexivity|]. right.
      exists s. split; [reflexivity|]. destruct (IH _ _ H) as [G|[[=] _]]. exact G.
    + destruct (digit_val c) as [d|] eqn:Ed; [|discriminate].
      destruct (digits_loop s false) as [l|] eqn:El; [|discriminate].
      intros [= <-]. left. destruct (IH _ _ El) as [G|(_ & [[-> ->]|(s' & -> & G)])].
      * apply DG_more; assumption.
      * constructor; exact Ed.
      * apply DG_us; assumption.
Qed.

Lemma parse_digits_spec s ds : parse_digits s = Some ds <-> digit_groups s ds.
Proof.
  unfold parse_digits. split.
  - destruct s as [|c r]; [discriminate|]. destruct (N.eqb c 95) eqn:E; [discriminate|]. intro H.
    destruct (digits_loop_sound _ _ _ H) as [G|(_ & [[[=] _]|(s' & [= -> _] & _)])]; [exact G|].
    rewrite N.eqb_refl in E. discriminate.
  - intro G. destruct (dg_first _ _ G) as (c & r & d & -> & Hd).
    destruct (digit_not_special _ _ Hd) as (-> & _). apply digits_loop_complete, G.
Qed.

Definition head_not (p : N -> bool) (s : str) : Prop := match s with [] => True | c :: _ => p c = false end.

Lemma drop_while_app p ws rest : forallb p ws = true -> head_not p rest -> drop_while p (ws ++ rest) = rest.
Proof.
  induction ws as [|w ws IH]; simpl; intros F H.
  - destruct rest as [|c r]; simpl in *; [reflexivity | rewrite H; reflexivity].
  - apply andb_true_iff in F as [F1 F2]. rewrite F1. apply IH; assumption.
Qed.

Lemma drop_while_split p s : exists ws, s = ws ++ drop_while p s /\ forallb p ws = true /\ head_not p (drop_while p s).
Proof.
  induction s as [|c s IH]; simpl.
  - exists []. auto.
  - destruct (p c) eqn:E.
    + destruct IH as (ws & E1 & F & H). exists (c :: ws). simpl. rewrite E, F. split; [f_equal; exact E1 | auto].
    + exists []. simpl. auto.
Qed.

Lemma forallb_rev {A} (p : A -> bool) l : forallb p (rev l) = forallb p l.
Proof.
  induction l as [|x l IH]; simpl; [reflexivity|]. rewrite forallb_app, IH. simpl. rewrite andb_true_r. apply andb_comm.
Qed.

Lemma strip_ws_of ws1 core l ws2 :
  forallb is_int_space ws1 = true -> forallb is_int_space ws2 = true ->
  head_not is_int_space (core ++ [l]) -> is_int_space l = false ->
  strip_ws (ws1 ++ (core ++ [l]) ++ ws2) = core ++ [l].
Proof.
  intros F1 F2 Hh Hl. unfold strip_ws. rewrite drop_while_app.
  - rewrite rev_app_distr. rewrite drop_while_app.
    + apply rev_involutive.
    + rewrite forallb_rev. exact F2.
    + rewrite rev_app_distr. simpl. exact Hl.
  - exact F1.
  - destruct core; simpl in *; exact Hh.
Qed.

Lemma strip_ws_split s : exists ws1 ws2, s = ws1 ++ strip_ws s ++ ws2 /\
  forallb is_int_space ws1 = true /\ forallb is_int_space ws2 = true.
Proof.
  unfold strip_ws. destruct (drop_while_split is_int_space s) as (ws1 & E1 & F1 & _).
  set (m := drop_while is_int_space s) in *.
  destruct (drop_while_split is_int_space (rev m)) as (ws2 & E2 & F2 & _).
  exists ws1, (rev ws2). split; [|split; [exact F1 | rewrite forallb_rev; exact F2]].
  rewrite E1 at 1. f_equal. rewrite <- (rev_involutive m) at 1. rewrite E2 at 1. rewrite rev_app_distr. reflexivity.
Qed.

Definition limit_ok (ds : list N) : Prop :=
  int_max_str_digits = 0%N \/ (N.of_nat (List.length ds) <= int_max_str_digits)%N.

Lemma limit_test ds :
  (negb (N.eqb int_max_str_digits 0) && N.ltb int_max_str_digits (N.of_nat (List.length ds))) = false <-> limit_ok ds.
Proof.
  unfold limit_ok. destruct (N.eqb int_max_str_digits 0) eqn:E; cbn [negb andb].
  - apply N.eqb_eq in E. tauto.
  - apply N.eqb_neq in E. rewrite N.ltb_ge. split; [auto | intros [H|H]; [contradiction | exact H]].
Qed.

Theorem py_int_complete s z : int_literal s z -> py_int s = Some z.
Proof.
  intros (ws1 & sign & body & ws2 & ds & -> & F1 & F2 & Hs & G & L & ->).
  destruct (dg_last _ _ G) as (r & l & dl & Eb & Hl). destruct (dg_first _ _ G) as (c & r' & dc & Ec & Hc).
  pose proof (digit_not_space _ _ Hl) as Sl. pose proof (digit_not_space _ _ Hc) as Sc.
  destruct (digit_not_special _ _ Hc) as (_ & C43 & C45).
  destruct small_facts as (_ & _ & _ & S43 & S45).
  apply limit_test in L. apply parse_digits_spec in G.
  unfold py_int.
  destruct Hs as [-> | [-> | ->]]; cbn [app list_eqb].
  - replace (strip_ws (ws1 ++ body ++ ws2)) with body.
    + rewrite Ec in *. rewrite C43, C45, G, L. reflexivity.
    + rewrite Eb. symmetry. apply strip_ws_of; try assumption. rewrite <- Eb, Ec. exact Sc.
  - replace (strip_ws (ws1 ++ 43%N :: body ++ ws2)) with (43%N :: body).
    + cbn [N.eqb Pos.eqb]. rewrite G, L. reflexivity.
    + rewrite Eb. symmetry. apply (strip_ws_of ws1 (43%N :: r) l ws2); try assumption.
  - replace (strip_ws (ws1 ++ 45%N :: body ++ ws2)) with (45%N :: body).
    + cbn [N.eqb Pos.eqb]. rewrite G, L. cbn [N.eqb Pos.eqb andb]. reflexivity.
    + rewrite Eb. symmetry. apply (strip_ws_of ws1 (45%N :: r) l ws2); try assumption.
Qed.

Theorem py_int_sound s z : py_int s = Some z -> int_literal s z.
Proof.
  unfold py_int. destruct (strip_ws_split s) as (ws1 & ws2 & Es & F1 & F2).
  set (s1 := strip_ws s) in *. intro H.
  (* the three sign branches of py_int are one expression in (sign, body, neg) *)
  assert (Hgen : forall sign body neg, s1 = sign ++ body ->
            (sign = [] \/ sign = [43%N] \/ sign = [45%N]) -> neg = list_eqb N.eqb sign [45%N] ->
            match parse_digits body with
            | Some ds => if negb (N.eqb int_max_str_digits 0) && N.ltb int_max_str_digits (N.of_nat (List.length ds)) then None
                         else Some (if neg then (- Z.of_N (dec_value ds))%Z else Z.of_N (dec_value ds))
            | None => None
            end = Some z -> int_literal s z).
  { intros sign body neg E1 Hs Hn X. destruct (parse_digits body) as [ds|] eqn:P; [|discriminate].
    destruct (negb _ && _) eqn:L; [discriminate|]. inversion X; subst z neg.
    exists ws1, sign, body, ws2, ds. rewrite Es, E1, <- app_assoc.
    split; [reflexivity|]. split; [exact F1|]. split; [exact F2|]. split; [exact Hs|].
    split; [apply parse_digits_spec; exact P|]. split; [apply limit_test; exact L | reflexivity]. }
  destruct s1 as [|c r] eqn:E1.
  - apply (Hgen [] [] false); auto.
  - destruct (N.eqb c 43) eqn:C43.
    + apply N.eqb_eq in C43. subst c. apply (Hgen [43%N] r false); auto.
    + destruct (N.eqb c 45) eqn:C45.
      * apply N.eqb_eq in C45. subst c. apply (Hgen [45%N] r true); auto.
      * apply (Hgen [] (c :: r) false); auto.
Qed.

Theorem py_int_spec s z : py_int s = Some z <-> int_literal s z.
Proof. split; [apply py_int_sound | apply py_int_complete]. Qed.

(* plain runs of decimal digits: the value is the decimal value *)
Lemma digit_groups_plain s : s <> [] -> forall ds, Forall2 (fun c d => digit_val c = Some d) s ds -> digit_groups s ds.
Proof.
  induction s as [|c s IH]; intros Hn ds F; [contradiction|].
  inversion F as [|? d ? ds' Hd F']; subst. destruct s as [|c' s'].
  - inversion F'; subst. constructor; exact Hd.
  - apply DG_more; [exact Hd | apply IH; [discriminate | exact F']].
Qed.

Theorem py_int_plain_digits s ds : s <> [] -> Forall2 (fun c d => digit_val c = Some d) s ds -> limit_ok ds ->
  py_int s = Some (Z.of_N (dec_value ds)).
Proof.
  intros Hn F L. apply py_int_complete. exists [], [], s, [], ds. rewrite app_nil_r.
  repeat split; auto. apply digit_groups_plain; assumption.
Qed.
