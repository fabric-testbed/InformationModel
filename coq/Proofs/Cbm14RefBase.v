(* C14 - refinement, basics: looking a node up by (GraphID, NodeID) in the store's node list; the abstraction of
   a graph's nodes read through that lookup; the node-list invariant J and the list transformations that keep it. *)
From Coq Require Import List NArith Bool.
From FIM Require Import Base.ListFacts Model.Cbm14Store Model.Cbm14Spec Model.Cbm14Abs Proofs.Cbm14Frame.
Import ListNotations.
Open Scope N_scope.

Definition at_ (g k : N) (ns : list node) : option node :=
  find (fun n => (n_gid n =? g) && (n_nid n =? k)) ns.
Definition ukeys (ns : list node) : Prop := NoDup (map key ns).
Definition J (nx : N) (ns : list node) : Prop := uniq ns /\ below nx ns /\ ukeys ns.

Lemma Forall2_impl' {A B} (R R' : A -> B -> Prop) l l' :
  (forall a b, R a b -> R' a b) -> Forall2 R l l' -> Forall2 R' l l'.
Proof. intros H F. induction F; constructor; auto. Qed.

Lemma Forall2_trans3 {A B C} (R1 : A -> B -> Prop) (R2 : B -> C -> Prop) (R : A -> C -> Prop) l1 l2 l3 :
  (forall a b c, R1 a b -> R2 b c -> R a c) -> Forall2 R1 l1 l2 -> Forall2 R2 l2 l3 -> Forall2 R l1 l3.
Proof.
  intros H F1. revert l3. induction F1; intros l3 F2; inversion F2; subst; constructor; eauto.
Qed.

Lemma Forall2_map_r {A B C} (R : A -> B -> Prop) (R' : A -> C -> Prop) (f : B -> C) l l' :
  (forall a b, R a b -> R' a (f b)) -> Forall2 R l l' -> Forall2 R' l (map f l').
Proof. intros H F. induction F; simpl; constructor; auto. Qed.

Lemma Forall2_map_eq {A B C} (f : A -> C) (g : B -> C) l l' :
  Forall2 (fun a b => g b = f a) l l' -> map g l' = map f l.
Proof. induction 1; simpl; congruence. Qed.

Lemma NoDup_map_inj_in {A B} (f : A -> B) l :
  (forall x y, In x l -> In y l -> f x = f y -> x = y) -> NoDup l -> NoDup (map f l).
Proof.
  induction l as [|a r IH]; simpl; intros H ND; [constructor|]. inversion ND; subst. constructor.
  - intro X. apply in_map_iff in X as (y & E & Hy). assert (a = y) by (apply H; auto). subst. contradiction.
  - apply IH; auto.
Qed.

Lemma J_uniq nx ns : J nx ns -> uniq ns.
Proof. intros (U & _ & _). exact U. Qed.
Lemma J_ukeys nx ns : J nx ns -> ukeys ns.
Proof. intros (_ & _ & K). exact K. Qed.

Lemma uniq_inj ns a b : uniq ns -> In a ns -> In b ns -> n_int a = n_int b -> a = b.
Proof. apply NoDup_map_inj. Qed.
Lemma ukeys_inj ns a b : ukeys ns -> In a ns -> In b ns -> key a = key b -> a = b.
Proof. apply NoDup_map_inj. Qed.

Lemma J_filter nx p ns : J nx ns -> J nx (filter p ns).
Proof.
  intros (U & B & K). split; [|split].
  - apply NoDup_map_filter. exact U.
  - intros n Hn. apply filter_In in Hn as [Hn _]. auto.
  - apply NoDup_map_filter. exact K.
Qed.

(* a list with the same internal ids and the same keys, position by position *)
Lemma J_same nx ns ns' : map n_int ns' = map n_int ns -> map key ns' = map key ns -> J nx ns -> J nx ns'.
Proof.
  intros EI EK (U & B & K). unfold J, uniq, ukeys. rewrite EI, EK. split; [|split]; auto.
  intros n Hn. assert (In (n_int n) (map n_int ns)) as X by (rewrite <- EI; apply in_map; exact Hn).
  apply in_map_iff in X as (m & <- & Hm). auto.
Qed.

Lemma find_node_at g k st : find_node g k st = at_ g k (s_nodes st).
Proof. reflexivity. Qed.

Lemma at_In g k ns n : at_ g k ns = Some n -> In n ns /\ n_gid n = g /\ n_nid n = k.
Proof.
  unfold at_. intro H. apply find_some in H as [H1 H2]. apply andb_true_iff in H2 as [A B].
  apply N.eqb_eq in A, B. auto.
Qed.

Lemma at_none g k ns : (forall n, In n ns -> n_gid n = g -> n_nid n = k -> False) -> at_ g k ns = None.
Proof.
  unfold at_. induction ns as [|m r IH]; simpl; auto. intro H.
  destruct ((n_gid m =? g) && (n_nid m =? k)) eqn:E.
  - apply andb_true_iff in E as [A B]. apply N.eqb_eq in A, B. exfalso. eapply H; eauto.
  - apply IH. intros n Hn. apply H. auto.
Qed.

Lemma at_none_inv g k ns n : at_ g k ns = None -> In n ns -> n_gid n = g -> n_nid n = k -> False.
Proof.
  unfold at_. intros H Hin A B. apply (find_none _ _ H) in Hin. subst. rewrite !N.eqb_refl in Hin. discriminate.
Qed.

Lemma at_uniq g k ns n : ukeys ns -> In n ns -> n_gid n = g -> n_nid n = k -> at_ g k ns = Some n.
Proof.
  intros K Hn G E. destruct (at_ g k ns) as [m|] eqn:A.
  - apply at_In in A as (Hm & Gm & Em). f_equal. apply (ukeys_inj ns); auto. unfold key. congruence.
  - exfalso. eapply at_none_inv; eauto.
Qed.

Lemma at_app g k a b : at_ g k (a ++ b) = match at_ g k a with Some n => Some n | None => at_ g k b end.
Proof. unfold at_. induction a as [|m r IH]; simpl; auto. destruct ((n_gid m =? g) && (n_nid m =? k)); auto. Qed.

Lemma at_gnodes g k ns : at_ g k ns = find (fun n => n_nid n =? k) (gnodes g ns).
Proof.
  unfold at_, gnodes. induction ns as [|m r IH]; simpl; auto.
  destruct (n_gid m =? g); simpl; auto. destruct (n_nid m =? k); auto.
Qed.

Lemma at_other_gid g k ns : (forall n, In n ns -> n_gid n <> g) -> at_ g k ns = None.
Proof. intro H. apply at_none. intros n Hn E _. apply (H n Hn E). Qed.

Lemma at_all_gid g k tn : (forall n, In n tn -> n_gid n = g) -> at_ g k tn = find (fun n => n_nid n =? k) tn.
Proof.
  intro H. unfold at_. induction tn as [|m r IH]; simpl; auto.
  assert (n_gid m =? g = true) as -> by (apply N.eqb_eq; apply H; simpl; auto). simpl.
  destruct (n_nid m =? k); auto. apply IH. intros; apply H; simpl; auto.
Qed.

(* the nodes of a graph `new` appended to a list that has none *)
Lemma at_app_new new g k ns tn :
  (forall n, In n ns -> n_gid n <> new) -> (forall n, In n tn -> n_gid n = new) ->
  at_ g k (ns ++ tn) = if g =? new then at_ new k tn else at_ g k ns.
Proof.
  intros NT TT. rewrite at_app. destruct (N.eqb_spec g new) as [->|NE].
  - rewrite (at_other_gid new k ns NT). reflexivity.
  - destruct (at_ g k ns); auto. apply at_other_gid. intros n Hn. rewrite (TT n Hn). auto.
Qed.

Lemma at_filter_gid g h k ns :
  at_ h k (filter (fun n => negb (n_gid n =? g)) ns) = if h =? g then None else at_ h k ns.
Proof.
  unfold at_. induction ns as [|m r IH]; simpl; [destruct (h =? g); auto|].
  destruct (n_gid m =? g) eqn:G; simpl.
  - rewrite IH. destruct (h =? g) eqn:H; auto.
    apply N.eqb_eq in G. apply N.eqb_neq in H. assert (n_gid m =? h = false) as -> by (apply N.eqb_neq; congruence).
    reflexivity.
  - rewrite IH. destruct (h =? g) eqn:H; auto.
    apply N.eqb_eq in H. subst. rewrite G. reflexivity.
Qed.

(* replacing nodes by nodes with the same internal id and key, then deleting by internal id *)
Lemma at_map_filter nx f del ns :
  J nx ns -> (forall n, In n ns -> n_int (f n) = n_int n /\ key (f n) = key n) ->
  let ns' := filter (fun n => negb (del (n_int n))) (map f ns) in
  J nx ns' /\
  forall g k, at_ g k ns' = match at_ g k ns with
                            | Some n => if del (n_int n) then None else Some (f n)
                            | None => None
                            end.
Proof.
  intros Jn FK ns'.
  assert (J nx ns') as J'.
  { apply J_filter. apply (J_same nx ns); auto; rewrite map_map; apply map_ext_in; intros n Hn; apply (FK n Hn). }
  split; [exact J'|]. intros g k.
  assert (forall m', In m' ns' -> n_gid m' = g -> n_nid m' = k ->
                     exists m, In m ns /\ m' = f m /\ at_ g k ns = Some m /\ del (n_int m) = false) as BACK.
  { intros m' Hm G E. apply filter_In in Hm as [Hm D]. apply in_map_iff in Hm as (m & <- & Hm).
    destruct (FK m Hm) as [I Kk]. rewrite I in D. apply negb_true_iff in D. exists m. repeat split; auto.
    unfold key in Kk. inversion Kk. apply at_uniq; try apply Jn; congruence. }
  destruct (at_ g k ns') as [m'|] eqn:A'.
  - apply at_In in A' as (Hm & G & E). destruct (BACK m' Hm G E) as (m & _ & -> & -> & ->). reflexivity.
  - destruct (at_ g k ns) as [n|] eqn:A; auto. destruct (del (n_int n)) eqn:D; auto. exfalso.
    apply at_In in A as (Hn & G & E). destruct (FK n Hn) as [I Kk]. unfold key in Kk. inversion Kk.
    apply (at_none_inv g k ns' (f n) A'); try congruence.
    apply filter_In. split; [apply in_map; exact Hn|]. rewrite I, D. reflexivity.
Qed.

Lemma in_nids g k ns : In k (map n_nid (gnodes g ns)) <-> exists n, at_ g k ns = Some n.
Proof.
  split.
  - intro H. apply in_map_iff in H as (n & E & Hn). unfold gnodes in Hn. apply filter_In in Hn as [Hn G].
    apply N.eqb_eq in G. destruct (at_ g k ns) as [m|] eqn:A; eauto.
    exfalso. eapply at_none_inv; eauto.
  - intros [n A]. apply at_In in A as (Hn & G & E). apply in_map_iff. exists n. split; auto.
    unfold gnodes. apply filter_In. split; auto. apply N.eqb_eq. exact G.
Qed.

Lemma existsb_nid k l : existsb (fun c => n_nid c =? k) l = true <-> In k (map n_nid l).
Proof.
  rewrite existsb_exists, in_map_iff. split; intros (x & A & B'); exists x.
  - apply N.eqb_eq in B'. auto.
  - split; [tauto|]. apply N.eqb_eq. tauto.
Qed.

Lemma notmp_of_fresh tmp st : gexists tmp st = false -> forall n, In n (s_nodes st) -> n_gid n <> tmp.
Proof.
  unfold gexists. intros H n Hn E. apply (proj1 (existsb_false _ _) H) in Hn. apply N.eqb_neq in Hn. contradiction.
Qed.

Lemma no_gid_at g st : gexists g st = false -> forall k, at_ g k (s_nodes st) = None.
Proof. intros H k. apply at_other_gid. apply notmp_of_fresh. exact H. Qed.

Lemma gexists_at g st : gexists g st = true -> exists k n, at_ g k (s_nodes st) = Some n.
Proof.
  unfold gexists. intro H. apply existsb_exists in H as (n & Hn & G). apply N.eqb_eq in G.
  exists (n_nid n). destruct (at_ g (n_nid n) (s_nodes st)) as [m|] eqn:A; eauto.
  exfalso. eapply at_none_inv; eauto.
Qed.

Lemma at_gexists g k st n : at_ g k (s_nodes st) = Some n -> gexists g st = true.
Proof.
  intro A. apply at_In in A as (Hn & G & _). unfold gexists. apply existsb_exists. exists n. split; auto.
  apply N.eqb_eq. exact G.
Qed.

Lemma getn_abs g st k : getn k (abs_nodes g st) = option_map absn (at_ g k (s_nodes st)).
Proof.
  unfold abs_nodes, of_gid, at_, getn. induction (s_nodes st) as [|m r IH]; simpl; auto.
  destruct (n_gid m =? g); simpl; auto. rewrite N.eqb_sym. destruct (n_nid m =? k); auto.
Qed.

Lemma getn_abs_adm g st k : getn k (abs_adm_nodes g st) = option_map absa (at_ g k (s_nodes st)).
Proof.
  unfold abs_adm_nodes, of_gid, at_, getn. induction (s_nodes st) as [|m r IH]; simpl; auto.
  destruct (n_gid m =? g); simpl; auto. rewrite N.eqb_sym. destruct (n_nid m =? k); auto.
Qed.

Lemma keys_abs g st : map fst (abs_nodes g st) = map n_nid (of_gid g st).
Proof. unfold abs_nodes. rewrite map_map. reflexivity. Qed.

Lemma ukeys_nids g ns : ukeys ns -> NoDup (map n_nid (gnodes g ns)).
Proof.
  intro K. rewrite <- (map_map key snd). apply NoDup_map_inj_in; [|apply NoDup_map_filter; exact K].
  intros x y Hx Hy E. apply in_map_iff in Hx as (n & <- & Hn). apply in_map_iff in Hy as (m & <- & Hm).
  apply filter_In in Hn as [_ Gn]. apply filter_In in Hm as [_ Gm]. apply N.eqb_eq in Gn, Gm.
  unfold key in *. simpl in E. congruence.
Qed.

Lemma nodupK_sound l : nodupK l = true -> NoDup l.
Proof.
  induction l as [|x r IH]; simpl; intro H; constructor.
  - apply andb_true_iff in H as [H _]. apply negb_true_iff in H. intro X.
    apply (proj1 (existsb_false _ _) H) in X. rewrite !N.eqb_refl in X. discriminate.
  - apply IH. apply andb_true_iff in H. tauto.
Qed.

Definition cbm_wf (cbm : N) (ns : list node) : Prop := forall n, In n ns -> n_gid n = cbm -> wf_cnode n = true.

Lemma rgoodb_sound cbm st :
  rgoodb cbm st = true -> J (s_next st) (s_nodes st) /\ cbm_wf cbm (s_nodes st).
Proof.
  unfold rgoodb. rewrite !andb_true_iff, !forallb_forall. intros [[[H1 H2] H3] H4]. split; [split; [|split]|].
  - apply nodupN_sound. exact H1.
  - intros n Hn. apply N.ltb_lt. auto.
  - apply nodupK_sound. exact H3.
  - intros n Hn Hg. apply H4. unfold of_gid. apply filter_In. split; auto. apply N.eqb_eq. exact Hg.
Qed.
