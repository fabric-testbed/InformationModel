(* C05: merge_nodes on the shared store keeps every link of both nodes, removes the other graph's node,
   leaves all other links alone and applies the discard / overwrite / combine policy property by
   property; a merge that raises leaves the store unchanged; identity properties survive merges. *)
From Coq Require Import List NArith Bool.
From FIM Require Import Base.ListFacts Base.Assoc Model.Store.
From FIM Require Import Proofs.IsolationBase Proofs.IsolationShared Proofs.RefineBase Proofs.RefineGuards.
Import ListNotations.
Open Scope N_scope.

Definition pres (G : nxg) (a b : N) : bool := match nx_edge G a b with Some _ => true | None => false end.

Lemma find_existsb {A} (f : A -> bool) l : (match find f l with Some _ => true | None => false end) = existsb f l.
Proof. induction l as [|x r IH]; simpl; [reflexivity|]. destruct (f x); [reflexivity | exact IH]. Qed.

Lemma pres_existsb G a b : pres G a b = existsb (edge_is a b) (ge G).
Proof.
  unfold pres, nx_edge. rewrite <- find_existsb. destruct (find (edge_is a b) (ge G)) as [[[x y] ps]|]; reflexivity.
Qed.

Lemma edge_is_sym a b e : edge_is a b e = edge_is b a e.
Proof. destruct e as [[x y] ps]. unfold edge_is. apply orb_comm. Qed.

Lemma pres_sym G a b : pres G a b = pres G b a.
Proof. rewrite !pres_existsb. apply existsb_ext. intros; apply edge_is_sym. Qed.

Lemma edge_is_pair a b c d ps ps' : edge_is a b (c, d, ps) = edge_is a b (c, d, ps').
Proof. reflexivity. Qed.

Lemma edge_is_eq_pres G a b c d ps : edge_is a b (c, d, ps) = true -> pres G a b = pres G c d.
Proof.
  unfold edge_is. intro H. apply orb_true_iff in H as [H|H]; apply andb_true_iff in H as [H1 H2];
    apply N.eqb_eq in H1, H2; subst; [reflexivity | apply pres_sym].
Qed.

Lemma existsb_set_edge a b u x ps l :
  existsb (edge_is a b) (set_edge u x ps l) = existsb (edge_is a b) l.
Proof.
  induction l as [|[[p q] d] r IH]; [reflexivity|]. cbn [set_edge].
  destruct (edge_is u x (p, q, d)); cbn [existsb fst snd].
  - reflexivity.
  - now rewrite IH.
Qed.

(* the neighbour (as re-homed to u) an edge of v contributes *)
Definition rehomed_end (u v : N) (e : edge) : N :=
  let '(p, q, _) := e in let x0 := if N.eqb p v then q else p in if N.eqb x0 v then u else x0.

Lemma pres_remap u v G e a b :
  pres (remap_edge u v G e) a b = pres G a b || edge_is a b (u, rehomed_end u v e, []).
Proof.
  destruct e as [[p q] d]. unfold remap_edge, rehomed_end.
  set (x0 := if N.eqb p v then q else p). set (x := if N.eqb x0 v then u else x0).
  destruct (nx_edge G u x) as [ps|] eqn:E.
  - rewrite !pres_existsb. unfold nx_set_edge. cbn [ge]. rewrite existsb_set_edge.
    destruct (edge_is a b (u, x, [])) eqn:Ei; [|now rewrite orb_false_r].
    rewrite orb_true_r. rewrite <- pres_existsb. rewrite (edge_is_eq_pres G a b u x [] Ei).
    unfold pres. now rewrite E.
  - rewrite !pres_existsb. cbn [ge]. rewrite existsb_app. cbn [existsb]. now rewrite orb_false_r.
Qed.

Lemma pres_fold_remap u v es : forall G a b,
  pres (fold_left (remap_edge u v) es G) a b = pres G a b || existsb (fun e => edge_is a b (u, rehomed_end u v e, [])) es.
Proof.
  induction es as [|e r IH]; intros G a b; cbn [fold_left existsb]; [now rewrite orb_false_r|].
  rewrite IH, pres_remap. now rewrite orb_assoc.
Qed.

Lemma pres_remove_node G v a b :
  pres (nx_remove_node G v) a b = pres G a b && negb (N.eqb a v) && negb (N.eqb b v).
Proof.
  rewrite !pres_existsb. unfold nx_remove_node. cbn [ge].
  induction (ge G) as [|e r IH]; cbn [filter existsb]; [reflexivity|].
  destruct (edge_is a b e) eqn:Ei; cbn [orb].
  - rewrite (edge_is_touches a b e v Ei).
    destruct (N.eqb a v), (N.eqb b v); cbn [orb negb existsb]; rewrite ?Ei, ?IH; cbn [orb negb]; now rewrite ?andb_false_r.
  - destruct (edge_touches v e); cbn [negb existsb]; [|rewrite Ei]; exact IH.
Qed.

Lemma rehomed_end_edge_is u v y e :
  y <> u -> y <> v -> edge_touches v e = true -> edge_is u y (u, rehomed_end u v e, []) = edge_is v y e.
Proof.
  intros Hu Hv. destruct e as [[p q] d]. unfold edge_touches, rehomed_end, edge_is. intro Ht.
  assert (Huy : N.eqb u y = false) by (apply N.eqb_neq; congruence).
  assert (Hvy : N.eqb v y = false) by (apply N.eqb_neq; congruence).
  rewrite N.eqb_refl, Huy. cbn [andb]. rewrite orb_false_r.
  destruct (N.eqb p v) eqn:Ep.
  - apply N.eqb_eq in Ep. subst p. rewrite Hvy. cbn [andb]. rewrite orb_false_r.
    destruct (N.eqb q v) eqn:Eq.
    + apply N.eqb_eq in Eq. subst q. now rewrite Huy, Hvy.
    + reflexivity.
  - cbn [orb] in Ht. rewrite Ep, Ht. cbn [andb orb]. now rewrite andb_true_r.
Qed.

Lemma existsb_filter {A} (f h : A -> bool) l : existsb f (filter h l) = existsb (fun x => h x && f x) l.
Proof.
  induction l as [|x r IH]; simpl; [reflexivity|]. destruct (h x); simpl; now rewrite IH.
Qed.

(* the contraction: v's links become u's *)
Theorem contract_neighbours G u v y :
  y <> u -> y <> v -> pres (contract G u v) u y = pres G u y || pres G v y.
Proof.
  intros Hu Hv. unfold contract. rewrite pres_fold_remap, pres_remove_node.
  rewrite existsb_filter.
  assert (E2 : existsb (fun x => edge_touches v x && edge_is u y (u, rehomed_end u v x, [])) (ge G) = pres G v y).
  { rewrite pres_existsb. apply existsb_ext. intro e.
    destruct (edge_touches v e) eqn:Et.
    - cbn [andb]. now apply rehomed_end_edge_is.
    - cbn [andb]. destruct e as [[p q] d]. unfold edge_touches in Et. apply orb_false_iff in Et as [Et1 Et2].
      unfold edge_is. rewrite (N.eqb_sym p v) in Et1. rewrite (N.eqb_sym q v) in Et2.
      rewrite (N.eqb_sym p v), (N.eqb_sym q v), Et1, Et2. now rewrite andb_false_r. }
  rewrite E2. apply N.eqb_neq in Hv. rewrite Hv. cbn [negb]. rewrite andb_true_r.
  destruct (N.eqb u v) eqn:Euv.
  - apply N.eqb_eq in Euv; subst v. cbn [negb]. rewrite andb_false_r. cbn [orb]. now rewrite orb_diag.
  - cbn [negb]. now rewrite andb_true_r.
Qed.

(* links that touch neither node are untouched, properties included *)
Lemma find_set_edge_other a b u x ps l :
  a <> u -> b <> u -> find (edge_is a b) (set_edge u x ps l) = find (edge_is a b) l.
Proof.
  intros Ha Hb. induction l as [|[[p q] d] r IH]; [reflexivity|]. cbn [set_edge].
  destruct (edge_is u x (p, q, d)) eqn:Ei; cbn [find fst snd].
  - assert (Ht : forall d', edge_touches u (p, q, d') = true)
      by (intro d'; rewrite (edge_is_touches u x (p, q, d') u Ei), N.eqb_refl; reflexivity).
    now rewrite !(edge_is_elsewhere a b u _ Ha Hb (Ht _)).
  - destruct (edge_is a b (p, q, d)); [reflexivity | exact IH].
Qed.

Lemma find_app_other {A} (f : A -> bool) l e : f e = false -> find f (l ++ [e]) = find f l.
Proof.
  intro H. induction l as [|x r IH]; simpl; [now rewrite H|]. destruct (f x); [reflexivity | exact IH].
Qed.

Lemma nx_edge_remap_other u v G e a b :
  a <> u -> b <> u -> nx_edge (remap_edge u v G e) a b = nx_edge G a b.
Proof.
  intros Ha Hb. destruct e as [[p q] d]. unfold remap_edge.
  set (x := if N.eqb (if N.eqb p v then q else p) v then u else (if N.eqb p v then q else p)).
  destruct (nx_edge G u x) as [ps|]; unfold nx_edge; cbn [ge].
  - unfold nx_set_edge. cbn [ge]. now rewrite find_set_edge_other.
  - rewrite find_app_other; [reflexivity|].
    unfold edge_is. apply N.eqb_neq in Ha, Hb. rewrite (N.eqb_sym u a), (N.eqb_sym u b), Ha, Hb.
    reflexivity.
Qed.

Lemma find_filter_other a b v l :
  a <> v -> b <> v ->
  find (edge_is a b) (filter (fun e => negb (edge_touches v e)) l) = find (edge_is a b) l.
Proof. intros Ha Hb. apply find_filter_pass. intros e He. destruct (edge_touches v e) eqn:Et; [|reflexivity]. rewrite (edge_is_elsewhere a b v e Ha Hb Et) in He. discriminate. Qed.

Theorem contract_elsewhere G u v a b :
  a <> u -> b <> u -> a <> v -> b <> v -> nx_edge (contract G u v) a b = nx_edge G a b.
Proof.
  intros Hau Hbu Hav Hbv. unfold contract.
  assert (K : forall es G0, nx_edge (fold_left (remap_edge u v) es G0) a b = nx_edge G0 a b).
  { induction es as [|e r IH]; intro G0; cbn [fold_left]; [reflexivity|].
    rewrite IH. now apply nx_edge_remap_other. }
  rewrite K. unfold nx_edge, nx_remove_node. cbn [ge]. now rewrite find_filter_other.
Qed.

(* ---------- removal of the 'contraction' bookkeeping from the survivor's links ---------- *)
Lemma edge_is_strip u a b e : edge_is a b (strip_edge u e) = edge_is a b e.
Proof. destruct e as [[p q] d]. unfold strip_edge. destruct (edge_touches u (p, q, d)); reflexivity. Qed.

Lemma pres_strip u G a b : pres (strip_contraction u G) a b = pres G a b.
Proof.
  rewrite !pres_existsb. unfold strip_contraction. cbn [ge].
  induction (ge G) as [|e r IH]; [reflexivity|]. cbn [map existsb]. now rewrite edge_is_strip, IH.
Qed.

Lemma find_strip u a b l :
  find (edge_is a b) (map (strip_edge u) l) = option_map (strip_edge u) (find (edge_is a b) l).
Proof.
  induction l as [|e r IH]; [reflexivity|]. cbn [map find]. rewrite edge_is_strip.
  destruct (edge_is a b e); [reflexivity | exact IH].
Qed.

Lemma nx_edge_strip_other u G a b : a <> u -> b <> u -> nx_edge (strip_contraction u G) a b = nx_edge G a b.
Proof.
  intros Ha Hb. unfold nx_edge, strip_contraction. cbn [ge]. rewrite find_strip.
  destruct (find (edge_is a b) (ge G)) as [[[p q] d]|] eqn:E; [|reflexivity]. cbn [option_map].
  apply find_some in E as [_ E]. unfold strip_edge. rewrite (edge_is_touches a b _ u E).
  apply N.eqb_neq in Ha, Hb. now rewrite Ha, Hb.
Qed.

Lemma aget_drop_key k ps : aget k (drop_key k ps) = None.
Proof.
  unfold drop_key. induction ps as [|[k' v] r IH]; [reflexivity|]. cbn [filter fst].
  destruct (N.eqb k' k) eqn:E; cbn [negb]; [exact IH|]. cbn [aget]. rewrite N.eqb_sym, E. exact IH.
Qed.

Lemma nx_edge_strip_u u G y ps : nx_edge (strip_contraction u G) u y = Some ps -> aget k_contraction ps = None.
Proof.
  unfold nx_edge, strip_contraction. cbn [ge]. rewrite find_strip.
  destruct (find (edge_is u y) (ge G)) as [[[p q] d]|] eqn:E; [|discriminate]. cbn [option_map].
  apply find_some in E as [_ E]. unfold strip_edge. rewrite (edge_is_touches u y _ u E), N.eqb_refl.
  cbn [orb fst snd]. intro H0. inversion H0. apply aget_drop_key.
Qed.

Definition policy_spec (pol : list (N * N)) (other : props) (k : N) (m : pval) : option pval :=
  match aget k pol with
  | None => Some m
  | Some p => policy_value p m (aget k other)
  end.

Lemma merge_props_spec pol mine other todo np :
  merge_props pol mine other todo = Some np ->
  forall k, aget k np = match aget k todo with Some m => policy_spec pol other k m | None => None end.
Proof.
  revert np. induction todo as [|[k0 v] r IH]; cbn [merge_props]; intros np H k.
  - inversion H. reflexivity.
  - destruct (match aget k0 pol with Some p => policy_value p v (aget k0 other) | None => Some v end) as [x|] eqn:Ex;
      [|discriminate].
    destruct (merge_props pol mine other r) as [rest|] eqn:Er; [|discriminate].
    inversion H; subst np. cbn [aget]. destruct (N.eqb k k0) eqn:E.
    + apply N.eqb_eq in E; subst k0. unfold policy_spec. exact (eq_sym Ex).
    + now apply IH.
Qed.

Theorem merge_ok_spec G g n g2 pol G' :
  NoDup (ids G) -> s_merge G g n g2 pol = (G', Ok RUnit) ->
  exists u v mine other,
    find_node G g n = Some u /\ find_node G g2 n = Some v /\ u <> v /\
    nx_node G u = Some mine /\ nx_node G v = Some other /\
    (* the other graph's node is gone, all other nodes are as they were *)
    nx_node G' v = None /\
    (forall i, i <> u -> i <> v -> nx_node G' i = nx_node G i) /\
    (* every link of either node is a link of the surviving node *)
    (forall y, y <> u -> y <> v -> pres G' u y = pres G u y || pres G v y) /\
    (forall a b, a <> u -> b <> u -> a <> v -> b <> v -> nx_edge G' a b = nx_edge G a b) /\
    (* no link of the surviving node carries networkx's 'contraction' bookkeeping *)
    (forall y ps, nx_edge G' u y = Some ps -> aget k_contraction ps = None) /\
    (* the properties follow the policy, key by key *)
    exists np, nx_node G' u = Some np /\
      forall k, aget k np = match aget k mine with
                            | Some m => match pol with Some p => policy_spec p other k m | None => Some m end
                            | None => None
                            end.
Proof.
  intros Hnd H.
  destruct (s_merge_result G g n g2 pol) as [[e E]|[u [v [mine [other [np [Hg [Eu [Ev [Hu [Hv [Hnp E]]]]]]]]]]]];
    rewrite E in H; [discriminate | injection H as <-]. clear E.
  pose proof (find_nodes_differ G g g2 n u v Hnd Hg Eu Ev) as Huv.
  set (G1 := strip_contraction u (contract G u v)).
  (* nodes: set_node touches u only, G1 lacks v and keeps the rest *)
  assert (Hnode : forall i, nx_node (nx_set_node G1 u np) i =
                            if N.eqb i u then Some np else if N.eqb i v then None else nx_node G i).
  { intro i. unfold nx_node at 1, nx_set_node. cbn [gn]. rewrite aget_set_node. fold (nx_node G1 u) (nx_node G1 i).
    unfold G1. rewrite !nx_node_merged, Hu. apply N.eqb_neq in Huv. now rewrite Huv. }
  assert (Hne : forall i j, i <> j -> N.eqb i j = false) by (intros; now apply N.eqb_neq).
  exists u, v, mine, other. repeat split; auto.
  - rewrite Hnode, N.eqb_refl. now rewrite (Hne v u) by congruence.
  - intros i Hiu Hiv. now rewrite Hnode, (Hne i u), (Hne i v).
  - intros y Hyu Hyv. rewrite <- contract_neighbours by assumption. apply (pres_strip u (contract G u v)).
  - intros a b H1 H2 H3 H4. rewrite <- (contract_elsewhere G u v a b) by assumption.
    now apply (nx_edge_strip_other u (contract G u v) a b).
  - intros y q. apply (nx_edge_strip_u u (contract G u v) y q).
  - exists np. split; [now rewrite Hnode, N.eqb_refl|]. intro k.
    destruct pol as [p|]; [apply (merge_props_spec p mine other mine np Hnp) | subst np; now destruct (aget k mine)].
Qed.

(* ---------- a failing merge leaves everything unchanged (fix e66ee73) ---------- *)
Theorem merge_fails_unchanged G g n g2 pol e : snd (s_merge G g n g2 pol) = Err e -> fst (s_merge G g n g2 pol) = G.
Proof.
  destruct (s_merge_result G g n g2 pol) as [[e' E]|[u [v [mine [other [np [_ [_ [_ [_ [_ [_ E]]]]]]]]]]]]; rewrite E;
    [reflexivity | discriminate].
Qed.

Theorem merge_fails_unchanged_step s g n g2 pol e :
  snd (sstep s (OMerge g n g2 pol)) = Err e -> fst (sstep s (OMerge g n g2 pol)) = s.
Proof.
  cbn [sstep]. unfold lift. cbn [fst snd]. intro H. rewrite (merge_fails_unchanged _ _ _ _ _ _ H). now destruct s.
Qed.

(* ---------- identity properties survive merges whose policy does not name Class ---------- *)
Lemma merge_props_has pol mine other todo np k :
  merge_props pol mine other todo = Some np -> ahas k todo = true -> ahas k np = true.
Proof.
  revert np. induction todo as [|[k0 v] r IH]; cbn [merge_props]; intros np H Hk; [discriminate Hk|].
  destruct (match aget k0 pol with Some p => policy_value p v (aget k0 other) | None => Some v end) as [x|]; [|discriminate].
  destruct (merge_props pol mine other r) as [rest|] eqn:Er; [|discriminate].
  inversion H; subst np. unfold ahas in *. cbn [aget] in *. destruct (N.eqb k k0); [reflexivity | now apply (IH rest)].
Qed.

Definition class_scope (o : op) : bool :=
  match o with OMerge _ _ _ (Some pol) => negb (ahas k_class pol) | _ => true end.

Lemma evolves_merge G g n g2 pol :
  match pol with Some p => ahas k_class p = false | None => True end ->
  evolves G (fst (s_merge G g n g2 pol)).
Proof.
  intros Hpol.
  destruct (s_merge_result G g n g2 pol) as [[e E]|[u [v [mine [other [np [_ [_ [_ [Hu [_ [Hnp E]]]]]]]]]]]]; rewrite E;
    [apply evolves_refl|]. cbn [fst].
  assert (Hle : ident_le mine np).
  { destruct pol as [p|]; [|subst np; apply ident_le_refl]. split.
    - intros k _ Hk. eapply merge_props_has; eauto.
    - eapply merge_props_unnamed; eauto. now apply ahas_false. }
  intros id ps ps' Ha Hc. unfold nx_node at 1, nx_set_node in Hc. cbn [gn] in Hc. rewrite aget_set_node in Hc.
  fold (nx_node (strip_contraction u (contract G u v)) id) in Hc. rewrite nx_node_merged in Hc.
  destruct (N.eqb id u) eqn:E'.
  - apply N.eqb_eq in E'; subst id. rewrite Hu in Ha. inversion Ha; subst ps.
    destruct (aget u _); inversion Hc; subst. exact Hle.
  - destruct (N.eqb id v); [discriminate|]. rewrite Ha in Hc. inversion Hc. apply ident_le_refl.
Qed.

Theorem identity_kept_step_merge s o : SInv s -> class_scope o = true -> evolves (sg s) (sg (fst (sstep s o))).
Proof.
  intros HI Hsc. destruct o; try (apply identity_kept_step; [exact HI | reflexivity]).
  cbn [sstep lift fst sg]. apply evolves_merge.
  destruct pol as [p|]; [now apply negb_true_iff in Hsc | exact I].
Qed.

(* over ALL histories, merges included *)
Theorem identity_kept_all pre ops :
  (forall o, In o ops -> class_scope o = true) ->
  evolves (sg (srun pre init_store)) (sg (srun (pre ++ ops) init_store)).
Proof.
  intro H. unfold srun at 2. rewrite fold_left_app.
  apply (identity_kept_histories_gen class_scope identity_kept_step_merge); [|exact H].
  apply SInv_run. apply SInv_init.
Qed.
