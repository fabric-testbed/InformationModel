(* C14 - refinement, connections: the data of the connection joining two internal ids, what the primitive
   store operations (append, filter, contracted_nodes, copying under a renaming) do to it, and the abstraction of a
   graph's connections read through it. *)
From Coq Require Import List NArith Bool Lia.
From FIM Require Import Base.ListFacts Model.Cbm14Store Model.Cbm14Spec Model.Cbm14Abs Proofs.Cbm14Assoc Proofs.Cbm14Frame
     Proofs.Cbm14RefBase.
Import ListNotations.
Open Scope N_scope.

Definition edata_of (e : edge) : edata := (e_cls e, e_oth e).
(* the connection joining i and j (first in the list, as networkx has at most one) *)
Definition edat (es : list edge) (i j : N) : option edata := option_map edata_of (find (joins i j) es).
Definition other (v : N) (e : edge) : N := if e_a e =? v then e_b e else e_a e.
Definition incident (v : N) (e : edge) : bool := (e_a e =? v) || (e_b e =? v).
Definition pairb (u x i j : N) : bool := ((i =? u) && (j =? x)) || ((i =? x) && (j =? u)).

Lemma joins_sym i j e : joins i j e = joins j i e.
Proof. unfold joins. apply orb_comm. Qed.

Lemma edat_sym es i j : edat es i j = edat es j i.
Proof. unfold edat. f_equal. induction es as [|e r IH]; simpl; auto. rewrite joins_sym, IH. reflexivity. Qed.

Lemma edat_app a b i j : edat (a ++ b) i j = match edat a i j with Some d => Some d | None => edat b i j end.
Proof. unfold edat. induction a as [|e r IH]; simpl; auto. destruct (joins i j e); simpl; auto. Qed.

Lemma edat_filter_keep p es i j :
  (forall e, In e es -> joins i j e = true -> p e = true) -> edat (filter p es) i j = edat es i j.
Proof.
  unfold edat. induction es as [|e r IH]; simpl; auto. intro H.
  destruct (joins i j e) eqn:J.
  - rewrite (H e); simpl; auto. rewrite J. reflexivity.
  - destruct (p e); simpl; [rewrite J|]; apply IH; intros; apply H; simpl; auto.
Qed.

Lemma edat_filter_drop p es i j :
  (forall e, In e es -> joins i j e = true -> p e = false) -> edat (filter p es) i j = None.
Proof.
  unfold edat. induction es as [|e r IH]; simpl; auto. intro H.
  destruct (p e) eqn:P; simpl.
  - destruct (joins i j e) eqn:J; [rewrite (H e) in P; simpl; auto; discriminate|].
    apply IH; intros; apply H; simpl; auto.
  - apply IH; intros; apply H; simpl; auto.
Qed.

Lemma edat_map f es i j :
  (forall e, e_a (f e) = e_a e /\ e_b (f e) = e_b e /\ edata_of (f e) = edata_of e) ->
  edat (map f es) i j = edat es i j.
Proof.
  intro H. unfold edat. induction es as [|e r IH]; simpl; auto.
  destruct (H e) as (A & B' & D). unfold joins at 1. rewrite A, B'. fold (joins i j e).
  destruct (joins i j e); simpl; [rewrite D; reflexivity | exact IH].
Qed.

Lemma edat_none_iff es i j : edat es i j = None <-> has_edge i j es = false.
Proof.
  unfold edat, has_edge. induction es as [|e r IH]; simpl; [tauto|].
  destruct (joins i j e); simpl; [split; discriminate | exact IH].
Qed.

Lemma joins_pairb u x e : joins u x (mkEdge u x (e_cls e) (e_oth e) (e_con e)) = true.
Proof. unfold joins; simpl. rewrite !N.eqb_refl. reflexivity. Qed.

Lemma joins_mk i j u x c o f : joins i j (mkEdge u x c o f) = pairb u x i j.
Proof.
  unfold joins, pairb; simpl. rewrite (N.eqb_sym u i), (N.eqb_sym x j), (N.eqb_sym u j), (N.eqb_sym x i).
  rewrite (andb_comm (j =? u) (i =? x)). reflexivity.
Qed.

Lemma pairb_joins u x i j e : pairb u x i j = true -> joins i j e = joins u x e.
Proof.
  unfold pairb. rewrite orb_true_iff, !andb_true_iff, !N.eqb_eq. intros [[-> ->]|[-> ->]]; [reflexivity|apply joins_sym].
Qed.

Lemma edat_pairb u x i j es : pairb u x i j = true -> edat es i j = edat es u x.
Proof.
  intro P. unfold edat. f_equal. induction es as [|e0 r IH]; simpl; auto.
  rewrite (pairb_joins u x i j e0 P). destruct (joins u x e0); auto.
Qed.

Lemma pairb_other u x i j : i <> u -> j <> u -> pairb u x i j = false.
Proof.
  intros Iu Ju. unfold pairb. apply N.eqb_neq in Iu, Ju. rewrite Iu, Ju, andb_false_r. reflexivity.
Qed.

(* where a connection of v ends up when v is contracted into u *)
Definition target (u v : N) (e : edge) : N := if other v e =? v then u else other v e.

(* re-attaching one connection of v to u: "insert at {u, x} unless a connection is already there" *)
Lemma reattach_edat u v es e i j :
  let x := target u v e in
  edat (reattach u v es e) i j =
  if pairb u x i j then match edat es u x with Some d => Some d | None => Some (edata_of e) end
  else edat es i j.
Proof.
  intro x. unfold reattach. fold (other v e). fold (target u v e). fold x.
  destruct (has_edge u x es) eqn:HE.
  - assert (edat (flag_edge u x es) i j = edat es i j) as ->.
    { unfold flag_edge. apply edat_map. intro e0. destruct (joins u x e0); simpl; auto. }
    destruct (pairb u x i j) eqn:P; auto. rewrite (edat_pairb u x i j es P).
    destruct (edat es u x) eqn:D; auto. apply edat_none_iff in D. congruence.
  - rewrite edat_app.
    assert (edat [mkEdge u x (e_cls e) (e_oth e) (e_con e)] i j = if pairb u x i j then Some (edata_of e) else None) as ->.
    { unfold edat; simpl. rewrite joins_mk. destruct (pairb u x i j); reflexivity. }
    destruct (pairb u x i j) eqn:P.
    + rewrite (edat_pairb u x i j es P). apply edat_none_iff in HE. rewrite HE. reflexivity.
    + destruct (edat es i j); reflexivity.
Qed.

(* the first connection of the list ev whose other endpoint (seen from v) is x *)
Definition pick (v x : N) (ev : list edge) : option edata :=
  option_map edata_of (find (fun e => other v e =? x) ev).

Lemma fold_reattach_edat u v : forall ev es i j,
  (forall e, In e ev -> other v e <> v /\ other v e <> u) ->
  edat (fold_left (reattach u v) ev es) i j =
  match edat es i j with
  | Some d => Some d
  | None => if i =? u then pick v j ev else if j =? u then pick v i ev else None
  end.
Proof.
  induction ev as [|e r IH]; intros es i j H; simpl.
  - destruct (edat es i j); auto. unfold pick; simpl. destruct (i =? u); auto. destruct (j =? u); auto.
  - destruct (H e (or_introl eq_refl)) as [NV NU].
    rewrite IH; [|intros; apply H; simpl; auto].
    rewrite reattach_edat. cbv zeta. unfold target. apply N.eqb_neq in NV. rewrite NV. apply N.eqb_neq in NV.
    unfold pick; simpl.
    destruct (pairb u (other v e) i j) eqn:P.
    + unfold pairb in P. apply orb_true_iff in P. rewrite !andb_true_iff, !N.eqb_eq in P.
      destruct P as [[-> ->]|[-> ->]].
      * rewrite !N.eqb_refl. simpl. destruct (edat es u (other v e)); reflexivity.
      * assert (other v e =? u = false) as -> by (apply N.eqb_neq; auto). rewrite !N.eqb_refl. simpl.
        rewrite (edat_sym es (other v e) u). destruct (edat es u (other v e)); reflexivity.
    + destruct (edat es i j); auto.
      unfold pairb in P. apply orb_false_iff in P as [P1 P2].
      destruct (i =? u) eqn:Iu.
      * simpl in P1. rewrite N.eqb_sym in P1. rewrite P1. reflexivity.
      * destruct (j =? u) eqn:Ju; auto. rewrite andb_true_r in P2. rewrite N.eqb_sym in P2. rewrite P2. reflexivity.
Qed.

Lemma joins_other v x e : x <> v -> joins v x e = incident v e && (other v e =? x).
Proof.
  intro NX. unfold joins, incident, other.
  destruct (N.eqb_spec (e_a e) v) as [A|A], (N.eqb_spec (e_b e) v) as [B|B],
           (N.eqb_spec (e_a e) x) as [C|C], (N.eqb_spec (e_b e) x) as [D|D];
    simpl; try reflexivity; try congruence.
Qed.

Lemma pick_incident v x es : x <> v -> pick v x (filter (incident v) es) = edat es v x.
Proof.
  intro NX. unfold pick, edat. f_equal. apply (find_filter (incident v)). intro e. apply joins_other. exact NX.
Qed.

Lemma pick_none v x ev : (forall e, In e ev -> other v e <> x) -> pick v x ev = None.
Proof.
  intro H. unfold pick. destruct (find (fun e => other v e =? x) ev) eqn:F; auto.
  apply find_some in F as [F1 F2]. apply N.eqb_eq in F2. destruct (H e F1 F2).
Qed.

Lemma edat_some_of_in es a b e : In e es -> joins a b e = true -> edat es a b <> None.
Proof.
  intros Hin J. unfold edat. destruct (find (joins a b) es) eqn:F; simpl; [discriminate|].
  apply (find_none _ _ F) in Hin. congruence.
Qed.

Lemma incident_other_joins v e : incident v e = true -> joins v (other v e) e = true.
Proof.
  unfold incident, other, joins.
  destruct (N.eqb_spec (e_a e) v) as [A|A], (N.eqb_spec (e_b e) v) as [B|B]; simpl; intro H; try discriminate;
    rewrite ?N.eqb_refl, ?A, ?B, ?N.eqb_refl; simpl; auto using orb_true_r.
Qed.

Lemma joins_not_incident i j v e : joins i j e = true -> i <> v -> j <> v -> incident v e = false.
Proof.
  unfold joins, incident. intros H NI NJ.
  apply orb_true_iff in H. rewrite !andb_true_iff, !N.eqb_eq in H.
  destruct H as [[A B]|[A B]]; rewrite A, B; apply orb_false_iff; split; apply N.eqb_neq; auto.
Qed.

Lemma joins_incident_l v j e : joins v j e = true -> incident v e = true.
Proof.
  unfold joins, incident. intro H. apply orb_true_iff in H. rewrite !andb_true_iff, !N.eqb_eq in H.
  destruct H as [[A B]|[A B]]; [rewrite A | rewrite B]; rewrite N.eqb_refl; auto. apply orb_true_r.
Qed.

Lemma contract_edges u v st :
  s_edges (contract u v st) =
  pop_contraction u (fold_left (reattach u v) (filter (incident v) (s_edges st))
                               (filter (fun e => negb (e_a e =? v) && negb (e_b e =? v)) (s_edges st))).
Proof. reflexivity. Qed.

Lemma edat_pop u es i j : edat (pop_contraction u es) i j = edat es i j.
Proof. unfold pop_contraction. apply edat_map. intro e. destruct ((e_a e =? u) || (e_b e =? u)); simpl; auto. Qed.

(* what contracted_nodes(u, v) does to the connection data *)
Lemma contract_edat u v st i j :
  u <> v -> edat (s_edges st) v v = None -> edat (s_edges st) u v = None ->
  edat (s_edges (contract u v st)) i j =
  if (i =? v) || (j =? v) then None
  else match edat (s_edges st) i j with
       | Some d => Some d
       | None => if i =? u then edat (s_edges st) v j else if j =? u then edat (s_edges st) v i else None
       end.
Proof.
  intros NE SV UV. rewrite contract_edges, edat_pop. set (es := s_edges st) in *.
  set (ev := filter (incident v) es).
  set (es1 := filter (fun e => negb (e_a e =? v) && negb (e_b e =? v)) es).
  assert (forall e, In e ev -> other v e <> v /\ other v e <> u) as PRE.
  { intros e He. unfold ev in He. apply filter_In in He as [He Inc].
    pose proof (incident_other_joins v e Inc) as J. split; intro X; rewrite X in J.
    - apply (edat_some_of_in es v v e He J). exact SV.
    - rewrite joins_sym in J. apply (edat_some_of_in es u v e He J). exact UV. }
  rewrite (fold_reattach_edat u v ev es1 i j PRE).
  assert (forall e, negb (e_a e =? v) && negb (e_b e =? v) = negb (incident v e)) as NI.
  { intro e. unfold incident. rewrite negb_orb. reflexivity. }
  assert (forall x, edat es1 v x = None) as DV.
  { intro x. apply edat_filter_drop. intros e _ J. rewrite NI, (joins_incident_l v x e J). reflexivity. }
  assert (v =? u = false) as VU by (apply N.eqb_neq; auto).
  destruct (N.eqb_spec i v) as [Iv|Iv]; [|destruct (N.eqb_spec j v) as [Jv|Jv]]; simpl.
  - subst i. rewrite DV, VU. destruct (j =? u); auto. apply pick_none. intros e He. apply PRE. exact He.
  - subst j. rewrite edat_sym, DV, VU. destruct (i =? u); auto. apply pick_none. intros e He. apply PRE. exact He.
  - assert (edat es1 i j = edat es i j) as ->.
    { apply edat_filter_keep. intros e _ J. rewrite NI. rewrite (joins_not_incident i j v e J Iv Jv). reflexivity. }
    destruct (edat es i j); auto.
    unfold ev. rewrite !pick_incident; auto.
Qed.

(* connections between ids other than u and v are not affected *)
Lemma contract_other u v st i j :
  i <> u -> j <> u -> i <> v -> j <> v -> edat (s_edges (contract u v st)) i j = edat (s_edges st) i j.
Proof.
  intros Iu Ju Iv Jv. rewrite contract_edges, edat_pop.
  assert (forall ev es, edat (fold_left (reattach u v) ev es) i j = edat es i j) as ->.
  { induction ev as [|e r IH]; intro es; simpl; auto. rewrite IH, reattach_edat. cbv zeta.
    rewrite pairb_other; auto. }
  apply edat_filter_keep. intros e _ Jn.
  pose proof (joins_not_incident i j v e Jn Iv Jv) as X. unfold incident in X. rewrite <- negb_orb, X. reflexivity.
Qed.

Lemma contract_ebelow nx u v st : u < nx -> ebelow nx (s_edges st) -> ebelow nx (s_edges (contract u v st)).
Proof.
  intros Hu B. rewrite contract_edges. apply pop_ebelow. apply fold_reattach_ebelow; auto;
    intros e He; apply filter_In in He as [He _]; apply (B e He).
Qed.

Lemma edat_below nx es i j : ebelow nx es -> nx <= i -> edat es i j = None.
Proof.
  intros B L. unfold edat. destruct (find (joins i j) es) as [e|] eqn:F; auto.
  apply find_some in F as [F1 F2]. destruct (B e F1) as [X Y].
  apply joins_ends in F2. lia.
Qed.

(* deleting the nodes ds keeps the connections between the others *)
Lemma edat_filter_ds ds es i j :
  ~ In i ds -> ~ In j ds ->
  edat (filter (fun e => negb (memN (e_a e) ds) && negb (memN (e_b e) ds)) es) i j = edat es i j.
Proof.
  intros NI NJ. apply edat_filter_keep. intros e _ Jn.
  apply memN_false in NI, NJ. apply joins_ends in Jn as [[-> ->]|[-> ->]]; rewrite NI, NJ; reflexivity.
Qed.

(* m is an injective renaming onto ids >= nx *)
Definition renaming (nx : N) (m : list (N * N)) : Prop :=
  (forall i v, lookup m i = Some v -> nx <= v) /\
  (forall i j v, lookup m i = Some v -> lookup m j = Some v -> i = j).

Lemma renaming_eqb nx m x y x' y' :
  renaming nx m -> lookup m x = Some x' -> lookup m y = Some y' -> (x' =? y') = (x =? y).
Proof.
  intros (_ & INJ) Lx Ly. destruct (N.eqb_spec x y) as [E|E].
  - subst. rewrite Lx in Ly. inversion Ly. apply N.eqb_refl.
  - apply N.eqb_neq. intro E'. subst. apply E. eapply INJ; eauto.
Qed.

Lemma in_clone_edges m es e :
  In e (clone_edges m es) ->
  exists e0, In e0 es /\ lookup m (e_a e0) = Some (e_a e) /\ lookup m (e_b e0) = Some (e_b e).
Proof.
  unfold clone_edges. intro H. apply in_flat_map in H as (e0 & H0 & H). exists e0.
  destruct (lookup m (e_a e0)); [|destruct H]. destruct (lookup m (e_b e0)); [|destruct H].
  destruct H as [<-|[]]. auto.
Qed.

(* the copied connections, seen through the renaming *)
Lemma clone_edges_edat nx m es i j i' j' :
  renaming nx m -> lookup m i = Some i' -> lookup m j = Some j' ->
  edat (clone_edges m es) i' j' = edat es i j.
Proof.
  intros RN Li Lj. unfold edat, clone_edges. induction es as [|e r IH]; simpl; auto.
  destruct (lookup m (e_a e)) as [a'|] eqn:La, (lookup m (e_b e)) as [b'|] eqn:Lb; simpl.
  1:{ rewrite joins_mk.
    assert (pairb a' b' i' j' = joins i j e) as ->.
    { unfold pairb, joins.
      rewrite (renaming_eqb nx m i (e_a e) i' a' RN Li La), (renaming_eqb nx m j (e_b e) j' b' RN Lj Lb),
              (renaming_eqb nx m i (e_b e) i' b' RN Li Lb), (renaming_eqb nx m j (e_a e) j' a' RN Lj La).
      rewrite (N.eqb_sym i (e_a e)), (N.eqb_sym j (e_b e)), (N.eqb_sym i (e_b e)), (N.eqb_sym j (e_a e)).
      rewrite (andb_comm (e_b e =? i) (e_a e =? j)). reflexivity. }
    destruct (joins i j e); simpl; auto. }
  (* an endpoint outside the renaming's domain: the connection is not copied and does not join i and j *)
  all: assert (joins i j e = false) as ->; auto.
  all: destruct (joins i j e) eqn:X; auto; apply joins_ends in X; destruct X as [[? ?]|[? ?]]; congruence.
Qed.

Lemma clone_edges_old nx m es i j : renaming nx m -> i < nx -> edat (clone_edges m es) i j = None.
Proof.
  intros (GE & _) L. unfold edat. destruct (find (joins i j) (clone_edges m es)) as [e|] eqn:F; auto.
  apply find_some in F as [F1 F2]. apply in_clone_edges in F1 as (e0 & _ & La & Lb).
  apply GE in La. apply GE in Lb. apply joins_ends in F2. lia.
Qed.

Lemma clone_edges_ebelow nx len m es :
  (forall i v, lookup m i = Some v -> v < nx + len) -> ebelow nx es -> ebelow (nx + len) (es ++ clone_edges m es).
Proof.
  intros V B e He. apply in_app_iff in He as [He|He]; [destruct (B e He); lia|].
  apply in_clone_edges in He as (e0 & _ & La & Lb). split; eapply V; eauto.
Qed.

Lemma nid_of_int_some g st i x :
  nid_of_int (of_gid g st) i = Some x -> exists n, In n (s_nodes st) /\ n_gid n = g /\ n_int n = i /\ n_nid n = x.
Proof.
  unfold nid_of_int. destruct (find (fun n => n_int n =? i) (of_gid g st)) as [n|] eqn:F; [|discriminate].
  intro H; inversion H; subst. apply find_some in F as [F1 F2]. apply N.eqb_eq in F2.
  unfold of_gid in F1. apply filter_In in F1 as [F1 G]. apply N.eqb_eq in G. exists n. auto.
Qed.

Lemma nid_of_int_at g st n :
  uniq (s_nodes st) -> In n (s_nodes st) -> n_gid n = g -> nid_of_int (of_gid g st) (n_int n) = Some (n_nid n).
Proof.
  intros U Hn G. unfold nid_of_int.
  destruct (find (fun m => n_int m =? n_int n) (of_gid g st)) as [m|] eqn:F.
  - apply find_some in F as [F1 F2]. apply N.eqb_eq in F2. unfold of_gid in F1. apply filter_In in F1 as [F1 _].
    assert (m = n) by (apply (uniq_inj (s_nodes st)); auto). subst. reflexivity.
  - exfalso. assert (In n (of_gid g st)) as X by (unfold of_gid; apply filter_In; split; auto; apply N.eqb_eq; auto).
    apply (find_none _ _ F) in X. rewrite N.eqb_refl in X. discriminate.
Qed.

Lemma minmax_eq x y a b :
  (N.min x y, N.max x y) = (N.min a b, N.max a b) <-> (x = a /\ y = b) \/ (x = b /\ y = a).
Proof.
  split.
  - intro H. injection H as H1 H2. lia.
  - intros [[-> ->]|[-> ->]]; auto. rewrite N.min_comm, N.max_comm. reflexivity.
Qed.

Lemma ekey_refl k : ekey_eqb k k = true.
Proof. apply ekey_eqb_eq. reflexivity. Qed.

Definition edge_abs (g : N) (st : store) (e : edge) : list (ekey * edata) :=
  match nid_of_int (of_gid g st) (e_a e), nid_of_int (of_gid g st) (e_b e) with
  | Some a, Some b => [((N.min a b, N.max a b), (e_cls e, e_oth e))]
  | _, _ => []
  end.

Lemma abs_edges_flat g st : abs_edges g st = flat_map (edge_abs g st) (s_edges st).
Proof. reflexivity. Qed.

Lemma gete_flat_map {A} (f : A -> list (ekey * edata)) (p : A -> bool) (d : A -> edata) k l :
  (forall e, gete k (f e) = if p e then Some (d e) else None) ->
  gete k (flat_map f l) = option_map d (find p l).
Proof.
  intro H. induction l as [|e r IH]; simpl; auto.
  unfold gete in *. rewrite (get_app ekey_eqb), H. destruct (p e); simpl; auto.
Qed.

(* the connection of graph g between the nodes with NodeIDs x and y *)
Definition conn_at (g : N) (st : store) (x y : N) : option edata :=
  match at_ g x (s_nodes st), at_ g y (s_nodes st) with
  | Some a, Some b => edat (s_edges st) (n_int a) (n_int b)
  | _, _ => None
  end.

Theorem abs_edges_get g st a b :
  uniq (s_nodes st) -> ukeys (s_nodes st) ->
  gete (N.min a b, N.max a b) (abs_edges g st) = conn_at g st a b.
Proof.
  intros U K. unfold conn_at. rewrite abs_edges_flat.
  (* a connection abstracts to this key iff it joins the two nodes *)
  assert (forall e x y, nid_of_int (of_gid g st) (e_a e) = Some x -> nid_of_int (of_gid g st) (e_b e) = Some y ->
            (N.min x y, N.max x y) = (N.min a b, N.max a b) ->
            exists na nb, at_ g a (s_nodes st) = Some na /\ at_ g b (s_nodes st) = Some nb /\
                          joins (n_int na) (n_int nb) e = true) as FWD.
  { intros e x y Hx Hy E.
    apply nid_of_int_some in Hx as (n1 & I1 & G1 & E1 & X1). apply nid_of_int_some in Hy as (n2 & I2 & G2 & E2 & X2).
    apply minmax_eq in E as [[-> ->]|[-> ->]].
    - exists n1, n2. split; [apply at_uniq; auto|]. split; [apply at_uniq; auto|].
      unfold joins. rewrite E1, E2, !N.eqb_refl. reflexivity.
    - exists n2, n1. split; [apply at_uniq; auto|]. split; [apply at_uniq; auto|].
      unfold joins. rewrite E1, E2, !N.eqb_refl. simpl. apply orb_true_r. }
  destruct (at_ g a (s_nodes st)) as [na|] eqn:Aa, (at_ g b (s_nodes st)) as [nb|] eqn:Ab.
  1:{ unfold edat. apply (gete_flat_map (edge_abs g st) (joins (n_int na) (n_int nb)) edata_of). intro e.
    apply at_In in Aa as (Ia & Ga & Na). apply at_In in Ab as (Ib & Gb & Nb).
    destruct (joins (n_int na) (n_int nb) e) eqn:J.
    + unfold joins in J. apply orb_true_iff in J. rewrite !andb_true_iff, !N.eqb_eq in J.
      unfold edge_abs. destruct J as [[Ea Eb]|[Ea Eb]]; rewrite Ea, Eb,
        (nid_of_int_at g st na U Ia Ga), (nid_of_int_at g st nb U Ib Gb), Na, Nb.
      * unfold gete; simpl. rewrite ekey_refl. reflexivity.
      * unfold gete; simpl. rewrite N.min_comm, N.max_comm, ekey_refl. reflexivity.
    + unfold edge_abs.
      destruct (nid_of_int (of_gid g st) (e_a e)) as [x|] eqn:Hx; [|reflexivity].
      destruct (nid_of_int (of_gid g st) (e_b e)) as [y|] eqn:Hy; [|reflexivity].
      unfold gete; simpl. destruct (ekey_eqb (N.min a b, N.max a b) (N.min x y, N.max x y)) eqn:E; auto.
      apply ekey_eqb_eq in E. symmetry in E.
      destruct (FWD e x y Hx Hy E) as (na' & nb' & A1 & A2 & J').
      inversion A1; inversion A2; subst. congruence. }
  (* otherwise no connection abstracts to this key *)
  all: transitivity (option_map edata_of (find (fun _ : edge => false) (s_edges st)));
    [|induction (s_edges st); simpl; auto].
  all: apply (gete_flat_map (edge_abs g st) (fun _ => false) edata_of); intro e; unfold edge_abs.
  all: destruct (nid_of_int (of_gid g st) (e_a e)) as [x|] eqn:Hx; [|reflexivity].
  all: destruct (nid_of_int (of_gid g st) (e_b e)) as [y|] eqn:Hy; [|reflexivity].
  all: unfold gete; simpl; destruct (ekey_eqb (N.min a b, N.max a b) (N.min x y, N.max x y)) eqn:E; auto.
  all: apply ekey_eqb_eq in E; symmetry in E; destruct (FWD e x y Hx Hy E) as (? & ? & X & Y & _); congruence.
Qed.

(* keys are ordered pairs *)
Lemma abs_edges_norm g st k d : In (k, d) (abs_edges g st) -> fst k <= snd k.
Proof.
  rewrite abs_edges_flat. intro H. apply in_flat_map in H as (e & _ & H). unfold edge_abs in H.
  destruct (nid_of_int (of_gid g st) (e_a e)); [|destruct H].
  destruct (nid_of_int (of_gid g st) (e_b e)); [|destruct H].
  destruct H as [H|[]]. inversion H; subst. simpl. lia.
Qed.

Lemma abs_edges_unordered g st x y : y < x -> gete (x, y) (abs_edges g st) = None.
Proof.
  intro L. unfold gete. apply (get_None_notin ekey_eqb ekey_eqb_eq). intro H.
  apply in_map_iff in H as ([k d] & E & Hin). simpl in E. subst k. apply abs_edges_norm in Hin. simpl in Hin. lia.
Qed.

Lemma ordered_minmax x y : x <= y -> (x, y) = (N.min x y, N.max x y).
Proof. intro L. rewrite N.min_l, N.max_r; auto. Qed.

Lemma abs_edges_at nx g st e :
  J nx (s_nodes st) -> gete e (abs_edges g st) = if snd e <? fst e then None else conn_at g st (fst e) (snd e).
Proof.
  intros (U & _ & K). destruct e as [x y]. cbn [fst snd].
  destruct (N.ltb_spec y x) as [L|L]; [apply abs_edges_unordered; exact L|].
  rewrite (ordered_minmax x y L). apply abs_edges_get; auto.
Qed.

Lemma abs_edges_ext nx nx' g st g' st' :
  J nx (s_nodes st) -> J nx' (s_nodes st') -> (forall x y, conn_at g' st' x y = conn_at g st x y) ->
  forall e, gete e (abs_edges g' st') = gete e (abs_edges g st).
Proof. intros Js Js' H e. rewrite (abs_edges_at nx' g' st' e Js'), (abs_edges_at nx g st e Js), H. reflexivity. Qed.

(* a graph whose node lookups and whose connection data between its nodes are unchanged has the same connections *)
Lemma abs_edges_kept nx nx' h st st' :
  J nx (s_nodes st) -> J nx' (s_nodes st') ->
  (forall k, at_ h k (s_nodes st') = at_ h k (s_nodes st)) ->
  (forall a b, In a (s_nodes st) -> In b (s_nodes st) -> n_gid a = h -> n_gid b = h ->
               edat (s_edges st') (n_int a) (n_int b) = edat (s_edges st) (n_int a) (n_int b)) ->
  forall e, gete e (abs_edges h st') = gete e (abs_edges h st).
Proof.
  intros Js Js' OT OE. apply (abs_edges_ext nx nx' h st h st' Js Js'). intros x y. unfold conn_at. rewrite !OT.
  destruct (at_ h x (s_nodes st)) as [a|] eqn:Ax; auto. destruct (at_ h y (s_nodes st)) as [b|] eqn:Ay; auto.
  apply at_In in Ax as (Hx & Gx & _). apply at_In in Ay as (Hy & Gy & _). auto.
Qed.
