(* C09 - Node.add_component: every check except the id-uniqueness checks of the primitive add_node precedes
   the first mutation, and after the first mutation only PropertyGraphQueryException can be raised.  Hence
   every failure of another class (duplicate name, unknown model, invalid property, missing ids, ...)
   leaves the graph unchanged - for every state and every argument. *)
From Coq Require Import List NArith Bool String.
From FIM Require Import Base.Str Model.T9Graph Model.T9Ops Proofs.T9Monad Proofs.T9Simple Proofs.T9Refuted.
Import ListNotations.
Open Scope N_scope.

Lemma no_mut_draw_if_ids l : no_mut (draw_if_ids l).
Proof. induction l; simpl; nm. apply IHl. Qed.

Lemma op_add_component_nonquery pc fl pn name node_id spec_given nic sub_ids cat pure :
  clean (fun e => e <> EQuery) any (op_add_component pc fl pn name node_id spec_given nic sub_ids cat pure).
Proof.
  unfold op_add_component. checks.
  destruct cat as [spec|e0]; [|apply clean_nm; nm].
  apply clean_bind; [destruct (cs_child spec); nm; apply no_mut_draw_if_ids|intro drawn]. checks.
  apply clean_bind; [destruct pc; nm|intro].
  apply (clean_raises _ (eq EQuery)); [|intros e <- H; exact (H eq_refl)].
  destruct drawn as [[[ch nsid] ifs]|]; auto 12 with raises.
Qed.

Lemma add_component_atomic_nonquery pc fl pn name node_id spec_given nic sub_ids cat pure s s' e :
  op_add_component pc fl pn name node_id spec_given nic sub_ids cat pure s = (s', Err e) ->
  e <> EQuery -> sg s' = sg s.
Proof. apply op_add_component_nonquery. exact I. Qed.

(* non-vacuity: an unknown model (CatalogException) and a duplicate component name (TopologyException) *)
Lemma ex_component_unknown_model :
  let r := op_add_component false Experiment 1 (S "x1") None true true false (Err ECatalog) None (mkSt g_two_nodes supply) in
  snd r = Err ECatalog /\ sg (fst r) = g_two_nodes.
Proof. vm_compute. auto. Qed.
Lemma ex_component_dup_name :
  let r := op_add_component false Experiment 1 (S "nic1") None true false false (Ok (mkCompSpec tNIC None)) None
                            (mkSt g_two_nodes supply) in
  snd r = Err ETopology /\ sg (fst r) = g_two_nodes.
Proof. vm_compute. auto. Qed.
Lemma ex_component_ok :
  let r := op_add_component false Experiment 1 (S "nic2") None true false false
             (Ok (mkCompSpec tNIC (Some (mkChildNs (S "n1-nic2-l2ovs") tOVS None [mkChildIf (S "nic2-p1") tSharedPort None]))))
             None (mkSt g_two_nodes supply) in
  snd r = Ok 50 /\ List.length (gnodes (sg (fst r))) = 12%nat.
Proof. vm_compute. auto. Qed.
