(* C16 proofs: entry-point independence as ONE statement over the type of entry-point
   semantics; the unchecked ways in (direct attribute assignment, attaching an object that was assigned to
   directly); list values with non-string elements; keywords that name an attribute which is not a field. *)
From Coq Require Import List ZArith String Lia.
From FIM Require Import Base.Str Gen.LabelValidators
  Model.Labels16 Model.Labels16Spec Proofs.Validate16 Proofs.Validate16Misc.
Import ListNotations.

(* acceptance of one keyword does not depend on the object it is set on *)
Lemma set_one_snd_indep fg st st' kv : snd (set_one fg st kv) = snd (set_one fg st' kv).
Proof.
  destruct kv as [k v]. unfold set_one. destruct v; try reflexivity;
    (destruct (negb (mem_str k label_fields)); [reflexivity|]; destruct (regex_phase k _); [reflexivity|];
     destruct (range_phase k _); reflexivity).
Qed.

Lemma set_fields_ok_all fg : forall kws st, snd (set_fields fg st kws) = None ->
  Forall (fun kv => snd (set_one fg labels_init kv) = None) kws.
Proof.
  induction kws as [|kv kws IH]; intros st H; [constructor|]. cbn [set_fields] in H.
  destruct (set_one fg st kv) as [st' oe] eqn:E. destruct oe as [e|]; [discriminate|].
  constructor; [|apply (IH st'); exact H]. rewrite (set_one_snd_indep fg labels_init st), E. reflexivity.
Qed.

Lemma accepted_is_strs fg st k v : mem_str k label_fields = true -> snd (set_one fg st (k, v)) = None -> is_strs v = true.
Proof.
  intros Hk H. destruct (set_one_cases fg st k v) as [(_ & Hs & _)|(_ & N)]; [exact Hs | destruct (proj1 (N Hk) H)].
Qed.

(* re-validation succeeds exactly on objects all of whose fields are documented *)
Theorem revalidate_sound st : labels_wf st -> revalidate st = None -> labels_inv st.
Proof.
  intros Hw H. unfold revalidate in H. apply set_fields_ok_all in H. rewrite Forall_forall in H.
  unfold labels_inv. apply Forall_forall. intros [k ov] Hin. cbn [fst snd]. destruct ov as [v|]; [|exact I].
  assert (Hk : mem_str k label_fields = true).
  { apply mem_str_In. rewrite <- Hw. apply (in_map fst) in Hin. exact Hin. }
  specialize (H (k, v) (proj2 (In_encode _ _ _) Hin)).
  pose proof (accepted_is_strs _ _ _ _ Hk H) as Hs. split; [exact Hs|].
  apply (accept_iff_domain false labels_init k v Hk Hs). exact H.
Qed.

Theorem revalidate_complete st : labels_wf st -> labels_inv st -> revalidate st = None.
Proof. intros Hw Hi. unfold revalidate. rewrite set_fields_encode by assumption. reflexivity. Qed.

Lemma lget_lset st k v : In k (map fst st) -> lget (lset st k v) k = Some v.
Proof.
  unfold lget. induction st as [|[k' v'] st IH]; simpl; intro H; [contradiction|].
  destruct (str_eqb k k') eqn:E.
  - simpl. rewrite E. reflexivity.
  - simpl. rewrite E. apply IH. destruct H as [H|H]; [|exact H]. subst. rewrite str_eqb_refl in E. discriminate.
Qed.

Lemma lset_wf st k v : labels_wf st -> labels_wf (lset st k v).
Proof. unfold labels_wf. rewrite lset_keys. auto. Qed.

(* ONE statement: for every entry-point semantics that validates, and every field and value of the documented type,
   the value is accepted iff it is in the documented domain, and the resulting object satisfies the invariant *)
Theorem entry_point_independence sem : ep_checked sem = true ->
  forall cur k v, labels_inv cur -> labels_wf cur -> mem_str k label_fields = true -> is_strs v = true ->
    (snd (ep_apply sem cur (k, v)) = None <-> Forall (in_domain k) (elems v)) /\
    labels_inv (fst (ep_apply sem cur (k, v))) /\ labels_wf (fst (ep_apply sem cur (k, v))).
Proof.
  intros Hc cur k v Hi Hw Hk Hs. destruct sem as [fg fresh | | r]; cbn [ep_checked] in Hc; try discriminate.
  - cbn [ep_apply]. split; [apply accept_iff_domain; assumption|]. split.
    + apply set_one_inv. destruct fresh; [apply init_inv | exact Hi].
    + unfold labels_wf. rewrite set_one_keys. destruct fresh; [apply init_wf | exact Hw].
  - subst r. cbn [ep_apply attach_labels]. unfold attr_assign. cbn [fst snd].
    pose proof (lset_wf cur k v Hw) as Hw'.
    destruct (revalidate (lset cur k v)) as [e|] eqn:R; cbn [fst snd].
    + split; [|split; assumption]. split; [discriminate|]. intro Hd. exfalso.
      assert (Hi' : labels_inv (lset cur k v)) by (apply lset_inv; [exact Hi | split; assumption]).
      rewrite (revalidate_complete _ Hw' Hi') in R. discriminate.
    + pose proof (revalidate_sound _ Hw' R) as Hi'. split; [|split; assumption]. split; [|reflexivity]. intros _.
      apply (stored_values_in_domain (lset cur k v) k v Hi'). apply lget_lset. rewrite Hw. apply mem_str_In; exact Hk.
Qed.

(* an entry-point semantics that does not validate lets an undocumented value into an object *)
Theorem unchecked_entry_point_refuted sem : ep_checked sem = false ->
  exists cur k v, labels_inv cur /\ labels_wf cur /\ mem_str k label_fields = true /\ is_strs v = true /\
    snd (ep_apply sem cur (k, v)) = None /\ ~ labels_inv (fst (ep_apply sem cur (k, v))).
Proof.
  intro Hc. exists labels_init, (S"vlan"), (LStr (S"junk")).
  assert (Hk : mem_str (S"vlan") label_fields = true) by (vm_compute; reflexivity).
  assert (Hbad : ~ labels_inv (lset labels_init (S"vlan") (LStr (S"junk")))).
  { intro Hi. assert (G : lget (lset labels_init (S"vlan") (LStr (S"junk"))) (S"vlan") = Some (LStr (S"junk"))) by (vm_compute; reflexivity).
    destruct (stored_values_in_domain _ _ _ Hi G) as [_ D].
    apply (accept_iff_domain false labels_init (S"vlan") (LStr (S"junk")) Hk eq_refl) in D. vm_compute in D. discriminate. }
  split; [apply init_inv|]. split; [apply init_wf|]. split; [exact Hk|]. split; [reflexivity|].
  destruct sem as [fg fresh | | r]; cbn [ep_checked] in Hc; try discriminate.
  - cbn [ep_apply fst snd]. split; [reflexivity | exact Hbad].
  - subst r. cbn [ep_apply attach_labels fst snd]. split; [reflexivity | exact Hbad].
Qed.

(* the regenerated table of entry points: either every entry validates (then the statement above covers the table)
   or the table names an entry that does not *)
Theorem entry_point_table_full_or_refuted :
  if forallb (fun e => ep_checked (snd e)) label_entry_points
  then forall name sem, In (name, sem) label_entry_points ->
         forall cur k v, labels_inv cur -> labels_wf cur -> mem_str k label_fields = true -> is_strs v = true ->
           (snd (ep_apply sem cur (k, v)) = None <-> Forall (in_domain k) (elems v)) /\
           labels_inv (fst (ep_apply sem cur (k, v))) /\ labels_wf (fst (ep_apply sem cur (k, v)))
  else exists name sem, In (name, sem) label_entry_points /\ ep_checked sem = false /\
         exists cur k v, labels_inv cur /\ labels_wf cur /\ mem_str k label_fields = true /\ is_strs v = true /\
           snd (ep_apply sem cur (k, v)) = None /\ ~ labels_inv (fst (ep_apply sem cur (k, v))).
Proof.
  destruct (forallb (fun e => ep_checked (snd e)) label_entry_points) eqn:F.
  - intros name sem Hin. rewrite forallb_forall in F. specialize (F _ Hin). cbn [snd] in F.
    apply entry_point_independence; exact F.
  - assert (X : exists e, In e label_entry_points /\ ep_checked (snd e) = false).
    { clear -F. induction label_entry_points as [|e l IH]; [discriminate|]. simpl in F.
      destruct (ep_checked (snd e)) eqn:E.
      - destruct (IH F) as (e' & Hin & He). exists e'. split; [right; exact Hin | exact He].
      - exists e. split; [left; reflexivity | exact E]. }
    destruct X as ([name sem] & Hin & He). exists name, sem. split; [exact Hin|]. split; [exact He|].
    apply unchecked_entry_point_refuted; exact He.
Qed.

(* the table contains the entry points the harness drives (by name count) and is not empty *)
Lemma entry_point_table_nonempty : (7 <= List.length label_entry_points)%nat.
Proof. vm_compute. repeat constructor. Qed.

Definition mixed_full : Prop :=
  forall fg k l, existsb (fun e => negb (lelem_is_str e)) l = true -> mixed_outcome fg k l <> KW_stored.
Definition mixed_refuted : Prop :=
  exists fg k l, existsb (fun e => negb (lelem_is_str e)) l = true /\ mixed_outcome fg k l = KW_stored.

Theorem mixed_full_or_refuted : if label_list_elements_typechecked then mixed_full else mixed_refuted.
Proof.
  destruct label_list_elements_typechecked eqn:F.
  - intros fg k l _. unfold mixed_outcome. rewrite F. discriminate.
  - exists false, (S"numa"), [LE_int 5]. split; [reflexivity|]. unfold mixed_outcome. rewrite F. vm_compute. reflexivity.
Qed.

Theorem nonfield_attr_full_or_refuted :
  if label_field_test_is_dict then (forall fg, nonfield_attr_outcome fg <> KW_stored) else nonfield_attr_outcome false = KW_stored.
Proof.
  unfold nonfield_attr_outcome. destruct label_field_test_is_dict.
  - intros [|]; discriminate.
  - reflexivity.
Qed.

Theorem caps_nonfield_attr_full_or_refuted :
  if caps_field_test_is_dict then (forall fg, caps_nonfield_attr_outcome fg <> KW_stored) else caps_nonfield_attr_outcome false = KW_stored.
Proof.
  unfold caps_nonfield_attr_outcome. destruct caps_field_test_is_dict.
  - intros [|]; discriminate.
  - reflexivity.
Qed.

(* decoding never stores under an attribute name once from_json pre-filters *)
Theorem nonfield_attr_from_json : from_json_prefilters = true -> nonfield_attr_outcome_from_json = KW_skipped.
Proof. intro H. unfold nonfield_attr_outcome_from_json. rewrite H. reflexivity. Qed.

Definition tags_attach_full : Prop := forall l, attach_tags set_tags_revalidates l = true -> Forall tag_in_domain l.
Definition tags_attach_refuted : Prop := exists l, attach_tags set_tags_revalidates l = true /\ ~ Forall tag_in_domain l.

Theorem tags_attach_full_or_refuted : if set_tags_revalidates then tags_attach_full else tags_attach_refuted.
Proof.
  unfold tags_attach_full, tags_attach_refuted. destruct set_tags_revalidates.
  - intros l H. unfold attach_tags in H. destruct (tag_check_all l) as [out|] eqn:E; [|discriminate].
    apply tag_check_all_spec in E. tauto.
  - exists [TNonStr]. split; [reflexivity|]. intro F. inversion F; subst. contradiction.
Qed.

Lemma cap_set_fields_ok_all fg : forall kws st, snd (cap_set_fields fg st kws) = None ->
  Forall (fun kv => cap_asserts (snd kv) = None) kws.
Proof.
  induction kws as [|[k v] kws IH]; intros st H; [constructor|]. cbn [cap_set_fields] in H. unfold cap_set_one in H.
  destruct (cap_asserts v) eqn:A; [discriminate|]. constructor; [exact A|].
  destruct (mem_str k cap_field_names).
  - apply (IH _ H).
  - destruct fg; [apply (IH _ H) | discriminate].
Qed.

Definition caps_attach_full : Prop := forall st, attach_caps set_capacities_revalidates st = true -> caps_inv st.
Definition caps_attach_refuted : Prop := exists st, attach_caps set_capacities_revalidates st = true /\ ~ caps_inv st.

Theorem caps_attach_full_or_refuted : if set_capacities_revalidates then caps_attach_full else caps_attach_refuted.
Proof.
  unfold caps_attach_full, caps_attach_refuted. destruct set_capacities_revalidates.
  - intros st H. unfold attach_caps in H. destruct (snd (cap_set_fields false st st)) eqn:E; [discriminate|].
    apply cap_set_fields_ok_all in E. unfold caps_inv. eapply Forall_impl; [|exact E].
    intros kv A. apply cap_asserts_spec. exact A.
  - exists [(S"core", CV_int (-5))]. split; [reflexivity|]. intro F. inversion F; subst. cbn in H1. lia.
Qed.
