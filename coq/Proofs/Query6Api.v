(* C06: the two path queries at the level of the store (path_query_Ok lifts sp_int_spec / pwh_spec of Query6Path.v
   to graph_for s gid rel); query histories (Model/Query6Hist.v); the regenerated facts about the helper queries
   (Gen/Query6Gen.v, translator/gen_query6.py).  Rests on Query6Nbr.v and Query6Path.v. *)
From Coq Require Import List NArith Bool.
From FIM Require Import Gen.Query6Gen Model.Query6 Model.Query6Hist Proofs.Query6Nbr Proofs.Query6Path.
Import ListNotations.
Open Scope N_scope.

Definition rel_ok (rel : option N) (r : N) : Prop := match rel with Some r0 => r = r0 | None => True end.

(* _drop_edges_not_of_type keeps exactly the edges of the requested relation *)
Lemma g_rel_restricted G0 rel x y r :
  g_rel (match rel with Some r0 => drop_edges_not_of_type G0 r0 | None => G0 end) x y = Some r <->
  g_rel G0 x y = Some r /\ rel_ok rel r.
Proof.
  destruct rel as [r0|]; cbn [g_rel drop_edges_not_of_type rel_ok]; [|tauto].
  destruct (g_rel G0 x y) as [r1|]; [destruct (N.eqb_spec r1 r0)|]; intuition congruence.
Qed.

Lemma graph_for_Ok s gid rel G :
  graph_for s gid rel = Ok G ->
  g_nodes G = graph_nodes s gid /\
  forall x y, adjb G x y = true <->
              (In x (map n_int (graph_nodes s gid)) /\ In y (map n_int (graph_nodes s gid)) /\
               exists r, edge_rel (s_edges s) x y = Some r /\ rel_ok rel r).
Proof.
  intros H. apply bind_Ok in H as (G0 & E & [= <-]). apply extract_Ok in E as [_ ->].
  split; [destruct rel; reflexivity|]. intros x y. rewrite adjb_true. split.
  - intros [r H]. apply g_rel_restricted in H as [H Hok]. apply g_rel_extracted in H. intuition eauto.
  - intros (Hx & Hy & r & He & Hok). exists r. apply g_rel_restricted. split; auto. apply g_rel_extracted. auto.
Qed.

Lemma find_key {A} (f : A -> N) l m :
  NoDup (map f l) -> In m l -> find (fun n => f n =? f m) l = Some m.
Proof.
  induction l as [|a l IH]; simpl; intros ND H. contradiction.
  inversion ND as [|? ? Hn ND']; subst. destruct H as [->|H].
  - rewrite N.eqb_refl. reflexivity.
  - destruct (f a =? f m) eqn:E; auto. apply N.eqb_eq in E. exfalso. apply Hn. rewrite E. apply in_map; auto.
Qed.

(* _get_node_ids_for_list gives the NodeIDs of the path's nodes *)
Lemma id_of_node s gid rel G m :
  keys_distinct s = true -> graph_for s gid rel = Ok G -> in_graph s gid m -> id_of G (n_int m) = n_id m.
Proof.
  intros K HG Hm. apply graph_for_Ok in HG as [E _]. unfold id_of. rewrite E.
  rewrite (find_key n_int); auto. apply keys_graph_nodes; auto. apply graph_nodes_In; auto.
Qed.

Lemma ids_of_length G p : length (ids_of G p) = length p.
Proof. apply map_length. Qed.

Lemma ids_of_nil G p : ids_of G p = [] <-> p = [].
Proof. split; [apply map_eq_nil|intros ->; reflexivity]. Qed.

(* both path queries look two nodes up: they answer exactly when both are found, and then they have computed on
   graph_for s gid rel, of which the start node is a node *)
Lemma path_query_Ok {A} s gid a z rel (f : graph -> node -> node -> A) r :
  bind (extract s gid) (fun G0 =>
    let G := match rel with Some r0 => drop_edges_not_of_type G0 r0 | None => G0 end in
    bind (find_node s gid a) (fun na => bind (find_node s gid z) (fun nz => Ok (f G na nz)))) = Ok r ->
  exists G na nz, graph_for s gid rel = Ok G /\ find_node s gid a = Ok na /\ find_node s gid z = Ok nz /\
                  In (n_int na) (ints G) /\ r = f G na nz.
Proof.
  intros H. apply on_node_Ok in H as (na & FA & H). apply bind_Ok in H as (nz & FZ & [= <-]).
  assert (HG : graph_for s gid rel = Ok (match rel with Some r0 => drop_edges_not_of_type (extracted s gid) r0
                                                      | None => extracted s gid end)).
  { unfold graph_for. rewrite (find_node_extract _ _ _ _ FA). reflexivity. }
  eexists _, na, nz. repeat split; eauto.
  unfold ints. rewrite (proj1 (graph_for_Ok _ _ _ _ HG)). apply key_in, (find_node_Ok _ _ _ _ FA).
Qed.

Lemma path_query_total {A} s gid a z (f : graph -> node -> node -> A) :
  (exists na nz, find_node s gid a = Ok na /\ find_node s gid z = Ok nz) <->
  (exists r, bind (extract s gid) (fun G => bind (find_node s gid a) (fun na =>
               bind (find_node s gid z) (fun nz => Ok (f G na nz)))) = Ok r).
Proof.
  split.
  - intros (na & nz & FA & FZ). eexists. apply on_node_Ok. exists na. split; auto. rewrite FZ. reflexivity.
  - intros [r H]. apply on_node_Ok in H as (na & FA & H). apply bind_Ok in H as (nz & FZ & _). eauto.
Qed.

(* ---------- get_nodes_on_shortest_path ---------- *)
Lemma shortest_path_parts s gid a z rel ids :
  shortest_path s gid a z rel = Ok ids ->
  exists G na nz, graph_for s gid rel = Ok G /\ find_node s gid a = Ok na /\ find_node s gid z = Ok nz /\
                  In (n_int na) (ints G) /\
                  ids = match sp_int G (n_int na) (n_int nz) with Some p => ids_of G p | None => [] end.
Proof. intros H. eapply path_query_Ok. exact H. Qed.

Lemma shortest_path_sound_min s gid a z rel ids :
  shortest_path s gid a z rel = Ok ids -> ids <> [] ->
  exists G na nz p,
    graph_for s gid rel = Ok G /\ find_node s gid a = Ok na /\ find_node s gid z = Ok nz /\
    ids = ids_of G p /\ is_path G p (n_int na) (n_int nz) = true /\
    forall q, is_path G q (n_int na) (n_int nz) = true -> (length ids <= length q)%nat.
Proof.
  intros H Hne. apply shortest_path_parts in H as (G & na & nz & HG & FA & FZ & Ha & ->).
  pose proof (sp_int_spec G _ (n_int nz) Ha) as SP.
  destruct (sp_int G (n_int na) (n_int nz)) as [p|]; [|congruence].
  exists G, na, nz, p. rewrite ids_of_length. intuition.
Qed.

Lemma shortest_path_empty_iff s gid a z rel ids :
  shortest_path s gid a z rel = Ok ids ->
  exists G na nz,
    graph_for s gid rel = Ok G /\ find_node s gid a = Ok na /\ find_node s gid z = Ok nz /\
    (ids = [] <-> forall q, is_path G q (n_int na) (n_int nz) = false).
Proof.
  intros H. apply shortest_path_parts in H as (G & na & nz & HG & FA & FZ & Ha & ->).
  exists G, na, nz. split; [exact HG|]. split; [exact FA|]. split; [exact FZ|].
  pose proof (sp_int_spec G _ (n_int nz) Ha) as SP.
  destruct (sp_int G (n_int na) (n_int nz)) as [p|]; [|tauto].
  destruct SP as [IP _]. rewrite ids_of_nil. split.
  - intros ->. discriminate IP.
  - intros Hno. rewrite Hno in IP. discriminate.
Qed.

Lemma shortest_path_total s gid a z rel :
  (exists na nz, find_node s gid a = Ok na /\ find_node s gid z = Ok nz) <->
  (exists ids, shortest_path s gid a z rel = Ok ids).
Proof. apply path_query_total. Qed.

(* ---------- get_nodes_on_path_with_hops ---------- *)
Lemma path_with_hops_spec s gid a z hops cutoff ids :
  path_with_hops s gid a z hops cutoff = Ok ids ->
  exists G na nz p,
    graph_for s gid None = Ok G /\ find_node s gid a = Ok na /\ find_node s gid z = Ok nz /\
    ids = ids_of G p /\
    (ids = [] <-> forall q, ~ hop_path G (n_int na) (n_int nz) hops cutoff q) /\
    (ids <> [] -> hop_path G (n_int na) (n_int nz) hops cutoff p /\
                  forall q, hop_path G (n_int na) (n_int nz) hops cutoff q -> (length ids <= length q)%nat).
Proof.
  intros H. apply (path_query_Ok s gid a z None) in H as (G & na & nz & HG & FA & FZ & Ha & ->).
  exists G, na, nz, (pwh_int G (n_int na) (n_int nz) hops cutoff).
  rewrite ids_of_length, ids_of_nil. destruct (pwh_spec G _ (n_int nz) hops cutoff Ha). intuition.
Qed.

Lemma path_with_hops_total s gid a z hops cutoff :
  (exists na nz, find_node s gid a = Ok na /\ find_node s gid z = Ok nz) <->
  (exists ids, path_with_hops s gid a z hops cutoff = Ok ids).
Proof. apply path_query_total. Qed.

(* ---------- query histories: answers depend only on the current store content ---------- *)
Lemma current_cons s h t :
  current s (h :: t) = current (match h with HSet s' => s' | HAsk _ => s end) t.
Proof. reflexivity. Qed.

Lemma run_app V : forall pre s post,
  run V s (pre ++ post) = run V s pre ++ run V (current s pre) post.
Proof.
  induction pre as [|h pre IH]; intros s post; auto.
  rewrite current_cons. destruct h as [s'|a]; simpl.
  - apply IH.
  - rewrite IH. reflexivity.
Qed.

(* the store content does not depend on the questions asked before: only on the mutations *)
Lemma current_ignores_asks : forall pre s, current s pre = current s (filter is_set pre).
Proof.
  induction pre as [|h pre IH]; intros s; auto.
  rewrite current_cons. destruct h as [s'|a]; cbn [filter is_set].
  - rewrite current_cons. apply IH.
  - apply IH.
Qed.

Lemma filter_asks_nil mid : forallb (fun h => negb (is_set h)) mid = true -> filter is_set mid = [].
Proof.
  induction mid as [|h mid IH]; auto. simpl. intros H. apply andb_true_iff in H as [H1 H2].
  destruct (is_set h); [discriminate|auto].
Qed.

(* the same question asked again with no mutation in between gets the same answer, whatever was asked meanwhile *)
Lemma repeat_same V s pre a mid :
  forallb (fun h => negb (is_set h)) mid = true ->
  run V s (pre ++ HAsk a :: mid ++ [HAsk a]) =
  run V s pre ++ answer_of V (current s pre) a :: run V (current s pre) mid ++ [answer_of V (current s pre) a].
Proof.
  intros H. rewrite run_app. simpl. rewrite run_app. simpl.
  rewrite (current_ignores_asks mid), (filter_asks_nil mid H). reflexivity.
Qed.

(* ---------- the regenerated table agrees with what Model/Query6.v transcribes: which relation/class constants
   the helpers pass to the two-hop query, which classes get_all_node_or_component_connection_points accepts, the
   result shapes, and that _drop_edges_not_of_type iterates over a snapshot of the edge list (fix eb346ad) ---------- *)
Definition helpers_agree : Prop :=
  Query6Gen.gen_ok = true /\
  gen_peer_args = (v_connects std_vocab, v_Link std_vocab, v_connects std_vocab, v_ConnectionPoint std_vocab) /\
  gen_peer_none_when_empty = true /\
  gen_nodecps_args = (v_has std_vocab, v_NetworkService std_vocab, v_connects std_vocab, v_ConnectionPoint std_vocab) /\
  gen_nodecps_classes = [v_NetworkNode std_vocab; v_Component std_vocab; v_CompositeNode std_vocab] /\
  gen_parent_requires_exactly_one = true /\
  gen_drop_iterates_snapshot = true.

Lemma helpers_translated : helpers_agree.
Proof. unfold helpers_agree. repeat split; reflexivity. Qed.
