(* C09 - validate-before-mutate: the element constructors and the calls on existing elements whose checks all
   precede the (single) composite mutation are atomic for EVERY state and EVERY argument. *)
From Coq Require Import List NArith Bool.
From FIM Require Import Model.T9Graph Model.T9Ops Proofs.T9Monad.
Import ListNotations.
Open Scope N_scope.

Lemma find_nodes_app g1 g2 e x :
  find_nodes (mkGraph (g1 ++ g2) e) x = filter (fun n => nid n =? x) g1 ++ filter (fun n => nid n =? x) g2.
Proof. unfold find_nodes; simpl; apply filter_app. Qed.

Lemma has_node_false_filter g x : has_node g x = false -> filter (fun n => nid n =? x) (gnodes g) = [].
Proof.
  unfold has_node. induction (gnodes g) as [|n l IH]; simpl; auto.
  intro H. apply orb_false_iff in H as [H1 H2]. rewrite H1. auto.
Qed.

Lemma find_node_added g n : has_node g (nid n) = false ->
  find_node (mkGraph (gnodes g ++ [n]) (gedges g)) (nid n) = Ok n.
Proof.
  intro H. unfold find_node. rewrite find_nodes_app. rewrite has_node_false_filter by auto.
  simpl. rewrite N.eqb_refl. reflexivity.
Qed.

Lemma find_node_has g x n : find_node g x = Ok n -> has_node g x = true.
Proof.
  unfold find_node, find_nodes, has_node. intro H.
  destruct (filter _ _) as [|m [|? ?]] eqn:E; inversion H; subst.
  assert (In n (filter (fun n0 => nid n0 =? x) (gnodes g))) by (rewrite E; left; reflexivity).
  apply filter_In in H0 as [Hin Hx]. apply existsb_exists. eauto.
Qed.

Lemma find_node_kept g n x m : find_node g x = Ok m -> has_node g (nid n) = false ->
  find_node (mkGraph (gnodes g ++ [n]) (gedges g)) x = Ok m.
Proof.
  intros Hf Hn. assert (Hx : has_node g x = true) by (eapply find_node_has; eauto).
  unfold find_node in *. rewrite find_nodes_app. simpl.
  destruct (nid n =? x) eqn:E.
  - apply N.eqb_eq in E. subst. congruence.
  - rewrite app_nil_r. exact Hf.
Qed.

Lemma add_edge_nodes a r b g g' : g_add_edge a r b g = Ok g' -> gnodes g' = gnodes g.
Proof.
  unfold g_add_edge. destruct (find_node g a); [|discriminate]. destruct (find_node g b); [|discriminate].
  destruct (existsb _ _); intro H; inversion H; reflexivity.
Qed.

Lemma find_node_same_nodes g g' x : gnodes g' = gnodes g -> find_node g' x = find_node g x.
Proof. intro H. unfold find_node, find_nodes. rewrite H. reflexivity. Qed.

Lemma add_edge_ok a r b g x y : find_node g a = Ok x -> find_node g b = Ok y -> exists g', g_add_edge a r b g = Ok g'.
Proof. intros Ha Hb. unfold g_add_edge. rewrite Ha, Hb. destruct (existsb _ _); eauto. Qed.

(* node, then the edge from an existing parent: the pair cannot fail half-way *)
Lemma add_node_edge_all_or_nothing n p r g px :
  find_node g p = Ok px ->
  (exists e, g_add_node n g = Err e) \/
  (exists g1 g2, g_add_node n g = Ok g1 /\ g_add_edge p r (nid n) g1 = Ok g2).
Proof.
  intro Hp. unfold g_add_node. destruct (has_node g (nid n)) eqn:Hn; [left; eauto|].
  right. eexists. edestruct (add_edge_ok p r (nid n)) as [g2 H2];
    [eapply find_node_kept; eauto | apply find_node_added; auto | eauto].
Qed.

Lemma op_add_node_atomic fl name node_id ntype pure : atomic (op_add_node fl name node_id ntype pure).
Proof.
  apply clean_atomic. unfold op_add_node. checks.
  destruct ntype; [|apply clean_nm; nm]. checks. apply clean_mutate_ret.
Qed.

Definition found (g : graph) (x : N) : Prop := exists n, find_node g x = Ok n.

Lemma clean_node_edge {A} Q n p r (k : M A) :
  no_mut k -> (forall s, exists s' a, k s = (s', Ok a)) ->
  clean Q (fun g => found g p) (m_add_node n ;;; m_add_edge p r (nid n) ;;; k).
Proof.
  intros Hk Hok s s' e [px Hp] H _.
  unfold bind, m_add_node, m_add_edge, mutate in H.
  destruct (add_node_edge_all_or_nothing n p r (sg s) px Hp) as [[e1 E1]|[g1 [g2 [E1 E2]]]].
  - rewrite E1 in H. inversion H; reflexivity.
  - rewrite E1 in H. simpl in H. rewrite E2 in H.
    destruct (Hok (mkSt g2 (sfresh s))) as [s2 [a Ha]]. rewrite Ha in H. discriminate.
Qed.

Lemma new_interface_clean fl name node_id p itype pure :
  clean any (fun g => found g p) (new_interface fl name node_id (Some p) itype pure).
Proof.
  unfold new_interface. checks.
  destruct itype as [ty|]; [|apply clean_nm; nm]. checks.
  apply (clean_node_edge any (mkNode _ cCP name ty 0) p rConnects (ret _)); [nm|].
  intro s; do 2 eexists; reflexivity.
Qed.

Lemma node_cls_found g x c : node_cls g x = Ok c -> found g x.
Proof. unfold node_cls, found. destruct (find_node g x); [eauto|discriminate]. Qed.
Lemma node_type_found g x t : node_type g x = Ok t -> found g x.
Proof. unfold node_type, found. destruct (find_node g x); [eauto|discriminate]. Qed.
Lemma service_iface_names_found g ns l : service_iface_names g ns = Ok l -> found g ns.
Proof.
  unfold service_iface_names. destruct (node_cls g ns) eqn:E; [|discriminate]. intros _. eapply node_cls_found; eauto.
Qed.
Lemma node_service_names_found g pn l : node_service_names g pn = Ok l -> found g pn.
Proof.
  unfold node_service_names. destruct (node_cls g pn) eqn:E; [|discriminate]. intros _. eapply node_cls_found; eauto.
Qed.

Lemma op_add_interface_atomic fl ns name node_id itype pure :
  atomic (op_add_interface fl ns name node_id itype pure).
Proof.
  apply clean_atomic. unfold op_add_interface. apply clean_ask; intro cached. unfold add_interface_cached. checks.
  eapply clean_weaken; [|apply new_interface_clean].
  intros g [_ H]. eapply service_iface_names_found; eauto.
Qed.

Lemma new_service_child_clean fl name node_id pn nstype pure :
  clean any (fun g => found g pn) (new_service fl name node_id (Some pn) nstype [] pure).
Proof.
  unfold new_service. checks.
  destruct nstype as [ty|]; [|apply clean_nm; nm]. checks.
  apply (clean_node_edge any (mkNode _ cNS name ty 0) pn rHas (connect_all fl _ ty [] [] ;;; ret _)); [simpl; nm|].
  intro s; do 2 eexists; reflexivity.
Qed.

Lemma op_add_node_service_atomic fl pn name node_id nstype pure :
  atomic (op_add_node_service fl pn name node_id nstype pure).
Proof.
  apply clean_atomic. unfold op_add_node_service. apply clean_ask; intro names. checks.
  eapply clean_weaken; [|apply new_service_child_clean].
  intros g [_ H]. eapply node_service_names_found; eauto.
Qed.

Definition ifaces_exist (g : graph) (l : list iface_h) : Prop :=
  forall i, In i l -> exists n, find_node g (ih_id i) = Ok n.

Lemma for_each_edges_ok id r (l : list iface_h) : forall s,
  (exists n, find_node (sg s) id = Ok n) -> ifaces_exist (sg s) l ->
  exists s', for_each l (fun i => m_add_edge id r (ih_id i)) s = (s', Ok tt).
Proof.
  induction l as [|i l IH]; intros s Hid Hl; simpl.
  - eexists; reflexivity.
  - unfold bind, m_add_edge, mutate.
    destruct Hid as [n Hn]. destruct (Hl i (or_introl eq_refl)) as [m Hm].
    destruct (add_edge_ok id r (ih_id i) (sg s) n m Hn Hm) as [g' Hg']. rewrite Hg'.
    apply IH; simpl.
    + exists n. erewrite find_node_same_nodes; eauto. eapply add_edge_nodes; eauto.
    + intros j Hj. destruct (Hl j (or_intror Hj)) as [y Hy]. exists y.
      erewrite find_node_same_nodes; eauto. eapply add_edge_nodes; eauto.
Qed.

Definition ifaces_lookup (l : list iface_h) : M unit :=
  for_each l (fun i => _ <- ask (fun g => find_node g (ih_id i)) ;; ret tt).

Lemma no_mut_ifaces_lookup l : no_mut (ifaces_lookup l).
Proof. apply no_mut_for_each. intro. nm. Qed.

Lemma ifaces_lookup_ok l : forall s s1 u, ifaces_lookup l s = (s1, Ok u) -> s1 = s /\ ifaces_exist (sg s) l.
Proof.
  unfold ifaces_lookup. induction l as [|i l IH]; intros s s1 u H; simpl in H.
  - unfold ret in H. inversion H; subst. split; auto. intros j [].
  - unfold bind at 1 in H. unfold bind at 1 in H. unfold ask at 1 in H.
    destruct (find_node (sg s) (ih_id i)) eqn:E; [|discriminate].
    unfold ret at 1 in H. apply IH in H as [-> Hl]. split; auto.
    intros j [<-|Hj]; [eexists; eauto|auto].
Qed.

Lemma new_link_atomic fl name node_id ltype ifs pure : atomic (new_link fl name node_id ltype ifs pure).
Proof.
  apply clean_atomic. unfold new_link.
  apply clean_bind; [nm|intro]. apply clean_bind; [nm|intro id].
  destruct ltype as [ty|]; [|apply clean_nm; nm].
  destruct ifs as [[|i l]|]; try solve [apply clean_nm; nm]. checks.
  intros s s' e _ H _. apply bind_err_cases in H as [H|(s0 & u & E0 & H)]; [exact (no_mut_ifaces_lookup _ _ _ _ H)|].
  apply (ifaces_lookup_ok (i :: l)) in E0 as [-> Hex].
  unfold bind at 1 in H. unfold m_add_node, mutate in H.
  unfold g_add_node in H. simpl nid in H.
  destruct (has_node (sg s) id) eqn:Hn; [inversion H; reflexivity|].
  exfalso.
  set (g1 := mkGraph (gnodes (sg s) ++ [mkNode id cLink name ty 0]) (gedges (sg s))) in *.
  destruct (for_each_edges_ok id rConnects (i :: l) (mkSt g1 (sfresh s))) as [s4 H4].
  - eexists. apply (find_node_added (sg s) (mkNode id cLink name ty 0)). exact Hn.
  - intros j Hj. destruct (Hex j Hj) as [y Hy]. exists y.
    apply (find_node_kept (sg s) (mkNode id cLink name ty 0)); auto.
  - unfold bind in H. rewrite H4 in H. discriminate.
Qed.

Lemma op_add_link_atomic fl name node_id ltype ifs pure : atomic (op_add_link fl name node_id ltype ifs pure).
Proof.
  apply clean_atomic. unfold op_add_link. checks. apply atomic_clean, new_link_atomic.
Qed.

(* with the parent look-up of C09-8 the constructor is atomic whatever the handle *)
Lemma new_interface_pc_atomic fl name node_id p itype pure : atomic (new_interface_pc fl name node_id p itype pure).
Proof.
  apply clean_atomic. unfold new_interface_pc. checks.
  destruct itype as [ty|]; [|apply clean_nm; nm].
  apply clean_bind; [nm|intro]. apply clean_bind; [nm|intro]. apply clean_ask; intro pn.
  eapply clean_weaken; [|apply (clean_node_edge any (mkNode _ cCP name ty 0) p rConnects (ret _))].
  - intros g [_ H]. exists pn. exact H.
  - nm.
  - intro s; do 2 eexists; reflexivity.
Qed.

Lemma add_interface_h_pc_atomic fl ns cached name node_id itype pure :
  atomic (add_interface_h true fl ns cached name node_id itype pure).
Proof. apply clean_atomic. unfold add_interface_h. checks. apply atomic_clean, new_interface_pc_atomic. Qed.

Lemma add_interface_h_found pc fl ns cached name node_id itype pure :
  clean any (fun g => found g ns) (add_interface_h pc fl ns cached name node_id itype pure).
Proof.
  unfold add_interface_h. checks.
  destruct pc; [apply atomic_clean, new_interface_pc_atomic|apply new_interface_clean].
Qed.

(* calls on existing elements: checks, then one write *)
Lemma op_rename_atomic x kind new_name : atomic (op_rename x kind new_name).
Proof. apply clean_atomic. unfold op_rename. checks. apply clean_mutate. Qed.

Lemma op_set_props_atomic x pure new_rest : atomic (op_set_props x pure new_rest).
Proof. apply clean_atomic. unfold op_set_props. checks. apply clean_mutate. Qed.

Lemma op_remove_link_atomic name : atomic (op_remove_link name).
Proof. apply clean_atomic. unfold op_remove_link. checks. apply clean_mutate. Qed.

Lemma op_add_child_atomic fl x name node_id lv pure : atomic (op_add_child fl x name node_id lv pure).
Proof.
  apply clean_atomic. unfold op_add_child. apply clean_ask; intro t. checks.
  eapply clean_weaken; [|apply new_interface_clean].
  intros g [_ H]. eapply node_type_found; eauto.
Qed.
