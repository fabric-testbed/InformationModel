(* C19: the obligations over the REGENERATED template table (Gen/Cypher.v): a genuinely finite domain -
   one template per session.run site / variant of the backend (plus one per statement nested in an escaped
   literal) - decided by vm_compute and lifted with forallb_forall, then combined with the unbounded soundness
   theorem of Cypher19Sound.  Everything here is table-driven: the same file compiles whether or not
   known_ops (Model/Cypher19.v) is empty. *)
From Coq Require Import List NArith Bool String.
Import ListNotations.
From FIM Require Import Base.Str Model.Cypher19 Gen.Cypher Proofs.Cypher19Sound.
Open Scope N_scope.

Lemma gen_ok_true : gen_ok = true.
Proof. reflexivity. Qed.

Lemma all_ops_partial_b : forallb (fun t => tmpl_ok t || excused t) gen_templates = true.
Proof. vm_compute. reflexivity. Qed.

(* the list of excused operations is tight: each of them really has a template with a value-class hole *)
Lemma known_ops_tight :
  forallb (fun op => existsb (fun t => str_eqb (t_op t) op && has_value_hole (t_frags t)) gen_templates) known_ops = true.
Proof. vm_compute. reflexivity. Qed.

Lemma interface_constants_ok : forallb ident_okb gen_ident_constants = true.
Proof. vm_compute. reflexivity. Qed.

Lemma interface_constants_In : forall c, In c gen_ident_constants -> ident_okb c = true.
Proof. exact (proj1 (forallb_forall _ _) interface_constants_ok). Qed.

(* nested statements: the parent contains the escape of the nested template *)
Lemma nested_ok_b : forallb (nested_pair_ok gen_templates) gen_nested = true.
Proof. vm_compute. reflexivity. Qed.

Theorem nested_denote :
  forall p, In p gen_nested ->
  exists tn tp, find_by_id gen_templates (fst p) = Some tn /\ find_by_id gen_templates (snd p) = Some tp /\
    forall e, idents_ok (t_frags tn) e ->
    exists a b, render (t_frags tp) e = a ++ esc_q (render (t_frags tn) e) ++ b.
Proof. intros p Hin. exact (nested_pair_denotes _ p (proj1 (forallb_forall _ _) nested_ok_b p Hin)). Qed.

(* what a checked table gives, for any table *)
Lemma checked_partial ts :
  forallb (fun t => tmpl_ok t || excused t) ts = true ->
  forall t, In t ts -> excused t = false -> conforms t.
Proof.
  intros Hb t Hin Hex. apply tmpl_ok_conforms.
  pose proof (proj1 (forallb_forall _ _) Hb t Hin) as H. cbv beta in H.
  rewrite Hex, orb_false_r in H. exact H.
Qed.

(* the full statement (no operation excused): either it holds, or the first excused template is refuted by
   two environments that agree on the identifier holes: every hole "a", and every value hole a quote and a
   second statement *)
Definition memN (v : N) (l : list N) : bool := existsb (N.eqb v) l.
Definition env_a : env := fun _ => S"a".
Definition env_b (fs : list frag) : env := fun v => if memN v (ident_vars fs) then S"a" else S"a""}) detach delete n //".

Definition witness_b (t : tmpl) : bool :=
  let fs := t_frags t in
  idents_okb fs env_a && negb (str_eqb (render fs env_a) (render fs (env_b fs)))
  && negb (wf_b (render fs (env_b fs)) (t_params t)).

Lemma witness_refutes t : witness_b t = true -> refuted_by_value t.
Proof.
  unfold witness_b. intro Hb.
  apply andb_true_iff in Hb as [Hb H3]. apply andb_true_iff in Hb as [H1 H2].
  exists env_a, (env_b (t_frags t)). split; [exact (idents_okb_ok _ _ H1)|].
  split; [|split].
  - intros v Hv. unfold env_b, memN. rewrite (proj2 (existsb_exists _ _)); [reflexivity|].
    exists v. split; [exact Hv|apply N.eqb_refl].
  - intro Heq. rewrite Heq, str_eqb_refl in H2. discriminate.
  - apply negb_true_iff, H3.
Qed.

Lemma first_excused_refuted :
  match find excused gen_templates with Some t => witness_b t | None => true end = true.
Proof. vm_compute. reflexivity. Qed.

Lemma checked_status ts :
  forallb (fun t => tmpl_ok t || excused t) ts = true ->
  match find excused ts with Some t => witness_b t | None => true end = true ->
  match find excused ts with
  | Some t => In t ts /\ excused t = true /\ refuted_by_value t
  | None => forall t, In t ts -> conforms t
  end.
Proof.
  intros Hb H. destruct (find excused ts) as [t|] eqn:Hf.
  - apply find_some in Hf as [Hin Hex]. exact (conj Hin (conj Hex (witness_refutes t H))).
  - intros t Hin. exact (checked_partial ts Hb t Hin (find_none _ _ Hf t Hin)).
Qed.
