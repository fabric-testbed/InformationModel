(* C14 - refinement: snapshot and rollback on the store model, nodes and connections. *)
From Coq Require Import List NArith Bool.
From FIM Require Import Model.Cbm14Store Model.Cbm14Spec Model.Cbm14Abs Proofs.Cbm14Frame
     Proofs.Cbm14RefBase Proofs.Cbm14RefEdge Proofs.Cbm14RefPrep Proofs.Cbm14RefMerge Proofs.Cbm14RefUnmerge.
Import ListNotations.
Open Scope N_scope.

Lemma copy_abs new m a t : copy_of new m a t ->
  absn t = absn a /\ wf_cnode t = wf_cnode a /\ abs_con (n_si t) = abs_con (n_si a).
Proof.
  intros [_ _ C O S L D _]. unfold absn, wf_cnode. rewrite C, O, S, L, D. auto.
Qed.

Theorem snapshot_refines_nodes cbm new st :
  J (s_next st) (s_nodes st) -> gexists cbm st = true -> gexists new st = false ->
  exists st', snapshot cbm new st = OOk st' /\
    (forall k, getn k (abs_nodes new st') = getn k (abs_nodes cbm st)) /\
    (forall h k, h <> new -> at_ h k (s_nodes st') = at_ h k (s_nodes st)) /\
    J (s_next st') (s_nodes st') /\
    (cbm_ok cbm (s_nodes st) -> cbm_ok new (s_nodes st')).
Proof.
  intros Jst GE FR. unfold snapshot. rewrite GE. cbn [negb]. eexists. split; [reflexivity|].
  destruct (clone_spec cbm new st Jst FR) as (cn & m & _ & _ & _ & _ & J2 & _ & OT & AN). cbv zeta in *.
  split; [|split; [exact OT|split; [exact J2|]]].
  - intro k. rewrite !getn_abs. specialize (AN k). destruct (at_ cbm k (s_nodes st)) as [a|].
    + destruct AN as (t & -> & R). simpl. rewrite (proj1 (copy_abs new m a t R)). reflexivity.
    + rewrite AN. reflexivity.
  - intros W n Hn Gn. pose proof (at_uniq new (n_nid n) _ n (J_ukeys _ _ J2) Hn Gn eq_refl) as A.
    specialize (AN (n_nid n)). destruct (at_ cbm (n_nid n) (s_nodes st)) as [a|] eqn:A0; [|congruence].
    destruct AN as (t & At & R). rewrite A in At. inversion At; subst t.
    destruct (copy_abs new m a n R) as (_ & E1 & E2). unfold con_ok. rewrite E1, E2.
    apply at_In in A0 as (Ha & Ga & _). apply (W a Ha Ga).
Qed.

Theorem snapshot_refines_edges cbm new st :
  J (s_next st) (s_nodes st) -> ebelow (s_next st) (s_edges st) -> gexists cbm st = true -> gexists new st = false ->
  exists st', snapshot cbm new st = OOk st' /\
    (forall e, gete e (abs_edges new st') = gete e (abs_edges cbm st)) /\
    (forall h e, h <> new -> gete e (abs_edges h st') = gete e (abs_edges h st)) /\
    ebelow (s_next st') (s_edges st').
Proof.
  intros Jst EB GE FR. pose proof Jst as (_ & B & _).
  unfold snapshot. rewrite GE. cbn [negb]. eexists. split; [reflexivity|].
  destruct (clone_spec cbm new st Jst FR) as (cn & m & _ & EE & _ & RN & J2 & EB' & OT & AN). cbv zeta in *.
  split; [|split; [|exact (EB' EB)]].
  - apply (abs_edges_ext _ _ cbm st new _ Jst J2). intros x y. unfold conn_at.
    pose proof (AN x) as Ax. pose proof (AN y) as Ay.
    destruct (at_ cbm x (s_nodes st)) as [cx|]; [destruct Ax as (tx & -> & Rx)|rewrite Ax; reflexivity].
    destruct (at_ cbm y (s_nodes st)) as [cy|]; [destruct Ay as (ty & -> & Ry)|rewrite Ay; reflexivity].
    assert (lookup m (n_int cx) = Some (n_int tx)) as Lx by apply (cp_int _ _ _ _ Rx).
    assert (lookup m (n_int cy) = Some (n_int ty)) as Ly by apply (cp_int _ _ _ _ Ry).
    rewrite EE, edat_app, (edat_below _ _ (n_int tx) (n_int ty) EB (proj1 RN _ _ Lx)).
    apply (clone_edges_edat (s_next st) m (s_edges st) _ _ _ _ RN Lx Ly).
  - intros h e NH. apply (abs_edges_kept _ _ h st _ Jst J2); [intro k; apply OT; auto|].
    intros a b Hx _ _ _. rewrite EE, edat_app. destruct (edat (s_edges st) (n_int a) (n_int b)); auto.
    apply (clone_edges_old (s_next st)); auto.
Qed.

Lemma delete_graph_list g st :
  delete_graph g st = fold_left (fun s i => delete_node i s) (gints g st) st.
Proof.
  unfold delete_graph, gints. generalize st at 2 4. induction (of_gid g st) as [|n r IH]; simpl; auto.
Qed.

(* the store after rollback: the combined graph deleted, the snapshot re-homed *)
Lemma rollback_run cbm sid st :
  J (s_next st) (s_nodes st) -> sid <> cbm -> gexists sid st = true ->
  exists st', rollback cbm sid st = OOk st' /\
    s_nodes st' = map (rehomed cbm sid) (filter (fun n => negb (n_gid n =? cbm)) (s_nodes st)) /\
    s_edges st' = filter (fun e => negb (memN (e_a e) (gints cbm st)) && negb (memN (e_b e) (gints cbm st))) (s_edges st) /\
    s_next st' = s_next st.
Proof.
  intros (U & B & K) NE GE.
  assert (s_nodes (delete_graph cbm st) = filter (fun n => negb (n_gid n =? cbm)) (s_nodes st)) as EN.
  { rewrite delete_graph_list. destruct (fold_delete_nodes (gints cbm st) st) as [-> _].
    apply filter_ext_in. intros n Hn. f_equal. destruct (n_gid n =? cbm) eqn:G.
    - apply memN_In. apply in_gints; auto. apply N.eqb_eq. exact G.
    - apply memN_false. apply not_in_gints; auto. apply N.eqb_neq. exact G. }
  assert (gexists sid (delete_graph cbm st) = true) as GE'.
  { destruct (gexists_at sid st GE) as (k & n & A). apply (at_gexists sid k _ n).
    rewrite EN, at_filter_gid. apply N.eqb_neq in NE. rewrite NE. exact A. }
  unfold rollback. rewrite (rollback_gen_live _ cbm sid st GE GE'). unfold rehome. rewrite GE'.
  eexists. split; [reflexivity|]. unfold map_gid; simpl. rewrite EN. split; [reflexivity|].
  rewrite delete_graph_list, fold_delete_edges. split; [reflexivity|]. apply fold_delete_nodes.
Qed.

Theorem rollback_refines_nodes cbm sid st :
  J (s_next st) (s_nodes st) -> sid <> cbm -> gexists sid st = true ->
  exists st', rollback cbm sid st = OOk st' /\
    (forall k, getn k (abs_nodes cbm st') = getn k (abs_nodes sid st)) /\
    (forall h k, h <> cbm -> h <> sid -> at_ h k (s_nodes st') = at_ h k (s_nodes st)) /\
    (forall k, at_ sid k (s_nodes st') = None) /\
    J (s_next st') (s_nodes st') /\
    (cbm_ok sid (s_nodes st) -> cbm_ok cbm (s_nodes st')).
Proof.
  intros Jst NE GE. destruct (rollback_run cbm sid st Jst NE GE) as (st' & E & ES & _ & EX).
  exists st'. split; [exact E|]. rewrite ES, EX.
  set (D := filter (fun n => negb (n_gid n =? cbm)) (s_nodes st)) in *.
  assert (forall k, at_ cbm k D = None) as DC by (intro k; unfold D; rewrite at_filter_gid, N.eqb_refl; reflexivity).
  assert (forall h k, h <> cbm -> at_ h k D = at_ h k (s_nodes st)) as DO.
  { intros h k NH. unfold D. rewrite at_filter_gid. apply N.eqb_neq in NH. rewrite NH. reflexivity. }
  assert (cbm <> sid) as NE' by auto.
  split; [|split; [|split; [|split]]].
  - intro k. rewrite !getn_abs, ES, (rehomed_at_cbm_new cbm sid k D NE' (DC k)), DO; auto.
    destruct (at_ sid k (s_nodes st)); reflexivity.
  - intros h k H1 H2. rewrite rehomed_at_other; auto.
  - intro k. apply rehomed_at_tmp. auto.
  - apply rehomed_J; auto. apply J_filter. exact Jst.
  - intros W n Hn Gn. apply in_map_iff in Hn as (n0 & E0 & Hm). subst n.
    unfold D in Hm. apply filter_In in Hm as [Hm X]. apply negb_true_iff, N.eqb_neq in X.
    unfold rehomed in *. destruct (n_gid n0 =? sid) eqn:T; [|contradiction].
    apply N.eqb_eq in T. destruct (W n0 Hm T) as [W1 W2]. split; auto.
Qed.

Theorem rollback_refines_edges cbm sid st :
  J (s_next st) (s_nodes st) -> sid <> cbm -> gexists sid st = true ->
  exists st', rollback cbm sid st = OOk st' /\
    (forall e, gete e (abs_edges cbm st') = gete e (abs_edges sid st)) /\
    (forall h e, h <> cbm -> h <> sid -> gete e (abs_edges h st') = gete e (abs_edges h st)) /\
    (ebelow (s_next st) (s_edges st) -> ebelow (s_next st') (s_edges st')).
Proof.
  intros Jst NE GE. pose proof Jst as (U & _).
  destruct (rollback_refines_nodes cbm sid st Jst NE GE) as (st' & E & _ & OT & _ & J' & _).
  destruct (rollback_run cbm sid st Jst NE GE) as (st1 & E1 & ES & EE & EX).
  rewrite E in E1. inversion E1; subst st1; clear E1. exists st'. split; auto.
  assert (forall n, In n (s_nodes st) -> n_gid n <> cbm -> ~ In (n_int n) (gints cbm st)) as OD
    by (intros n Hn Gn; apply not_in_gints; auto).
  assert (forall k, at_ cbm k (s_nodes st') = option_map (set_gid cbm) (at_ sid k (s_nodes st))) as AC.
  { intro k. rewrite ES, rehomed_at_cbm_new, !at_filter_gid; auto.
    - apply N.eqb_neq in NE. rewrite NE. reflexivity.
    - rewrite at_filter_gid, N.eqb_refl. reflexivity. }
  split; [|split].
  - apply (abs_edges_ext _ _ sid st cbm st' Jst J'). intros x y. unfold conn_at. rewrite !AC.
    destruct (at_ sid x (s_nodes st)) as [nx0|] eqn:Ax; simpl; auto.
    destruct (at_ sid y (s_nodes st)) as [ny0|] eqn:Ay; simpl; auto.
    apply at_In in Ax as (Hx & Gx & _). apply at_In in Ay as (Hy & Gy & _).
    rewrite EE. apply edat_filter_ds; apply OD; auto; congruence.
  - intros h e H1 H2. apply (abs_edges_kept _ _ h st st' Jst J'); [intro k; apply OT; auto|].
    intros a b Hx Hy Gx Gy. rewrite EE. apply edat_filter_ds; apply OD; auto; congruence.
  - intro EB. rewrite EE, EX. apply ebelow_filter. exact EB.
Qed.
