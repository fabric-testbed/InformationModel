(* C02: set_properties with several keywords - what is read back, the frame, independence of the
   keyword order, and agreement with the fold of single set_property calls.  Generic in the class and
   in the completion flag (Node._complete_image_pair, fix c7cf34d). *)
From Coq Require Import List String Bool Permutation.
From FIM Require Import Base.ListFacts Model.Sliver2Kinds Gen.PropMap Model.Sliver2Map Model.Sliver2WF
  Proofs.Sliver2Assoc Proofs.Sliver2MapRT Proofs.Sliver2Elem.
Import ListNotations.

Local Opaque enums type_enum to_base from_base to_specific from_specific setters getters init_attrs
  sliver_property_to_graph no_unset_properties child_keys node_id_prop node_completes_image_pair.

Definition kvs := list (string * option fval).

Definition kv_val (k : kind) (kv : string * option fval) (xv : string * option fval) : Prop :=
  exists st, find_setter k (fst kv) = Some (fst xv, st) /\ apply_setter st (snd kv) = Ok (snd xv).

Lemma blank_with_spec k : forall (l : kvs) a a1,
  blank_with k l a = Ok a1 -> exists xs, Forall2 (kv_val k) l xs /\ a1 = asets xs a.
Proof.
  induction l as [|[kw v] l IH]; intros a a1 H; simpl in H.
  - inversion H; subst. exists []. split; [constructor | reflexivity].
  - destruct (find_setter k kw) as [[x st]|] eqn:Efs; [|discriminate H].
    destruct (apply_setter st v) as [v'|] eqn:Eas; cbn [bind] in H; [|discriminate H].
    destruct (IH _ _ H) as [xs [HF Ha1]]. exists ((x, v') :: xs). split.
    + constructor; [|exact HF]. exists st. split; [exact Efs | exact Eas].
    + exact Ha1.
Qed.

Lemma blank_with_build k : forall (l : kvs) xs a,
  Forall2 (kv_val k) l xs -> blank_with k l a = Ok (asets xs a).
Proof.
  induction l as [|[kw v] l IH]; intros xs a HF; inversion HF; subst; [reflexivity|].
  destruct H1 as [st [Efs Eas]]. simpl in Efs, Eas. destruct y as [x v']. simpl in *.
  rewrite Efs, Eas. cbn [bind]. apply IH. exact H3.
Qed.

Lemma targets_of_vals k : forall (l : kvs) xs, Forall2 (kv_val k) l xs -> akeys xs = kw_targets k l.
Proof.
  induction 1 as [|kv xv l xs H HF IH]; [reflexivity|].
  destruct H as [st [Efs _]]. unfold kw_targets. simpl. rewrite Efs. simpl. f_equal. exact IH.
Qed.

Lemma kws_ok_parts k (l : kvs) : kws_ok k l = true ->
  NoDup (kw_targets k l) /\ forall x, In x (kw_targets k l) -> In x (data_attrs k).
Proof.
  unfold kws_ok. intro H. apply andb_true_iff in H as [H1 H2]. split; [apply nodupb_NoDup; exact H1|].
  intros x Hx. unfold kw_targets in Hx. apply in_flat_map in Hx as [kv [Hkv Hx]].
  rewrite forallb_forall in H2. specialize (H2 kv Hkv).
  destruct (find_setter k (fst kv)) as [[y st]|]; [|contradiction].
  destruct Hx as [E|[]]. subst y. apply mem_true_iff. exact H2.
Qed.

Lemma asets_lookup_other {V} (xs cur : list (string * V)) x :
  ~ In x (akeys xs) -> alookup x (asets xs cur) = alookup x cur.
Proof. apply asets_lookup_notin. Qed.

Lemma NoDup_nodupb l : NoDup l -> nodupb l = true.
Proof.
  induction 1 as [|x l NI ND IH]; [reflexivity|]. simpl. rewrite IH.
  destruct (mem x l) eqn:E; [apply mem_true_iff in E; contradiction | reflexivity].
Qed.

Lemma aset_nodup {V} x (v : V) l : NoDup (akeys l) -> NoDup (akeys (aset x v l)).
Proof.
  intro ND. destruct (in_dec string_dec x (akeys l)) as [Hin|Hn].
  - rewrite akeys_aset_in by exact Hin. exact ND.
  - rewrite akeys_aset_notin by exact Hn. apply NoDup_snoc; assumption.
Qed.

Lemma asets_nodup {V} (xs cur : list (string * V)) : NoDup (akeys cur) -> NoDup (akeys (asets xs cur)).
Proof.
  revert cur. induction xs as [|[x v] xs IH]; intros cur ND; [exact ND|].
  unfold asets in *. simpl. apply IH. apply aset_nodup. exact ND.
Qed.

Section Multi.
  Variables (c : bool) (k : kind) (l l' : kvs) (d : props).
  Hypothesis Hs : tables_symmetric k = true.
  Hypothesis Hc : completed_kvs c k l d = Ok l'.
  Hypothesis Hkw : kws_ok k l' = true.
  Hypothesis Hv : values_ok k l' = true.
  Hypothesis Hrd : readable k d = true.

  Theorem multi_get :
    exists d', set_properties_with c k l d = Ok d' /\ readable k d' = true /\
      (forall p v x, In (p, Some v) l' -> settable k p = Some x -> get_property k p d' = Ok (stored k p v)) /\
      (forall q y, settable k q = Some y -> ~ In y (kw_targets k l') -> aget y (blank k) = None ->
                   always_written k y = false -> get_property k q d' = get_property k q d).
  Proof.
    unfold values_ok in Hv. destruct (blank_with k l' (blank k)) as [a1|] eqn:Eb; [|discriminate Hv].
    destruct (blank_with_spec k l' _ _ Eb) as [xs [HF Ha1]].
    destruct (kws_ok_parts k l' Hkw) as [NDt Hin].
    assert (Hkeys_xs := targets_of_vals k l' xs HF).
    destruct (weak_parts k a1 Hv) as [Hkeys Hweak].
    destruct (to_props_defined_weak k a1 Hs Hkeys Hweak) as [pd Hpd].
    exists (aupdate d pd). split; [|split; [|split]].
    - unfold set_properties_with. rewrite Hc. cbn [bind]. rewrite Eb. cbn [bind]. rewrite Hpd. reflexivity.
    - destruct (from_props_lookup k _ Hs (upd_all_ok k a1 d pd Hs Hv Hrd Hpd)) as [r [Hr _]].
      destruct (readable_parts k d Hrd) as [_ NDd].
      unfold readable. rewrite Hr. cbn [is_ok andb].
      rewrite aupdate_is_asets. apply NoDup_nodupb. apply asets_nodup. exact NDd.
    - intros p v x Hp Hset.
      destruct (settable_parts k p x Hset) as [st [gk [Hfs [Hfg Hxd]]]].
      destruct (Forall2_in_l _ _ _ (p, Some v) HF Hp) as [[x' o] [Hxo [st' [Efs Eas]]]].
      cbn [fst snd] in Efs, Eas. rewrite Hfs in Efs. inversion Efs; subst x' st'.
      destruct (apply_setter_some _ _ _ Eas) as [w Hw]. subst o.
      assert (Hst : stored k p v = Some w) by (unfold stored; rewrite Hfs, Eas; reflexivity).
      rewrite Hst. apply (upd_get_written k a1 d pd Hs Hv Hrd Hpd p x w Hset).
      unfold aget. rewrite Ha1. rewrite (asets_lookup_in xs (blank k) x (Some w)); [reflexivity | rewrite Hkeys_xs; exact NDt | exact Hxo].
    - intros q y Hset Hny Hblank Hal.
      apply (upd_get_frame k a1 d pd Hs Hv Hrd Hpd q y Hset); [|exact Hal].
      unfold aget in *. rewrite Ha1. rewrite asets_lookup_notin by (rewrite Hkeys_xs; exact Hny). exact Hblank.
  Qed.
End Multi.

Lemma aset_comm {V} x y (v w : V) a :
  x <> y -> In x (akeys a) -> In y (akeys a) -> aset x v (aset y w a) = aset y w (aset x v a).
Proof.
  intros Hxy. induction a as [|[z u] a IH]; simpl; intros Hx Hy; [contradiction|].
  destruct (String.eqb y z) eqn:Eyz; destruct (String.eqb x z) eqn:Exz.
  - apply String.eqb_eq in Eyz. apply String.eqb_eq in Exz. congruence.
  - simpl. rewrite Exz, Eyz. reflexivity.
  - simpl. rewrite Exz, Eyz. reflexivity.
  - simpl. rewrite Exz, Eyz. f_equal. apply IH.
    + destruct Hx as [E|Hx]; [|exact Hx]. rewrite E in Exz. rewrite String.eqb_refl in Exz. discriminate Exz.
    + destruct Hy as [E|Hy]; [|exact Hy]. rewrite E in Eyz. rewrite String.eqb_refl in Eyz. discriminate Eyz.
Qed.

Lemma kw_targets_perm k (l l2 : kvs) : Permutation l l2 -> Permutation (kw_targets k l) (kw_targets k l2).
Proof. intro H. unfold kw_targets. apply Permutation_flat_map. exact H. Qed.

Lemma blank_with_perm k (l l2 : kvs) : Permutation l l2 -> forall a a1,
  NoDup (kw_targets k l) -> (forall x, In x (kw_targets k l) -> In x (akeys a)) ->
  blank_with k l a = Ok a1 -> blank_with k l2 a = Ok a1.
Proof.
  induction 1 as [|[kw v] l l2 HP IH|[kw1 v1] [kw2 v2] l|l l2 l3 HP1 IH1 HP2 IH2]; intros a a1 ND Hin H.
  - exact H.
  - simpl in *. unfold kw_targets in ND, Hin. simpl in ND, Hin.
    destruct (find_setter k kw) as [[x st]|] eqn:Efs; [|discriminate H].
    destruct (apply_setter st v) as [v'|]; cbn [bind] in *; [|discriminate H].
    simpl in ND, Hin. inversion ND; subst. apply IH; [assumption | | exact H].
    intros y Hy. rewrite akeys_aset_in by (apply Hin; left; reflexivity). apply Hin. right. exact Hy.
  - simpl in *. unfold kw_targets in ND, Hin. simpl in ND, Hin.
    destruct (find_setter k kw2) as [[x2 st2]|] eqn:E2; [|discriminate H].
    destruct (apply_setter st2 v2) as [v2'|]; cbn [bind] in *; [|discriminate H].
    destruct (find_setter k kw1) as [[x1 st1]|] eqn:E1; [|discriminate H].
    destruct (apply_setter st1 v1) as [v1'|]; cbn [bind] in *; [|discriminate H].
    simpl in ND, Hin. inversion ND as [|? ? NI ND']; subst.
    rewrite aset_comm; [exact H | | apply Hin; left; reflexivity | apply Hin; right; left; reflexivity].
    intro E. subst. apply NI. left. reflexivity.
  - apply (IH2 a a1).
    + apply (Permutation_NoDup (kw_targets_perm k _ _ HP1) ND).
    + intros x Hx. apply Hin. apply (Permutation_in x (Permutation_sym (kw_targets_perm k _ _ HP1)) Hx).
    + apply (IH1 a a1 ND Hin H).
Qed.

Theorem multi_perm c k (l l2 : kvs) d d1 :
  completed_kvs c k l d = Ok l -> completed_kvs c k l2 d = Ok l2 ->
  kws_ok k l = true -> Permutation l l2 ->
  set_properties_with c k l d = Ok d1 -> set_properties_with c k l2 d = Ok d1.
Proof.
  intros Hc1 Hc2 Hkw HP H. destruct (kws_ok_parts k l Hkw) as [ND Hin].
  unfold set_properties_with in *. rewrite Hc1 in H. rewrite Hc2. cbn [bind] in *.
  destruct (blank_with k l (blank k)) as [a1|] eqn:Eb; cbn [bind] in H; [|discriminate H].
  rewrite (blank_with_perm k l l2 HP (blank k) a1 ND Hin Eb). exact H.
Qed.

Definition no_pair_kw (l : kvs) : bool :=
  forallb (fun kv => negb (mem (fst kv) ["image_ref"; "image_type"]%string)) l.

Lemma kv_get_nopair (l : kvs) p :
  no_pair_kw l = true -> mem p ["image_ref"; "image_type"]%string = true -> kv_get p l = None.
Proof.
  intros Hn Hp. unfold kv_get. destruct (alookup p l) as [o|] eqn:E; [|reflexivity].
  apply alookup_some_in in E. unfold no_pair_kw in Hn. rewrite forallb_forall in Hn.
  specialize (Hn _ E). cbn [fst] in Hn. rewrite Hp in Hn. discriminate Hn.
Qed.

Lemma completed_nopair c k (l : kvs) d : no_pair_kw l = true -> completed_kvs c k l d = Ok l.
Proof.
  intro Hn. unfold completed_kvs. destruct (c && kind_eqb k KNode); [|reflexivity].
  unfold image_pairs. cbn [complete_pairs].
  rewrite (kv_get_nopair l "image_ref" Hn eq_refl). rewrite (kv_get_nopair l "image_type" Hn eq_refl).
  reflexivity.
Qed.

Lemma completed_single c k p v d :
  mem p ["image_ref"; "image_type"]%string = false -> completed_kvs c k [(p, Some v)] d = Ok [(p, Some v)].
Proof. intro Hnp. apply completed_nopair. unfold no_pair_kw. cbn [forallb fst]. rewrite Hnp. reflexivity. Qed.

Fixpoint set_each (c : bool) (k : kind) (l : list (string * fval)) (d : props) : res props :=
  match l with
  | [] => Ok d
  | (p, v) :: r => bind (set_property_with c k p (Some v) d) (set_each c k r)
  end.

Definition opt_kvs (l : list (string * fval)) : kvs := map (fun pv => (fst pv, Some (snd pv))) l.

(* every keyword is a settable property on a plain attribute (not the always-rewritten flag), its
   value accepted by its setter *)
Definition kw_plain (k : kind) (pv : string * fval) : bool :=
  negb (mem (fst pv) ["image_ref"; "image_type"]%string) &&
  match settable k (fst pv) with
  | Some x => negb (always_written k x) && match aget x (blank k) with None => true | Some _ => false end
              && values_ok k [(fst pv, Some (snd pv))]
  | None => false
  end.

Lemma get_same_attr k p q y d :
  settable k p = Some y -> settable k q = Some y -> get_property k q d = get_property k p d.
Proof.
  intros Hp Hq. destruct (settable_parts k p y Hp) as [_ [gp [_ [Hgp _]]]].
  destruct (settable_parts k q y Hq) as [_ [gq [_ [Hgq _]]]].
  unfold get_property. rewrite Hgp, Hgq. destruct gp, gq; reflexivity.
Qed.

Lemma kw_targets_cons k p (v : option fval) (r : kvs) x :
  settable k p = Some x -> kw_targets k ((p, v) :: r) = x :: kw_targets k r.
Proof.
  intro H. destruct (settable_parts k p x H) as [st [_ [Hfs _]]]. unfold kw_targets. simpl. rewrite Hfs. reflexivity.
Qed.

Lemma settable_target k p x : settable k p = Some x -> kw_targets k [(p, @None fval)] = [x].
Proof. apply kw_targets_cons. Qed.

Lemma kws_ok_single k p v x : settable k p = Some x -> kws_ok k [(p, Some v)] = true.
Proof.
  intro H. destruct (settable_parts k p x H) as [st [_ [Hfs [_ Hxd]]]].
  unfold kws_ok, kw_targets. simpl. rewrite Hfs. simpl. apply mem_true_iff in Hxd. rewrite Hxd. reflexivity.
Qed.

Lemma set_each_spec c k : tables_symmetric k = true -> forall l d,
  forallb (kw_plain k) l = true -> NoDup (kw_targets k (opt_kvs l)) -> readable k d = true ->
  exists df, set_each c k l d = Ok df /\ readable k df = true /\
    (forall p v x, In (p, v) l -> settable k p = Some x -> get_property k p df = Ok (stored k p v)) /\
    (forall q y, settable k q = Some y -> ~ In y (kw_targets k (opt_kvs l)) -> aget y (blank k) = None ->
                 always_written k y = false -> get_property k q df = get_property k q d).
Proof.
  intro Hs. induction l as [|[p v] r IH]; intros d Hpl ND Hrd.
  - exists d. split; [reflexivity|]. split; [exact Hrd|]. split; [intros ? ? ? []| intros; reflexivity].
  - simpl in Hpl. apply andb_true_iff in Hpl as [Hp Hr]. unfold kw_plain in Hp. cbn [fst snd] in Hp.
    apply andb_true_iff in Hp as [Hnp Hp].
    apply negb_true_iff in Hnp. assert (Hcomp := completed_single c k p v d Hnp).
    destruct (settable k p) as [x|] eqn:Eset; [|discriminate Hp].
    apply andb_true_iff in Hp as [Hp Hval]. apply andb_true_iff in Hp as [Hal Hbl].
    apply negb_true_iff in Hal. destruct (aget x (blank k)) eqn:Ebl; [discriminate Hbl|].
    change (opt_kvs ((p, v) :: r)) with ((p, Some v) :: opt_kvs r) in ND.
    rewrite (kw_targets_cons k p (Some v) (opt_kvs r) x Eset) in ND. inversion ND as [|? ? NI ND']; subst.
    destruct (multi_get c k [(p, Some v)] [(p, Some v)] d Hs Hcomp (kws_ok_single k p v x Eset) Hval Hrd)
      as [d1 [Hd1 [Hrd1 [Hw1 Hf1]]]].
    destruct (IH d1 Hr ND' Hrd1) as [df [Hdf [Hrdf [Hw Hf]]]].
    exists df. split; [|split; [exact Hrdf|split]].
    + simpl. unfold set_property_with. rewrite Hd1. cbn [bind]. exact Hdf.
    + intros p' v' x' Hin Hset'. destruct Hin as [E|Hin].
      * inversion E; subst p' v'. rewrite Eset in Hset'. inversion Hset'; subst x'.
        rewrite (Hf p x Eset NI Ebl Hal). apply (Hw1 p v x (or_introl eq_refl) Eset).
      * apply (Hw p' v' x' Hin Hset').
    + intros q y Hq Hny Hb Ha. change (opt_kvs ((p, v) :: r)) with ((p, Some v) :: opt_kvs r) in Hny.
      rewrite (kw_targets_cons k p (Some v) (opt_kvs r) x Eset) in Hny.
      rewrite (Hf q y Hq (fun H => Hny (or_intror H)) Hb Ha).
      apply (Hf1 q y Hq); [|exact Hb|exact Ha].
      rewrite (kw_targets_cons k p (Some v) [] x Eset). intros [E|[]]. apply Hny. left. exact E.
Qed.

Lemma plain_nopair k (l : list (string * fval)) : forallb (kw_plain k) l = true -> no_pair_kw (opt_kvs l) = true.
Proof.
  intro H. unfold no_pair_kw, opt_kvs. rewrite forallb_forall in *. intros kv Hkv.
  apply in_map_iff in Hkv as [pv [E Hpv]]. subst kv. cbn [fst]. specialize (H pv Hpv).
  unfold kw_plain in H. apply andb_true_iff in H as [H _]. exact H.
Qed.

Theorem multi_is_fold c k (l : list (string * fval)) d :
  tables_symmetric k = true ->
  forallb (kw_plain k) l = true -> kws_ok k (opt_kvs l) = true -> values_ok k (opt_kvs l) = true ->
  readable k d = true ->
  exists df dm, set_each c k l d = Ok df /\ set_properties_with c k (opt_kvs l) d = Ok dm /\
    forall q y, settable k q = Some y -> aget y (blank k) = None -> always_written k y = false ->
                get_property k q df = get_property k q dm.
Proof.
  intros Hs Hpl Hkw Hv Hrd. destruct (kws_ok_parts k _ Hkw) as [ND _].
  destruct (set_each_spec c k Hs l d Hpl ND Hrd) as [df [Hdf [_ [Hwf Hff]]]].
  destruct (multi_get c k (opt_kvs l) (opt_kvs l) d Hs (completed_nopair c k _ d (plain_nopair k l Hpl)) Hkw Hv Hrd)
    as [dm [Hdm [_ [Hwm Hfm]]]].
  exists df, dm. split; [exact Hdf | split; [exact Hdm|]].
  intros q y Hq Hb Ha.
  destruct (in_dec string_dec y (kw_targets k (opt_kvs l))) as [Hin|Hn].
  - unfold kw_targets in Hin. apply in_flat_map in Hin as [[p ov] [Hpin Hy]].
    unfold opt_kvs in Hpin. apply in_map_iff in Hpin as [[p' v] [E Hpv]]. inversion E; subst p ov. cbn [fst] in Hy.
    rewrite forallb_forall in Hpl. assert (Hp := Hpl _ Hpv). unfold kw_plain in Hp. cbn [fst snd] in Hp.
    apply andb_true_iff in Hp as [_ Hp].
    destruct (settable k p') as [x|] eqn:Eset; [|discriminate Hp].
    destruct (settable_parts k p' x Eset) as [st [_ [Hfs _]]]. rewrite Hfs in Hy. destruct Hy as [E'|[]]. subst x.
    rewrite (get_same_attr k p' q y df Eset Hq), (get_same_attr k p' q y dm Eset Hq).
    rewrite (Hwf p' v y Hpv Eset).
    rewrite (Hwm p' v y); [reflexivity | | exact Eset].
    unfold opt_kvs. apply in_map_iff. exists (p', v). split; [reflexivity | exact Hpv].
  - rewrite (Hff q y Hq Hn Hb Ha), (Hfm q y Hq Hn Hb Ha). reflexivity.
Qed.

(* the completion only adds or overrides keywords that were None: given values survive *)
Lemma aset_keeps {V} x (o2 : V) p o l :
  In (p, o) l -> (p = x -> alookup x l <> Some o) -> In (p, o) (aset x o2 l).
Proof.
  induction l as [|[z u] l IH]; simpl; intros Hin Hne; [contradiction|].
  destruct (String.eqb x z) eqn:E.
  - apply String.eqb_eq in E. subst z. destruct Hin as [Hin|Hin].
    + inversion Hin; subst. exfalso. apply (Hne eq_refl). reflexivity.
    + right. exact Hin.
  - destruct Hin as [Hin|Hin]; [left; exact Hin|]. right. apply IH; [exact Hin|].
    intros Ep. specialize (Hne Ep). exact Hne.
Qed.

Lemma complete_keeps k d : forall pairs (l l' : kvs) p v,
  complete_pairs k d pairs l = Ok l' -> In (p, Some v) l -> In (p, Some v) l'.
Proof.
  induction pairs as [|[one other] pairs IH]; intros l l' p v H Hin; simpl in H.
  - inversion H; subst. exact Hin.
  - destruct (kv_get one l) as [w1|]; [|apply (IH _ _ _ _ H Hin)].
    destruct (kv_get other l) as [w2|] eqn:Eo; [apply (IH _ _ _ _ H Hin)|].
    destruct (get_property k other d) as [[w|]|]; cbn [bind] in H; try discriminate H.
    apply (IH _ _ _ _ H). apply aset_keeps; [exact Hin|].
    intros Ep Ec. subst p. unfold kv_get in Eo. rewrite Ec in Eo. discriminate Eo.
Qed.
