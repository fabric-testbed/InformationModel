(* C07 - obligations over the regenerated tables (Gen/Rules.v): they are the pinned specification tables, the
   enum members the API can write are inside the published vocabularies (except the recorded gap), the
   ViewOnlyDict class body offers read methods only. *)
From Coq Require Import String List Bool.
From FIM Require Import Base.Str Gen.Rules Model.T7Pinned Model.T7Graph Model.T7Ops Model.T7WF.
Import ListNotations.

Lemma tables_gen_ok : gen_ok = true.
Proof. reflexivity. Qed.

Definition all_tables :=
  (rule_classes, rule_types, rule_texts, rule_types_v4,
   (enum_node_types, enum_component_types, enum_interface_types, enum_service_types, enum_link_types),
   catalog, name_regexes, viewonly_bases, viewonly_methods).
Definition all_pinned :=
  (pinned_rule_classes, pinned_rule_types, pinned_rule_texts, pinned_rule_types_v4,
   (pinned_enum_node_types, pinned_enum_component_types, pinned_enum_interface_types, pinned_enum_service_types,
    pinned_enum_link_types),
   pinned_catalog, pinned_name_regexes, pinned_viewonly_bases, pinned_viewonly_methods).

Lemma tables_are_pinned : all_tables = all_pinned.
Proof. vm_compute. reflexivity. Qed.

(* type t may be written on a node of class c under the published rules *)
Definition type_allowed (c : cls) (t : str) : bool :=
  vocab_ok (mkNode [] c (Some t) (Some []) false).

Lemma mem_str_In x l : mem_str x l = true <-> In x l.
Proof.
  induction l as [|y l IH]; simpl; [split; [discriminate | tauto]|].
  rewrite orb_true_iff, IH, str_eqb_eq. split; intros [H|H]; auto.
Qed.

Lemma node_types_in_vocab : forall t, In t enum_node_types -> type_allowed KNode t = true.
Proof. apply forallb_forall. vm_compute. reflexivity. Qed.
Lemma component_types_in_vocab : forall t, In t enum_component_types -> type_allowed KComp t = true.
Proof. apply forallb_forall. vm_compute. reflexivity. Qed.
Lemma interface_types_in_vocab : forall t, In t enum_interface_types -> type_allowed KCP t = true.
Proof. apply forallb_forall. vm_compute. reflexivity. Qed.
Lemma link_types_in_vocab : forall t, In t enum_link_types -> type_allowed KLink t = true.
Proof. apply forallb_forall. vm_compute. reflexivity. Qed.

Lemma service_types_in_vocab : forall t, In t enum_service_types -> type_allowed KNS t = true.
Proof. apply forallb_forall. vm_compute. reflexivity. Qed.

(* the types the API itself chooses (component catalogue, facility / switch / peering constructs) *)
Definition builtin_types_ok : bool :=
  forallb (fun c => match c with (_, _, t, _) => type_allowed KComp t end) catalog &&
  forallb (type_allowed KCP) [sServicePort; sSubInterface; sDedicatedPort; sSharedPort; sFacilityPort] &&
  forallb (type_allowed KNS) [sOVS; sP4; sVLAN; sPortMirror] &&
  forallb (type_allowed KLink) [sL2Path; sPatch] &&
  forallb (type_allowed KNode) [sFacility; sSwitch] &&
  forallb (fun k => match class_name k with Some c => mem_str c rule_classes | None => false end)
          [KNode; KComp; KNS; KCP; KLink; KComposite].
Lemma builtin_types_in_vocab : builtin_types_ok = true.
Proof. vm_compute. reflexivity. Qed.

(* ViewOnlyDict(Mapping): every method defined in the class body is a read method *)
Definition read_methods : list str :=
  [S "__init__"; S "__iter__"; S "__len__"; S "__getitem__"; S "__repr__"; S "__str__"; S "__hash__";
   S "__contains__"; S "__eq__"; S "__ne__"; S "keys"; S "values"; S "items"; S "get"].
Lemma viewonly_is_read_only :
  viewonly_bases = [S "Mapping"] /\ forall m, In m viewonly_methods -> In m read_methods.
Proof.
  split; [vm_compute; reflexivity|].
  intros m Hin. apply mem_str_In.
  revert m Hin. apply forallb_forall. vm_compute. reflexivity.
Qed.
