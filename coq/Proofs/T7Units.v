(* C07 - the unit mutations add_plain, add_owned, add_link_edge, relabel and remove_set of Model/T7Steps.v keep the
   invariant WF under their boolean side conditions (add_peering and add_peering2 are composed of these in
   Proofs/T7RelAdd.v).  General (unbounded) lemmas: arbitrary graph, arbitrary new element. *)
From Coq Require Import List Bool.
From FIM Require Import Base.Str Gen.Rules Model.T7Graph Model.T7Ops Model.T7WF Model.T7Steps Model.T7Rel
     Proofs.T7Tables Proofs.T7WFRefl Proofs.T7Frame.
Import ListNotations.

(* comp_owners, ns_owners and cp_owners are one filter of the neighbours of y, indexed by the class k of the owned
   element; scope_of is that filter at the element's own class *)
Definition owner_edge (g : graph) (y : str) (k : cls) (j : str) (r : rel) : bool :=
  match k with
  | KComp => rel_eqb r Has && (cls_is g j KNode || cls_is g j KComposite)
  | KNS => rel_eqb r Has && (cls_is g j KNode || cls_is g j KComposite || cls_is g j KComp)
  | KCP => rel_eqb r Connects &&
           (cls_is g j KNS || (typ_is g y sSubInterface && cls_is g j KCP && negb (typ_is g j sSubInterface)))
  | _ => false
  end.
Definition owners (g : graph) (y : str) (k : cls) : list str := nb_where g y (owner_edge g y k).

Lemma comp_owners_eq g y : comp_owners g y = owners g y KComp.
Proof. reflexivity. Qed.
Lemma cp_owners_eq g y : cp_owners g y = owners g y KCP.
Proof. reflexivity. Qed.
Lemma scope_owners g n : scope_of g n = owners g (nid n) (ncls n).
Proof. unfold scope_of, owners, nb_where. destruct (ncls n); try reflexivity; induction (nbrs g (nid n)); auto. Qed.

(* owner_edge reads the class of the neighbour, its type when it is an interface, and the type of y when k = KCP *)
Lemma owner_edge_ext g g' y k j r :
  (forall c, cls_is g' j c = cls_is g j c) ->
  (cls_is g j KCP = true -> typ_is g' j sSubInterface = typ_is g j sSubInterface) ->
  (k = KCP -> typ_is g' y sSubInterface = typ_is g y sSubInterface) ->
  owner_edge g' y k j r = owner_edge g y k j r.
Proof.
  intros Hc Ht Hy. destruct k; simpl; rewrite ?Hc; try reflexivity. rewrite (Hy eq_refl).
  destruct (cls_is g j KCP); [rewrite Ht by reflexivity | rewrite !andb_false_r]; reflexivity.
Qed.

Definition stable (g g' : graph) (y : str) : Prop :=
  nbrs g' y = nbrs g y /\ find_nodes g' y = find_nodes g y /\
  (forall j r, In (j, r) (nbrs g y) -> find_nodes g' j = find_nodes g j).

Lemma first_nb_stable g g' y r k : stable g g' y -> first_nb g' y r k = first_nb g y r k.
Proof.
  intros [H1 [_ H3]]. rewrite !first_nb_as_where. apply nb_where_ext; [exact H1|].
  intros j r' Hin. rewrite (cls_is_ext _ _ _ _ (H3 _ _ Hin)). reflexivity.
Qed.
Lemma owners_stable g g' y k : stable g g' y -> owners g' y k = owners g y k.
Proof.
  intros [H1 [H2 H3]]. apply nb_where_ext; [exact H1|]. intros j r Hin.
  apply owner_edge_ext; intros; [apply cls_is_ext | apply typ_is_ext | apply typ_is_ext]; eauto.
Qed.

Lemma peers_stable g g' y :
  stable g g' y -> (forall l, In l (first_nb g y Connects KLink) -> stable g g' l) -> peers g' y = peers g y.
Proof.
  intros H HL. unfold peers. rewrite (first_nb_stable _ _ _ _ _ H).
  apply flat_map_ext_in. intros l Hl. rewrite (first_nb_stable _ _ _ _ _ (HL _ Hl)). reflexivity.
Qed.

Lemma typ_is_stable g g' y t : stable g g' y -> typ_is g' y t = typ_is g y t.
Proof. intros [_ [H _]]. apply typ_is_ext. exact H. Qed.

(* what the structure rule of an element reads: its owner list, the sub-interface flags at its interface neighbours, its
   peers when it is a service port, the classes at the ends when it is a link.  A neighbour that g did not have has to
   satisfy the rule by itself.  (m' is m, or m relabelled.) *)
Lemma struct_Pr_frame ep ep' g g' m m' :
  nid m' = nid m -> ncls m' = ncls m -> (ncls m = KCP -> ntyp m' = Some sServicePort -> ntyp m = Some sServicePort) ->
  owners g' (nid m) (ncls m) = owners g (nid m) (ncls m) ->
  (ncls m = KCP -> typ_is g' (nid m) sSubInterface = typ_is g (nid m) sSubInterface) ->
  (ncls m = KCP -> forall j, In j (first_nb g' (nid m) Connects KCP) ->
     (In j (first_nb g (nid m) Connects KCP) /\ typ_is g' j sSubInterface = typ_is g j sSubInterface) \/
     typ_is g' (nid m) sSubInterface <> typ_is g' j sSubInterface) ->
  (ncls m = KCP -> ntyp m = Some sServicePort -> ep' (nid m) = false ->
     ep (nid m) = false /\ peers g' (nid m) = peers g (nid m)) ->
  (ncls m = KLink -> forall j r, In (j, r) (nbrs g' (nid m)) ->
     (In (j, r) (nbrs g (nid m)) /\ cls_is g' j KCP = cls_is g j KCP) \/ (r = Connects /\ cls_is g' j KCP = true)) ->
  struct_Pr ep g m -> struct_Pr ep' g' m'.
Proof.
  intros Ei Ec Et EO Ty Nb Pe Li [S1 [S2 S3]]. unfold struct_Pr. rewrite Ei, Ec. split; [|split]; intro Hc.
  - rewrite comp_owners_eq, <- Hc, EO, Hc. auto.
  - destruct (S2 Hc) as [A [B C]]. split; [|split].
    + rewrite cp_owners_eq, <- Hc, EO, Hc. exact A.
    + intros j Hj. destruct (Nb Hc j Hj) as [[Hj' E]|N]; [|exact N]. rewrite (Ty Hc), E. auto.
    + intros Ht Hp. destruct (Pe Hc (Et Hc Ht) Hp) as [Hp' ->]. auto.
  - intros j r Hin. destruct (Li Hc j r Hin) as [[Hin' E]|N]; [|exact N]. rewrite E. auto.
Qed.

Lemma struct_stableR ep g g' m :
  stable g g' (nid m) ->
  (ntyp m = Some sServicePort -> ep (nid m) = false -> forall l, In l (first_nb g (nid m) Connects KLink) -> stable g g' l) ->
  struct_Pr ep g m -> struct_Pr ep g' m.
Proof.
  intros H HL. pose proof H as [H1 [H2 H3]]. apply struct_Pr_frame; auto.
  - apply owners_stable, H.
  - intros _. apply typ_is_stable, H.
  - intros _ j Hj. left. rewrite (first_nb_stable _ _ _ _ _ H) in Hj. split; [exact Hj|].
    apply In_first_nb in Hj as [Hj _]. exact (typ_is_ext _ _ _ _ (H3 _ _ Hj)).
  - intros _ Ht Hp. split; [exact Hp | exact (peers_stable _ _ _ H (HL Ht Hp))].
  - intros _ j r Hin. left. rewrite H1 in Hin. split; [exact Hin | exact (cls_is_ext _ _ _ _ (H3 _ _ Hin))].
Qed.

(* WF is WFr without exemptions *)
Lemma struct_P_Pr g n : struct_P g n <-> struct_Pr no_exempt g n.
Proof.
  unfold struct_P, struct_Pr, no_exempt.
  split; intros [A [B C]]; (split; [exact A | split; [|exact C]]); intro Hc; destruct (B Hc) as [B1 [B2 B3]]; auto.
Qed.

Lemma struct_stable g g' m :
  stable g g' (nid m) ->
  (ntyp m = Some sServicePort -> forall l, In l (first_nb g (nid m) Connects KLink) -> stable g g' l) ->
  struct_P g m -> struct_P g' m.
Proof.
  intros H HL St. apply struct_P_Pr.
  apply (struct_stableR no_exempt g); [exact H | intros Ht _; exact (HL Ht) | apply struct_P_Pr; exact St].
Qed.

Lemma scope_stable g g' m : stable g g' (nid m) -> scope_of g' m = scope_of g m.
Proof. intro H. rewrite !scope_owners. apply owners_stable. exact H. Qed.

Lemma name_clash_stable g g' a b :
  stable g g' (nid a) -> stable g g' (nid b) -> name_clash g' a b = name_clash g a b.
Proof. intros Ha Hb. unfold name_clash. rewrite (scope_stable _ _ _ Ha), (scope_stable _ _ _ Hb). reflexivity. Qed.

Lemma cls_is_unique g a k1 k2 : cls_is g a k1 = true -> k1 <> k2 -> cls_is g a k2 = false.
Proof.
  unfold cls_is. destruct (cls_of g a) as [c|]; [|discriminate]. intros H Hne. apply cls_eqb_eq in H. subst.
  destruct (cls_eqb k1 k2) eqn:E; [apply cls_eqb_eq in E; contradiction | reflexivity].
Qed.
Lemma cls_is_inj g a k1 k2 : cls_is g a k1 = true -> cls_is g a k2 = true -> k1 = k2.
Proof.
  unfold cls_is. destruct (cls_of g a) as [c|]; [|discriminate]. intros H1 H2. apply cls_eqb_eq in H1, H2. congruence.
Qed.
Lemma In_find_nodes g n : In n (gnodes g) -> In n (find_nodes g (nid n)).
Proof. intro H. apply find_nodes_In. auto. Qed.
Lemma has_id_find g x : has_id g x = true -> find_nodes g x <> [].
Proof. intros H E. apply has_id_In in H as [n Hn]. apply find_nodes_In in Hn. rewrite E in Hn. exact Hn. Qed.
Lemma cls_is_has_id g a k : cls_is g a k = true -> has_id g a = true.
Proof.
  unfold cls_is, cls_of. destruct (find_nodes g a) as [|n l] eqn:E; [discriminate|]. intros _. exact (find_nodes_has_id _ _ _ _ E).
Qed.
Lemma In_has_id g n : In n (gnodes g) -> has_id g (nid n) = true.
Proof. intro H. apply has_id_In. eauto. Qed.
Lemma find_nodes_unique g n : NoDup (map nid (gnodes g)) -> In n (gnodes g) -> find_nodes g (nid n) = [n].
Proof.
  intros ND Hin. apply NoDup_singleton; [apply NoDup_filter, (NoDup_map_inv _ _ ND)|]. intro y. rewrite find_nodes_In.
  split; [intros [Hy E]; exact (NoDup_map_inj nid _ _ _ ND Hy Hin E) | intros ->; auto].
Qed.
Lemma cls_is_node g n k : NoDup (map nid (gnodes g)) -> In n (gnodes g) -> cls_is g (nid n) k = cls_eqb (ncls n) k.
Proof. intros ND Hin. unfold cls_is, cls_of. rewrite (find_nodes_unique _ _ ND Hin). reflexivity. Qed.
Lemma typ_is_node g n t : NoDup (map nid (gnodes g)) -> In n (gnodes g) -> typ_is g (nid n) t = ostr_eqb (ntyp n) (Some t).
Proof.
  intros ND Hin. unfold typ_is, typ_of. rewrite (find_nodes_unique _ _ ND Hin).
  destruct (ntyp n); reflexivity.
Qed.
Lemma name_of_node g n : NoDup (map nid (gnodes g)) -> In n (gnodes g) -> name_of g (nid n) = nname n.
Proof. intros ND Hin. unfold name_of. rewrite (find_nodes_unique _ _ ND Hin). reflexivity. Qed.

Lemma ForallOrdPairs_snoc {A} (R : A -> A -> Prop) l x :
  ForallOrdPairs R l -> Forall (fun a => R a x) l -> ForallOrdPairs R (l ++ [x]).
Proof.
  induction l as [|a l IH]; simpl; intros H1 H2.
  - constructor; constructor.
  - inversion H1; subst. inversion H2; subst. constructor.
    + apply Forall_app. split; [assumption | constructor; [assumption | constructor]].
    + apply IH; assumption.
Qed.
Lemma ForallOrdPairs_impl_in {A} (R R' : A -> A -> Prop) l :
  (forall a b, In a l -> In b l -> R a b -> R' a b) -> ForallOrdPairs R l -> ForallOrdPairs R' l.
Proof.
  induction l as [|a l IH]; intros H F; [constructor|]. inversion F; subst. constructor.
  - rewrite Forall_forall in *. intros b Hb. apply H; [left; reflexivity | right; exact Hb | auto].
  - apply IH; [|assumption]. intros; apply H; try (right; assumption); assumption.
Qed.
Lemma ForallOrdPairs_filter {A} (R : A -> A -> Prop) f l : ForallOrdPairs R l -> ForallOrdPairs R (filter f l).
Proof.
  induction l as [|a l IH]; simpl; intro F; [constructor|]. inversion F; subst.
  destruct (f a); [|auto]. constructor; [|auto].
  rewrite Forall_forall in *. intros b Hb. apply filter_In in Hb as [Hb _]. auto.
Qed.

Lemma has_id_false_notin g x : has_id g x = false -> ~ In x (map nid (gnodes g)).
Proof.
  intros H Hin. apply in_map_iff in Hin as [n [E Hn]].
  assert (has_id g x = true) by (apply has_id_In; eauto). congruence.
Qed.

Lemma first_nb_has_id g y r k l :
  (forall e, In e (gedges g) -> edge_ends_P g e) -> In l (first_nb g y r k) -> has_id g l = true.
Proof. intros HE H. apply In_first_nb in H as [H _]. apply (nbrs_has_id _ _ _ _ HE) in H as [H _]. exact H. Qed.

Lemma name_clash_false_by_name g a b :
  negb (cls_eqb (ncls a) (ncls b) && ostr_eqb (nname a) (nname b)) = true -> name_clash g a b = false.
Proof.
  intro H. apply negb_true_iff in H. unfold name_clash.
  destruct (cls_eqb (ncls a) (ncls b)); [|reflexivity]. simpl in *.
  destruct (nname a) as [x|], (nname b) as [y|]; simpl in *; try reflexivity. rewrite H. reflexivity.
Qed.

Lemma WF_WFr g : WF g <-> WFr no_exempt no_exempt g.
Proof.
  split; intros [F V I E D St N]; constructor; auto.
  - intros n Hn _. apply struct_P_Pr. auto.
  - eapply ForallOrdPairs_impl_in; [|exact N]. intros a b _ _ H _ _. exact H.
  - intros n Hn. apply struct_P_Pr. auto.
  - eapply ForallOrdPairs_impl_in; [|exact N]. intros a b _ _ H. apply H; reflexivity.
Qed.

Lemma stable_add_node g n y :
  (forall e, In e (gedges g) -> edge_ends_P g e) -> has_id g (nid n) = false -> has_id g y = true ->
  stable g (g_add_node g n) y.
Proof.
  intros HE Hx Hy. split; [reflexivity|]. split; [exact (find_nodes_add_node_old _ _ _ Hx Hy)|].
  intros j r Hin. apply (find_nodes_add_node_old _ _ _ Hx). apply (nbrs_has_id _ _ _ _ HE) in Hin. tauto.
Qed.

Lemma edges_distinct_add g a r b :
  edges_distinct (gedges g) -> no_edge g a b = true -> edges_distinct (gedges (g_add_edge g a r b)).
Proof.
  intros D NE. rewrite (gedges_add_edge _ _ _ _ NE). apply ForallOrdPairs_snoc; [exact D|].
  apply Forall_forall. intros e He. simpl. rewrite same_ends_mk. exact (proj1 (no_edge_In _ _ _) NE e He).
Qed.

(* the clauses of WFr about single elements, when n is appended to the nodes *)
Lemma nodes_snoc_ok g n :
  (forall m, In m (gnodes g) -> fields_P m) -> (forall m, In m (gnodes g) -> vocab_P m) -> NoDup (map nid (gnodes g)) ->
  has_id g (nid n) = false -> new_node_ok n = true ->
  (forall m, In m (gnodes g ++ [n]) -> fields_P m) /\ (forall m, In m (gnodes g ++ [n]) -> vocab_P m) /\
  NoDup (map nid (gnodes g ++ [n])).
Proof.
  intros F V I Hf Hn. apply andb_true_iff in Hn as [Hfo Hvo]. split; [|split].
  - intros m Hm. apply in_app_or in Hm as [Hm|[<-|[]]]; [auto | apply fields_ok_P; exact Hfo].
  - intros m Hm. apply in_app_or in Hm as [Hm|[<-|[]]]; [auto | apply vocab_ok_P; exact Hvo].
  - rewrite map_app. apply NoDup_snoc; [exact I | apply has_id_false_notin; exact Hf].
Qed.

Lemma edge_ends_mono g g' e : (forall n, In n (gnodes g) -> In n (gnodes g')) -> edge_ends_P g e -> edge_ends_P g' e.
Proof. intros H [[na [A1 A2]] [nb [B1 B2]]]. split; [exists na | exists nb]; auto. Qed.

Theorem WFr_add_plain ep g n : WFr no_exempt ep g -> plain_ok g n = true -> WFr no_exempt ep (add_plain g n).
Proof.
  intros W H. unfold plain_ok in H. repeat (apply andb_true_iff in H as [H ?]).
  unfold fresh in H. apply negb_true_iff in H.
  destruct W as [F V I E D St N]. unfold add_plain. destruct (nodes_snoc_ok g n F V I H H2) as [F' [V' I']].
  assert (STB : forall m, In m (gnodes g) -> stable g (g_add_node g n) (nid m))
    by (intros m Hm; apply stable_add_node; auto using In_has_id).
  assert (STL : forall m, In m (gnodes g) -> forall l, In l (first_nb g (nid m) Connects KLink) -> stable g (g_add_node g n) l)
    by (intros m Hm l Hl; apply stable_add_node; auto; eapply first_nb_has_id; eauto).
  constructor; simpl; auto.
  - intros e He. apply (edge_ends_mono g); [intros; apply in_or_app; auto | auto].
  - intros m Hm _. apply in_app_or in Hm as [Hm|[Hm|[]]].
    + apply (struct_stableR ep g); auto. intros _ _. apply STL; assumption.
    + subst m. split; [|split]; intro Hc; rewrite Hc in H1; simpl in H1; try discriminate.
      intros j r Hin. rewrite nbrs_add_node, (nbrs_fresh_nil _ _ E H) in Hin. destruct Hin.
  - apply ForallOrdPairs_snoc.
    + eapply ForallOrdPairs_impl_in; [|exact N]. intros a b Ha Hb Hab _ _. simpl in Hab.
      rewrite (name_clash_stable g); auto.
    + apply Forall_forall. intros m Hm _ _. apply name_clash_false_by_name.
      unfold name_free in H0. rewrite forallb_forall in H0. apply H0. exact Hm.
Qed.

Theorem WF_add_plain g n : WF g -> plain_ok g n = true -> WF (add_plain g n).
Proof. intros W H. apply WF_WFr. apply WFr_add_plain; [apply WF_WFr; exact W | exact H]. Qed.

Lemma sServicePort_ne_sub : str_eqb sSubInterface sServicePort = false.
Proof. reflexivity. Qed.

Lemma is_type_excl n t1 t2 : is_type n t1 = true -> str_eqb t1 t2 = false -> is_type n t2 = false.
Proof.
  unfold is_type. intros H1 H2. apply ostr_eqb_eq in H1. rewrite H1. simpl. exact H2.
Qed.

Lemma list_eqb_str_eq (l1 l2 : list str) : list_eqb str_eqb l1 l2 = true -> l1 = l2.
Proof.
  revert l2; induction l1 as [|a l1 IH]; destruct l2 as [|b l2]; simpl; intro H; try discriminate; [reflexivity|].
  apply andb_true_iff in H as [H1 H2]. apply str_eqb_eq in H1. f_equal; auto.
Qed.

Lemma nb_where_single g y j r (P : str -> rel -> bool) :
  nbrs g y = [(j, r)] -> nb_where g y P = if P j r then [j] else [].
Proof. intro H. unfold nb_where. rewrite H. simpl. destruct (P j r); reflexivity. Qed.

Lemma owner_shape_ok_R g n a r : owner_shape_ok g n a r = true -> owner_shape_okR g n a r = true.
Proof.
  unfold owner_shape_ok, owner_shape_okR. destruct (ncls n); auto.
  rewrite !andb_true_iff. intros [[H1 _] H2]. auto.
Qed.

(* what the shape condition says, by class of the new element *)
Lemma owner_shape_cases g n a r : owner_shape_okR g n a r = true ->
  (ncls n = KComp /\ r = Has /\ (cls_is g a KNode = true \/ cls_is g a KComposite = true)) \/
  (ncls n = KNS /\ r = Has /\ (cls_is g a KNode = true \/ cls_is g a KComposite = true \/ cls_is g a KComp = true)) \/
  (ncls n = KCP /\ r = Connects /\
     ((is_type n sSubInterface = true /\ cls_is g a KCP = true /\ typ_is g a sSubInterface = false) \/
      (is_type n sSubInterface = false /\ cls_is g a KNS = true))).
Proof.
  unfold owner_shape_okR. destruct (ncls n); try discriminate;
    rewrite andb_true_iff, rel_eqb_eq, ?orb_true_iff; intros [H1 H2]; [tauto | tauto |].
  right; right. split; [reflexivity|]. split; [exact H1|].
  destruct (is_type n sSubInterface); [left | auto]. apply andb_true_iff in H2 as [H2 H3]. apply negb_true_iff in H3. auto.
Qed.

(* the owner exists and is no link *)
Lemma owner_shape_cls g n a r : owner_shape_okR g n a r = true -> exists k, cls_is g a k = true /\ k <> KLink.
Proof.
  intro H. destruct (owner_shape_cases _ _ _ _ H) as [[_ [_ [C|C]]]|[[_ [_ [C|[C|C]]]]|[_ [_ [[_ [C _]]|[_ C]]]]]];
    eexists; (split; [exact C | discriminate]).
Qed.
Lemma owner_not_link g n a r : owner_shape_ok g n a r = true -> cls_is g a KLink = false.
Proof.
  intro H. destruct (owner_shape_cls _ _ _ _ (owner_shape_ok_R _ _ _ _ H)) as [k [C Hk]]. exact (cls_is_unique _ _ _ _ C Hk).
Qed.

(* ao_*: how the queries read add_owned g n a r (frame facts, used by the API proofs too); aw_*: the steps of the
   preservation proof.  A trailing R: under owned_okR; the facts of the same name without it, after the section, are
   their instances under owned_ok. *)
Section AddOwnedR.
Variables (ep : str -> bool) (g : graph) (n : node) (a : str) (r : rel).
Let x := nid n.
Let g' := add_owned g n a r.
Hypothesis W : WFr no_exempt ep g.
Hypothesis OK : owned_okR g n a r = true.
Hypothesis HSP : ncls n = KCP -> is_type n sServicePort = true -> ep (nid n) = true.

Lemma aw_parts :
  has_id g x = false /\ (fields_ok n = true /\ vocab_ok n = true) /\ owner_shape_okR g n a r = true /\
  sibling_free g a r (ncls n) (nname n) = true.
Proof.
  pose proof OK as H. unfold owned_okR, fresh, new_node_ok in H. rewrite !andb_true_iff, negb_true_iff in H. tauto.
Qed.
Lemma aw_freshR : has_id g x = false.
Proof. apply aw_parts. Qed.
Definition aw_cases := owner_shape_cases g n a r (proj1 (proj2 (proj2 aw_parts))).
Lemma aw_has_a : has_id g a = true.
Proof. destruct (owner_shape_cls g n a r) as [k [C _]]; [apply aw_parts | exact (cls_is_has_id _ _ _ C)]. Qed.
Lemma aw_not_link : cls_is g a KLink = false.
Proof. destruct (owner_shape_cls g n a r) as [k [C Hk]]; [apply aw_parts | exact (cls_is_unique _ _ _ _ C Hk)]. Qed.

Let Hf := aw_freshR.
Let Ha := aw_has_a.

Lemma ao_a_ne_x : a <> x.
Proof. intro E. rewrite E in Ha. congruence. Qed.

Lemma ao_find_old y : y <> x -> find_nodes g' y = find_nodes g y.
Proof. intro H. unfold g', add_owned. rewrite find_nodes_add_edge. apply find_nodes_add_node_other. exact H. Qed.
Lemma ao_find_newR : find_nodes g' x = [n].
Proof. unfold g', add_owned. rewrite find_nodes_add_edge. apply find_nodes_add_node_same. exact Hf. Qed.

Lemma aw_no_edge : no_edge (g_add_node g n) a x = true.
Proof. apply (no_edge_fresh g a x (r_edge_ends _ _ _ W) Hf). Qed.

Lemma ao_nbrs y :
  nbrs g' y = nbrs g y ++ (if str_eqb a y then [(x, r)] else if str_eqb x y then [(a, r)] else []).
Proof. unfold g', add_owned. rewrite (nbrs_add_edge _ _ _ _ _ aw_no_edge), nbrs_add_node. reflexivity. Qed.

Lemma ao_old_nb_ne y j r' : In (j, r') (nbrs g y) -> j <> x /\ y <> x.
Proof.
  intro H. apply (nbrs_has_id _ _ _ _ (r_edge_ends _ _ _ W)) in H as [H1 H2].
  split; intro E; subst; congruence.
Qed.

Lemma ao_stable y : has_id g y = true -> y <> a -> stable g g' y.
Proof.
  intros Hy Hne. split; [|split].
  - rewrite ao_nbrs. assert (E1 : str_eqb a y = false) by (apply str_eqb_neq; congruence).
    assert (E2 : str_eqb x y = false) by (apply str_eqb_neq; intro E; subst; congruence).
    rewrite E1, E2. apply app_nil_r.
  - apply ao_find_old. intro E. subst. congruence.
  - intros j r' Hin. apply ao_find_old. apply (ao_old_nb_ne _ _ _ Hin).
Qed.

Lemma ao_nbrs_xR : nbrs g' x = [(a, r)].
Proof.
  rewrite ao_nbrs. rewrite (nbrs_fresh_nil _ _ (r_edge_ends _ _ _ W) Hf).
  assert (E1 : str_eqb a x = false) by (apply str_eqb_neq; apply ao_a_ne_x).
  rewrite E1, str_eqb_refl. reflexivity.
Qed.

Lemma ao_cls_old y k : y <> x -> cls_is g' y k = cls_is g y k.
Proof. intro H. apply cls_is_ext. apply ao_find_old. exact H. Qed.
Lemma ao_typ_old y t : y <> x -> typ_is g' y t = typ_is g y t.
Proof. intro H. apply typ_is_ext. apply ao_find_old. exact H. Qed.
Lemma ao_cls_newR k : cls_is g' x k = cls_eqb (ncls n) k.
Proof. unfold cls_is, cls_of. rewrite ao_find_newR. reflexivity. Qed.
Lemma ao_typ_new t : typ_is g' x t = is_type n t.
Proof. unfold typ_is, typ_of, is_type. rewrite ao_find_newR. destruct (ntyp n); reflexivity. Qed.
Lemma ao_name_old y : y <> x -> name_of g' y = name_of g y.
Proof. intro H. apply name_of_ext. apply ao_find_old. exact H. Qed.

(* a filtered neighbour list of the owner gains at most the new element *)
Lemma ao_where_a (P P' : str -> rel -> bool) :
  (forall j r', In (j, r') (nbrs g a) -> P' j r' = P j r') ->
  nb_where g' a P' = nb_where g a P ++ (if P' x r then [x] else []).
Proof.
  intro H. rewrite (nb_where_app g g' a P P' [(x, r)]); [| rewrite ao_nbrs, str_eqb_refl; reflexivity | exact H]. simpl. destruct (P' x r); reflexivity.
Qed.

Lemma ao_first_nb_aR r' k :
  first_nb g' a r' k = first_nb g a r' k ++ (if rel_eqb r r' && cls_eqb (ncls n) k then [x] else []).
Proof.
  rewrite !first_nb_as_where. rewrite (ao_where_a (fun j r0 => rel_eqb r0 r' && cls_is g j k)).
  - rewrite ao_cls_newR. reflexivity.
  - intros j r0 Hin. rewrite ao_cls_old; [reflexivity | apply (ao_old_nb_ne _ _ _ Hin)].
Qed.

Lemma aw_stable_old m : In m (gnodes g) -> nid m <> a -> stable g g' (nid m).
Proof. intros Hm Hne. apply ao_stable; [apply In_has_id; exact Hm | exact Hne]. Qed.
Lemma aw_stable_link y l : In l (first_nb g y Connects KLink) -> stable g g' l.
Proof.
  intro Hl. apply ao_stable.
  - eapply first_nb_has_id; [apply (r_edge_ends _ _ _ W) | exact Hl].
  - intro E. subst l. apply In_first_nb in Hl as [_ Hl]. rewrite aw_not_link in Hl. discriminate.
Qed.

(* the new element owns nothing: the owner's own owner list does not see it *)
Lemma aw_owners_a k : cls_is g a k = true -> owners g' a k = owners g a k.
Proof.
  intro HK. unfold owners. rewrite (ao_where_a (owner_edge g a k)).
  - replace (owner_edge g' a k x r) with false; [apply app_nil_r|]. symmetry.
    destruct k; try reflexivity; simpl; rewrite !ao_cls_newR, ?(ao_typ_old a _ ao_a_ne_x);
      destruct aw_cases as [[E [_ [H|H]]]|[[E [_ [H|[H|H]]]]|[E [_ [[H1 [H2 H3]]|[H1 H2]]]]]]; rewrite E;
      try (rewrite ?H3; simpl; rewrite ?andb_false_r; reflexivity);
      discriminate (cls_is_inj _ _ _ _ HK ltac:(eassumption)).
  - intros j r0 Hin. destruct (ao_old_nb_ne _ _ _ Hin) as [Hj _].
    apply owner_edge_ext; intros; auto using ao_cls_old, ao_typ_old, ao_a_ne_x.
Qed.

Lemma aw_links_a : first_nb g' a Connects KLink = first_nb g a Connects KLink.
Proof.
  rewrite ao_first_nb_aR.
  destruct aw_cases as [[E _]|[[E _]|[E _]]]; rewrite E; simpl; rewrite andb_false_r; apply app_nil_r.
Qed.
Lemma aw_peers_a : peers g' a = peers g a.
Proof.
  unfold peers. rewrite aw_links_a. apply flat_map_ext_in. intros l Hl.
  rewrite (first_nb_stable g g' l Connects KCP (aw_stable_link _ _ Hl)). reflexivity.
Qed.

Lemma aw_cls_a m : In m (gnodes g) -> nid m = a -> cls_is g a (ncls m) = true.
Proof. intros Hm E. rewrite <- E, (cls_is_node g m _ (r_ids _ _ _ W) Hm). apply cls_eqb_refl. Qed.

Lemma aw_scope_old m : In m (gnodes g) -> scope_of g' m = scope_of g m.
Proof.
  intro Hm. rewrite !scope_owners.
  destruct (str_eq_dec (nid m) a) as [E|Hne]; [|apply owners_stable, aw_stable_old; assumption].
  rewrite E. apply aw_owners_a, aw_cls_a; assumption.
Qed.

(* owner_shape_okR says of the new element and its owner what owner_edge says of an owned element and a neighbour:
   a is an owner of the new element, and its only one *)
Lemma aw_owner_new : owner_edge g' x (ncls n) a r = true.
Proof.
  pose proof ao_a_ne_x as Hax.
  destruct aw_cases as [[E [Er [H|H]]]|[[E [Er [H|[H|H]]]]|[E [Er [[H1 [H2 H3]]|[H1 H2]]]]]]; rewrite E, Er; simpl;
    rewrite ?(ao_cls_old a _ Hax), ?(ao_typ_old a _ Hax), ?ao_typ_new, ?H, ?H1, ?H2, ?H3, ?orb_true_r; reflexivity.
Qed.
Lemma aw_scope_new : scope_of g' n = [a].
Proof.
  rewrite scope_owners. unfold owners. rewrite (nb_where_single _ _ _ _ _ ao_nbrs_xR). fold x. rewrite aw_owner_new. reflexivity.
Qed.

Lemma aw_struct_new : struct_Pr ep g' n.
Proof.
  pose proof ao_nbrs_xR as Hn. unfold x in Hn. pose proof ao_a_ne_x as Hax. unfold x in Hax. pose proof aw_scope_new as Hs. unfold scope_of in Hs.
  pose proof ao_typ_new as Htn. unfold x in Htn.
  split; [|split]; intro Hc.
  - rewrite Hc in Hs. rewrite Hs. reflexivity.
  - rewrite Hc in Hs. split; [rewrite Hs; reflexivity|]. split.
    + intros j Hj. apply In_first_nb in Hj as [Hj Hk]. rewrite Hn in Hj. destruct Hj as [Hj|[]]. injection Hj as Ej Erj. subst j.
      rewrite (ao_cls_old a _ Hax) in Hk. rewrite Htn, (ao_typ_old a _ Hax).
      destruct aw_cases as [[E _]|[[E _]|[E [Er [[H1 [H2 H3]]|[H1 H2]]]]]]; [congruence | congruence | |].
      * rewrite H1, H3. discriminate.
      * discriminate (cls_is_inj _ _ _ _ H2 Hk).
    + intros Ht Hp. exfalso. assert (X : is_type n sServicePort = true) by (unfold is_type; rewrite Ht; reflexivity).
      rewrite (HSP Hc X) in Hp. discriminate Hp.
  - destruct aw_cases as [[E _]|[[E _]|[E _]]]; congruence.
Qed.

Lemma aw_struct_old m : In m (gnodes g) -> struct_Pr ep g' m.
Proof.
  intro Hm. pose proof (r_struct _ _ _ W _ Hm eq_refl) as St.
  destruct (str_eq_dec (nid m) a) as [E|Hne];
    [| apply (struct_stableR ep g); [apply aw_stable_old; assumption | intros _ _ l Hl; eapply aw_stable_link; eauto | exact St]].
  pose proof (aw_cls_a m Hm E) as Hc. revert St. apply struct_Pr_frame; auto; rewrite E.
  - apply aw_owners_a, Hc.
  - intros _. apply ao_typ_old, ao_a_ne_x.
  - intros Hk j Hj. rewrite Hk in Hc. rewrite ao_first_nb_aR in Hj. apply in_app_or in Hj as [Hj|Hj].
    + left. split; [exact Hj|]. apply In_first_nb in Hj as [Hj _]. exact (ao_typ_old j _ (proj1 (ao_old_nb_ne _ _ _ Hj))).
    + (* the new element under an interface is a sub-interface, its owner is none *)
      right. destruct (rel_eqb r Connects && cls_eqb (ncls n) KCP) eqn:Eb; [|destruct Hj].
      destruct Hj as [<-|[]]. rewrite (ao_typ_old a _ ao_a_ne_x), ao_typ_new.
      destruct aw_cases as [[En _]|[[En _]|[En [Er [[H1 [H2 H3]]|[H1 H2]]]]]];
        [rewrite En, andb_false_r in Eb; discriminate Eb | rewrite En, andb_false_r in Eb; discriminate Eb | |].
      * rewrite H1, H3. discriminate.
      * discriminate (cls_is_inj _ _ _ _ H2 Hc).
  - intros _ _ Hp. split; [exact Hp | apply aw_peers_a].
  - intros Hk. rewrite Hk, aw_not_link in Hc. discriminate.
Qed.

Lemma aw_sibling_name m :
  In m (gnodes g) -> ncls m = ncls n -> scope_of g m = [a] -> ostr_eqb (nname m) (nname n) = false.
Proof.
  intros Hm Hc Hs. destruct aw_parts as [_ [_ [_ SF]]]. unfold sibling_free in SF. rewrite forallb_forall in SF.
  rewrite <- (name_of_node g m (r_ids _ _ _ W) Hm). apply negb_true_iff, SF, In_first_nb. split.
  - (* a is an owner of m, over the relation r that owns elements of this class *)
    apply nbrs_sym. rewrite scope_owners, Hc in Hs. assert (Ha' : In a (owners g (nid m) (ncls n))) by (rewrite Hs; left; reflexivity).
    apply In_nb_where in Ha' as [r0 [H1 H2]].
    destruct aw_cases as [[E [Er _]]|[[E [Er _]]|[E [Er _]]]]; rewrite E in H2; apply andb_true_iff in H2 as [H2 _];
      apply rel_eqb_eq in H2; congruence.
  - rewrite <- Hc, (cls_is_node g m _ (r_ids _ _ _ W) Hm). apply cls_eqb_refl.
Qed.

Theorem WFr_add_owned : WFr no_exempt ep g'.
Proof.
  assert (EG : gedges g' = gedges g ++ [mkEdge a x r]) by apply (gedges_add_edge _ _ _ _ aw_no_edge).
  assert (Hsub : forall m, In m (gnodes g) -> In m (gnodes g')) by (intros; apply in_or_app; auto).
  destruct (nodes_snoc_ok g n (r_fields _ _ _ W) (r_vocab _ _ _ W) (r_ids _ _ _ W) Hf) as [F' [V' I']];
    [apply andb_true_iff, aw_parts|].
  constructor; auto.
  - intros e He. rewrite EG in He. apply in_app_or in He as [He|[He|[]]].
    + apply (edge_ends_mono g _ _ Hsub), (r_edge_ends _ _ _ W), He.
    + subst e. split; [apply has_id_In in Ha as [na [A1 A2]]; exists na; auto|]. exists n. split; [apply in_or_app; right; left|]; reflexivity.
  - apply (edges_distinct_add (g_add_node g n) a r x (r_edges_distinct _ _ _ W) aw_no_edge).
  - intros m Hm _. apply in_app_or in Hm as [Hm|[Hm|[]]]; [apply aw_struct_old; exact Hm | subst m; apply aw_struct_new].
  - change (gnodes g') with (gnodes g ++ [n]). apply ForallOrdPairs_snoc.
    + eapply ForallOrdPairs_impl_in; [|apply (r_names _ _ _ W)]. intros m1 m2 H1 H2 Hc _ _. simpl in Hc. specialize (Hc eq_refl eq_refl).
      unfold name_clash in *. rewrite (aw_scope_old _ H1), (aw_scope_old _ H2). exact Hc.
    + apply Forall_forall. intros m Hm _ _. unfold name_clash. rewrite (aw_scope_old _ Hm), aw_scope_new.
      destruct (cls_eqb (ncls m) (ncls n)) eqn:Ec; [|reflexivity]. simpl. apply cls_eqb_eq in Ec.
      destruct (list_eqb str_eqb (scope_of g m) [a]) eqn:Es; [|apply andb_false_r].
      apply list_eqb_str_eq in Es. pose proof (aw_sibling_name m Hm Ec Es) as Hn.
      destruct (nname m), (nname n); simpl in *; try reflexivity. rewrite Hn. reflexivity.
Qed.

End AddOwnedR.

Lemma owned_ok_R g n a r : owned_ok g n a r = true -> owned_okR g n a r = true /\ (ncls n = KCP -> is_type n sServicePort = false).
Proof.
  unfold owned_ok, owned_okR. rewrite !andb_true_iff. intros [[[Hf Hn] Hsh] Hs].
  split; [auto using owner_shape_ok_R|]. intro Hc. unfold owner_shape_ok in Hsh. rewrite Hc, !andb_true_iff in Hsh.
  apply negb_true_iff. apply Hsh.
Qed.

Theorem WF_add_owned g n a r : WF g -> owned_ok g n a r = true -> WF (add_owned g n a r).
Proof.
  intros W OK. destruct (owned_ok_R _ _ _ _ OK) as [OKR NSP]. apply WF_WFr.
  apply WFr_add_owned; [apply WF_WFr; exact W | exact OKR | intros C X; rewrite (NSP C) in X; discriminate X].
Qed.

(* the frame facts of add_owned, in the form the API proofs use them *)
Lemma aw_fresh g n a r : owned_ok g n a r = true -> has_id g (nid n) = false.
Proof. intro OK. destruct (owned_ok_R _ _ _ _ OK) as [OKR _]. exact (aw_freshR g n a r OKR). Qed.
Lemma ao_cls_new g n a r : owned_ok g n a r = true -> forall k, cls_is (add_owned g n a r) (nid n) k = cls_eqb (ncls n) k.
Proof. intro OK. destruct (owned_ok_R _ _ _ _ OK) as [OKR _]. exact (ao_cls_newR g n a r OKR). Qed.
Lemma ao_find_new g n a r : owned_ok g n a r = true -> find_nodes (add_owned g n a r) (nid n) = [n].
Proof. intro OK. destruct (owned_ok_R _ _ _ _ OK) as [OKR _]. exact (ao_find_newR g n a r OKR). Qed.
Lemma ao_first_nb_a g n a r : WF g -> owned_ok g n a r = true -> forall r' k,
  first_nb (add_owned g n a r) a r' k = first_nb g a r' k ++ (if rel_eqb r r' && cls_eqb (ncls n) k then [nid n] else []).
Proof. intros W OK. destruct (owned_ok_R _ _ _ _ OK) as [OKR _]. apply WF_WFr in W. exact (ao_first_nb_aR no_exempt g n a r W OKR). Qed.
Lemma ao_nbrs_x g n a r : WF g -> owned_ok g n a r = true -> nbrs (add_owned g n a r) (nid n) = [(a, r)].
Proof. intros W OK. destruct (owned_ok_R _ _ _ _ OK) as [OKR _]. apply WF_WFr in W. exact (ao_nbrs_xR no_exempt g n a r W OKR). Qed.

Section AddLinkEdge.
Variables (ep : str -> bool) (g : graph) (l i : str).
Let g' := add_link_edge g l i.
Hypothesis W : WFr no_exempt ep g.
Hypothesis OK : link_edge_okR ep g l i = true.

Lemma le_parts :
  cls_is g l KLink = true /\ cls_is g i KCP = true /\ (typ_is g i sServicePort = true -> ep i = true) /\ no_edge g l i = true /\
  (forall y, In y (first_nb g l Connects KCP) -> typ_is g y sServicePort = true -> ep y = true).
Proof.
  unfold link_edge_okR in OK. repeat (apply andb_true_iff in OK as [OK ?]).
  repeat split; auto.
  - intro T. rewrite T in H1. simpl in H1. exact H1.
  - intros y Hy T. rewrite forallb_forall in H. specialize (H y Hy). rewrite T in H. simpl in H. exact H.
Qed.

Lemma le_l_ne_i : l <> i.
Proof.
  destruct le_parts as [A [B _]]. intro E. subst. rewrite (cls_is_unique _ _ _ _ A) in B; [discriminate B | discriminate].
Qed.

Lemma le_find y : find_nodes g' y = find_nodes g y.
Proof. reflexivity. Qed.

Lemma le_nbrs y :
  nbrs g' y = nbrs g y ++ (if str_eqb l y then [(i, Connects)] else if str_eqb i y then [(l, Connects)] else []).
Proof. destruct le_parts as [_ [_ [_ [NE _]]]]. unfold g', add_link_edge. rewrite (nbrs_add_edge _ _ _ _ _ NE). reflexivity. Qed.

Lemma le_stable y : y <> l -> y <> i -> stable g g' y.
Proof.
  intros H1 H2. split; [|split; [reflexivity | intros; reflexivity]].
  rewrite le_nbrs.
  assert (E1 : str_eqb l y = false) by (apply str_eqb_neq; congruence).
  assert (E2 : str_eqb i y = false) by (apply str_eqb_neq; congruence).
  rewrite E1, E2. apply app_nil_r.
Qed.

Lemma le_where (P : str -> rel -> bool) y :
  nb_where g' y P = nb_where g y P ++
    map fst (filter (fun p => P (fst p) (snd p))
      (if str_eqb l y then [(i, Connects)] else if str_eqb i y then [(l, Connects)] else [])).
Proof. apply (nb_where_app g g' y P P _ (le_nbrs y)). reflexivity. Qed.

(* neither end owns the other: a link is owned by nothing, an interface by no link *)
Lemma le_owners y k : cls_is g y k = true -> owners g' y k = owners g y k.
Proof.
  intro HK. destruct le_parts as [A [B _]]. unfold owners. change (owner_edge g' y k) with (owner_edge g y k). rewrite le_where.
  destruct (str_eqb l y) eqn:E1; [|destruct (str_eqb i y) eqn:E2]; [| |apply app_nil_r].
  - apply str_eqb_eq in E1. subst y. rewrite (cls_is_inj _ _ _ _ HK A). apply app_nil_r.
  - apply str_eqb_eq in E2. subst y. rewrite (cls_is_inj _ _ _ _ HK B). simpl.
    rewrite (cls_is_unique _ _ _ KNS A), (cls_is_unique _ _ _ KCP A), andb_false_r by discriminate. apply app_nil_r.
Qed.

(* a neighbour list over `connects` grows only at l (by the interface i) and at i (by the link l) *)
Lemma le_first y k : (y = l -> k <> KCP) -> (y = i -> k <> KLink) -> first_nb g' y Connects k = first_nb g y Connects k.
Proof.
  intros Hl Hi. destruct le_parts as [A [B _]].
  change (first_nb g' y Connects k) with (nb_where g' y (fun j r' => rel_eqb r' Connects && cls_is g j k)). rewrite le_where.
  destruct (str_eqb l y) eqn:E1; [|destruct (str_eqb i y) eqn:E2]; simpl; [| |apply app_nil_r].
  - apply str_eqb_eq in E1. rewrite (cls_is_unique _ _ _ k B), app_nil_r; auto using not_eq_sym.
  - apply str_eqb_eq in E2. rewrite (cls_is_unique _ _ _ k A), app_nil_r; auto using not_eq_sym.
Qed.

Lemma le_cls_node m : In m (gnodes g) -> cls_is g (nid m) (ncls m) = true.
Proof. intro Hm. rewrite (cls_is_node g m _ (r_ids _ _ _ W) Hm). apply cls_eqb_refl. Qed.

Lemma le_scope m : In m (gnodes g) -> scope_of g' m = scope_of g m.
Proof. intro Hm. rewrite !scope_owners. apply le_owners, le_cls_node, Hm. Qed.

Lemma le_struct m : In m (gnodes g) -> struct_Pr ep g' m.
Proof.
  intro Hm. destruct le_parts as [A [B [C [NE SP]]]]. pose proof (le_cls_node m Hm) as Hc.
  generalize (r_struct _ _ _ W _ Hm eq_refl). apply struct_Pr_frame; auto.
  - apply le_owners, Hc.
  - intros Hk j Hj. left. rewrite Hk in Hc. rewrite le_first in Hj; [auto | | discriminate].
    intros E _. rewrite E in Hc. discriminate (cls_is_inj _ _ _ _ A Hc).
  - intros Hk Ht Hp. split; [exact Hp|]. rewrite Hk in Hc.
    assert (Tm : typ_is g (nid m) sServicePort = true) by (rewrite (typ_is_node g m _ (r_ids _ _ _ W) Hm), Ht; reflexivity).
    assert (Hmi : nid m <> i) by (intro E; rewrite E in Tm, Hp; rewrite (C Tm) in Hp; discriminate Hp).
    unfold peers. rewrite le_first by (intros; congruence).
    apply flat_map_ext_in. intros l' Hl'. destruct (str_eq_dec l' l) as [E|Hne]; [|rewrite le_first by (intros; congruence); reflexivity].
    (* the service port would be an end of l: excluded by the side condition *)
    subst l'. exfalso. apply In_first_nb in Hl' as [Hl' _]. apply nbrs_sym in Hl'.
    rewrite (SP _ (proj2 (In_first_nb _ _ _ _ _) (conj Hl' Hc)) Tm) in Hp. discriminate Hp.
  - intros Hk j r Hin. rewrite Hk in Hc. rewrite le_nbrs in Hin. apply in_app_or in Hin as [Hin|Hin]; [left; auto|]. right.
    destruct (str_eqb l (nid m)) eqn:E1.
    + destruct Hin as [Hin|[]]. inversion Hin; subst. auto.
    + destruct (str_eqb i (nid m)) eqn:E2; [|destruct Hin].
      apply str_eqb_eq in E2. rewrite <- E2 in Hc. discriminate (cls_is_inj _ _ _ _ B Hc).
Qed.

Theorem WFr_add_link_edge : WFr no_exempt ep g'.
Proof.
  destruct le_parts as [A [B [C [NE SP]]]].
  assert (EG : gedges g' = gedges g ++ [mkEdge l i Connects]) by apply (gedges_add_edge _ _ _ _ NE).
  constructor.
  - apply (r_fields _ _ _ W).
  - apply (r_vocab _ _ _ W).
  - apply (r_ids _ _ _ W).
  - intros e He. rewrite EG in He. apply in_app_or in He as [He|[He|[]]]; [apply (r_edge_ends _ _ _ W); exact He|].
    subst e. simpl. split; apply has_id_In; eapply cls_is_has_id; eauto.
  - apply (edges_distinct_add g l Connects i (r_edges_distinct _ _ _ W) NE).
  - intros m Hm _. apply le_struct. exact Hm.
  - change (gnodes g') with (gnodes g).
    eapply ForallOrdPairs_impl_in; [|apply (r_names _ _ _ W)]. intros a b Ha Hb Hc _ _. simpl in Hc. specialize (Hc eq_refl eq_refl).
    unfold name_clash in *. rewrite (le_scope a Ha), (le_scope b Hb). exact Hc.
Qed.
End AddLinkEdge.

Lemma link_edge_ok_R g l i : link_edge_ok g l i = true -> link_edge_okR no_exempt g l i = true.
Proof.
  unfold link_edge_ok, link_edge_okR, no_exempt. intro H. repeat (apply andb_true_iff in H as [H ?]).
  rewrite H, H3, H2, H1. simpl.
  apply forallb_forall. intros y Hy. rewrite forallb_forall in H0. rewrite (H0 y Hy). reflexivity.
Qed.

Theorem WF_add_link_edge g l i : WF g -> link_edge_ok g l i = true -> WF (add_link_edge g l i).
Proof. intros W OK. apply WF_WFr. apply WFr_add_link_edge; [apply WF_WFr; exact W | apply link_edge_ok_R; exact OK]. Qed.

Section RemoveSet.
Variables (g : graph) (del eo ep eo' ep' : str -> bool).
Let g' := remove_set g del.
Hypothesis W : WFr eo ep g.
Hypothesis CL : closedR g del eo ep eo' ep'.

Lemma rs_find y : del y = false -> find_nodes g' y = find_nodes g y.
Proof.
  intro H. apply filter_filter_sub. intros n _ E. apply str_eqb_eq in E. rewrite E, H. reflexivity.
Qed.

Lemma rs_nbrs y : del y = false -> nbrs g' y = filter (fun p => negb (del (fst p))) (nbrs g y).
Proof.
  intro H. unfold g', remove_set, nbrs. simpl. induction (gedges g) as [|e l IH]; simpl; [reflexivity|].
  rewrite filter_app, <- IH. clear IH.
  destruct (str_eqb (ea e) y) eqn:E1.
  - apply str_eqb_eq in E1. rewrite E1, H. simpl. destruct (del (eb e)); simpl; [reflexivity|]. rewrite <- E1 at 1. rewrite str_eqb_refl. reflexivity.
  - destruct (str_eqb (eb e) y) eqn:E2.
    + apply str_eqb_eq in E2. rewrite E2, H, andb_true_r. simpl. destruct (del (ea e)); simpl; [reflexivity|]. rewrite E1, <- E2 at 1. rewrite str_eqb_refl. reflexivity.
    + simpl. destruct (negb (del (ea e)) && negb (del (eb e))); simpl; [rewrite E1, E2|]; reflexivity.
Qed.

Lemma rs_cls y k : del y = false -> cls_is g' y k = cls_is g y k.
Proof. intro H. apply cls_is_ext. apply rs_find. exact H. Qed.
Lemma rs_typ y t : del y = false -> typ_is g' y t = typ_is g y t.
Proof. intro H. apply typ_is_ext. apply rs_find. exact H. Qed.

(* a filtered neighbour list all of whose members survive is unchanged *)
Lemma rs_where_keep y (F : graph -> str -> rel -> bool) :
  del y = false ->
  (forall j r, del j = false -> F g' j r = F g j r) ->
  (forall j, In j (nb_where g y (F g)) -> del j = false) ->
  nb_where g' y (F g') = nb_where g y (F g).
Proof.
  intros Hy HF Hk. unfold nb_where. rewrite (rs_nbrs _ Hy), filter_filter. f_equal. apply filter_ext_in. intros [j r] Hin. simpl.
  destruct (del j) eqn:Hj; simpl; [|apply HF, Hj].
  destruct (F g j r) eqn:E; [|reflexivity]. rewrite (Hk j) in Hj; [discriminate|]. apply In_nb_where. eauto.
Qed.

Lemma rs_closed m : In m (gnodes g) -> del (nid m) = false -> eo' (nid m) = false ->
  eo (nid m) = false /\ forall o, In o (scope_of g m) -> del o = false.
Proof.
  intros Hm Hd He. destruct (CL m Hm Hd He) as [Eo C]. split; [exact Eo|].
  unfold scope_of. destruct (ncls m); try (intros o []); try exact C. apply C.
Qed.

Lemma rs_owners m : In m (gnodes g) -> del (nid m) = false -> eo' (nid m) = false ->
  owners g' (nid m) (ncls m) = owners g (nid m) (ncls m).
Proof.
  intros Hm Hd He. apply (rs_where_keep (nid m) (fun g => owner_edge g (nid m) (ncls m)) Hd).
  - intros j r Hj. apply owner_edge_ext; intros; auto using rs_cls, rs_typ.
  - intros j Hj. apply (proj2 (rs_closed m Hm Hd He)). rewrite scope_owners. exact Hj.
Qed.
Lemma rs_scope m : In m (gnodes g) -> del (nid m) = false -> eo' (nid m) = false -> scope_of g' m = scope_of g m.
Proof. intros Hm Hd He. rewrite !scope_owners. apply rs_owners; assumption. Qed.

Lemma rs_first_sub y r k j : del y = false -> In j (first_nb g' y r k) -> In j (first_nb g y r k) /\ del j = false.
Proof.
  intros Hy H. apply In_first_nb in H as [H1 H2]. rewrite (rs_nbrs _ Hy) in H1. apply filter_In in H1 as [H1 H3].
  apply negb_true_iff in H3. split; [|exact H3]. apply In_first_nb. rewrite <- (rs_cls _ _ H3). auto.
Qed.
Lemma rs_first_keep y r k : del y = false -> (forall j, In j (first_nb g y r k) -> del j = false) ->
  first_nb g' y r k = first_nb g y r k.
Proof.
  intros Hy Hk. rewrite !first_nb_as_where.
  apply (rs_where_keep y (fun g j r' => rel_eqb r' r && cls_is g j k) Hy); [|exact Hk].
  intros j0 r0 Hj. rewrite (rs_cls _ _ Hj). reflexivity.
Qed.

(* removal of a set of elements with their edges; eo' and ep' say which of the survivors are exempt afterwards *)
Theorem WFr_remove_set : WFr eo' ep' g'.
Proof.
  assert (Hin : forall m, In m (gnodes g') -> In m (gnodes g) /\ del (nid m) = false)
    by (intros m Hm; apply filter_In in Hm as [Hm Hd]; apply negb_true_iff in Hd; auto).
  constructor.
  - intros m Hm. apply (r_fields _ _ _ W), Hin, Hm.
  - intros m Hm. apply (r_vocab _ _ _ W), Hin, Hm.
  - apply NoDup_map_filter, (r_ids _ _ _ W).
  - intros e He. apply filter_In in He as [He Hd].
    apply andb_true_iff in Hd as [Da Db]. destruct (r_edge_ends _ _ _ W _ He) as [[na [A1 A2]] [nb [B1 B2]]].
    split; [exists na | exists nb]; (split; [|assumption]); apply filter_In; (split; [assumption|]); congruence.
  - apply ForallOrdPairs_filter. apply (r_edges_distinct _ _ _ W).
  - intros m Hm He. apply Hin in Hm as [Hm Hd]. destruct (CL m Hm Hd He) as [Eo C].
    generalize (r_struct _ _ _ W _ Hm Eo). apply struct_Pr_frame; auto using rs_owners, rs_typ.
    + intros _ j Hj. left. apply (rs_first_sub _ _ _ _ Hd) in Hj as [Hj Hdj]. auto using rs_typ.
    + intros Hk Ht Hp. rewrite Hk in C. destruct (proj2 C Ht Hp) as [Ep C3]. split; [exact Ep|]. unfold peers.
      rewrite (rs_first_keep _ _ _ Hd (fun l Hl => proj1 (C3 l Hl))).
      apply flat_map_ext_in. intros l Hl. destruct (C3 l Hl) as [Dl Dy]. rewrite (rs_first_keep _ _ _ Dl Dy). reflexivity.
    + intros _ j r Hj. left. rewrite (rs_nbrs _ Hd) in Hj. apply filter_In in Hj as [Hj Hdj]. apply negb_true_iff in Hdj. auto using rs_cls.
  - apply (ForallOrdPairs_impl_in (fun a b => eo (nid a) = false -> eo (nid b) = false -> name_clash g a b = false));
      [|apply ForallOrdPairs_filter, (r_names _ _ _ W)].
    intros a b Ha Hb H Ea Eb. apply Hin in Ha as [Ha Da]. apply Hin in Hb as [Hb Db].
    specialize (H (proj1 (rs_closed a Ha Da Ea)) (proj1 (rs_closed b Hb Db Eb))).
    unfold name_clash in *. rewrite (rs_scope a Ha Da Ea), (rs_scope b Hb Db Eb). exact H.
Qed.
End RemoveSet.

Lemma closed_b_R g del : closed_b g del = true -> closedR g del no_exempt no_exempt no_exempt no_exempt.
Proof.
  intros CL m Hm Hd _. split; [reflexivity|]. unfold closed_b in CL. rewrite forallb_forall in CL. specialize (CL _ Hm).
  rewrite Hd in CL. simpl in CL.
  assert (K : forall l, forallb (fun o => negb (del o)) l = true -> forall o, In o l -> del o = false)
    by (intros l H o Ho; rewrite forallb_forall in H; apply negb_true_iff; auto).
  destruct (ncls m); try exact I; try exact (K _ CL).
  apply andb_true_iff in CL as [C1 C2]. split; [exact (K _ C1)|].
  intros Ht _. split; [reflexivity|]. intros l Hl. unfold is_type in C2. rewrite Ht, (proj2 (ostr_eqb_eq _ _) eq_refl) in C2. simpl in C2.
  rewrite forallb_forall in C2. specialize (C2 _ Hl). apply andb_true_iff in C2 as [C2 C3].
  apply negb_true_iff in C2. split; [exact C2 | exact (K _ C3)].
Qed.

Theorem WF_remove_set g del : WF g -> closed_b g del = true -> WF (remove_set g del).
Proof. intros W C. apply WF_WFr, (WFr_remove_set g del no_exempt no_exempt); [apply WF_WFr, W | apply closed_b_R, C]. Qed.

Lemma list_eqb_str_sym (a b : list str) : list_eqb str_eqb a b = list_eqb str_eqb b a.
Proof.
  revert b; induction a as [|x a IH]; destruct b as [|y b]; simpl; try reflexivity.
  rewrite (str_eqb_sym x y), IH. reflexivity.
Qed.
Lemma cls_eqb_sym a b : cls_eqb a b = cls_eqb b a.
Proof. destruct a, b; reflexivity. Qed.
Lemma name_clash_sym g a b : name_clash g a b = name_clash g b a.
Proof.
  unfold name_clash. rewrite (cls_eqb_sym (ncls a) (ncls b)), (list_eqb_str_sym (scope_of g a) (scope_of g b)).
  destruct (nname a), (nname b); try reflexivity. rewrite (str_eqb_sym s s0). reflexivity.
Qed.

Lemma FOP_map_nodup (R R' : node -> node -> Prop) (F : node -> node) l :
  (forall a, In a l -> nid (F a) = nid a) ->
  NoDup (map nid l) ->
  (forall a b, In a l -> In b l -> nid a <> nid b -> R a b -> R' (F a) (F b)) ->
  ForallOrdPairs R l -> ForallOrdPairs R' (map F l).
Proof.
  induction l as [|a l IH]; simpl; intros Hid ND H FO; [constructor|].
  inversion ND as [|? ? Hnot ND']; subst. inversion FO as [|? ? Ha FO']; subst. constructor.
  - apply Forall_forall. intros b' Hb'. apply in_map_iff in Hb' as [b [E Hb]]. subst b'.
    rewrite Forall_forall in Ha. apply H; auto.
    intro E. apply Hnot. rewrite E. apply in_map. exact Hb.
  - apply IH; auto.
Qed.

Section Relabel.
Variables (g : graph) (x : str) (f : node -> node).
Let g' := relabel g x f.
Let F := fun n => if str_eqb (nid n) x then f n else n.
Hypothesis W : WF g.
Hypothesis OK : relabel_ok g x f = true.

Lemma rl_ok n : In n (gnodes g) -> nid n = x ->
  nid (f n) = nid n /\ ncls (f n) = ncls n /\ fields_ok (f n) = true /\ vocab_ok (f n) = true /\
  (ntyp (f n) = ntyp n \/ ncls n = KNode \/ ncls n = KNS \/ ncls n = KComp) /\
  (nname (f n) = nname n \/ forall m, In m (gnodes g) -> nid m <> x -> name_clash g (f n) m = false).
Proof.
  intros Hn Hx. unfold relabel_ok in OK. rewrite forallb_forall in OK. specialize (OK _ Hn).
  rewrite Hx, str_eqb_refl in OK. simpl in OK. repeat (apply andb_true_iff in OK as [OK ?]).
  apply str_eqb_eq in OK. apply cls_eqb_eq in H2. unfold new_node_ok in H1. apply andb_true_iff in H1 as [Hf Hv].
  rewrite Hx. repeat split; auto.
  - repeat (apply orb_true_iff in H0 as [H0|H0]); [left; apply ostr_eqb_eq; exact H0 | | |]; apply cls_eqb_eq in H0; auto.
  - apply orb_true_iff in H as [H|H]; [left; apply ostr_eqb_eq; exact H|]. right. intros m Hm Hne.
    rewrite forallb_forall in H. specialize (H _ Hm). apply orb_true_iff in H as [H|H].
    + apply str_eqb_eq in H. contradiction.
    + apply negb_true_iff in H. exact H.
Qed.

Lemma rl_F_id n : In n (gnodes g) -> nid (F n) = nid n.
Proof. intro Hn. unfold F. destruct (str_eqb (nid n) x) eqn:E; [|reflexivity]. apply str_eqb_eq in E. apply (rl_ok n Hn E). Qed.
Lemma rl_F_cls n : In n (gnodes g) -> ncls (F n) = ncls n.
Proof. intro Hn. unfold F. destruct (str_eqb (nid n) x) eqn:E; [|reflexivity]. apply str_eqb_eq in E. apply (rl_ok n Hn E). Qed.

Lemma rl_nodes : gnodes g' = map F (gnodes g).
Proof. reflexivity. Qed.

Lemma rl_find y : find_nodes g' y = map F (find_nodes g y).
Proof.
  unfold find_nodes. rewrite rl_nodes, filter_map_comm. f_equal. apply filter_ext_in. intros n Hn. rewrite (rl_F_id n Hn). reflexivity.
Qed.
Lemma rl_find_in y n : In n (find_nodes g y) -> In n (gnodes g).
Proof. unfold find_nodes. intro H. apply filter_In in H. tauto. Qed.

Lemma rl_cls y k : cls_is g' y k = cls_is g y k.
Proof.
  unfold cls_is, cls_of. rewrite rl_find. destruct (find_nodes g y) as [|n l] eqn:E; [reflexivity|]. simpl.
  rewrite rl_F_cls; [reflexivity|]. apply (rl_find_in y). rewrite E. left. reflexivity.
Qed.
(* interface and link types do not change *)
Lemma rl_typ y t : cls_is g y KCP = true -> typ_is g' y t = typ_is g y t.
Proof.
  unfold cls_is, cls_of, typ_is, typ_of. rewrite rl_find. destruct (find_nodes g y) as [|n l] eqn:E; [reflexivity|]. simpl.
  intro Hc. apply cls_eqb_eq in Hc. assert (Hn : In n (gnodes g)) by (apply (rl_find_in y); rewrite E; left; reflexivity).
  unfold F. destruct (str_eqb (nid n) x) eqn:Ex; [|reflexivity]. apply str_eqb_eq in Ex.
  destruct (rl_ok n Hn Ex) as [_ [_ [_ [_ [[T|[T|[T|T]]] _]]]]]; try congruence. rewrite T. reflexivity.
Qed.

Lemma rl_first y r k : first_nb g' y r k = first_nb g y r k.
Proof. rewrite !first_nb_as_where. apply nb_where_ext; [reflexivity|]. intros. rewrite rl_cls. reflexivity. Qed.
Lemma rl_owners y k : (k = KCP -> cls_is g y KCP = true) -> owners g' y k = owners g y k.
Proof. intro Hy. apply nb_where_ext; [reflexivity|]. intros j r _. apply owner_edge_ext; auto using rl_cls, rl_typ. Qed.
Lemma rl_peers y : peers g' y = peers g y.
Proof. unfold peers. rewrite rl_first. apply flat_map_ext_in. intros l _. rewrite rl_first. reflexivity. Qed.

Lemma rl_cls_node m k : In m (gnodes g) -> ncls m = k -> cls_is g (nid m) k = true.
Proof. intros Hm <-. rewrite (cls_is_node g m _ (wf_ids _ W) Hm). apply cls_eqb_refl. Qed.

Lemma rl_scope m : In m (gnodes g) -> scope_of g' (F m) = scope_of g m.
Proof. intro Hm. rewrite !scope_owners, (rl_F_cls m Hm), (rl_F_id m Hm). apply rl_owners. auto using rl_cls_node. Qed.
Lemma rl_scope_f m : In m (gnodes g) -> nid m = x -> scope_of g (f m) = scope_of g m.
Proof.
  intros Hm Hx. destruct (rl_ok m Hm Hx) as [A [B _]]. unfold scope_of. rewrite A, B. reflexivity.
Qed.

Lemma rl_F_new m : In m (gnodes g) -> fields_P (F m) /\ vocab_P (F m).
Proof.
  intro Hm. unfold F. destruct (str_eqb (nid m) x) eqn:Ex; [|split; [apply (wf_fields _ W) | apply (wf_vocab _ W)]; exact Hm].
  apply str_eqb_eq in Ex. split; [apply fields_ok_P | apply vocab_ok_P]; apply (rl_ok m Hm Ex).
Qed.

(* the relabelled element against another one: either its name is the old one, or relabel_ok has compared them *)
Lemma rl_clash_x a b :
  In a (gnodes g) -> In b (gnodes g) -> nid a = x -> nid b <> x -> name_clash g a b = false -> name_clash g' (F a) (F b) = false.
Proof.
  intros Ha Hb Ea Eb Hab. unfold name_clash. rewrite (rl_scope a Ha), (rl_scope b Hb), (rl_F_cls a Ha), (rl_F_cls b Hb).
  unfold F. rewrite (proj2 (str_eqb_eq _ _) Ea), (proj2 (str_eqb_neq _ _) Eb).
  destruct (rl_ok a Ha Ea) as [A1 [A2 [_ [_ [_ [N|N]]]]]]; [rewrite N; exact Hab|].
  specialize (N b Hb Eb). unfold name_clash in N. rewrite A2, (rl_scope_f a Ha Ea) in N. exact N.
Qed.

Theorem WF_relabel : WF g'.
Proof.
  constructor.
  - intros m Hm. apply in_map_iff in Hm as [m0 [<- Hm0]]. apply rl_F_new, Hm0.
  - intros m Hm. apply in_map_iff in Hm as [m0 [<- Hm0]]. apply rl_F_new, Hm0.
  - rewrite rl_nodes, map_map. rewrite (map_ext_in _ nid); [apply (wf_ids _ W)|]. intros a Ha. apply rl_F_id. exact Ha.
  - intros e He. change (gedges g') with (gedges g) in He. destruct (wf_edge_ends _ W _ He) as [[na [A1 A2]] [nb [B1 B2]]].
    split; [exists (F na) | exists (F nb)]; (split; [rewrite rl_nodes; apply in_map; assumption | rewrite rl_F_id; assumption]).
  - apply (wf_edges_distinct _ W).
  - intros m Hm. rewrite rl_nodes in Hm. apply in_map_iff in Hm as [m0 [<- Hm0]].
    apply struct_P_Pr. generalize (proj1 (struct_P_Pr _ _) (wf_struct _ W _ Hm0)).
    apply struct_Pr_frame; auto using rl_F_id, rl_F_cls, rl_owners, rl_cls_node, rl_typ, rl_peers.
    + (* a relabelled interface keeps its type *)
      intros Hk Ht. unfold F in Ht. destruct (str_eqb (nid m0) x) eqn:Ex; [|exact Ht]. apply str_eqb_eq in Ex.
      destruct (rl_ok m0 Hm0 Ex) as [_ [_ [_ [_ [[T|[T|[T|T]]] _]]]]]; congruence.
    + intros Hk j Hj. left. rewrite rl_first in Hj. split; [exact Hj|]. apply rl_typ. apply In_first_nb in Hj. tauto.
    + intros _ j r Hj. left. split; [exact Hj | apply rl_cls].
  - unfold names_P. rewrite rl_nodes.
    apply (FOP_map_nodup (fun a b => name_clash g a b = false) (fun a b => name_clash g' a b = false) F (gnodes g));
      [apply rl_F_id | apply (wf_ids _ W) | | apply (wf_names _ W)].
    intros a b Ha Hb Hne Hab. destruct (str_eq_dec (nid a) x) as [Ea|Ea]; destruct (str_eq_dec (nid b) x) as [Eb|Eb].
    + congruence.
    + apply rl_clash_x; assumption.
    + rewrite name_clash_sym. rewrite name_clash_sym in Hab. apply rl_clash_x; assumption.
    + unfold name_clash. rewrite (rl_scope a Ha), (rl_scope b Hb). unfold F.
      rewrite (proj2 (str_eqb_neq _ _) Ea), (proj2 (str_eqb_neq _ _) Eb). exact Hab.
Qed.
End Relabel.

