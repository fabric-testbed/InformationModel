(* C14 - refinement: unmerge_adm on the store model against sunmerge, nodes and connections; merge_adm keeps the
   invariant that unmerge_adm needs (contributors recorded once, at least one). *)
From Coq Require Import List NArith Bool.
From FIM Require Import Base.ListFacts Model.Cbm14Store Model.Cbm14Spec Model.Cbm14Abs Proofs.Cbm14Assoc
     Proofs.Cbm14Unmerge Proofs.Cbm14Frame Proofs.Cbm14RefBase Proofs.Cbm14RefEdge Proofs.Cbm14RefPrep
     Proofs.Cbm14RefFold Proofs.Cbm14RefMerge.
Import ListNotations.
Open Scope N_scope.

(* contributors recorded once *)
Definition con_nodup (cbm : N) (ns : list node) : Prop :=
  forall n, In n ns -> n_gid n = cbm -> NoDup (abs_con (n_si n)).

Lemma remove_first_filter g l : NoDup l -> remove_first g l = filter (fun x => negb (x =? g)) l.
Proof.
  induction l as [|x r IH]; simpl; auto. intro ND; inversion ND; subst.
  destruct (x =? g) eqn:E; simpl.
  - apply N.eqb_eq in E; subst. symmetry. apply filter_notin. exact H1.
  - rewrite IH; auto.
Qed.

Lemma mem_false_filter g l : Cbm14Store.mem g l = false -> filter (fun x => negb (x =? g)) l = l.
Proof.
  intro H. apply filter_notin. intro X.
  assert (Cbm14Store.mem g l = true); [|congruence].
  unfold Cbm14Store.mem. apply existsb_exists. exists g. split; auto. apply N.eqb_refl.
Qed.

Lemma unm_d_abs g d : wf_del d = true ->
  exists d', unm_d g d = Some d' /\ abs_del d' = drop_d g (abs_del d) /\ wf_del d' = true.
Proof.
  destruct d as [| |[|[k c] [|? ?]]]; simpl; try discriminate; intros _; eauto.
  unfold Cbm14Store.mem. simpl. rewrite (N.eqb_sym g k). destruct (k =? g) eqn:E; simpl.
  - exists DStr0. auto.
  - exists (DDict [(k, c)]). auto.
Qed.

(* what unmerge does to one node of the combined graph *)
Definition con_ok (n : node) : Prop := NoDup (abs_con (n_si n)) /\ abs_con (n_si n) <> [].

Lemma unm_node_abs g n :
  wf_cnode n = true -> con_ok n ->
  exists n' del, unm_node g n = inl (Some (n', del)) /\
                 del = negb (alive (unm g (absn n))) /\
                 key n' = key n /\ n_int n' = n_int n /\
                 (del = false -> absn n' = unm g (absn n) /\ wf_cnode n' = true /\ con_ok n').
Proof.
  intros W [ND NEm]. unfold wf_cnode in W. apply andb_true_iff in W as [W WC]. apply andb_true_iff in W as [WS WL].
  destruct (n_si n) as [| |l] eqn:S; try discriminate. simpl in ND, NEm.
  unfold unm_node. rewrite S.
  destruct (unm_d_abs g (n_cd n) WC) as (cd' & UC & AC & WC'). destruct (unm_d_abs g (n_ld n) WL) as (ld' & UL & AL & WL').
  destruct (Cbm14Store.mem g l) eqn:M.
  - rewrite (remove_first_filter g l ND).
    destruct (filter (fun x => negb (x =? g)) l) as [|y r] eqn:FL.
    + rewrite UC, UL. eexists. exists true. split; [reflexivity|]. unfold alive, unm, absn; simpl. rewrite S; simpl. rewrite FL.
      repeat split; auto; discriminate.
    + simpl. rewrite UC, UL.
      eexists. exists false. split; [reflexivity|]. unfold alive, unm, absn, con_ok; simpl. rewrite S; simpl. rewrite FL.
      split; [reflexivity|]. split; [reflexivity|]. split; [reflexivity|]. intros _. split; [|split; [|split]].
      * rewrite AL, AC. reflexivity.
      * unfold wf_cnode; simpl. rewrite WL', WC'. reflexivity.
      * rewrite <- FL. apply NoDup_filter. exact ND.
      * discriminate.
  - rewrite UC, UL.
    eexists. exists false. split; [reflexivity|]. unfold alive, unm, absn, con_ok; simpl. rewrite S; simpl.
    rewrite (mem_false_filter g l M).
    split; [destruct l; [contradiction|reflexivity]|]. split; [reflexivity|]. split; [reflexivity|]. intros _.
    split; [|split; [|split]]; auto.
    + rewrite AL, AC. reflexivity.
    + unfold wf_cnode; simpl. rewrite S, WL', WC'. reflexivity.
Qed.

Definition cbm_ok (cbm : N) (ns : list node) : Prop :=
  forall n, In n ns -> n_gid n = cbm -> wf_cnode n = true /\ con_ok n.

(* what unmerge_adm makes of a node of the store, and whether it deletes it *)
Definition unm_of (cbm g : N) (n : node) : node :=
  if n_gid n =? cbm then match unm_node g n with inl (Some (n', _)) => n' | _ => n end else n.
Definition unm_del (cbm g : N) (n : node) : bool :=
  (n_gid n =? cbm) && match unm_node g n with inl (Some (_, d)) => d | _ => false end.

Lemma unm_other cbm g n : n_gid n <> cbm -> unm_del cbm g n = false /\ unm_of cbm g n = n.
Proof. intro G. apply N.eqb_neq in G. unfold unm_del, unm_of. rewrite G. auto. Qed.

Lemma unm_cbm cbm g n :
  n_gid n = cbm -> wf_cnode n = true -> con_ok n ->
  unm_del cbm g n = negb (alive (unm g (absn n))) /\
  key (unm_of cbm g n) = key n /\ n_int (unm_of cbm g n) = n_int n /\
  (unm_del cbm g n = false ->
   absn (unm_of cbm g n) = unm g (absn n) /\ wf_cnode (unm_of cbm g n) = true /\ con_ok (unm_of cbm g n)).
Proof.
  intros G W1 W2. apply N.eqb_eq in G. unfold unm_del, unm_of. rewrite G.
  destruct (unm_node_abs g n W1 W2) as (n' & del & -> & -> & X). exact (conj eq_refl X).
Qed.

(* the loop of unmerge_adm over all nodes, in closed form *)
Lemma unm_nodes_map cbm g : forall l,
  cbm_ok cbm l -> unm_nodes cbm g l = inl (Some (map (unm_of cbm g) l, map n_int (filter (unm_del cbm g) l))).
Proof.
  induction l as [|n r IH]; intro W; simpl; [reflexivity|].
  rewrite IH by (intros m Hm; apply W; simpl; auto).
  destruct (n_gid n =? cbm) eqn:T.
  - pose proof T as G. apply N.eqb_eq in G. destruct (W n (or_introl eq_refl) G) as [W1 W2].
    destruct (unm_node_abs g n W1 W2) as (n' & del & Un & _).
    assert (unm_of cbm g n = n' /\ unm_del cbm g n = del) as [-> ->] by (unfold unm_of, unm_del; rewrite T, Un; auto).
    rewrite Un. destruct del; reflexivity.
  - apply N.eqb_neq in T. destruct (unm_other cbm g n T) as [-> ->]. reflexivity.
Qed.

Lemma fold_delete_nodes ds : forall s,
  s_nodes (fold_left (fun s i => delete_node i s) ds s) = filter (fun n => negb (memN (n_int n) ds)) (s_nodes s) /\
  s_next (fold_left (fun s i => delete_node i s) ds s) = s_next s.
Proof.
  induction ds as [|i r IH]; intro s; simpl.
  - split; auto. induction (s_nodes s) as [|n l IHl]; simpl; auto. f_equal. exact IHl.
  - destruct (IH (delete_node i s)) as [-> ->]. split; auto. simpl.
    induction (s_nodes s) as [|n l IHl]; simpl; auto.
    rewrite (N.eqb_sym (n_int n) i). destruct (i =? n_int n) eqn:E; simpl; auto.
    destruct (memN (n_int n) r); simpl; auto. f_equal. exact IHl.
Qed.

Lemma fold_delete_edges ds : forall s,
  s_edges (fold_left (fun s i => delete_node i s) ds s) =
  filter (fun e => negb (memN (e_a e) ds) && negb (memN (e_b e) ds)) (s_edges s).
Proof.
  induction ds as [|i r IH]; intro s; simpl.
  - induction (s_edges s) as [|e l IHl]; simpl; auto. f_equal. exact IHl.
  - rewrite IH. simpl. induction (s_edges s) as [|e l IHl]; simpl; auto.
    rewrite (N.eqb_sym (e_a e) i), (N.eqb_sym (e_b e) i).
    destruct (i =? e_a e), (i =? e_b e); simpl; auto;
      destruct (memN (e_a e) r), (memN (e_b e) r); simpl; auto; f_equal; exact IHl.
Qed.

(* unmerge_adm in detail: the node found under each key afterwards, the nodes deleted, the connections left *)
Lemma unmerge_run cbm g st :
  J (s_next st) (s_nodes st) -> cbm_ok cbm (s_nodes st) -> gexists cbm st = true ->
  exists st' ds, unmerge_adm cbm g st = OOk st' /\
    s_edges st' = filter (fun e => negb (memN (e_a e) ds) && negb (memN (e_b e) ds)) (s_edges st) /\
    s_next st' = s_next st /\ J (s_next st) (s_nodes st') /\
    (forall h k, at_ h k (s_nodes st') =
                 match at_ h k (s_nodes st) with
                 | Some n => if unm_del cbm g n then None else Some (unm_of cbm g n)
                 | None => None end) /\
    (forall n, In n (s_nodes st) -> memN (n_int n) ds = unm_del cbm g n).
Proof.
  intros Jst W GE. unfold unmerge_adm. rewrite GE, (unm_nodes_map cbm g _ W). cbn [negb].
  set (ds := map n_int (filter (unm_del cbm g) (s_nodes st))). eexists. exists ds. split; [reflexivity|].
  destruct (fold_delete_nodes ds (mkStore (map (unm_of cbm g) (s_nodes st)) (s_edges st) (s_next st))) as [-> ->].
  rewrite fold_delete_edges. cbn [s_nodes s_edges s_next]. split; [reflexivity|]. split; [reflexivity|].
  assert (forall n, In n (s_nodes st) -> memN (n_int n) ds = unm_del cbm g n) as DS.
  { intros n Hn. destruct (unm_del cbm g n) eqn:D.
    - apply memN_In. apply in_map. apply filter_In. auto.
    - apply memN_false. intro X. apply in_map_iff in X as (m & E & Hm). apply filter_In in Hm as [Hm Dm].
      assert (m = n) by (apply (uniq_inj (s_nodes st)); auto; apply Jst). congruence. }
  destruct (at_map_filter (s_next st) (unm_of cbm g) (fun i => memN i ds) (s_nodes st) Jst) as [Jf AT].
  { intros n Hn. destruct (N.eq_dec (n_gid n) cbm) as [G|G].
    - destruct (W n Hn G) as [W1 W2]. destruct (unm_cbm cbm g n G W1 W2) as (_ & Kk & Ki & _). auto.
    - rewrite (proj2 (unm_other cbm g n G)). auto. }
  split; [exact Jf|]. split; [|exact DS].
  intros h k. rewrite AT. destruct (at_ h k (s_nodes st)) as [n|] eqn:A; auto.
  apply at_In in A as (Hn & _). rewrite (DS n Hn). reflexivity.
Qed.

Theorem unmerge_refines_nodes cbm g st :
  J (s_next st) (s_nodes st) -> cbm_ok cbm (s_nodes st) -> gexists cbm st = true ->
  exists st', unmerge_adm cbm g st = OOk st' /\
    (forall k, getn k (abs_nodes cbm st') = getn k (nodes (sunmerge (abs_cbm cbm st) g))) /\
    J (s_next st') (s_nodes st') /\ cbm_ok cbm (s_nodes st') /\
    (forall h k, h <> cbm -> at_ h k (s_nodes st') = at_ h k (s_nodes st)).
Proof.
  intros Jst W GE. destruct (unmerge_run cbm g st Jst W GE) as (st' & ds & E & _ & EX & Jf & AT & _).
  exists st'. split; [exact E|]. rewrite EX. split; [|split; [exact Jf|split]].
  - intro k.
    assert (NoDup (map fst (nodes (abs_cbm cbm st)))) as NDk.
    { simpl. rewrite keys_abs. apply (ukeys_nids cbm). apply Jst. }
    rewrite (sunmerge_get_node (abs_cbm cbm st) g k NDk). simpl nodes. rewrite !getn_abs, AT.
    destruct (at_ cbm k (s_nodes st)) as [n|] eqn:A; simpl; auto.
    apply at_In in A as (Hn & Gn & Nn). destruct (W n Hn Gn) as [W1 W2].
    destruct (unm_cbm cbm g n Gn W1 W2) as (-> & _ & _ & Ab).
    destruct (alive (unm g (absn n))); simpl; auto. destruct (Ab eq_refl) as [-> _]. reflexivity.
  - intros m Hm Gm. pose proof (at_uniq cbm (n_nid m) _ m (J_ukeys _ _ Jf) Hm Gm eq_refl) as A. rewrite AT in A.
    destruct (at_ cbm (n_nid m) (s_nodes st)) as [n|] eqn:A0; [|discriminate].
    apply at_In in A0 as (Hn & Gn & _). destruct (W n Hn Gn) as [W1 W2].
    destruct (unm_cbm cbm g n Gn W1 W2) as (_ & _ & _ & Ab).
    destruct (unm_del cbm g n); [discriminate|]. inversion A; subst m. destruct (Ab eq_refl) as (_ & X & Y). auto.
  - intros h k NH. rewrite AT. destruct (at_ h k (s_nodes st)) as [n|] eqn:A; auto.
    apply at_In in A as (_ & Gn & _). destruct (unm_other cbm g n) as [-> ->]; congruence.
Qed.

Lemma sunmerge_get_edge' C g e :
  gete e (edges (sunmerge C g)) =
  if hasn (fst e) (nodes (sunmerge C g)) && hasn (snd e) (nodes (sunmerge C g)) then gete e (edges C) else None.
Proof.
  unfold sunmerge at 1. cbn [edges]. unfold gete.
  apply (get_filter_key ekey_eqb ekey_eqb_eq
           (fun k => hasn (fst k) (nodes (sunmerge C g)) && hasn (snd k) (nodes (sunmerge C g)))).
Qed.

Theorem unmerge_refines_edges cbm g st :
  J (s_next st) (s_nodes st) -> cbm_ok cbm (s_nodes st) -> gexists cbm st = true ->
  exists st', unmerge_adm cbm g st = OOk st' /\
    (forall e, gete e (abs_edges cbm st') = gete e (edges (sunmerge (abs_cbm cbm st) g))) /\
    (forall h e, h <> cbm -> gete e (abs_edges h st') = gete e (abs_edges h st)) /\
    (ebelow (s_next st) (s_edges st) -> ebelow (s_next st') (s_edges st')).
Proof.
  intros Jst W GE.
  destruct (unmerge_refines_nodes cbm g st Jst W GE) as (st1 & E1 & UG & _ & _ & OT).
  destruct (unmerge_run cbm g st Jst W GE) as (st' & ds & E & EE & EX & Jf & AT & DS).
  rewrite E in E1. inversion E1; subst st1; clear E1. exists st'. split; auto.
  (* a node that stays keeps its internal id, which is not among the deleted ones *)
  assert (forall n, In n (s_nodes st) -> unm_del cbm g n = false ->
                    n_int (unm_of cbm g n) = n_int n /\ ~ In (n_int n) ds) as KEEP.
  { intros n Hn D. split; [|apply memN_false; rewrite (DS n Hn); exact D].
    destruct (N.eq_dec (n_gid n) cbm) as [G|G]; [|rewrite (proj2 (unm_other cbm g n G)); reflexivity].
    destruct (W n Hn G) as [W1 W2]. apply (unm_cbm cbm g n G W1 W2). }
  split; [|split].
  - intros [x y]. rewrite sunmerge_get_edge'. cbn [fst snd]. rewrite !hasn_is_some, <- !UG, !getn_abs.
    change (edges (abs_cbm cbm st)) with (abs_edges cbm st).
    rewrite (abs_edges_at _ cbm st' _ Jf), (abs_edges_at _ cbm st _ Jst). cbn [fst snd].
    destruct (y <? x); [destruct (_ && _); reflexivity|]. unfold conn_at. rewrite !AT.
    destruct (at_ cbm x (s_nodes st)) as [nx0|] eqn:Ax; simpl; auto.
    destruct (unm_del cbm g nx0) eqn:Dx; simpl; auto.
    destruct (at_ cbm y (s_nodes st)) as [ny0|] eqn:Ay; simpl; auto.
    destruct (unm_del cbm g ny0) eqn:Dy; simpl; auto.
    apply at_In in Ax as (Hx & _). apply at_In in Ay as (Hy & _).
    destruct (KEEP nx0 Hx Dx) as [-> NDx]. destruct (KEEP ny0 Hy Dy) as [-> NDy].
    rewrite EE. apply edat_filter_ds; auto.
  - intros h e NH. apply (abs_edges_kept _ _ h st st' Jst Jf); [intro k; apply OT; auto|].
    intros a b Hx Hy Gx Gy. rewrite EE.
    apply edat_filter_ds; apply memN_false; rewrite DS; auto; apply unm_other; congruence.
  - intro EB. rewrite EE, EX. apply ebelow_filter. exact EB.
Qed.

(* merge keeps "contributors recorded once, at least one" when the merged model is not yet a contributor *)
Theorem merge_keeps_ok cbm adm tmp st st' :
  J (s_next st) (s_nodes st) -> cbm_ok cbm (s_nodes st) -> cbm <> tmp -> gexists tmp st = false ->
  (forall n, In n (s_nodes st) -> n_gid n = cbm -> ~ In adm (abs_con (n_si n))) ->
  merge_adm cbm adm tmp st = OOk st' -> cbm_ok cbm (s_nodes st').
Proof.
  intros Jst W NE FR NC H.
  destruct (merge_table cbm adm tmp st st' Jst NE FR H) as (m & ns3 & ES & J3 & T & OT).
  rewrite ES. intros n Hn Gn.
  destruct (table_fin cbm adm tmp m _ ns3 n (J_ukeys _ _ J3) T Hn Gn) as [(a & t & IM & ->)|[(c & a & t & Hc & IM & ->)|Hc]].
  - split; [apply (absn_rehomed adm tmp m cbm a t IM)|].
    unfold con_ok; simpl. rewrite (im_si _ _ _ _ _ IM). simpl.
    split; [repeat constructor; simpl; tauto | discriminate].
  - apply at_In in Hc as (Hc & Gc & _). destruct (W c Hc Gc) as [W1 [W2 W3]].
    split; [apply (absn_mrg adm tmp m c a t W1 IM)|].
    specialize (NC c Hc Gc). unfold con_ok, mrg; simpl. split.
    + apply NoDup_snoc; auto.
    + destruct (abs_con (n_si c)); discriminate.
  - apply at_In in Hc as (Hc & _). auto.
Qed.
