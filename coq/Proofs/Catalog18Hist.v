(* C18: no state leaks between calls -- in the model.  Every response of a history is the function of that
   call's own arguments (by VALUE) and of the catalogue, and the catalogue state is the same after any history.
   The implementation is held to this by the `history` stream of harness/c18.py (request objects re-used and
   modified in place, results modified in place, repeated / interleaved calls). *)
From Coq Require Import List ZArith.
From FIM Require Import Gen.Catalog Model.Catalog18.
Import ListNotations.

Lemma hstep_state s o : fst (hstep s o) = s.
Proof. destruct o; reflexivity. Qed.

Theorem hrun_state_unchanged : forall ops s, fst (hrun s ops) = s.
Proof.
  induction ops as [|o r IH]; intro s; simpl; [reflexivity|].
  destruct (hstep s o) as [s1 v] eqn:E1. destruct (hrun s1 r) as [s2 vs] eqn:E2. simpl.
  pose proof (IH s1) as H. rewrite E2 in H. simpl in H. pose proof (hstep_state s o) as H1. rewrite E1 in H1. simpl in H1.
  congruence.
Qed.

Theorem hrun_pointwise : forall ops s, snd (hrun s ops) = map (fun o => snd (hstep s o)) ops.
Proof.
  induction ops as [|o r IH]; intro s; simpl; [reflexivity|].
  destruct (hstep s o) as [s1 v] eqn:E1. destruct (hrun s1 r) as [s2 vs] eqn:E2. simpl.
  pose proof (hstep_state s o) as H1. rewrite E1 in H1. simpl in H1. subst s1.
  pose proof (IH s) as H. rewrite E2 in H. simpl in H. rewrite H. reflexivity.
Qed.

Theorem response_in_any_history : forall pre o post s,
  nth_error (snd (hrun s (pre ++ o :: post))) (List.length pre) = Some (snd (hstep s o)).
Proof.
  intros pre o post s. rewrite hrun_pointwise, map_app. simpl.
  rewrite nth_error_app2; rewrite map_length; [|apply le_n]. rewrite Nat.sub_diag. reflexivity.
Qed.

Theorem map_in_any_history : forall s pre req post,
  nth_error (snd (hrun s (pre ++ OpMap req :: post))) (List.length pre) = Some (observe_inst_in (s_inst s) req).
Proof. intros s pre req post. exact (response_in_any_history pre (OpMap req) post s). Qed.

Theorem gen_in_any_history : forall s pre c post,
  nth_error (snd (hrun s (pre ++ OpGen c :: post))) (List.length pre) = Some (gen_case_val (s_comp s) c).
Proof. intros s pre c post. exact (response_in_any_history pre (OpGen c) post s). Qed.

Theorem init_state_is_catalogues : s_inst init_state = catalogue /\ s_comp init_state = comp_catalog.
Proof. split; reflexivity. Qed.
