(* C14 - unmerge preserves the invariant; every history satisfies it; rollback; families. *)
From Coq Require Import List NArith Bool.
From FIM Require Import Base.ListFacts Model.Cbm14Spec Proofs.Cbm14Assoc Proofs.Cbm14Merge Proofs.Cbm14Unmerge Proofs.Cbm14Inv.
Import ListNotations.
Open Scope N_scope.

Lemma alive_exists (c : cnode) : alive c = true <-> exists g, In g (c_con c).
Proof.
  unfold alive. destruct (c_con c) as [|g r]; split; simpl; eauto; try discriminate. intros [g []].
Qed.

Lemma drop_d_some g d g' x : drop_d g d = Some (g', x) -> d = Some (g', x) /\ g' <> g.
Proof.
  destruct d as [[k y]|]; simpl; [|discriminate]. destruct (k =? g) eqn:E; [discriminate|].
  intro H; inversion H; subst. split; auto. intro; subst. rewrite N.eqb_refl in E. discriminate.
Qed.

Lemma in_filter_ids (Ms : list adm) g A :
  In A (filter (fun A => negb (adm_id A =? g)) Ms) <-> In A Ms /\ adm_id A <> g.
Proof.
  rewrite filter_In, negb_true_iff, N.eqb_neq. tauto.
Qed.

Lemma holders_filter Ms g k g' :
  holders (filter (fun A => negb (adm_id A =? g)) Ms) k g' <-> holders Ms k g' /\ g' <> g.
Proof.
  unfold holders. split.
  - intros (A & HA & E & X). apply in_filter_ids in HA as [HA NE]. subst. eauto.
  - intros [(A & HA & E & X) NE]. exists A. rewrite in_filter_ids. subst. auto.
Qed.

Lemma Inv_sunmerge Ms C g :
  Inv Ms C -> Inv (filter (fun A => negb (adm_id A =? g)) Ms) (sunmerge C g).
Proof.
  intros (ND & AL & DG & NDI & WF & CE & KB). pose proof ND as [ND1 ND2].
  unfold Inv. split; [|split; [|split; [|split; [|split; [|split]]]]].
  - apply sunmerge_nodup; auto.
  - intros k c' Hc'. destruct (sunmerge_node_inv _ _ _ _ ND1 Hc') as (_ & _ & _ & E). exact E.
  - intros e He. rewrite hase_is_some, sunmerge_get_edge in He; auto.
    destruct (gete e (edges C)); [|discriminate].
    destruct (hasn (fst e) (nodes (sunmerge C g))), (hasn (snd e) (nodes (sunmerge C g))); simpl in He; auto; discriminate.
  - apply NoDup_map_filter, NDI.
  - rewrite Forall_forall in *. intros A HA. apply WF. apply in_filter_ids in HA. tauto.
  - apply contributors_exact_iff. intros k g'.
    rewrite (sunmerge_contribs _ _ _ ND1), filter_In, negb_true_iff, N.eqb_neq, holders_filter,
            (proj1 (contributors_exact_iff _ _) CE k g'). reflexivity.
  - intros k c' g' x Hc'. destruct (sunmerge_node_inv _ _ _ _ ND1 Hc') as (c & Hc & -> & _).
    destruct (KB k c g' x Hc) as [K1 K2]. unfold unm; simpl. split; intro L; apply drop_d_some in L as [L NE].
    + destruct (K1 L) as (A & a & HA & E & R). exists A, a. rewrite in_filter_ids. subst. auto.
    + destruct (K2 L) as (A & a & HA & E & R). exists A, a. rewrite in_filter_ids. subst. auto.
Qed.

Definition op_wf (o : hop) : Prop := match o with HMerge A => wf_adm A | _ => True end.
Definition HInv (s : hstate) : Prop :=
  Inv (h_ms s) (h_cur s) /\ Forall (fun kv => Inv (snd (snd kv)) (fst (snd kv))) (h_snaps s).

Lemma mem_In g l : mem g l = true <-> In g l.
Proof. apply (existsb_eqb_In N.eqb N.eqb_eq). Qed.

Lemma HInv_step s o : HInv s -> op_wf o -> HInv (hstep s o).
Proof.
  intros [I S] W. destruct o as [A|g|id|id]; simpl.
  - destruct (mem (adm_id A) (map adm_id (h_ms s))) eqn:M; [split; auto|].
    destruct (smerge (h_cur s) A) as [C|] eqn:E; [|split; auto].
    split; simpl; auto. eapply Inv_smerge; eauto.
    intro H. apply mem_In in H. congruence.
  - split; simpl; auto. apply Inv_sunmerge; auto.
  - destruct (hasn id (h_snaps s)); split; simpl; auto.
  - destruct (getn id (h_snaps s)) as [[C ms]|] eqn:E; [|split; auto].
    split; simpl.
    + apply (get_Some_In N.eqb N.eqb_eq) in E. rewrite Forall_forall in S. apply (S _ E).
    + rewrite Forall_forall in *. intros kv H. apply filter_In in H as [H _]. auto.
Qed.

Lemma HInv_run ops : forall s, HInv s -> Forall op_wf ops -> HInv (hrun s ops).
Proof.
  induction ops as [|o ops IH]; intros s I W; simpl; auto.
  inversion W; subst. apply IH; auto. apply HInv_step; auto.
Qed.

Lemma HInv_init : HInv hinit.
Proof. split; simpl; [apply Inv_empty | constructor]. Qed.

Theorem hinv_all ops : Forall op_wf ops -> HInv (hrun hinit ops).
Proof. intro W. apply HInv_run; auto using HInv_init. Qed.

Definition touches (id : N) (o : hop) : bool :=
  match o with HSnap i => i =? id | HRollback i => i =? id | _ => false end.

Lemma snaps_frame id ops : forall s,
  forallb (fun o => negb (touches id o)) ops = true ->
  getn id (h_snaps (hrun s ops)) = getn id (h_snaps s).
Proof.
  induction ops as [|o ops IH]; intros s H; simpl in *; auto.
  apply andb_true_iff in H as [H1 H2]. rewrite IH; auto. clear IH H2.
  destruct o as [A|g|i|i]; simpl in *.
  - destruct (mem (adm_id A) (map adm_id (h_ms s))); auto. destruct (smerge (h_cur s) A); auto.
  - reflexivity.
  - destruct (hasn i (h_snaps s)); auto. simpl. unfold getn; simpl.
    rewrite N.eqb_sym. apply negb_true_iff in H1. rewrite H1. reflexivity.
  - destruct (getn i (h_snaps s)) as [[C ms]|]; auto. simpl.
    unfold getn. rewrite (get_filter_key N.eqb N.eqb_eq (fun k => negb (k =? i))).
    rewrite N.eqb_sym. rewrite H1. reflexivity.
Qed.

Theorem rollback_restores s id ops :
  hasn id (h_snaps s) = false ->
  forallb (fun o => negb (touches id o)) ops = true ->
  let s' := hstep (hrun (hstep s (HSnap id)) ops) (HRollback id) in
  h_cur s' = h_cur s /\ h_ms s' = h_ms s.
Proof.
  intros F T. simpl. rewrite F. rewrite snaps_frame; auto. simpl.
  unfold getn; simpl. rewrite N.eqb_refl. simpl. auto.
Qed.

Theorem family_inv As C :
  Forall wf_adm As -> NoDup (map adm_id As) -> merge_all As = Some C -> Inv As C.
Proof.
  unfold merge_all. revert C. induction As as [|A As IH] using rev_ind; intros C W ND H.
  - inversion H. apply Inv_empty.
  - rewrite merge_from_snoc in H. destruct (merge_from empty As) as [D|]; [|discriminate].
    apply Forall_app in W as [W WA]. inversion WA; subst.
    rewrite map_app in ND. apply NoDup_remove in ND as [ND NI]. rewrite app_nil_r in ND, NI.
    eapply Inv_smerge; eauto.
Qed.

(* connections and plain data of a merged family (merging only) *)
Definition from_family (Ms : list adm) (C : cbm) : Prop :=
  (forall e, hase e (edges C) = true <-> exists A, In A Ms /\ hase e (adm_edges A) = true) /\
  (forall e d, gete e (edges C) = Some d -> exists A, In A Ms /\ gete e (adm_edges A) = Some d) /\
  (forall k c, getn k (nodes C) = Some c ->
       exists A a, In A Ms /\ getn k (adm_nodes A) = Some a /\ c_cls c = a_cls a /\ c_oth c = a_oth a).

Lemma from_family_smerge Ms C A C' :
  from_family Ms C -> smerge C A = Some C' -> from_family (Ms ++ [A]) C'.
Proof.
  intros (F1 & F2 & F3) H.
  assert (incl Ms (Ms ++ [A])) as Old by (apply incl_appl, incl_refl).
  assert (In A (Ms ++ [A])) as New by (apply in_or_app; simpl; auto).
  split; [|split].
  - intro e. rewrite (smerge_hase _ _ _ e H), orb_true_iff, F1. split.
    + intros [(B & HB & X)|X]; eauto.
    + intros (B & HB & X). apply in_app_or in HB as [HB|[<-|[]]]; eauto.
  - intros e d. rewrite (smerge_get_edge _ _ _ e H).
    destruct (gete e (edges C)) as [d'|] eqn:Ec.
    + intro X. inversion X; subst. destruct (F2 e d Ec) as (B & HB & HE). eauto.
    + destruct (gete e (adm_edges A)) eqn:Ea; [|discriminate]. intro X; inversion X; subst. eauto.
  - intros k c' Hc'. destruct (smerge_node_cases _ _ _ k c' H Hc') as [[_ Hc]|(a & Ha & ->)].
    + destruct (F3 k c' Hc) as (B & b & HB & R). eauto.
    + destruct (getn k (nodes C)) as [c|] eqn:Hc; simpl.
      * destruct (F3 k c Hc) as (B & b & HB & R). eauto.
      * exists A, a. auto.
Qed.

Theorem family_union As C : merge_all As = Some C -> from_family As C.
Proof.
  unfold merge_all. revert C. induction As as [|A As IH] using rev_ind; intros C H.
  - inversion H. split; [|split]; simpl; try discriminate.
    intro e. split; [discriminate | intros (A & [] & _)].
  - rewrite merge_from_snoc in H. destruct (merge_from empty As) as [D|]; [|discriminate].
    eapply from_family_smerge; eauto.
Qed.

Definition one_speaker (A B : adm) : Prop :=
  forall k a b, getn k (adm_nodes A) = Some a -> getn k (adm_nodes B) = Some b ->
    is_some (a_ld a) && is_some (a_ld b) = false /\ is_some (a_cd a) && is_some (a_cd b) = false.
Definition consistent (As : list adm) : Prop :=
  pairwise_compatible As /\
  (forall A B, In A As -> In B As -> adm_id A <> adm_id B -> one_speaker A B).

(* the models still to come are not refused now, and by conflict_smerge stay so after each merge *)
Lemma total_from As : forall C,
  Forall wf_adm As -> NoDup (map adm_id As) ->
  (forall A B, In A As -> In B As -> adm_id A <> adm_id B -> one_speaker A B) ->
  (forall A, In A As -> conflict C A = false) -> exists D, merge_from C As = Some D.
Proof.
  induction As as [|A As IH]; intros C W ND OS CF; [exists C; reflexivity|].
  inversion W as [|? ? WA W']; subst. inversion ND as [|? ? NI ND']; subst. rewrite merge_from_cons.
  destruct (smerge_defined C A) as [C1 S]; [apply CF; simpl; auto|]. rewrite S.
  apply IH; auto.
  - intros; apply OS; simpl; auto.
  - intros B HB. rewrite Forall_forall in W'.
    apply (conflict_smerge _ _ _ _ (W' B HB) S). split; [apply CF; simpl; auto|].
    apply OS; simpl; auto. intro E. apply NI. rewrite E. apply in_map, HB.
Qed.

Theorem family_total As : Forall wf_adm As -> consistent As -> exists C, merge_all As = Some C.
Proof.
  intros W [[ND _] OS]. apply total_from; auto.
  intros A HA. rewrite Forall_forall in W. apply conflict_false; auto. discriminate.
Qed.

(* the refusal itself: two models speaking for the same resource *)
Theorem double_speaker_rejected C A k c a :
  getn k (nodes C) = Some c -> In (k, a) (adm_nodes A) -> clash c a = true -> smerge C A = None.
Proof.
  intros Hc Ha X. unfold smerge.
  assert (conflict C A = true) as ->; auto.
  unfold conflict. apply existsb_exists. exists (k, a). simpl. rewrite Hc. auto.
Qed.
