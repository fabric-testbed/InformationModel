(* C03: obligations about the regenerated tables (Gen/CodecGen.v) -- finite, by computation. *)
From Coq Require Import String List NArith ZArith Bool.
From FIM Require Import Base.Str Base.Json Gen.CodecGen Model.CodecField Model.CodecMisc Model.CodecWf Model.CodecChk.
Import ListNotations.

Lemma codec_gen_ok_true : codec_gen_ok = true.
Proof. reflexivity. Qed.

(* the hand-written inductives of the model have exactly the members the source declares *)
Lemma codec_enums_match :
  path_type_names = ptype_names /\ maint_state_names = mstate_names /\
  maint_entry_fields = ["state"; "deadline"; "expected_end"]%string /\
  gen_class_names = ["Capacities"; "CapacityHints"; "Labels"; "ReservationInfo"; "StructuralInfo"; "Location"; "Flags"]%string /\
  jsondata_names = ["MeasurementData"; "UserData"; "LayoutData"]%string.
Proof. repeat split; reflexivity. Qed.

(* every regenerated class descriptor is well formed, whatever the label validator is *)
Lemma classes_ok_all V : forallb (cls_ok V) gen_classes = true.
Proof. reflexivity. Qed.

Lemma classes_ok V c : In c gen_classes -> cls_ok V c = true.
Proof. exact (proj1 (forallb_forall _ _) (classes_ok_all V) c). Qed.

Definition n_capacities : str := S"Capacities".

Lemma drop_rule_lossless_all :
  forallb (fun c => str_eqb (jc_name c) n_capacities || lossless_cls c) gen_classes = true.
Proof. reflexivity. Qed.

Lemma drop_rule_lossless c : In c gen_classes -> jc_name c <> n_capacities -> lossless_cls c = true.
Proof.
  intros H N. pose proof (proj1 (forallb_forall _ _) drop_rule_lossless_all c H) as Q.
  apply orb_true_iff in Q as [Q|Q]; [|exact Q]. apply str_eqb_eq in Q. contradiction.
Qed.

Lemma capacities_lossless_partial : In cls_Capacities gen_classes /\ jc_name cls_Capacities = n_capacities /\
  lossless_cls_but [JNull; JBool false] cls_Capacities = true.
Proof. split; [left; reflexivity|split; reflexivity]. Qed.

(* lossless_cls cls_Capacities = true does not hold, and this witness refutes the round trip it would give: None is
   accepted by the constructor (the assertions are skipped), dropped by the encoder and read back as the default 0 *)
Lemma capacities_none_refuted :
  exists kw o o', construct VA cls_Capacities kw = Ok o
    /\ from_json VA cls_Capacities (Some (to_json cls_Capacities o)) = Ok (Some o')
    /\ json_eqb (JObj o) (JObj o') = false.
Proof.
  exists [(S"core", JNull); (S"ram", JInt 1)].
  eexists. eexists. split; [vm_compute; reflexivity|]. split; vm_compute; reflexivity.
Qed.

(* unknown keys, also one that names a method of the class, are ignored: the text decodes like the one without them *)
Lemma forward_compat_example :
  from_json VA cls_Capacities (Some (S"{""core"": 2, ""gpu_model"": ""A100"", ""to_json"": [1]}"))
  = from_json VA cls_Capacities (Some (S"{""core"": 2}")).
Proof. vm_compute. reflexivity. Qed.

Lemma classes_ok_labels V : cls_ok V cls_Labels = true.
Proof. reflexivity. Qed.

Lemma norm_stable_all : forallb norm_stable gen_classes = true.
Proof. reflexivity. Qed.

Lemma norm_stable_ok c : In c gen_classes -> norm_stable c = true.
Proof. exact (proj1 (forallb_forall _ _) norm_stable_all c). Qed.
