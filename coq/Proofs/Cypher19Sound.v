(* C19: soundness of the template checker.  `tscan` on a template simulates `scan` on every rendering that fills
   the identifier-class holes with identifiers (tscan_sound), so if `tmpl_ok t` the rendered statement is well-formed,
   the scanner ends in the same state whatever the stored values are, and without escaped holes the text itself
   depends on the identifiers only (tmpl_ok_conforms).  Then: what wf_b means (wf_b_inv); a value pasted as a
   correctly escaped quoted literal (escaped_literal_wf); unesc after esc_q is the identity, also nested
   (unesc_esc_n); a template nested in an escaped literal of another one (nested_in_denotes, nested_pair_denotes). *)
From Coq Require Import List NArith Bool Lia ZifyBool PeanoNat.
Import ListNotations.
From FIM Require Import Base.ListFacts Base.Str Model.Cypher19.
Open Scope N_scope.

Lemma scan_app s a b :
  scan s (a ++ b) = match scan s a with Some s' => scan s' b | None => None end.
Proof.
  revert s; induction a as [|c a IH]; intro s; simpl; [reflexivity|].
  destruct (step s c); [apply IH|reflexivity].
Qed.

Lemma set_mode_same s : set_mode (s_mode s) s = s.
Proof. destruct s; reflexivity. Qed.

Lemma idstart_idchar c : is_idstart c = true -> is_idchar c = true.
Proof. unfold is_idchar; intro H; rewrite H; reflexivity. Qed.

(* identifier characters are neither blanks nor the characters the escaping helper touches *)
Lemma idchar_plain c :
  is_idchar c = true -> is_space c = false /\ (c =? 92) || (c =? 39) || (c =? 34) = false.
Proof. unfold is_idchar, is_idstart, is_upper, is_lower, is_digit, is_space. lia. Qed.

(* in a position where the text of an identifier is irrelevant, scanning one identifier character ... *)
Lemma step_hole_first s c :
  hole_ok s = true -> is_idstart c = true -> step s c = Some (hole_next s).
Proof.
  unfold hole_ok, hole_next, step. intros Hok Hc.
  destruct (s_mode s) eqn:Hm; try discriminate.
  - unfold step_norm. rewrite (proj1 (idchar_plain c (idstart_idchar c Hc))), Hc, Hok. reflexivity.
  - rewrite (idstart_idchar c Hc). rewrite <- Hm, set_mode_same. reflexivity.
Qed.

Lemma scan_skip s r :
  s_mode s = MSkip -> forallb is_idchar r = true -> scan s r = Some s.
Proof.
  intro Hm. induction r as [|c r IH]; simpl; intro H; [reflexivity|].
  apply andb_true_iff in H as [Hc Hr]. unfold step. rewrite Hm, Hc. apply IH, Hr.
Qed.

(* ... or a whole identifier leads to one fixed state, whatever the identifier is *)
Lemma scan_ident s w :
  hole_ok s = true -> ident_okb w = true -> scan s w = Some (hole_next s).
Proof.
  intros Hok Hw. destruct w as [|c r]; [discriminate|]. simpl in Hw.
  apply andb_true_iff in Hw as [Hc Hr]. simpl. rewrite (step_hole_first s c Hok Hc).
  apply scan_skip; [destruct s; reflexivity|exact Hr].
Qed.

(* ------------------------------------------------------------------------------------------- *)
(* escaped text never leaves the quoted literal it is pasted into                                *)
(* ------------------------------------------------------------------------------------------- *)
Definition in_quote (s : sstate) : Prop := s_mode s = MSq \/ s_mode s = MDq.

Lemma scan_escaped s c : in_quote s -> scan s [92; c] = Some s.
Proof. destruct s as [m pv cur st pe y ps us bs]. intros [H|H]; cbn in H; subst m; reflexivity. Qed.

Lemma step_plain s c : in_quote s -> (c =? 92) || (c =? 39) || (c =? 34) = false -> step s c = Some s.
Proof.
  intros Hq Hc. apply orb_false_iff in Hc as [Hc H3]. apply orb_false_iff in Hc as [H1 H2].
  unfold step. destruct Hq as [-> | ->]; rewrite H1, ?H2, ?H3; reflexivity.
Qed.

(* escaped text, pasted inside a literal of either quote kind, leaves the scanner where it was *)
Lemma scan_esc_q s v : in_quote s -> scan s (esc_q v) = Some s.
Proof.
  intro Hq. induction v as [|c r IH]; [reflexivity|].
  cbn [esc_q]. destruct ((c =? 92) || (c =? 39) || (c =? 34)) eqn:Hc.
  - change (scan s ([92; c] ++ esc_q r) = Some s). rewrite scan_app, (scan_escaped s c Hq). exact IH.
  - cbn [scan]. rewrite (step_plain s c Hq Hc). exact IH.
Qed.

Lemma idents_ok_tail f fs e : idents_ok (f :: fs) e -> idents_ok fs e.
Proof.
  unfold idents_ok. intros H v Hv. apply H. destruct f as [t|v' [| |d]]; simpl; auto.
Qed.

Theorem tscan_sound : forall fs s s' e,
  tscan s fs = Some s' -> idents_ok fs e -> scan s (render fs e) = Some s'.
Proof.
  induction fs as [|f fs IH]; intros s s' e H Hid; simpl in *.
  - exact H.
  - destruct f as [t|v [| |d]].
    + rewrite scan_app. destruct (scan s t) as [s1|]; [|discriminate].
      apply IH; [exact H|exact (idents_ok_tail _ _ _ Hid)].
    + destruct (hole_ok s) eqn:Hok; [|discriminate].
      rewrite scan_app, (scan_ident s (e v) Hok).
      * apply IH; [exact H|exact (idents_ok_tail _ _ _ Hid)].
      * apply Hid. simpl. left; reflexivity.
    + discriminate.
    + destruct d as [|d]; [discriminate|].
      assert (Hm : in_quote s) by (unfold in_quote; destruct (s_mode s); try discriminate; auto).
      cbn [esc_n]. rewrite scan_app, (scan_esc_q s _ Hm).
      apply IH; [|exact (idents_ok_tail _ _ _ Hid)].
      destruct (s_mode s); try discriminate; exact H.
Qed.

Lemma tscan_no_value : forall fs s s', tscan s fs = Some s' -> has_value_hole fs = false.
Proof.
  induction fs as [|f fs IH]; intros s s' H; simpl in *; [reflexivity|].
  destruct f as [t|v [| |d]].
  - destruct (scan s t); [eapply IH; eassumption|discriminate].
  - destruct (hole_ok s); [eapply IH; eassumption|discriminate].
  - discriminate.
  - destruct d as [|d]; [discriminate|]. destruct (s_mode s); try discriminate; eapply IH; eassumption.
Qed.

Theorem render_indep : forall fs e e',
  has_value_hole fs = false -> has_esc_hole fs = false ->
  agree_on (ident_vars fs) e e' -> render fs e = render fs e'.
Proof.
  induction fs as [|f fs IH]; intros e e' Hv He Ha; simpl in *; [reflexivity|].
  destruct f as [t|v [| |d]].
  - f_equal. apply IH; assumption.
  - rewrite (Ha v (or_introl eq_refl)). f_equal. apply IH; [assumption|assumption|].
    intros w Hw. apply Ha. right; exact Hw.
  - discriminate.
  - discriminate.
Qed.

Lemma idents_ok_agree fs e e' : idents_ok fs e -> agree_on (ident_vars fs) e e' -> idents_ok fs e'.
Proof. intros H Ha v Hv. rewrite <- (Ha v Hv). exact (H v Hv). Qed.

Lemma tmpl_ok_inv t :
  tmpl_ok t = true ->
  t_params_known t = true /\ exists s, tscan init (t_frags t) = Some s /\ accept s (t_params t) = true.
Proof.
  unfold tmpl_ok. intro H. apply andb_true_iff in H as [Hk H]. split; [exact Hk|].
  destruct (tscan init (t_frags t)) as [s|]; [|discriminate]. exists s; split; [reflexivity|exact H].
Qed.

Theorem tmpl_ok_well_formed t :
  tmpl_ok t = true -> forall e, idents_ok (t_frags t) e -> wf_b (render (t_frags t) e) (t_params t) = true.
Proof.
  intros H e Hid. destruct (tmpl_ok_inv t H) as [_ [s [Hs Ha]]].
  unfold wf_b. rewrite (tscan_sound _ _ _ e Hs Hid). exact Ha.
Qed.

Theorem tmpl_ok_data_independent t :
  tmpl_ok t = true -> has_esc_hole (t_frags t) = false ->
  forall e e', agree_on (ident_vars (t_frags t)) e e' ->
  render (t_frags t) e = render (t_frags t) e'.
Proof.
  intros H He e e' Ha. destruct (tmpl_ok_inv t H) as [_ [s [Hs _]]].
  apply render_indep; [exact (tscan_no_value _ _ _ Hs)|exact He|exact Ha].
Qed.

(* with escaped literals the text may differ - inside those literals only: the scanner ends in the same state *)
Theorem tmpl_ok_structure_independent t :
  tmpl_ok t = true -> forall e e', idents_ok (t_frags t) e -> idents_ok (t_frags t) e' ->
  scan init (render (t_frags t) e) = scan init (render (t_frags t) e').
Proof.
  intros H e e' Hid Hid'. destruct (tmpl_ok_inv t H) as [_ [s [Hs _]]].
  rewrite (tscan_sound _ _ _ e Hs Hid), (tscan_sound _ _ _ e' Hs Hid'). reflexivity.
Qed.

Theorem tmpl_ok_conforms t : tmpl_ok t = true -> conforms t.
Proof.
  intros H e e' Hid Ha.
  pose proof (idents_ok_agree _ _ _ Hid Ha) as Hid'.
  split; [intro He; exact (tmpl_ok_data_independent t H He e e' Ha)|].
  split; [exact (tmpl_ok_structure_independent t H e e' Hid Hid')|].
  split; [exact (tmpl_ok_well_formed t H e Hid)|exact (tmpl_ok_well_formed t H e' Hid')].
Qed.

(* the boolean form of idents_ok used by the correspondence *)
Lemma idents_okb_ok fs e : idents_okb fs e = true -> idents_ok fs e.
Proof. exact (proj1 (forallb_forall _ _)). Qed.

(* what well-formedness gives, in terms of the final scanner state *)
Theorem wf_b_inv text ps :
  wf_b text ps = true ->
  exists s, final_state text = Some s /\ s_mode s = MNorm /\ s_stack s = [] /\
            subset (s_params s) ps = true /\ subset (s_uses s) (s_binds s) = true.
Proof.
  unfold wf_b, final_state, accept. destruct (scan init text) as [s|]; [|discriminate].
  destruct (step s 32) as [s1|]; [|discriminate]. intro H.
  exists (resolve s1). split; [reflexivity|].
  destruct (s_mode (resolve s1)); try discriminate.
  destruct (s_stack (resolve s1)); try discriminate.
  apply andb_true_iff in H as [H1 H2]. repeat split; assumption.
Qed.

Lemma mem_In x l : mem x l = true <-> In x l.
Proof. apply (existsb_eqb_In str_eqb str_eqb_eq). Qed.

Lemma subset_In a b : subset a b = true <-> (forall x, In x a -> In x b).
Proof.
  unfold subset. rewrite forallb_forall. split; intros H x Hx.
  - apply mem_In. apply H, Hx.
  - apply mem_In. apply H, Hx.
Qed.

(* ------------------------------------------------------------------------------------------- *)
(* a correctly escaped quoted literal: the scanner state after it does not depend on the value   *)
(* ------------------------------------------------------------------------------------------- *)
Definition after_literal (s : sstate) : sstate := set_pv POther (set_mode MNorm (resolve s)).

Theorem scan_quoted_literal s v :
  s_mode s = MNorm -> is_keyctx (s_pv s) = false ->
  scan s (quoted_literal v) = Some (after_literal s).
Proof.
  intros Hm Hk. unfold quoted_literal. cbn [scan].
  assert (H1 : step s 39 = Some (set_mode MSq (resolve s))).
  { unfold step. rewrite Hm. unfold step_norm. rewrite Hk. reflexivity. }
  rewrite H1, scan_app.
  rewrite scan_esc_q by (left; destruct (resolve s); reflexivity).
  cbn [scan]. unfold step.
  replace (s_mode (set_mode MSq (resolve s))) with MSq by (destruct (resolve s); reflexivity).
  cbn. unfold after_literal. destruct (resolve s); reflexivity.
Qed.

Theorem escaped_literal_wf pre post ps v v' s :
  scan init pre = Some s -> s_mode s = MNorm -> is_keyctx (s_pv s) = false ->
  wf_b (pre ++ quoted_literal v ++ post) ps = wf_b (pre ++ quoted_literal v' ++ post) ps.
Proof.
  intros Hs Hm Hk. unfold wf_b.
  rewrite !scan_app, Hs, !scan_app, !(scan_quoted_literal s _ Hm Hk). reflexivity.
Qed.

(* ------------------------------------------------------------------------------------------- *)
(* nesting: what the database reads back from an escaped literal is the text that was escaped     *)
(* ------------------------------------------------------------------------------------------- *)
Theorem unesc_esc v : unesc (esc_q v) = v.
Proof.
  induction v as [|c r IH]; [reflexivity|].
  cbn [esc_q]. destruct ((c =? 92) || (c =? 39) || (c =? 34)) eqn:Hc.
  - cbn [unesc]. rewrite N.eqb_refl. f_equal. exact IH.
  - apply orb_false_iff in Hc as [Hc _]. apply orb_false_iff in Hc as [H1 _].
    cbn [unesc]. rewrite H1. f_equal. exact IH.
Qed.

(* what the reader of a literal gets back after d levels (statement of C19_unescape_escape) *)
Fixpoint unesc_n (d : nat) (v : str) : str :=
  match d with O => v | Datatypes.S d' => unesc_n d' (unesc v) end.

Theorem unesc_esc_n d v : unesc_n d (esc_n d v) = v.
Proof. induction d as [|d IH]; [reflexivity|]. cbn [esc_n unesc_n]. rewrite unesc_esc. exact IH. Qed.

Lemma esc_q_app a b : esc_q (a ++ b) = esc_q a ++ esc_q b.
Proof.
  induction a as [|c r IH]; [reflexivity|].
  cbn [esc_q app]. rewrite IH. destruct ((c =? 92) || (c =? 39) || (c =? 34)); reflexivity.
Qed.

Lemma esc_q_idchars w : forallb is_idchar w = true -> esc_q w = w.
Proof.
  induction w as [|c r IH]; [reflexivity|]. cbn [forallb]. intro H.
  apply andb_true_iff in H as [Hc Hr]. cbn [esc_q]. rewrite (proj2 (idchar_plain c Hc)), (IH Hr). reflexivity.
Qed.

Lemma esc_q_ident w : ident_okb w = true -> esc_q w = w.
Proof.
  intro H. apply esc_q_idchars. destruct w as [|c r]; [discriminate|].
  cbn [ident_okb] in H. apply andb_true_iff in H as [Hc Hr]. cbn [forallb].
  rewrite (idstart_idchar c Hc), Hr. reflexivity.
Qed.

Theorem render_esc_frags fs e :
  idents_ok fs e -> render (esc_frags fs) e = esc_q (render fs e).
Proof.
  unfold esc_frags. induction fs as [|f fs IH]; intro Hid; [reflexivity|].
  specialize (IH (idents_ok_tail _ _ _ Hid)).
  destruct f as [t|v [| |d]]; cbn [map esc_frag render]; rewrite esc_q_app, IH; try reflexivity.
  rewrite (esc_q_ident (e v)); [reflexivity|]. apply Hid. left; reflexivity.
Qed.

(* items: a fragment list as a sequence of characters and holes *)
Definition irender (e : env) (i : item) : str :=
  match i with IChar c => [c] | IHole v k => render [Hole v k] e end.

Lemma render_app a b e : render (a ++ b) e = render a e ++ render b e.
Proof.
  induction a as [|f a IH]; [reflexivity|].
  destruct f as [t|v [| |d]]; cbn [app render]; rewrite IH, app_assoc; reflexivity.
Qed.

Lemma irender_chars e s : flat_map (irender e) (map IChar s) = s.
Proof. induction s as [|c r IH]; [reflexivity|]. cbn. rewrite IH. reflexivity. Qed.

Lemma render_items fs e : render fs e = flat_map (irender e) (items fs).
Proof.
  induction fs as [|[t|v k] fs IH]; [reflexivity| |]; cbn [items].
  - rewrite flat_map_app, irender_chars, <- IH. reflexivity.
  - change (Hole v k :: fs) with ([Hole v k] ++ fs). rewrite render_app, IH. reflexivity.
Qed.

Lemma hkind_eqb_eq a b : hkind_eqb a b = true -> a = b.
Proof.
  destruct a, b; simpl; intro H; try discriminate; try reflexivity.
  apply Nat.eqb_eq in H. subst. reflexivity.
Qed.

Lemma item_eqb_eq a b : item_eqb a b = true -> a = b.
Proof.
  destruct a, b; simpl; intro H; try discriminate.
  - apply N.eqb_eq in H. subst. reflexivity.
  - apply andb_true_iff in H as [H1 H2]. apply N.eqb_eq in H1. apply hkind_eqb_eq in H2. subst. reflexivity.
Qed.

Lemma prefixb_app a b : prefixb a b = true -> exists post, b = a ++ post.
Proof.
  revert b; induction a as [|x a IH]; intros b H.
  - exists b. reflexivity.
  - destruct b as [|y b]; [discriminate|]. cbn [prefixb] in H.
    apply andb_true_iff in H as [H1 H2]. apply item_eqb_eq in H1. subst.
    destruct (IH b H2) as [post Hp]. exists post. rewrite Hp. reflexivity.
Qed.

Lemma infixb_app a b : infixb a b = true -> exists pre post, b = pre ++ a ++ post.
Proof.
  induction b as [|y b IH]; cbn [infixb]; intro H; apply orb_true_iff in H as [H|H];
    try (destruct (prefixb_app _ _ H) as [post Hp]; exists [], post; exact Hp).
  - discriminate.
  - destruct (IH H) as [pre [post ->]]. exists (y :: pre), post. reflexivity.
Qed.

(* the parent's text contains the escape of the nested statement's text, for every environment: the literal
   of the parent denotes (unesc_esc) exactly the nested statement *)
Theorem nested_in_denotes nf pf :
  nested_in nf pf = true ->
  forall e, idents_ok nf e -> exists a b, render pf e = a ++ esc_q (render nf e) ++ b.
Proof.
  unfold nested_in. intros H e Hid. destruct (infixb_app _ _ H) as [pre [post Hp]].
  exists (flat_map (irender e) pre), (flat_map (irender e) post).
  rewrite (render_items pf), Hp, !flat_map_app, <- render_items, render_esc_frags by exact Hid.
  reflexivity.
Qed.

Lemma nested_pair_denotes ts p :
  nested_pair_ok ts p = true ->
  exists tn tp, find_by_id ts (fst p) = Some tn /\ find_by_id ts (snd p) = Some tp /\
    forall e, idents_ok (t_frags tn) e ->
    exists a b, render (t_frags tp) e = a ++ esc_q (render (t_frags tn) e) ++ b.
Proof.
  unfold nested_pair_ok.
  destruct (find_by_id ts (fst p)) as [tn|]; [|discriminate].
  destruct (find_by_id ts (snd p)) as [tp|]; [|discriminate].
  intro H. exists tn, tp. split; [reflexivity|]. split; [reflexivity|]. exact (nested_in_denotes _ _ H).
Qed.
