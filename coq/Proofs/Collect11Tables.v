(* C11: facts about the regenerated tables.  Each is a finite check over Gen/CollectGen.v, evaluated by
   the kernel (vm_compute) and lifted to a usable statement; they fail when the source tables change. *)
From Coq Require Import List ZArith NArith Bool String.
From FIM Require Import Base.Str Base.ListFacts Gen.CollectGen Model.Collect11 Model.Collect11Spec.
Import ListNotations.

Lemma gen_ok_true : gen_ok = true.
Proof. reflexivity. Qed.

Lemma dispatch_total : dispatch_missing = [].
Proof. reflexivity. Qed.

(* keys written by the node / service / facility folds themselves (C11_resource_attribute_interface_covers speaks of them) *)
Definition base_keys : list N :=
  [A_RESOURCE_TYPE; A_RESOURCE_CPU; A_RESOURCE_RAM; A_RESOURCE_DISK; A_RESOURCE_BW; A_RESOURCE_SITE;
   A_RESOURCE_COMPONENT; A_RESOURCE_FACILITY_PORT].

(* boolean NoDup on N, in which C11_attribute_ids_distinct is stated *)
Fixpoint nodupN (l : list N) : bool :=
  match l with [] => true | x :: r => negb (memN x r) && nodupN r end.

Lemma memN_In x l : memN x l = true <-> In x l.
Proof. apply existsb_eqb_In, N.eqb_eq. Qed.

Lemma memN_false x l : memN x l = false <-> ~ In x l.
Proof. rewrite <- memN_In. symmetry. apply not_true_iff_false. Qed.

Lemma lookupN_In {V} k (l : list (N * V)) v : lookupN k l = Some v -> In (k, v) l.
Proof.
  induction l as [|[k' v'] r IH]; simpl; [discriminate|].
  destruct (N.eqb k k') eqn:E.
  - intro H; inversion H; subst. apply N.eqb_eq in E. subst. left; reflexivity.
  - intro H. right. apply IH. exact H.
Qed.

Lemma lookupN_none {V} k (l : list (N * V)) : lookupN k l = None -> ~ In k (map fst l).
Proof.
  induction l as [|[k' v'] r IH]; simpl; [tauto|].
  destruct (N.eqb k k') eqn:E; [discriminate|].
  intros H [H1|H1].
  - subst. rewrite N.eqb_refl in E. discriminate.
  - exact (IH H H1).
Qed.

(* every attribute-id constant the model uses; C11_attribute_ids_distinct: they are pairwise distinct *)
Definition all_model_keys : list N :=
  base_keys ++ [A_RESOURCE_FABNETV4_EXT; A_RESOURCE_FABNETV6_EXT; A_RESOURCE_MIRROR_SITE; A_RESOURCE_LIFETIME;
                A_RESOURCE_PROJECT; A_RESOURCE_SUBJECT; A_ACTION_ID; A_SUBJECT_ID; A_SUBJECT_PROJECT; A_PROJECT_TAG].

Lemma model_keys_distinct : nodupN all_model_keys = true.
Proof. vm_compute. reflexivity. Qed.

(* every service type of the guarded set has an NSTYPE_LUT entry: the lookup cannot raise KeyError *)
Lemma lut_total_b : forallb (fun t => match lookupN t nstype_lut with Some _ => true | None => false end) special_types = true.
Proof. vm_compute. reflexivity. Qed.

Lemma lut_total t : memN t special_types = true -> exists rn, lookupN t nstype_lut = Some rn.
Proof.
  intro H. apply memN_In in H.
  pose proof (proj1 (forallb_forall _ _) lut_total_b t H) as H1. cbv beta in H1.
  destruct (lookupN t nstype_lut) as [rn|]; [exists rn; reflexivity | discriminate].
Qed.

(* which service types feed each of the three per-type attributes: exactly the named one *)
Lemma lut_v4 : lookupN ST_FABNetv4Ext nstype_lut = Some A_RESOURCE_FABNETV4_EXT /\ memN ST_FABNetv4Ext special_types = true.
Proof. vm_compute. split; reflexivity. Qed.
Lemma lut_v6 : lookupN ST_FABNetv6Ext nstype_lut = Some A_RESOURCE_FABNETV6_EXT /\ memN ST_FABNetv6Ext special_types = true.
Proof. vm_compute. split; reflexivity. Qed.
Lemma lut_pm : lookupN ST_PortMirror nstype_lut = Some A_RESOURCE_MIRROR_SITE /\ memN ST_PortMirror special_types = true.
Proof. vm_compute. split; reflexivity. Qed.
Lemma mirror_type_is : mirror_type = ST_PortMirror.
Proof. reflexivity. Qed.

(* the guarded set holds exactly the three named types *)
Lemma special_only_b : forallb (fun t => N.eqb t ST_FABNetv4Ext || N.eqb t ST_FABNetv6Ext || N.eqb t ST_PortMirror) special_types = true.
Proof. vm_compute. reflexivity. Qed.

Lemma special_only t : memN t special_types = true -> t = ST_FABNetv4Ext \/ t = ST_FABNetv6Ext \/ t = ST_PortMirror.
Proof.
  intro H. apply memN_In in H.
  pose proof (proj1 (forallb_forall _ _) special_only_b t H) as H1. cbv beta in H1.
  apply orb_true_iff in H1 as [H1|H1]; [apply orb_true_iff in H1 as [H1|H1]|]; apply N.eqb_eq in H1; tauto.
Qed.

Lemma st_distinct : nodupN [ST_FABNetv4Ext; ST_FABNetv6Ext; ST_PortMirror] = true.
Proof. vm_compute. reflexivity. Qed.

(* PDP: every key the model can ever write has a row in ATTRIBUTE_TYPES_AND_CATEGORIES, whose category is
   one of the categories of the request skeleton; those categories are distinct *)
Lemma table_covers_b :
  forallb (fun k => match lookupN k attr_table with Some (_, c) => memN c pdp_cats | None => false end)
          (all_model_keys ++ map snd nstype_lut) = true.
Proof. vm_compute. reflexivity. Qed.

Lemma table_covers k : In k (all_model_keys ++ map snd nstype_lut) ->
  exists dt c, lookupN k attr_table = Some (dt, c) /\ In c pdp_cats.
Proof.
  intro H. pose proof (proj1 (forallb_forall _ _) table_covers_b k H) as H1. cbv beta in H1.
  destruct (lookupN k attr_table) as [[dt c]|]; [|discriminate].
  exists dt, c. split; [reflexivity | apply memN_In; exact H1].
Qed.

(* every row of the table (not only the keys the model writes) is routed to a category of the skeleton *)
Lemma table_cats_b : forallb (fun r => memN (snd (snd r)) pdp_cats) attr_table = true.
Proof. vm_compute. reflexivity. Qed.

Lemma pdp_cats_distinct : nodupN pdp_cats = true.
Proof. vm_compute. reflexivity. Qed.

Lemma nodupN_NoDup l : nodupN l = true -> NoDup l.
Proof.
  induction l as [|x r IH]; simpl; intro H; [constructor|].
  apply andb_true_iff in H as [H1 H2]. apply negb_true_iff in H1. apply memN_false in H1.
  constructor; [exact H1 | apply IH; exact H2].
Qed.

(* the regenerated table gives every slice-derived attribute its pinned id text, data type and the resource category *)
Lemma resource_rows_b :
  forallb (fun r => match lookupN (fst r) attr_table with
                    | Some (dt, c) => str_eqb (urn_of (fst r)) (fst (snd r)) && str_eqb (dtype_of dt) (snd (snd r))
                                      && str_eqb (cat_of c) resource_category
                    | None => false end) pinned_resource_rows = true.
Proof. vm_compute. reflexivity. Qed.

Lemma resource_rows k u d : In (k, (u, d)) pinned_resource_rows ->
  urn_of k = u /\ exists dt c, lookupN k attr_table = Some (dt, c) /\ dtype_of dt = d /\ cat_of c = resource_category.
Proof.
  intro H. pose proof (proj1 (forallb_forall _ _) resource_rows_b _ H) as H1. cbv beta in H1. cbn [fst snd] in H1.
  destruct (lookupN k attr_table) as [[dt c]|]; [|discriminate].
  apply andb_true_iff in H1 as [H1 H3]. apply andb_true_iff in H1 as [H1 H2].
  apply str_eqb_eq in H1, H2, H3. split; [exact H1|]. exists dt, c. repeat split; assumption.
Qed.

(* the pinned rows cover every key a topology collection can write *)
Lemma resource_rows_cover_b :
  forallb (fun k => existsb (fun r => N.eqb (fst r) k) pinned_resource_rows) (base_keys ++ map snd nstype_lut) = true.
Proof. vm_compute. reflexivity. Qed.

(* every member class the topology API hands out (regenerated list) is routed by both collectors *)
Lemma dispatch_classes_b : forallb routed produced_classes = true.
Proof. vm_compute. reflexivity. Qed.
