(* C14 - the invariant of every history of merge / unmerge / snapshot / rollback over the abstract model,
   and what it gives for families: elements appear once, contributors are exactly the merged models that
   have the element, delegations are keyed by the contributor that supplied them, the node set is the union. *)
From Coq Require Import List NArith Bool.
From FIM Require Import Base.ListFacts Model.Cbm14Spec Proofs.Cbm14Assoc Proofs.Cbm14Merge Proofs.Cbm14Unmerge.
Import ListNotations.
Open Scope N_scope.

Definition contributors_exact (Ms : list adm) (C : cbm) : Prop :=
  forall k, match getn k (nodes C) with
            | Some c => forall g, In g (c_con c) <-> exists A, In A Ms /\ adm_id A = g /\ hasn k (adm_nodes A) = true
            | None => forall A, In A Ms -> hasn k (adm_nodes A) = false
            end.
Definition keyed_by (Ms : list adm) (C : cbm) : Prop :=
  forall k c g x, getn k (nodes C) = Some c ->
    (c_ld c = Some (g, x) -> exists A a, In A Ms /\ adm_id A = g /\ getn k (adm_nodes A) = Some a /\ a_ld a = Some x) /\
    (c_cd c = Some (g, x) -> exists A a, In A Ms /\ adm_id A = g /\ getn k (adm_nodes A) = Some a /\ a_cd a = Some x).

Definition Inv (Ms : list adm) (C : cbm) : Prop :=
  nodup_keys C /\ all_alive C /\ no_dangling C /\ NoDup (map adm_id Ms) /\ Forall wf_adm Ms /\
  contributors_exact Ms C /\ keyed_by Ms C.

Lemma Inv_contributors Ms C : Inv Ms C -> contributors_exact Ms C.
Proof. intro I. apply I. Qed.
Lemma Inv_keyed_by Ms C : Inv Ms C -> keyed_by Ms C.
Proof. intro I. apply I. Qed.

Lemma Inv_keyed Ms C : Inv Ms C -> keyed C.
Proof.
  intros I k c g x Hc HK. pose proof (Inv_contributors _ _ I k) as CE. pose proof (Inv_keyed_by _ _ I) as KB.
  rewrite Hc in CE. apply CE.
  destruct (KB k c g x Hc) as [K1 K2].
  destruct HK as [HK|HK]; [destruct (K1 HK) as (A & a & ? & ? & Ha & _) | destruct (K2 HK) as (A & a & ? & ? & Ha & _)];
    exists A; repeat split; auto; rewrite hasn_is_some, Ha; reflexivity.
Qed.

Lemma Inv_wf_cbm Ms C : Inv Ms C -> wf_cbm C.
Proof. intro H. pose proof (Inv_keyed _ _ H). destruct H as (? & ? & ? & _). split; [|split; [|split]]; auto. Qed.

Lemma Inv_empty : Inv [] empty.
Proof.
  unfold Inv, nodup_keys, all_alive, no_dangling, contributors_exact, keyed_by, empty; simpl.
  repeat split; try constructor; try discriminate; intros; try contradiction.
Qed.

Lemma Inv_not_contributor Ms C g : Inv Ms C -> ~ In g (map adm_id Ms) -> not_contributor g C.
Proof.
  intros I NI k c Hc Hin.
  pose proof (Inv_contributors _ _ I k) as CE. rewrite Hc in CE. apply CE in Hin as (A & HA & E & _).
  apply NI. rewrite <- E. apply in_map. exact HA.
Qed.

(* contributors_exact read uniformly in whether k is present: the contributors recorded at k (none when k is
   absent) are the ids of the merged models that have k.  smerge appends to that list, sunmerge filters it. *)
Definition contribs (C : cbm) (k : N) : list N := match getn k (nodes C) with Some c => c_con c | None => [] end.
Definition holders (Ms : list adm) (k g : N) : Prop :=
  exists A, In A Ms /\ adm_id A = g /\ hasn k (adm_nodes A) = true.

Lemma contributors_exact_iff Ms C :
  contributors_exact Ms C <-> forall k g, In g (contribs C k) <-> holders Ms k g.
Proof.
  unfold contributors_exact, contribs. split; intros H k; specialize (H k); destruct (getn k (nodes C)); try exact H.
  - intro g. split; [intros [] | intros (A & HA & _ & X)]. rewrite (H A HA) in X. discriminate.
  - intros A HA. destruct (hasn k (adm_nodes A)) eqn:X; auto. destruct (proj2 (H (adm_id A))). exists A; auto.
Qed.

Lemma smerge_contribs C A C' k :
  smerge C A = Some C' -> contribs C' k = contribs C k ++ (if hasn k (adm_nodes A) then [adm_id A] else []).
Proof.
  intro H. unfold contribs. rewrite (smerge_get_node _ _ _ k H), hasn_is_some.
  destruct (getn k (nodes C)), (getn k (adm_nodes A)); simpl; rewrite ?app_nil_r; reflexivity.
Qed.

Lemma sunmerge_contribs C g k :
  NoDup (map fst (nodes C)) -> contribs (sunmerge C g) k = filter (fun x => negb (x =? g)) (contribs C k).
Proof.
  intro ND. unfold contribs. rewrite sunmerge_get_node; auto. destruct (getn k (nodes C)) as [c|]; auto.
  unfold alive, unm; simpl. destruct (filter _ (c_con c)); reflexivity.
Qed.

Lemma holders_snoc Ms A k g :
  holders (Ms ++ [A]) k g <-> holders Ms k g \/ (adm_id A = g /\ hasn k (adm_nodes A) = true).
Proof.
  unfold holders. split.
  - intros (B & HB & R). apply in_app_or in HB as [HB|[<-|[]]]; eauto.
  - intros [(B & HB & R)|R]; [exists B | exists A]; (split; [apply in_or_app; simpl; auto | exact R]).
Qed.

Lemma keyed_by_mono Ms Ms' C : incl Ms Ms' -> keyed_by Ms C -> keyed_by Ms' C.
Proof.
  intros Sub KB k c g x Hc. destruct (KB k c g x Hc) as [K1 K2].
  split; intro L; [destruct (K1 L) as (B & b & HB & R) | destruct (K2 L) as (B & b & HB & R)]; exists B, b; auto.
Qed.

Lemma join_d_Some g c a g' x : join_d g c a = Some (g', x) -> c = Some (g', x) \/ g' = g /\ a = Some x.
Proof. destruct c; simpl; auto. destruct a; simpl; [|discriminate]. intro E; inversion E; auto. Qed.

Lemma Inv_smerge Ms C A C' :
  Inv Ms C -> wf_adm A -> ~ In (adm_id A) (map adm_id Ms) -> smerge C A = Some C' -> Inv (Ms ++ [A]) C'.
Proof.
  intros I WA NI H. pose proof I as (ND & AL & DG & NDI & WF & CE & KB).
  assert (incl Ms (Ms ++ [A])) as Old by (apply incl_appl, incl_refl).
  assert (In A (Ms ++ [A])) as New by (apply in_or_app; simpl; auto).
  split; [|split; [|split; [|split; [|split; [|split]]]]].
  - exact (smerge_nodup _ _ _ WA ND H).
  - intros k c' Hc'. destruct (smerge_node_cases _ _ _ k c' H Hc') as [[_ Hc]|(a & _ & ->)]; [eauto|].
    unfold alive, upd; simpl. destruct (c_con _); reflexivity.
  - (* a connection of the result is one of C or of A, and so are its ends *)
    intros e He. rewrite !(smerge_hasn _ _ _ _ H). rewrite (smerge_hase _ _ _ e H) in He.
    apply orb_true_iff in He as [He|He].
    + destruct (DG e He) as [-> ->]. auto.
    + destruct WA as (_ & _ & WE). destruct (WE e) as [-> ->]; [|rewrite !orb_true_r; auto].
      apply (has_true_iff ekey_eqb ekey_eqb_eq). exact He.
  - rewrite map_app. apply NoDup_snoc; assumption.
  - apply Forall_app; auto.
  - apply contributors_exact_iff. intros k g.
    rewrite (smerge_contribs _ _ _ k H), in_app_iff, holders_snoc, (proj1 (contributors_exact_iff _ _) CE k g).
    destruct (hasn k (adm_nodes A)); simpl; intuition discriminate.
  - pose proof (keyed_by_mono _ _ _ Old KB) as KB'.
    intros k c' g x Hc'.
    destruct (smerge_node_cases _ _ _ k c' H Hc') as [[_ Hc]|(a & Ha & ->)]; [exact (KB' k c' g x Hc)|].
    destruct (getn k (nodes C)) as [c|] eqn:Hc; unfold upd; cbn [c_ld c_cd];
      (split; intro L; (apply join_d_Some in L as [L|[-> L]]; [|exists A, a; auto])).
    1,2: apply (KB' k c g x Hc), L.
    all: discriminate L.
Qed.
