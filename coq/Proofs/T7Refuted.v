(* C07 - the full statement "every building call keeps WF" is FALSE of the faithful model: concrete witnesses,
   each replayed on the real API by the harness on every run (harness/c07.py WITNESSES). *)
From Coq Require Import String List Bool.
From FIM Require Import Base.Str Gen.Rules Model.T7Graph Model.T7Ops Model.T7WF Model.T7Steps
     Proofs.T7Tables Proofs.T7WFRefl.
Import ListNotations.

Lemma not_WF_by_b g : wf_b g = false -> ~ WF g.
Proof. intros H W. apply wf_b_reflect in W. congruence. Qed.

(* two nodes, then rename the second to the name of the first (model_element.py:69 checks nothing) *)
Definition w_rename_hist : list hstep :=
  [(OAddNode (S "n1") (Some (S "a")) (S "VM"), [], []); (OAddNode (S "n2") (Some (S "b")) (S "VM"), [], [])].
Definition w_rename_op : op := ORename (RNode (S "b")) (S "n1").
Lemma rename_refuted :
  let g := run_hist false flags_off empty_graph w_rename_hist in
  WF g /\ ~ WF (fst (step false flags_off g w_rename_op [] [])).
Proof. split; [apply wf_b_reflect; vm_compute; reflexivity | apply not_WF_by_b; vm_compute; reflexivity]. Qed.

(* connect an interface to a service, then remove the peering link by name (topology.py:361) *)
Definition w_link_hist : list hstep :=
  [(OAddNode (S "n1") (Some (S "a")) (S "VM"), [], []);
   (OAddComponent (S "a") (S "c1") (Some (S "c")) (S "SharedNIC") (S "ConnectX-6") (Some (S "s")) (Some [S "i"]), [], []);
   (OAddNS (S "s1") (Some (S "b")) (S "L2Bridge") [S "i"], [S "g3x0"; S "g3x1"], [])].
Definition w_link_op : op := ORemoveLink (S "n1-c1-p1-link").
Lemma remove_link_refuted :
  let g := run_hist false flags_off empty_graph w_link_hist in
  WF g /\ ~ WF (fst (step false flags_off g w_link_op [] [])).
Proof. split; [apply wf_b_reflect; vm_compute; reflexivity | apply not_WF_by_b; vm_compute; reflexivity]. Qed.

(* the outcomes of the witnesses are normal returns: the violation is not an artefact of an error path *)
Lemma witnesses_return_normally :
  snd (step false flags_off (run_hist false flags_off empty_graph w_rename_hist) w_rename_op [] []) = None /\
  snd (step false flags_off (run_hist false flags_off empty_graph w_link_hist) w_link_op [] []) = None.
Proof. vm_compute. repeat split. Qed.

(* with the repairs present (flags_on; 6648cd3 for rename, 65db950 for remove_link) the same calls are refused and leave the
   model untouched *)
Lemma witnesses_refused_when_repaired :
  step false flags_on (run_hist false flags_on empty_graph w_rename_hist) w_rename_op [] []
    = (run_hist false flags_on empty_graph w_rename_hist, Some ETopology) /\
  step false flags_on (run_hist false flags_on empty_graph w_link_hist) w_link_op [] []
    = (run_hist false flags_on empty_graph w_link_hist, Some ETopology).
Proof. vm_compute. split; reflexivity. Qed.

(* add_facility with a repeated interface name is refused and rolled back (fixes 18a115a, 2982a89) *)
Definition w_facility_op : op := OAddFacility (S "f1") (Some (S "f")) (Some [S "p"; S "p"]).
Lemma add_facility_duplicate_refused :
  forall fl, step false fl empty_graph w_facility_op [] [] = (empty_graph, Some ETopology).
Proof. intro fl. vm_compute. reflexivity. Qed.

(* peer of a service with itself (through two handles, as topology.network_services hands them out): two service ports
   of one name under the service (network_service.py:436 checks neither) *)
Definition w_selfpeer_hist : list hstep := [(OAddNS (S "s1") (Some (S "a")) (S "L2Bridge") [], [], [])].
Definition w_selfpeer_op : op := OPeer (S "a") (S "a").
Definition w_selfpeer_ids : list str := [S "p1"; S "p2"; S "l1"].
Lemma peer_self_refuted :
  let g := run_hist false flags_off empty_graph w_selfpeer_hist in
  WF g /\ ~ WF (fst (step false flags_off g w_selfpeer_op w_selfpeer_ids [])) /\
  snd (step false flags_off g w_selfpeer_op w_selfpeer_ids []) = None.
Proof. split; [apply wf_b_reflect; vm_compute; reflexivity | split; [apply not_WF_by_b; vm_compute; reflexivity | vm_compute; reflexivity]]. Qed.

(* peer when a link already carries the derived name <a>-<b>-link: a second link of that name *)
Definition w_peerlink_hist : list hstep :=
  [(OAddNode (S "n1") (Some (S "n")) (S "VM"), [], []);
   (OAddComponent (S "n") (S "c1") (Some (S "c")) (S "SmartNIC") (S "ConnectX-6") (Some (S "s")) (Some [S "i"; S "j"]), [], []);
   (OAddNS (S "s1") (Some (S "a")) (S "L2Bridge") [], [], []);
   (OAddNS (S "s2") (Some (S "b")) (S "L2Bridge") [], [], []);
   (OAddLink (S "s1-s2-link") (Some (S "l")) (S "Patch") [S "i"; S "j"], [], [])].
Definition w_peerlink_op : op := OPeer (S "a") (S "b").
Lemma peer_link_name_refuted :
  let g := run_hist false flags_off empty_graph w_peerlink_hist in
  WF g /\ ~ WF (fst (step false flags_off g w_peerlink_op w_selfpeer_ids [])) /\
  snd (step false flags_off g w_peerlink_op w_selfpeer_ids []) = None.
Proof. split; [apply wf_b_reflect; vm_compute; reflexivity | split; [apply not_WF_by_b; vm_compute; reflexivity | vm_compute; reflexivity]]. Qed.

(* with the checks of 39e308b (fl_peer_checks) both are refused and nothing changes *)
Lemma peer_witnesses_refused_when_repaired :
  step false flags_on (run_hist false flags_on empty_graph w_selfpeer_hist) w_selfpeer_op w_selfpeer_ids []
    = (run_hist false flags_on empty_graph w_selfpeer_hist, Some ETopology) /\
  step false flags_on (run_hist false flags_on empty_graph w_peerlink_hist) w_peerlink_op w_selfpeer_ids []
    = (run_hist false flags_on empty_graph w_peerlink_hist, Some ETopology).
Proof. vm_compute. split; reflexivity. Qed.

(* the PLURAL entry point set_properties(name=...) is not covered by the uniqueness check of 6648cd3 *)
Definition w_setprops_op : op := OSetProp (RNode (S "b")) PNames (S "n1").
Definition flags_rename_only : flags := mkFlags true true true true true true true false true true true.
Lemma set_properties_name_refuted :
  let g := run_hist false flags_rename_only empty_graph w_rename_hist in
  WF g /\ ~ WF (fst (step false flags_rename_only g w_setprops_op [] [])) /\
  snd (step false flags_rename_only g w_setprops_op [] []) = None /\
  step false flags_rename_only g w_rename_op [] [] = (g, Some ETopology) /\
  step false flags_on g w_setprops_op [] [] = (g, Some ETopology).
Proof.
  split; [apply wf_b_reflect; vm_compute; reflexivity|]. split; [apply not_WF_by_b; vm_compute; reflexivity|].
  vm_compute. repeat split.
Qed.

(* the library at a4fc126: every repair but 261150e (add_link takes interfaces only) and f52e05e (disconnect_interface
   refuses a peering port) *)
Definition flags_head : flags := mkFlags true true true true true true true true false false true.

(* add_link handed two Node objects: the graph layer only looks whether the ids exist, the Link joins two NetworkNodes *)
Definition w_linknodes_op : op := OAddLink (S "l1") (Some (S "l")) (S "Patch") [S "a"; S "b"].
Lemma add_link_non_interfaces_refuted :
  let g := run_hist false flags_head empty_graph w_rename_hist in
  WF g /\ ~ WF (fst (step false flags_head g w_linknodes_op [] [])) /\
  snd (step false flags_head g w_linknodes_op [] []) = None /\
  step false flags_on g w_linknodes_op [] [] = (g, Some ETopology).
Proof.
  split; [apply wf_b_reflect; vm_compute; reflexivity|]. split; [apply not_WF_by_b; vm_compute; reflexivity|].
  vm_compute. repeat split.
Qed.

(* disconnect_interface handed the service's own peering port: the other service's port and the link go, the port
   itself stays without peer *)
Definition w_discpeer_hist : list hstep :=
  [(OAddNS (S "sA") (Some (S "a")) (S "L2Bridge") [], [], []); (OAddNS (S "sB") (Some (S "b")) (S "L2Bridge") [], [], []);
   (OPeer (S "a") (S "b"), [S "p1"; S "p2"; S "l1"], [])].
Definition w_discpeer_op : op := ODisconnect (S "a") (S "p1").
Lemma disconnect_peering_port_refuted :
  let g := run_hist false flags_head empty_graph w_discpeer_hist in
  WF g /\ ~ WF (fst (step false flags_head g w_discpeer_op [] [])) /\
  snd (step false flags_head g w_discpeer_op [] []) = None /\
  step false flags_on g w_discpeer_op [] [] = (g, Some ETopology).
Proof.
  split; [apply wf_b_reflect; vm_compute; reflexivity|]. split; [apply not_WF_by_b; vm_compute; reflexivity|].
  vm_compute. repeat split.
Qed.

(* add_interface through the handle of a service that is gone, before a4fc126: the interface node is added, the owner
   edge fails, an interface without owner stays; since a4fc126 the parent is looked up first and nothing is left *)
Definition w_stale_op : op := OStaleAddIface (S "gone") (S "p1") (Some (S "x")) (S "TrunkPort").
Definition flags_before_parent_first : flags := mkFlags true true true true true true true true false false false.
Lemma stale_add_interface_refuted :
  ~ WF (fst (step false flags_before_parent_first empty_graph w_stale_op [] [])) /\
  snd (step false flags_before_parent_first empty_graph w_stale_op [] []) = Some EQuery /\
  step false flags_head empty_graph w_stale_op [] [] = (empty_graph, Some EQuery).
Proof. split; [apply not_WF_by_b; vm_compute; reflexivity | vm_compute; split; reflexivity]. Qed.
