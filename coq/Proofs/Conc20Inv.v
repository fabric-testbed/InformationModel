(* C20, over Model/Conc20.v and meth_ok_sound of Locks20Sound: the interleaving theorem.  For ANY number of threads whose
   programs are accepted by the data automaton (counter reads/writes and node-map mutations only while holding the lock, in an order that
   keeps live ids below their counter) and ANY schedule, every reachable state has pairwise distinct live node
   keys (no insertion was absorbed by an existing node = no node lost, no live id handed out twice), no lock
   error, and whenever the lock is free every live id is below its counter (the next id handed out is fresh). *)
From Coq Require Import List NArith Bool String Lia PeanoNat.
From FIM Require Import Base.ListFacts Model.Locks20 Model.Conc20 Proofs.Locks20Sound.
Import ListNotations.
Open Scope N_scope.

Lemma find_filter_other (cs : list (N * N)) c c' :
  c' <> c ->
  find (fun kv => fst kv =? c') (filter (fun kv => negb (fst kv =? c)) cs) = find (fun kv => fst kv =? c') cs.
Proof. intro Hne. apply find_filter_pass. intros [k v] E. apply N.eqb_eq in E. cbn [fst] in *. subst k. apply negb_true_iff, N.eqb_neq, Hne. Qed.

Lemma getc_setc_same cs c v : getc (setc cs c v) c = v.
Proof. unfold getc, setc. simpl. rewrite N.eqb_refl. reflexivity. Qed.

Lemma getc_setc_other cs c v c' : c' <> c -> getc (setc cs c v) c' = getc cs c'.
Proof.
  intro Hne. unfold getc, setc. simpl.
  destruct (c =? c') eqn:E; [apply N.eqb_eq in E; congruence|].
  rewrite find_filter_other by exact Hne. reflexivity.
Qed.

(* ---------------- the invariant on the store ---------------- *)
(* ND: live node keys are pairwise distinct.  Bnd s cell v: every live id of `cell` is below v.  Oth s cell: in every
   OTHER cell the live ids are below that cell's counter.  P s cell v = the three together: the invariant as the thread
   working on `cell` sees it while the cell's counter and nodes are out of step.  Inv (mentioned by the statements of
   Properties/C20.v) is what holds when the lock is free: P for every cell with v = its counter (Inv_P). *)
Definition ND (s : shst) : Prop := NoDup (map nkey (nodes s)).
Definition Bnd (s : shst) (cell v : N) : Prop := forall n, In n (nodes s) -> ncell n = cell -> nid n < v.
Definition Oth (s : shst) (cell : N) : Prop :=
  forall n, In n (nodes s) -> ncell n <> cell -> nid n < getc (ctrs s) (ncell n).
Definition P (s : shst) (cell v : N) : Prop := ND s /\ Oth s cell /\ Bnd s cell v.
Definition Inv (s : shst) : Prop := ND s /\ forall n, In n (nodes s) -> nid n < getc (ctrs s) (ncell n).

Lemma Inv_P s cell : Inv s <-> P s cell (getc (ctrs s) cell).
Proof.
  unfold Inv, P, Oth, Bnd. split.
  - intros [H1 H2]. repeat split; auto. intros n Hin E. rewrite <- E. auto.
  - intros [H1 [H2 H3]]. split; auto. intros n Hin.
    destruct (N.eq_dec (ncell n) cell) as [E|E]; [rewrite E; auto|auto].
Qed.

Lemma P_mono s cell v v' : P s cell v -> v <= v' -> P s cell v'.
Proof. intros [H1 [H2 H3]] Hle. repeat split; auto. intros n Hin E. specialize (H3 n Hin E). lia. Qed.

Lemma P_setc s cell v w : P s cell v -> P (set_ctr s cell w) cell v.
Proof.
  intros [H1 [H2 H3]]. repeat split; auto.
  intros n Hin Hne. simpl in *. rewrite getc_setc_other by exact Hne. auto.
Qed.

Lemma P_filter s cell v f : P s cell v -> P (set_nodes s (filter f (nodes s))) cell v.
Proof.
  intros [H1 [H2 H3]]. unfold P, ND, Oth, Bnd in *. simpl. repeat split.
  - apply NoDup_map_filter. exact H1.
  - intros n Hin. apply filter_In in Hin as [Hin _]. auto.
  - intros n Hin. apply filter_In in Hin as [Hin _]. auto.
Qed.

Lemma P_filter_cell s cell v :
  P s cell v -> P (set_nodes s (filter (fun n => negb (ncell n =? cell)) (nodes s))) cell 0.
Proof.
  intro H. destruct (P_filter s cell v (fun n => negb (ncell n =? cell)) H) as [H1 [H2 _]].
  repeat split; auto. intros n Hin E. simpl in Hin. apply filter_In in Hin as [_ Hf].
  rewrite E, N.eqb_refl in Hf. discriminate.
Qed.

Lemma P_nil s cell v : P (set_nodes s []) cell v.
Proof. unfold P, ND, Oth, Bnd; simpl. repeat split; try constructor; intros; contradiction. Qed.

Lemma range_In cell b k g n :
  In n (range_nodes cell b k g) -> ncell n = cell /\ ngid n = g /\ b <= nid n /\ nid n < b + k.
Proof.
  unfold range_nodes. intro H. apply in_map_iff in H as [i [E Hi]]. apply in_seq in Hi. subst n.
  unfold ncell, ngid, nid; simpl. repeat split; lia.
Qed.

Lemma range_NoDup cell b k g : NoDup (map nkey (range_nodes cell b k g)).
Proof.
  unfold range_nodes. rewrite map_map. unfold nkey; simpl.
  assert (H : forall l, NoDup l -> NoDup (map (fun i : nat => (cell, b + N.of_nat i)) l)).
  { induction l as [|x l IH]; simpl; intro Hn; [constructor|]. inversion Hn; subst.
    constructor; [|auto]. intro Hin. apply in_map_iff in Hin as [y [E Hy]].
    inversion E. assert (y = x) by lia. subst. contradiction. }
  apply H. apply seq_NoDup.
Qed.

Lemma range_length cell b k g : List.length (range_nodes cell b k g) = N.to_nat k.
Proof. unfold range_nodes. rewrite map_length. apply seq_length. Qed.

Lemma P_range s cell b k g :
  P s cell b -> P (set_nodes s (range_nodes cell b k g ++ nodes s)) cell (b + k).
Proof.
  intros [H1 [H2 H3]]. unfold P, ND, Oth, Bnd in *. simpl. repeat split.
  - rewrite map_app. apply NoDup_app_intro; [apply range_NoDup|exact H1|].
    intros x Hx Hy. apply in_map_iff in Hx as [n [E Hn]]. apply in_map_iff in Hy as [m [E' Hm]].
    apply range_In in Hn as [C [_ [Lo _]]]. subst x.
    assert (ncell m = cell) by (unfold nkey, ncell in *; rewrite E'; exact C).
    assert (nid m = nid n) by (unfold nkey, nid in *; rewrite E'; reflexivity).
    specialize (H3 m Hm H). lia.
  - intros n Hin Hne. apply in_app_or in Hin as [Hin|Hin]; [|auto].
    apply range_In in Hin as [C _]. congruence.
  - intros n Hin E. apply in_app_or in Hin as [Hin|Hin].
    + apply range_In in Hin. lia.
    + specialize (H3 n Hin E). lia.
Qed.

Lemma P_cons s cell v g : P s cell v -> P (set_nodes s ((cell, v, g) :: nodes s)) cell (v + 1).
Proof.
  intro H. pose proof (P_range s cell v 1 g H) as H'. unfold range_nodes in H'. simpl in H'.
  rewrite N.add_0_r in H'. exact H'.
Qed.

Lemma count_cell_app cell a b : count_cell cell (a ++ b) = count_cell cell a + count_cell cell b.
Proof. unfold count_cell. rewrite filter_app, app_length. lia. Qed.

Lemma count_cell_all cell l : (forall n, In n l -> ncell n = cell) -> count_cell cell l = N.of_nat (List.length l).
Proof.
  unfold count_cell. induction l as [|x l IH]; intro H; [reflexivity|].
  cbn [filter]. unfold in_cell at 1. rewrite (H x (or_introl eq_refl)), N.eqb_refl.
  cbn [List.length]. rewrite !Nat2N.inj_succ, IH; [reflexivity|]. intros n Hn. apply H. right; exact Hn.
Qed.

Lemma count_cell_none cell l : (forall n, In n l -> ncell n <> cell) -> count_cell cell l = 0.
Proof.
  unfold count_cell. induction l as [|x l IH]; intro H; [reflexivity|].
  cbn [filter]. unfold in_cell at 1. rewrite (proj2 (N.eqb_neq _ _) (H x (or_introl eq_refl))).
  apply IH. intros n Hn. apply H. right; exact Hn.
Qed.

(* a range inserted into an empty cell: afterwards the cell holds exactly the new nodes, numbered from 1 *)
Lemma P_range_fresh s cell k g :
  P s cell 0 ->
  P (set_nodes s (range_nodes cell 1 k g ++ nodes s)) cell (1 + count_cell cell (range_nodes cell 1 k g ++ nodes s)).
Proof.
  intro H. rewrite count_cell_app, count_cell_all, count_cell_none, range_length, N2Nat.id, N.add_0_r.
  - apply P_range. apply (P_mono s cell 0); [exact H|lia].
  - intros n Hn E. destruct H as [_ [_ H]]. specialize (H n Hn E). lia.
  - intros n Hn. apply (range_In _ _ _ _ _ Hn).
Qed.

(* ---------------- what the holder knows in each automaton state ---------------- *)
(* over the call's counter cell, the size k of the imported graph and the local `base` b; Ki is what holds in state i
   of the data automaton (the states are described above data_act in Model/Conc20.v) *)
Inductive K (s : shst) (cell k b : N) : N -> Prop :=
| K1 : P s cell (getc (ctrs s) cell) -> K s cell k b 1
| K2 : P s cell (getc (ctrs s) cell) -> b = getc (ctrs s) cell -> K s cell k b 2
| K3 : P s cell b -> getc (ctrs s) cell = b + k -> K s cell k b 3
| K4 : P s cell b -> getc (ctrs s) cell = b + 1 -> K s cell k b 4
| K5 : P s cell (getc (ctrs s) cell + 1) -> K s cell k b 5
| K6 : P s cell (getc (ctrs s) cell) -> b = 1 -> K s cell k b 6
| K7 : P s cell 0 -> b = 1 -> K s cell k b 7
| K8 : P s cell (1 + count_cell cell (nodes s)) -> K s cell k b 8.

Definition G (c : cellsel) (a : N) (s : shst) (l : lost) : Prop := K s (cellof c (ag l)) (ak l) (base l) a.

Lemma G_ext c a s l l' : G c a s l -> ag l' = ag l -> ak l' = ak l -> base l' = base l -> G c a s l'.
Proof. unfold G. intros H -> -> ->. exact H. Qed.

Lemma G_nonzero c a s l : G c a s l -> a <> 0.
Proof. destruct 1; discriminate. Qed.

Lemma G_ND c a s l : G c a s l -> ND s.
Proof. destruct 1 as [H|H _|H _|H _|H|H _|H _|H]; exact (proj1 H). Qed.

(* HG : G c a s l and Ha : an equation on which the automaton decides by a: one case per state that Ha allows.
   In each case H is the P-part of the state's knowledge and E (states 2, 3, 4, 6, 7) its equation. *)
Ltac by_state HG Ha :=
  destruct HG as [H|H E|H E|H E|H|H E|H E|H]; cbn in Ha; try discriminate Ha.

(* release is only accepted in states where the full invariant holds *)
Lemma G_release c a s l : G c a s l -> dataA c a KRel = Some 0 -> Inv s.
Proof.
  intros HG HR. apply (Inv_P s (cellof c (ag l))).
  by_state HG HR; apply (P_mono _ _ _ _ H); lia.
Qed.

Lemma neutral_preserves c x s l :
  neutral_in c x = true ->
  fst (do_act x s l) = s /\ ag (snd (do_act x s l)) = ag l /\ ak (snd (do_act x s l)) = ak l
  /\ base (snd (do_act x s l)) = base l.
Proof. destruct x; simpl; intro H; try discriminate; auto. Qed.

Lemma free_preserves x s l : free_act x = true -> fst (do_act x s l) = s.
Proof. destruct x; simpl; intro H; try discriminate; auto. Qed.

Lemma do_act_args x s l : ag (snd (do_act x s l)) = ag l /\ ak (snd (do_act x s l)) = ak l.
Proof. destruct x; simpl; auto. Qed.

Lemma del_pred_cell c g n : del_pred c g n = true -> c = CArg -> ncell n = cellof c g.
Proof. intros H ->. simpl in *. apply N.eqb_eq in H. exact H. Qed.

Lemma csel_eqb_spec x y : reflect (x = y) (csel_eqb x y).
Proof. destruct x, y; constructor; congruence. Qed.

(* the main transition lemma: an act allowed by the automaton takes G c a to G c a' *)
Lemma G_step c a x s l a' :
  G c a s l -> data_act c a x = Some a' ->
  G c a' (fst (do_act x s l)) (snd (do_act x s l)).
Proof.
  intros HG Ha. unfold data_act in Ha. rewrite (proj2 (N.eqb_neq a 0) (G_nonzero _ _ _ _ HG)) in Ha.
  destruct (neutral_in c x) eqn:En.
  { injection Ha as <-. destruct (neutral_preserves c x s l En) as [-> [E1 [E2 E3]]].
    exact (G_ext _ _ _ _ _ HG E1 E2 E3). }
  unfold G in *. set (cell := cellof c (ag l)) in *.
  (* the pattern follows the constructors of `act` in order, only to name the cell selector c' (and the amount of XBump);
     the acts the automaton refuses in every state go by `discriminate`, the ten bullets are the others, in that order *)
  destruct x as [ | |c'|c'| |c' am|c'|c'|c'|c'|c'| |c'| |c'| | |c'|c'|c'| |c']; try discriminate En;
    cbn in Ha; try discriminate Ha;
    try (destruct (csel_eqb_spec c c') as [<-|]; cbn in Ha; [|discriminate Ha]);
    cbn [do_act fst snd base set_base]; fold cell.
  - (* XRdBase *) by_state HG Ha; injection Ha as <-; apply K2; auto.
  - (* XBase1 *) by_state HG Ha; injection Ha as <-; apply K6; auto.
  - (* XBump: the bound may be weakened to the new counter value *)
    destruct am; by_state HG Ha; injection Ha as <-; constructor; cbn [ctrs set_ctr amt]; rewrite ?getc_setc_same.
    all: try (apply P_setc, (P_mono _ _ _ _ H)); lia.
  - (* XSetCtrLen *)
    by_state HG Ha; injection Ha as <-. apply K1. cbn [ctrs set_ctr]. rewrite getc_setc_same, N.add_comm.
    apply P_setc, H.
  - (* XInsCtr *) by_state HG Ha; injection Ha as <-. apply K5, P_cons, H.
  - (* XInsBase *) by_state HG Ha; injection Ha as <-. apply K1. cbn [ctrs set_nodes]. rewrite E. apply P_cons, H.
  - (* XInsRange *)
    by_state HG Ha; injection Ha as <-.
    + apply K1. cbn [ctrs set_nodes]. rewrite E. apply P_range, H.
    + apply K8. rewrite E. apply P_range_fresh, H.
  - (* XDel: of the own cell (disjoint store) it empties the cell *)
    destruct c; by_state HG Ha; injection Ha as <-; constructor; try assumption;
      solve [apply P_filter, H | exact (P_filter_cell s cell _ H)].
  - (* XDelAll *) by_state HG Ha; injection Ha as <-; constructor; try assumption; apply P_nil.
  - (* XReplace = XDel, then XInsRange into the emptied cell *)
    destruct c; by_state HG Ha; injection Ha as <-. apply K8. rewrite E.
    exact (P_range_fresh _ cell _ _ (P_filter_cell s cell _ H)).
Qed.

Lemma ev_step c a k s l a' :
  G c a s l -> dataA c a k = Some a' -> k <> KAcq -> k <> KRel ->
  G c a' (fst (do_ev k s l)) (snd (do_ev k s l)).
Proof.
  intros HG Hk N1 N2. destruct k; try congruence; simpl in *.
  - apply (G_step c a a0 s l a' HG Hk).
  - pose proof (G_step c a a0 s l a' HG Hk) as H. destruct (do_act a0 s l) as [s' l'] eqn:E. simpl in *.
    apply (G_ext c a' s' l'); auto.
  - inversion Hk; subst. exact HG.
Qed.

Lemma do_ev_store k s l :
  fst (do_ev k s l) = match k with KAct x | KIf x _ _ => fst (do_act x s l) | _ => s end.
Proof. destruct k; cbn; try reflexivity. destruct (do_act a s l); reflexivity. Qed.

(* outside the lock only acts that leave the store alone are accepted *)
Lemma ev_free c k s l a' :
  dataA c 0 k = Some a' -> k <> KAcq -> a' = 0 /\ fst (do_ev k s l) = s.
Proof.
  intros Hk N1. rewrite do_ev_store. destruct k; try congruence; cbn in Hk; try discriminate Hk.
  1, 2: unfold data_act in Hk; cbn in Hk; destruct (free_act a) eqn:Ef; [injection Hk as <-|discriminate];
    exact (conj eq_refl (free_preserves a s l Ef)).
  injection Hk as <-. auto.
Qed.

Lemma nth_error_upd_same {A} (l : list A) t x y : nth_error l t = Some x -> nth_error (upd l t y) t = Some y.
Proof.
  revert t; induction l as [|z l IH]; intros [|t]; simpl; intro H; try discriminate; auto.
Qed.
Lemma nth_error_upd_other {A} (l : list A) t u y : t <> u -> nth_error (upd l t y) u = nth_error l u.
Proof.
  revert t u; induction l as [|z l IH]; intros [|t] [|u]; simpl; intro H; try reflexivity; try congruence.
  apply IH. congruence.
Qed.

(* what `step` does on an event that is neither acquire nor release *)
Lemma step_ev S t k rest lo :
  nth_error (thr S) t = Some (IEv k :: rest, lo) -> k <> KAcq -> k <> KRel ->
  step S t = let (s', l') := do_ev k (sh S) lo in mkC (holder S) s' (upd (thr S) t (rest, l')) (bad S).
Proof. intros Et N1 N2. unfold step. rewrite Et. destruct k; congruence. Qed.

(* ---------------- the global invariant ---------------- *)
(* the program p, started in automaton state a, is accepted and ends outside the lock (in Properties/C20.v: a = 0) *)
Definition accepted (c : cellsel) (a : N) (p : list instr) : Prop := accepti (dataA c) a p = Some 0.

(* thread t is in automaton state a: the holder knows G, everybody else is in state 0 *)
Definition TInv (c : cellsel) (S : cst) (t : nat) (th : thread) : Prop :=
  exists a, accepted c a (fst th)
    /\ ((holder S = Some t /\ G c a (sh S) (snd th)) \/ (holder S <> Some t /\ a = 0)).

(* the invariant of the interleaving semantics: no lock error so far, every thread as TInv says, the full store
   invariant while the lock is free, and the holder is a thread of the list *)
Definition J (c : cellsel) (S : cst) : Prop :=
  bad S = false
  /\ (forall t th, nth_error (thr S) t = Some th -> TInv c S t th)
  /\ (holder S = None -> Inv (sh S))
  /\ (forall t, holder S = Some t -> nth_error (thr S) t <> None).

(* the entry of thread t is replaced: the list bookkeeping, once *)
Lemma J_upd c S t th0 h' s' th' :
  J c S -> nth_error (thr S) t = Some th0 ->
  TInv c (mkC h' s' (upd (thr S) t th') (bad S)) t th' ->
  (forall u th, u <> t -> TInv c S u th -> TInv c (mkC h' s' (upd (thr S) t th') (bad S)) u th) ->
  (h' = None -> Inv s') ->
  (forall u, h' = Some u -> u = t \/ holder S = Some u) ->
  J c (mkC h' s' (upd (thr S) t th') (bad S)).
Proof.
  intros [Hbad [Hthr [_ Hex]]] Et Ht Hoth Hinv Hh. split; [exact Hbad|]. split; [|split; [exact Hinv|]]; cbn.
  - intros u th Hu. destruct (Nat.eq_dec t u) as [<-|Hne].
    + rewrite (nth_error_upd_same _ _ _ _ Et) in Hu. injection Hu as <-. exact Ht.
    + rewrite (nth_error_upd_other _ _ _ _ Hne) in Hu. exact (Hoth u th (not_eq_sym Hne) (Hthr u th Hu)).
  - intros u Hu. destruct (Nat.eq_dec t u) as [<-|Hne].
    + rewrite (nth_error_upd_same _ _ _ _ Et). discriminate.
    + rewrite (nth_error_upd_other _ _ _ _ Hne). destruct (Hh u Hu) as [->|H]; [contradiction|exact (Hex u H)].
Qed.

(* t is outside the lock and stays there: holder and store are untouched *)
Lemma J_free c S t th0 rest lo' :
  J c S -> nth_error (thr S) t = Some th0 -> holder S <> Some t -> accepted c 0 rest ->
  J c (mkC (holder S) (sh S) (upd (thr S) t (rest, lo')) (bad S)).
Proof.
  intros HJ Et Hn Hacc. apply (J_upd c S t th0); auto.
  - exists 0. split; [exact Hacc|]. right. split; [exact Hn|reflexivity].
  - exact (proj1 (proj2 (proj2 HJ))).
Qed.

(* t alone can hold the lock before and after the step: every other thread is outside *)
Lemma J_owner c S t th0 h' s' rest lo' a' :
  J c S -> nth_error (thr S) t = Some th0 -> (forall u, holder S = Some u -> u = t) ->
  accepted c a' rest ->
  (h' = Some t /\ G c a' s' lo') \/ (h' = None /\ a' = 0 /\ Inv s') ->
  J c (mkC h' s' (upd (thr S) t (rest, lo')) (bad S)).
Proof.
  intros HJ Et Hown Hacc Hh'.
  assert (Hh : forall u, h' = Some u -> u = t) by (destruct Hh' as [[-> _]|[-> _]]; congruence).
  apply (J_upd c S t th0 _ _ _ HJ Et).
  - exists a'. split; [exact Hacc|].
    destruct Hh' as [[-> HG]|[-> [-> _]]]; [left; split; [reflexivity|exact HG]|right; split; [discriminate|reflexivity]].
  - intros u th Hne [a [A1 [[Hu _]|[_ ->]]]]; [destruct (Hne (Hown u Hu))|].
    exists 0. split; [exact A1|]. right. split; [intro H; exact (Hne (Hh u H))|reflexivity].
  - destruct Hh' as [[-> _]|[_ [_ Hi]]]; [discriminate|intros _; exact Hi].
  - intros u Hu. left. exact (Hh u Hu).
Qed.

Lemma J_ev c S t k rest lo :
  J c S -> nth_error (thr S) t = Some (IEv k :: rest, lo) -> k <> KAcq -> k <> KRel -> J c (step S t).
Proof.
  intros HJ Et N1 N2. rewrite (step_ev S t k rest lo Et N1 N2).
  destruct (proj1 (proj2 HJ) t _ Et) as [a [Hacc Hst]]. unfold accepted in Hacc. cbn in Hacc, Hst.
  destruct (dataA c a k) as [a1|] eqn:Hk; [|discriminate].
  destruct (do_ev k (sh S) lo) as [s' l'] eqn:Ed.
  destruct Hst as [[Hh HG]|[Hn ->]].
  - pose proof (ev_step c a k (sh S) lo a1 HG Hk N1 N2) as HG'. rewrite Ed in HG'.
    rewrite Hh. apply (J_owner c S t _ (Some t) s' rest l' a1 HJ Et); [rewrite Hh; congruence|exact Hacc|].
    left. split; [reflexivity|exact HG'].
  - destruct (ev_free c k (sh S) lo a1 Hk N1) as [-> Es]. rewrite Ed in Es. cbn in Es. subst s'.
    exact (J_free c S t _ rest l' HJ Et Hn Hacc).
Qed.

Lemma J_step c S t : J c S -> J c (step S t).
Proof.
  intros HJ. pose proof HJ as [_ [Hthr [Hinv _]]].
  destruct (nth_error (thr S) t) as [[[|i rest] lo]|] eqn:Et; try (unfold step; rewrite Et; exact HJ).
  destruct (Hthr t _ Et) as [a [Hacc Hst]]. unfold accepted in Hacc. cbn [fst snd] in Hacc, Hst.
  destruct i as [g k|[| |x|x q b|f]]; try (apply (J_ev c S t _ rest lo HJ Et); discriminate);
    unfold step; rewrite Et; cbn [accepti] in Hacc.
  - (* a call begins: only outside the lock *)
    destruct (a =? 0) eqn:Ea; [apply N.eqb_eq in Ea as ->|discriminate].
    destruct Hst as [[_ HG]|[Hn _]]; [destruct (G_nonzero _ _ _ _ HG eq_refl)|].
    exact (J_free c S t _ rest _ HJ Et Hn Hacc).
  - (* acquire: the full invariant is what the new holder knows *)
    cbn in Hacc. destruct (a =? 0) eqn:Ea; [|discriminate].
    destruct (holder S) eqn:Eh; [exact HJ|].
    apply (J_owner c S t _ (Some t) (sh S) rest lo 1 HJ Et); [rewrite Eh; discriminate|exact Hacc|].
    left. split; [reflexivity|]. apply K1, Inv_P, Hinv. reflexivity.
  - (* release: by the holder, in a state where the full invariant holds *)
    destruct (dataA c a KRel) as [a1|] eqn:Hk; [|discriminate].
    destruct Hst as [[Hh HG]|[_ ->]]; [|discriminate Hk].
    assert (a1 = 0) by (cbn in Hk; destruct (_ || _) in Hk; congruence). subst a1.
    rewrite Hh. apply (J_owner c S t _ None (sh S) rest lo 0 HJ Et); [rewrite Hh; congruence|exact Hacc|].
    right. split; [reflexivity|]. split; [reflexivity|exact (G_release c a (sh S) lo HG Hk)].
Qed.

Lemma J_init c progs : Forall (accepted c 0) progs -> J c (init progs).
Proof.
  intro H. split; [reflexivity|]. split; [|split; [|discriminate]].
  - intros t th Ht. apply nth_error_In, in_map_iff in Ht as [p [<- Hp]]. exists 0.
    split; [exact (proj1 (Forall_forall _ _) H p Hp)|]. right. split; [discriminate|reflexivity].
  - intros _. split; [constructor|]. intros n [].
Qed.

Lemma J_run c sched : forall S, J c S -> J c (run_sched S sched).
Proof.
  unfold run_sched. induction sched as [|t sched IH]; intros S H; simpl; [exact H|].
  apply IH. apply J_step. exact H.
Qed.

(* THE interleaving theorem, for programs accepted by the data automaton *)
Theorem interleaving_safe c progs sched :
  Forall (accepted c 0) progs ->
  let S := run_sched (init progs) sched in
  bad S = false /\ NoDup (map nkey (nodes (sh S))) /\ (holder S = None -> Inv (sh S)).
Proof.
  intros H S. destruct (J_run c sched _ (J_init c progs H)) as [Hbad [Hthr [Hinv Hex]]]. fold S in Hthr, Hinv, Hex.
  split; [exact Hbad|]. split; [|exact Hinv].
  destruct (holder S) as [t|] eqn:Eh; [|exact (proj1 (Hinv eq_refl))].
  destruct (nth_error (thr S) t) as [th|] eqn:Ht; [|destruct (Hex t eq_refl Ht)].
  destruct (Hthr t th Ht) as [a [_ [[_ HG]|[Hn _]]]]; [exact (G_ND c a _ _ HG)|destruct (Hn Eh)].
Qed.

(* ---------------- from checked methods to accepted programs ---------------- *)
Lemma accepti_evs tf a evs : accepti tf a (map (fun e : event => IEv (snd e)) evs) = accept tf a evs.
Proof.
  revert a; induction evs as [|[ln k] evs IH]; intro a; simpl; [reflexivity|].
  destruct (tf a k); [apply IH|reflexivity].
Qed.

Lemma accepti_app tf a p1 p2 :
  accepti tf a (p1 ++ p2) = match accepti tf a p1 with Some a1 => accepti tf a1 p2 | None => None end.
Proof.
  revert a; induction p1 as [|i p1 IH]; intro a; simpl; [reflexivity|].
  destruct i as [g k|k].
  - destruct (a =? 0); [apply IH|reflexivity].
  - destruct (tf a k); [apply IH|reflexivity].
Qed.

Lemma flatten_accepted c cs :
  (forall cl, In cl cs -> data_ok c (c_meth cl) = true) ->
  accepti (dataA c) 0 (flatten DeclFaults cs) = Some 0.
Proof.
  induction cs as [|cl cs IH]; intro H; [reflexivity|].
  unfold flatten in *. simpl. rewrite accepti_app, accepti_evs.
  destruct (meth_ok_sound (dataA c) DeclFaults 0 (c_meth cl) (H cl (or_introl eq_refl)) (c_path cl)) as [_ A].
  rewrite A. apply IH. intros cl' Hin. apply H. right; exact Hin.
Qed.

(* the hypotheses of the table theorems of Properties/C20.v: every method of the table passes data_ok; every call of
   every thread is a call of a method of the table *)
Definition table_ok (c : cellsel) (ms : list (string * stmt)) : bool := forallb (fun m => data_ok c (snd m)) ms.
Definition calls_from (ms : list (string * stmt)) (threads : list (list call)) : Prop :=
  forall th, In th threads -> forall cl, In cl th -> In (c_meth cl) (map snd ms).

Lemma table_accepted c ms threads :
  table_ok c ms = true -> calls_from ms threads -> Forall (accepted c 0) (map (flatten DeclFaults) threads).
Proof.
  intros Ht Hc. apply Forall_forall. intros p Hp. apply in_map_iff in Hp as [th [<- Hth]].
  apply flatten_accepted. intros cl Hcl.
  destruct (proj1 (in_map_iff _ _ _) (Hc th Hth cl Hcl)) as [[name m] [<- Hm]].
  exact (proj1 (forallb_forall _ _) Ht _ Hm).
Qed.

Theorem interleaving_table c ms :
  table_ok c ms = true -> forall threads sched, calls_from ms threads ->
  let S := run_sched (init (map (flatten DeclFaults) threads)) sched in
  bad S = false /\ NoDup (map nkey (nodes (sh S))) /\ (holder S = None -> Inv (sh S)).
Proof. intros Ht threads sched Hc. exact (interleaving_safe c _ sched (table_accepted c ms threads Ht Hc)). Qed.

(* ---------------- progress: nobody blocks for ever ---------------- *)
(* thread t can take a step: it has an instruction left and is not waiting for a held lock *)
Definition enabled (S : cst) (t : nat) : Prop :=
  exists i rest lo, nth_error (thr S) t = Some (i :: rest, lo) /\ (i = IEv KAcq -> holder S = None).
(* some thread still has an instruction left (the hypothesis of the no-deadlock theorems of Properties/C20.v) *)
Definition unfinished (S : cst) : Prop :=
  exists t i rest lo, nth_error (thr S) t = Some (i :: rest, lo).

Lemma J_progress c S : J c S -> unfinished S -> exists t, enabled S t.
Proof.
  intros [Hbad [Hthr [Hinv Hex]]] [t [i [rest [lo Ht]]]].
  destruct (holder S) as [h|] eqn:Eh.
  - (* the holder itself is enabled: its program is not finished and does not start with an acquire *)
    destruct (nth_error (thr S) h) as [[prog lh]|] eqn:Hh; [|destruct (Hex h eq_refl Hh)].
    destruct (Hthr h _ Hh) as [a [Hacc [[_ HG]|[Hn _]]]]; [|destruct (Hn Eh)]. cbn in Hacc. unfold accepted in Hacc.
    pose proof (G_nonzero _ _ _ _ HG) as Hne.
    destruct prog as [|j prog']; [cbn in Hacc; congruence|].
    exists h, j, prog', lh. split; [exact Hh|]. intros ->. cbn in Hacc.
    destruct (N.eqb_spec a 0); [contradiction|discriminate].
  - exists t, i, rest, lo. split; [exact Ht|]. intros _. exact Eh.
Qed.

Lemma enabled_steps S t : enabled S t ->
  exists i rest lo lo', nth_error (thr S) t = Some (i :: rest, lo) /\ nth_error (thr (step S t)) t = Some (rest, lo').
Proof.
  intros [i [rest [lo [Ht Hen]]]]. exists i, rest, lo.
  enough (exists lo', thr (step S t) = upd (thr S) t (rest, lo')) as [lo' E]
    by (exists lo'; rewrite E; exact (conj Ht (nth_error_upd_same _ _ _ _ Ht))).
  destruct i as [g k|[| |x|x q b|f]].
  4-6: rewrite (step_ev S t _ rest lo Ht) by discriminate; destruct (do_ev _ (sh S) lo); eexists; reflexivity.
  all: unfold step; rewrite Ht.
  - eexists; reflexivity.
  - rewrite (Hen eq_refl). eexists; reflexivity.
  - destruct (holder S); eexists; reflexivity.
Qed.

(* in every reachable state with an unfinished thread, some thread can execute its next instruction *)
Theorem no_deadlock c progs sched :
  Forall (accepted c 0) progs ->
  let S := run_sched (init progs) sched in
  unfinished S ->
  exists t i rest lo lo', nth_error (thr S) t = Some (i :: rest, lo) /\ nth_error (thr (step S t)) t = Some (rest, lo').
Proof.
  intros H S Hu. destruct (J_progress c S (J_run c sched _ (J_init c progs H)) Hu) as [t Ht].
  exists t. exact (enabled_steps S t Ht).
Qed.

Theorem no_deadlock_table c ms :
  table_ok c ms = true -> forall threads sched, calls_from ms threads ->
  let S := run_sched (init (map (flatten DeclFaults) threads)) sched in
  unfinished S ->
  exists t i rest lo lo', nth_error (thr S) t = Some (i :: rest, lo) /\ nth_error (thr (step S t)) t = Some (rest, lo').
Proof. intros Ht threads sched Hc. exact (no_deadlock c _ sched (table_accepted c ms threads Ht Hc)). Qed.

(* a caller removing a node (delete_node) while nobody is inside the store keeps the invariant: ids come from the
   counter, so a gap left by a removal is never filled again *)
Lemma remove_keeps_Inv c s l : Inv s -> Inv (fst (do_act (XRemove c) s l)).
Proof.
  intro H. simpl. apply (Inv_P _ 0). apply (Inv_P s 0) in H.
  exact (P_filter s 0 _ _ H).
Qed.
