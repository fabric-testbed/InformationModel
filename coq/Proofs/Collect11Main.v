(* C11: completeness, nothing spurious, accumulation and storage-order independence of the authorization
   attributes, derived from Collect11Attrs.topo_getk / type_closed.  `*_closed`: what one collection does to any
   starting mapping; `*_exact`: the same for a fresh collector (`collected s`). *)
From Coq Require Import List NArith Permutation.
From FIM Require Import Gen.CollectGen Model.Collect11 Model.Collect11Spec Proofs.Collect11Attrs.
Import ListNotations.

Theorem multi_closed m s k : In k multi_keys -> getk k (topo_pure m s) = getk k m ++ required_of k s.
Proof. intro Hk. rewrite topo_getk by apply multi_not_type, Hk. apply put_multi, Hk. Qed.

Theorem set_closed m s k : In k set_keys -> getk k (topo_pure m s) = addus (required_of k s) (getk k m).
Proof. intro Hk. rewrite topo_getk by apply set_not_type, Hk. apply put_set, Hk. Qed.

Definition collected (s : slice) : attrs := topo_pure init_attrs s.

Lemma collect_is s : collect_topo init_attrs s = Ok (collected s).
Proof. apply collect_topo_ok. Qed.

Lemma run_topo s : run [OTopo s] = Ok (collected s).
Proof. apply collect_topo_ok. Qed.

Lemma init_get k : k <> A_RESOURCE_TYPE -> getk k init_attrs = [].
Proof. intro H. simpl. apply N.eqb_neq in H. rewrite H. reflexivity. Qed.

Lemma collected_getk s k : k <> A_RESOURCE_TYPE -> getk k (collected s) = put k (required_of k s) [].
Proof. intro H. unfold collected. rewrite topo_getk, init_get by exact H. reflexivity. Qed.

Theorem multi_exact s k : In k multi_keys -> getk k (collected s) = required_of k s.
Proof. intro Hk. rewrite collected_getk by apply multi_not_type, Hk. apply put_multi, Hk. Qed.

Theorem set_exact s k : In k set_keys -> getk k (collected s) = addus (required_of k s) [].
Proof. intro Hk. rewrite collected_getk by apply set_not_type, Hk. apply put_set, Hk. Qed.

Theorem type_exact s : getk A_RESOURCE_TYPE (collected s) = resource_type s.
Proof. unfold collected, resource_type. rewrite type_closed. destruct (has_switch s); reflexivity. Qed.

Theorem complete s k v : In (k, v) (required s) -> In v (getk k (collected s)).
Proof.
  intro H. rewrite collected_getk by (intros ->; exact (required_no_type s v H)).
  apply put_In. right. apply sel_In, H.
Qed.

Theorem nothing_spurious s k v : In v (getk k (collected s)) -> k = A_RESOURCE_TYPE \/ In (k, v) (required s).
Proof.
  intro H. destruct (N.eq_dec k A_RESOURCE_TYPE) as [E|E]; [left; exact E | right].
  rewrite collected_getk in H by exact E. apply put_In in H as [[]|H]. apply sel_In, H.
Qed.

Theorem listed_once s k : In k set_keys -> NoDup (getk k (collected s)).
Proof. intro Hk. rewrite set_exact by exact Hk. apply addus_NoDup. constructor. Qed.

Theorem no_empty_entry s k : In k (keys (collected s)) <-> getk k (collected s) <> [].
Proof. split; [apply (topo_NE init_attrs s init_NE) | apply getk_nonempty_key]. Qed.

Lemma sel_perm k a b : Permutation a b -> Permutation (sel k a) (sel k b).
Proof. intro H. unfold sel. apply Permutation_map, Permutation_filter'. exact H. Qed.

Lemma flat_map_Forall2_perm {A B} (g : A -> list B) (R : A -> A -> Prop) :
  (forall x y, R x y -> Permutation (g x) (g y)) ->
  forall l l', Forall2 R l l' -> Permutation (flat_map g l) (flat_map g l').
Proof.
  intros H l l' F. induction F; simpl; [constructor|].
  apply Permutation_app; [apply H; assumption | assumption].
Qed.

Lemma required_node_eqv n n' : node_eqv n n' -> Permutation (required_node n) (required_node n').
Proof.
  intros (Hk & Hn & Hs & Hc & Ha & Hp). unfold required_node, node_site, node_cpu, node_ram, node_disk, node_comps, tag.
  rewrite Hs, Hc. repeat apply Permutation_app_head. apply Permutation_map, Permutation_map. exact Hp.
Qed.

Lemma required_svc_ports p p' v : same_ports p p' -> required_svc p v = required_svc p' v.
Proof.
  intro H. unfold required_svc, svc_typed_site, mirror_outside. rewrite (mem_port_same _ _ _ H). reflexivity.
Qed.

Theorem required_eqv s s' : slice_eqv s s' -> Permutation (required s) (required s').
Proof.
  intros ((l & Hp & Hf) & Hs & Hfac & Hports). unfold required.
  apply Permutation_app; [|apply Permutation_app].
  - eapply Permutation_trans; [apply Permutation_flat_map; exact Hp|].
    apply (flat_map_Forall2_perm required_node node_eqv required_node_eqv). exact Hf.
  - rewrite (flat_map_ext _ (required_svc (sl_ports s'))) by (intro v; apply required_svc_ports; exact Hports).
    apply Permutation_flat_map. exact Hs.
  - unfold tag. apply Permutation_map, Permutation_map. exact Hfac.
Qed.

Lemma existsb_perm {A} (f : A -> bool) l l' : Permutation l l' -> existsb f l = existsb f l'.
Proof.
  induction 1; simpl; try congruence.
  - destruct (f x), (f y); reflexivity.
Qed.

Lemma has_switch_eqv s s' : slice_eqv s s' -> has_switch s = has_switch s'.
Proof.
  intros ((l & Hp & Hf) & _). unfold has_switch. rewrite (existsb_perm _ _ _ Hp).
  clear Hp. induction Hf as [|x y l l' Hxy _ IH]; simpl; [reflexivity|].
  destruct Hxy as (Hk & _). rewrite Hk, IH. reflexivity.
Qed.

Lemma slice_perm_eqv s s' : slice_perm s s' -> slice_eqv s s'.
Proof.
  intros (Hn & Hs & Hf & Hp). unfold slice_eqv. split; [|tauto].
  exists (sl_nodes s'). split; [exact Hn|].
  clear. induction (sl_nodes s') as [|n r IH]; constructor; [|exact IH].
  unfold node_eqv. repeat split; apply Permutation_refl.
Qed.

Lemma put_perm k a b : Permutation a b -> Permutation (put k a []) (put k b []).
Proof. unfold put. destruct (memN k set_keys); [apply addus_perm | exact (fun H => H)]. Qed.

Theorem reload_invariant s s' k : slice_eqv s s' -> Permutation (getk k (collected s)) (getk k (collected s')).
Proof.
  intro H. destruct (N.eq_dec k A_RESOURCE_TYPE) as [->|E].
  - rewrite !type_exact. unfold resource_type. rewrite (has_switch_eqv _ _ H). apply Permutation_refl.
  - rewrite !collected_getk by exact E. apply put_perm, sel_perm, required_eqv, H.
Qed.

Theorem reload_same_keys s s' k : slice_eqv s s' -> (In k (keys (collected s)) <-> In k (keys (collected s'))).
Proof.
  intro H. rewrite !no_empty_entry. pose proof (reload_invariant s s' k H) as P.
  split; intros Hn E; apply Hn.
  - rewrite E in P. apply Permutation_nil. apply Permutation_sym. exact P.
  - rewrite E in P. apply Permutation_nil. exact P.
Qed.

Theorem order_independent s s' k : slice_perm s s' -> Permutation (getk k (collected s)) (getk k (collected s')).
Proof. intro H. apply reload_invariant, slice_perm_eqv, H. Qed.

Theorem order_same_keys s s' k : slice_perm s s' -> (In k (keys (collected s)) <-> In k (keys (collected s'))).
Proof. intro H. apply reload_same_keys, slice_perm_eqv, H. Qed.

(* accumulation over two topologies collected into the same collector *)
Theorem accumulates_multi s1 s2 k : In k multi_keys ->
  getk k (topo_pure (collected s1) s2) = required_of k s1 ++ required_of k s2.
Proof. intro Hk. rewrite multi_closed by exact Hk. rewrite multi_exact by exact Hk. reflexivity. Qed.

Theorem accumulates_set s1 s2 k v : In k set_keys ->
  (In v (getk k (topo_pure (collected s1) s2)) <-> In v (required_of k s1) \/ In v (required_of k s2)).
Proof.
  intro Hk. rewrite set_closed by exact Hk. rewrite addus_In, set_exact by exact Hk. rewrite addus_In. simpl. tauto.
Qed.
