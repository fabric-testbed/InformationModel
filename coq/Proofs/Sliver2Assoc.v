(* C02: lemmas on the insertion-ordered string-keyed dictionaries of Model/Sliver2Map.v *)
From Coq Require Import List String Bool.
From FIM Require Import Base.ListFacts Model.Sliver2Map Model.Sliver2WF.
Import ListNotations.

Lemma alookup_aset_same {V} k (v : V) l : alookup k (aset k v l) = Some v.
Proof.
  induction l as [|[k' v'] r IH]; simpl.
  - rewrite String.eqb_refl. reflexivity.
  - destruct (String.eqb k k') eqn:E; simpl.
    + rewrite E. reflexivity.
    + rewrite E. exact IH.
Qed.

Lemma alookup_aset_other {V} k k' (v : V) l : k <> k' -> alookup k' (aset k v l) = alookup k' l.
Proof.
  intro N. induction l as [|[k2 v2] r IH]; simpl.
  - destruct (String.eqb k' k) eqn:E; [apply String.eqb_eq in E; congruence | reflexivity].
  - destruct (String.eqb k k2) eqn:E; simpl.
    + apply String.eqb_eq in E. subst k2.
      destruct (String.eqb k' k) eqn:E2; [apply String.eqb_eq in E2; congruence | reflexivity].
    + destruct (String.eqb k' k2); [reflexivity | exact IH].
Qed.

Lemma akeys_aset_in {V} k (v : V) l : In k (akeys l) -> akeys (aset k v l) = akeys l.
Proof.
  induction l as [|[k' v'] r IH]; simpl; intro H; [contradiction|].
  destruct (String.eqb k k') eqn:E; simpl.
  - reflexivity.
  - f_equal. apply IH. destruct H as [H|H]; [|exact H].
    subst k'. rewrite String.eqb_refl in E. discriminate.
Qed.

Lemma alookup_in_keys {V} k (l : list (string * V)) : In k (akeys l) -> exists v, alookup k l = Some v.
Proof.
  induction l as [|[k' v'] r IH]; simpl; intro H; [contradiction|].
  destruct (String.eqb k k') eqn:E; [eexists; reflexivity|].
  apply IH. destruct H as [H|H]; [|exact H]. subst. rewrite String.eqb_refl in E. discriminate.
Qed.

Lemma alookup_not_in {V} k (l : list (string * V)) : ~ In k (akeys l) -> alookup k l = None.
Proof.
  induction l as [|[k' v'] r IH]; simpl; intro H; [reflexivity|].
  destruct (String.eqb k k') eqn:E.
  - apply String.eqb_eq in E. subst. exfalso. apply H. left. reflexivity.
  - apply IH. intro; apply H; right; assumption.
Qed.

Lemma alookup_some_in {V} k (v : V) l : alookup k l = Some v -> In (k, v) l.
Proof.
  induction l as [|[k' v'] r IH]; simpl; intro H; [discriminate|].
  destruct (String.eqb k k') eqn:E.
  - apply String.eqb_eq in E. inversion H; subst. left; reflexivity.
  - right. apply IH. exact H.
Qed.

Lemma alookup_nodup_in {V} k (v : V) l : NoDup (akeys l) -> In (k, v) l -> alookup k l = Some v.
Proof.
  induction l as [|[k' v'] r IH]; simpl; intros ND H; [contradiction|].
  inversion ND as [|? ? NI ND']; subst.
  destruct H as [H|H].
  - inversion H; subst. rewrite String.eqb_refl. reflexivity.
  - destruct (String.eqb k k') eqn:E.
    + apply String.eqb_eq in E. subst. exfalso. apply NI. apply (in_map fst) in H. exact H.
    + apply IH; assumption.
Qed.

Lemma assoc_ext {V} (l1 l2 : list (string * V)) :
  akeys l1 = akeys l2 -> NoDup (akeys l1) ->
  (forall k, In k (akeys l1) -> alookup k l1 = alookup k l2) -> l1 = l2.
Proof.
  revert l2. induction l1 as [|[k v] r IH]; intros [|[k2 v2] r2] HK ND HL; simpl in *; try discriminate; [reflexivity|].
  inversion HK; subst k2. inversion ND as [|? ? NI ND']; subst.
  assert (v = v2).
  { specialize (HL k (or_introl eq_refl)). rewrite String.eqb_refl in HL. congruence. }
  subst v2. f_equal. apply IH; try assumption.
  intros k' Hk'. specialize (HL k' (or_intror Hk')).
  destruct (String.eqb k' k) eqn:E; [|exact HL].
  apply String.eqb_eq in E. subst. contradiction.
Qed.

(* aupdate with its arguments in the order of a fold: asets xs cur = aupdate cur xs (aupdate_is_asets) *)
Definition asets {V} (xs : list (string * V)) (cur : list (string * V)) : list (string * V) :=
  fold_left (fun c xv => aset (fst xv) (snd xv) c) xs cur.

Lemma asets_keys {V} (xs cur : list (string * V)) :
  (forall xv, In xv xs -> In (fst xv) (akeys cur)) -> akeys (asets xs cur) = akeys cur.
Proof.
  revert cur. induction xs as [|[x v] r IH]; intros cur H; simpl; [reflexivity|].
  unfold asets in *. simpl. rewrite IH.
  - apply akeys_aset_in. apply (H (x, v)). left; reflexivity.
  - intros xv Hin. rewrite akeys_aset_in by (apply (H (x, v)); left; reflexivity).
    apply H. right; exact Hin.
Qed.

Lemma asets_lookup_notin {V} (xs cur : list (string * V)) k :
  ~ In k (akeys xs) -> alookup k (asets xs cur) = alookup k cur.
Proof.
  revert cur. induction xs as [|[x v] r IH]; intros cur H; simpl; [reflexivity|].
  unfold asets in *. simpl. rewrite IH.
  - apply alookup_aset_other. intro; subst. apply H. left; reflexivity.
  - intro; apply H; right; assumption.
Qed.

Lemma asets_lookup_in {V} (xs cur : list (string * V)) k v :
  NoDup (akeys xs) -> In (k, v) xs -> alookup k (asets xs cur) = Some v.
Proof.
  revert cur. induction xs as [|[x w] r IH]; intros cur ND H; simpl in *; [contradiction|].
  inversion ND as [|? ? NI ND']; subst.
  unfold asets in *. simpl. destruct H as [H|H].
  - injection H as Hx Hw. subst x w.
    change (alookup k (asets r (aset k v cur)) = Some v).
    rewrite asets_lookup_notin by exact NI. apply alookup_aset_same.
  - apply IH; assumption.
Qed.

Lemma aupdate_is_asets {V} (d e : list (string * V)) : aupdate d e = asets e d.
Proof. reflexivity. Qed.

Lemma alookup_aremove_same {V} k (l : list (string * V)) : NoDup (akeys l) -> alookup k (aremove k l) = None.
Proof.
  induction l as [|[k' v'] r IH]; simpl; intro ND; [reflexivity|].
  inversion ND as [|? ? NI ND']; subst.
  destruct (String.eqb k k') eqn:E.
  - apply String.eqb_eq in E. subst. apply alookup_not_in. exact NI.
  - simpl. rewrite E. apply IH. exact ND'.
Qed.

Lemma alookup_aremove_other {V} k k' (l : list (string * V)) : k <> k' -> alookup k' (aremove k l) = alookup k' l.
Proof.
  intro N. induction l as [|[k2 v2] r IH]; simpl; [reflexivity|].
  destruct (String.eqb k k2) eqn:E.
  - apply String.eqb_eq in E. subst k2.
    destruct (String.eqb k' k) eqn:E2; [apply String.eqb_eq in E2; congruence | reflexivity].
  - simpl. destruct (String.eqb k' k2); [reflexivity | exact IH].
Qed.

Lemma mem_true_iff s l : mem s l = true <-> In s l.
Proof. apply (existsb_eqb_In String.eqb String.eqb_eq). Qed.

Lemma nodupb_NoDup l : nodupb l = true -> NoDup l.
Proof.
  induction l as [|x r IH]; simpl; intro H; [constructor|].
  apply andb_true_iff in H as [H1 H2]. constructor; [|apply IH; exact H2].
  intro Hin. apply mem_true_iff in Hin. rewrite Hin in H1. discriminate.
Qed.
