(* C08: the queries on an induced subgraph (restrict g d) in terms of the queries on g. *)
From Coq Require Import List NArith Bool.
From FIM Require Import Base.ListFacts Model.T8Graph Proofs.T8Frame.
Import ListNotations.

Lemma dedup_In x l : In x (dedup l) <-> In x l.
Proof.
  induction l as [|y l IH]; simpl; [tauto|].
  destruct (memN y l) eqn:E.
  - rewrite IH. split; [tauto|]. intros [->|H]; [apply memN_In; exact E | exact H].
  - simpl. rewrite IH. tauto.
Qed.

Lemma dedup_NoDup l : NoDup (dedup l).
Proof.
  induction l as [|y l IH]; simpl; [constructor|].
  destruct (memN y l) eqn:E; [exact IH|].
  constructor; [|exact IH]. rewrite dedup_In. apply memN_false. exact E.
Qed.

Lemma removeN_In x y l : In x (removeN y l) <-> In x l /\ x <> y.
Proof.
  unfold removeN. rewrite filter_In, negb_true_iff, N.eqb_neq. split; intros [A B]; split; auto.
Qed.

Lemma find_node_restrict g d y :
  find_node (restrict g d) y = if memN y d then None else find_node g y.
Proof.
  unfold find_node, restrict. simpl. induction (gnodes g) as [|x l IH]; simpl.
  - destruct (memN y d); reflexivity.
  - destruct (memN (nid x) d) eqn:Ex; simpl.
    + destruct (N.eqb (nid x) y) eqn:Exy.
      * apply N.eqb_eq in Exy. subst y. rewrite Ex in *. exact IH.
      * exact IH.
    + destruct (N.eqb (nid x) y) eqn:Exy.
      * apply N.eqb_eq in Exy. subst y. rewrite Ex. reflexivity.
      * exact IH.
Qed.

Lemma has_node_restrict g d y : has_node (restrict g d) y = negb (memN y d) && has_node g y.
Proof. unfold has_node. rewrite find_node_restrict. destruct (memN y d); reflexivity. Qed.

Lemma class_of_restrict g d y : memN y d = false -> class_of (restrict g d) y = class_of g y.
Proof. intros H. unfold class_of. rewrite find_node_restrict, H. reflexivity. Qed.

Lemma class_of_restrict_in g d y : memN y d = true -> class_of (restrict g d) y = COther.
Proof. intros H. unfold class_of. rewrite find_node_restrict, H. reflexivity. Qed.

Lemma type_of_restrict g d y : memN y d = false -> type_of (restrict g d) y = type_of g y.
Proof. intros H. unfold type_of. rewrite find_node_restrict, H. reflexivity. Qed.

Lemma name_of_restrict g d y : memN y d = false -> name_of (restrict g d) y = name_of g y.
Proof. intros H. unfold name_of. rewrite find_node_restrict, H. reflexivity. Qed.

Lemma nbrs_In g x y r :
  In (y, r) (nbrs g x) <->
  exists e, In e (gedges g) /\ erel e = r /\ ((ea e = x /\ eb e = y) \/ (ea e <> x /\ eb e = x /\ ea e = y)).
Proof.
  unfold nbrs. rewrite in_flat_map. split.
  - intros [e [He Hin]]. exists e. split; [exact He|].
    destruct (N.eqb (ea e) x) eqn:E1.
    + apply N.eqb_eq in E1. destruct Hin as [Hin|[]]. inversion Hin; subst. auto.
    + apply N.eqb_neq in E1. destruct (N.eqb (eb e) x) eqn:E2.
      * apply N.eqb_eq in E2. destruct Hin as [Hin|[]]. inversion Hin; subst. auto.
      * destruct Hin.
  - intros [e [He [Hr H]]]. exists e. split; [exact He|].
    destruct H as [[A B]|[A [B C]]].
    + subst. rewrite N.eqb_refl. left. reflexivity.
    + apply N.eqb_neq in A. rewrite A. subst. rewrite N.eqb_refl. left. reflexivity.
Qed.

(* the graph is undirected *)
Lemma nbrs_sym g x y r : In (y, r) (nbrs g x) -> In (x, r) (nbrs g y).
Proof.
  rewrite !nbrs_In. intros [e [He [Hr H]]]. exists e. split; [exact He|]. split; [exact Hr|].
  destruct H as [[A B]|[A [B C]]].
  - destruct (N.eq_dec x y) as [->|Hne].
    + left. auto.
    + right. subst. repeat split; auto.
  - left. auto.
Qed.

Lemma nbrs_restrict g d x y r :
  In (y, r) (nbrs (restrict g d) x) <-> In (y, r) (nbrs g x) /\ ~ In x d /\ ~ In y d.
Proof.
  rewrite !nbrs_In. split.
  - intros [e [He [Hr H]]]. apply restrict_edges in He. destruct He as [He [Ha Hb]].
    split; [exists e; auto|]. destruct H as [[A B]|[A [B C]]]; subst; auto.
  - intros [[e [He [Hr H]]] [Hx Hy]]. exists e. split; [|auto].
    apply restrict_edges. split; [exact He|]. destruct H as [[A B]|[A [B C]]]; subst; auto.
Qed.

Lemma first_neighbor_In g x r c y :
  In y (first_neighbor g x r c) <-> In (y, r) (nbrs g x) /\ class_of g y = c.
Proof.
  unfold first_neighbor. rewrite dedup_In, in_map_iff. split.
  - intros [[y' r'] [Hy Hin]]. simpl in Hy. subst y'. apply filter_In in Hin. destruct Hin as [Hin Hf].
    simpl in Hf. apply andb_true_iff in Hf. destruct Hf as [Hr Hc].
    destruct r, r'; simpl in Hr; try discriminate;
      (split; [exact Hin|]); destruct (class_of g y), c; simpl in Hc; try discriminate; reflexivity.
  - intros [Hin Hc]. exists (y, r). split; [reflexivity|]. apply filter_In. split; [exact Hin|].
    simpl. rewrite Hc. destruct r, c; reflexivity.
Qed.

Lemma nbrs_cls_In g x c y :
  In y (nbrs_cls g x c) <-> (exists r, In (y, r) (nbrs g x)) /\ class_of g y = c.
Proof.
  unfold nbrs_cls. rewrite dedup_In, in_map_iff. split.
  - intros [[y' r'] [Hy Hin]]. simpl in Hy. subst y'. apply filter_In in Hin. destruct Hin as [Hin Hc].
    simpl in Hc. split; [exists r'; exact Hin|]. destruct (class_of g y), c; simpl in Hc; try discriminate; reflexivity.
  - intros [[r Hin] Hc]. exists (y, r). split; [reflexivity|]. apply filter_In. split; [exact Hin|].
    simpl. rewrite Hc. destruct c; reflexivity.
Qed.

Lemma first_neighbor_NoDup g x r c : NoDup (first_neighbor g x r c).
Proof. apply dedup_NoDup. Qed.

(* the central fact: a neighbour query on the induced subgraph is the query on g, filtered *)
Lemma first_neighbor_restrict g d x r c y : c <> COther ->
  (In y (first_neighbor (restrict g d) x r c) <-> In y (first_neighbor g x r c) /\ ~ In x d /\ ~ In y d).
Proof.
  intros Hc. rewrite !first_neighbor_In, nbrs_restrict. split.
  - intros [[A [B C]] D]. assert (C' : memN y d = false) by (apply memN_false; exact C).
    rewrite (class_of_restrict _ _ _ C') in D. tauto.
  - intros [[A D] [B C]]. assert (C' : memN y d = false) by (apply memN_false; exact C).
    rewrite (class_of_restrict _ _ _ C'). tauto.
Qed.

Lemma nbrs_cls_restrict g d x c y : c <> COther ->
  (In y (nbrs_cls (restrict g d) x c) <-> In y (nbrs_cls g x c) /\ ~ In x d /\ ~ In y d).
Proof.
  intros Hc. rewrite !nbrs_cls_In. split.
  - intros [[r A] D]. apply nbrs_restrict in A. destruct A as [A [B C]].
    assert (C' : memN y d = false) by (apply memN_false; exact C).
    rewrite (class_of_restrict _ _ _ C') in D.
    split; [split; [exists r; exact A | exact D] | tauto].
  - intros [[[r A] D] [B C]]. split.
    + exists r. apply nbrs_restrict. tauto.
    + assert (C' : memN y d = false) by (apply memN_false; exact C).
      rewrite (class_of_restrict _ _ _ C'). exact D.
Qed.

Lemma first_neighbor_sym g x y r c c' :
  In y (first_neighbor g x r c) -> class_of g x = c' -> In x (first_neighbor g y r c').
Proof.
  rewrite !first_neighbor_In. intros [A B] C. split; [apply nbrs_sym; exact A | exact C].
Qed.

Lemma ids_restrict (p : node -> bool) g d y :
  In y (map nid (filter p (gnodes (restrict g d)))) <-> In y (map nid (filter p (gnodes g))) /\ ~ In y d.
Proof.
  rewrite !in_map_iff. split.
  - intros [x [Hx Hin]]. apply filter_In in Hin. destruct Hin as [Hin Hf].
    apply restrict_nodes in Hin. destruct Hin as [Hin Hd]. subst y. split; [|exact Hd].
    exists x. split; [reflexivity|]. apply filter_In. auto.
  - intros [[x [Hx Hin]] Hd]. apply filter_In in Hin. destruct Hin as [Hin Hf]. subst y.
    exists x. split; [reflexivity|]. apply filter_In. split; [|exact Hf]. apply restrict_nodes. auto.
Qed.

Lemma by_name_restrict g d c nm y :
  In y (by_name (restrict g d) c nm) <-> In y (by_name g c nm) /\ ~ In y d.
Proof. apply ids_restrict. Qed.

Lemma all_of_class_restrict g d c y :
  In y (all_of_class (restrict g d) c) <-> In y (all_of_class g c) /\ ~ In y d.
Proof. apply ids_restrict. Qed.

Lemma NoDup_len1 (l : list N) a : NoDup l -> (forall y, In y l <-> y = a) -> length l = 1%nat.
Proof. intros Hn H. rewrite (NoDup_singleton l a Hn H). reflexivity. Qed.

Lemma NoDup_len2 (l : list N) a b : a <> b -> NoDup l -> (forall y, In y l <-> y = a \/ y = b) -> length l = 2%nat.
Proof.
  intros Hab Hn H. destruct l as [|x [|y [|z r]]].
  - exfalso. apply (proj2 (H a)). auto.
  - exfalso. assert (A : a = x) by (destruct (proj2 (H a) (or_introl eq_refl)) as [E|[]]; auto).
    assert (B : b = x) by (destruct (proj2 (H b) (or_intror eq_refl)) as [E|[]]; auto). congruence.
  - reflexivity.
  - exfalso. inversion Hn as [|? ? Hx Hn']; subst. inversion Hn' as [|? ? Hy Hn'']; subst.
    inversion Hn'' as [|? ? Hz _]; subst.
    assert (Px : x = a \/ x = b) by (apply H; simpl; auto).
    assert (Py : y = a \/ y = b) by (apply H; simpl; auto).
    assert (Pz : z = a \/ z = b) by (apply H; simpl; auto).
    simpl in Hx, Hy. destruct Px, Py, Pz; subst; tauto.
Qed.

Lemma len1_inv (l : list N) : length l = 1%nat -> exists a, l = [a].
Proof. destruct l as [|a [|b r]]; simpl; intros H; try discriminate. exists a. reflexivity. Qed.
