(* C08: prune as repaired by proposed_fixes/C08-7 (operation OPrune7): on normal return every marked
   element the collection phase reaches, and everything it owns, is deleted.  Hypothesis: node ids are distinct
   (add_node guarantees it), so that the class / name the look-ups report are those of the collected element. *)
From Coq Require Import List NArith Bool.
From FIM Require Import Model.T8Graph Model.T8Ops Proofs.T8Frame Proofs.T8Query Proofs.T8Hoare Proofs.T8Sound
     Proofs.T8Complete Proofs.T8Closed Proofs.T8Top.
Import ListNotations.

Definition ids_distinct (g : graph) : Prop := NoDup (map nid (gnodes g)).

Lemma find_unique g x : ids_distinct g -> In x (gnodes g) -> find_node g (nid x) = Some x.
Proof.
  unfold ids_distinct, find_node. induction (gnodes g) as [|y l IH]; simpl; intros Hn Hx; [destruct Hx|].
  inversion Hn as [|? ? Hy Hn']; subst. destruct Hx as [->|Hx].
  - rewrite N.eqb_refl. reflexivity.
  - destruct (N.eqb (nid y) (nid x)) eqn:E; [|apply IH; assumption].
    apply N.eqb_eq in E. exfalso. apply Hy. rewrite E. apply in_map. exact Hx.
Qed.

Lemma all_of_class_facts g c n :
  ids_distinct g -> In n (all_of_class g c) -> class_of g n = c /\ In n (by_name g c (name_of g n)).
Proof.
  intros Hd Hn. unfold all_of_class in Hn. apply in_map_iff in Hn. destruct Hn as [x [<- Hx]].
  apply filter_In in Hx. destruct Hx as [Hx Hc].
  unfold class_of, name_of, by_name. rewrite (find_unique g x Hd Hx). split.
  - destruct (ncls x), c; simpl in Hc; try discriminate; reflexivity.
  - apply in_map_iff. exists x. split; [reflexivity|]. apply filter_In. split; [exact Hx|].
    rewrite Hc, N.eqb_refl. reflexivity.
Qed.

Section Prune.
Variable g0 : graph.

Lemma Inv_after_disc (q : graph -> list N) (k : M unit) :
  Inv k -> Inv (bind (m_get q) (fun ifs => bind (for_each_set disconnect_step ifs) (fun _ => k))).
Proof. auto with inv. Qed.

(* "disconnect these interfaces, then k": whatever k is sure to delete is deleted *)
Lemma del_after_disc (q : graph -> list N) (k : M unit) n :
  Del g0 n k -> Del g0 n (bind (m_get q) (fun ifs => bind (for_each_set disconnect_step ifs) (fun _ => k))).
Proof. intros Hk. apply Del_later; [auto with inv | intros ifs]. apply Del_later; [auto with inv | intros _; exact Hk]. Qed.

(* a loop of guarded removals: every element that was in g0 with class c ends up deleted *)
Lemma guarded_loop {A} (c : cls) (key : A -> N) (body : A -> M unit) (l : list A) s s' :
  c <> COther ->
  cons g0 s ->
  for_each_set (fun a => bind (exists_as c (key a)) (fun b : bool => if b then body a else ret tt)) l s = (inl tt, s') ->
  (forall a, Inv (body a)) ->
  (forall a, In a l -> Del g0 (key a) (body a)) ->
  (forall a, In a l -> class_of g0 (key a) = c) ->
  cons g0 s' /\ (forall y, In y (snd s) -> In y (snd s')) /\ forall a, In a l -> In (key a) (snd s').
Proof.
  intros Hne C E Hinv Hdel Hcls.
  assert (Istep : forall a, Inv (bind (exists_as c (key a)) (fun b : bool => if b then body a else ret tt))).
  { intros a. apply Inv_bind; [apply Inv_exists_as | intros b]. destruct b; [apply Hinv | apply Inv_ret]. }
  split; [|split].
  - apply (cons_to g0 _ _ _ _ (Inv_for_each_set _ _ Istep) C E).
  - intros y. apply (ext_to g0 _ _ _ _ y (Inv_for_each_set _ _ Istep) C E).
  - apply for_each_set_ok in E.
    refine (proj2 (for_each_ok_all _ (cons g0) (fun a t => In (key a) (snd t)) l _ _ s s' C E)).
    + intros a t1 t2 Ha C1 Et. split; [apply (cons_to g0 _ _ _ _ (Istep a) C1 Et)|].
      apply bind_get_ok in Et.
      destruct (has_node (fst t1) (key a) && cls_eqb (class_of (fst t1) (key a)) c) eqn:Eb.
      * apply (Hdel a Ha t1 t2 C1 Et).
      * apply ret_ok in Et. destruct Et as [_ ->]. apply (gone_in_D g0 t1 (key a) c C1 (Hcls a Ha) Hne Eb).
    + intros a y t1 t2 _ C1 Hin Et. apply (ext_to g0 _ _ _ _ (key a) (Istep y) C1 Et Hin).
Qed.

End Prune.

Lemma prune_comps_In g c n : In (c, n) (prune_comps g) -> In c (first_neighbor g n RHas CComp).
Proof.
  unfold prune_comps. rewrite in_flat_map. intros [m [_ H]]. apply in_map_iff in H.
  destruct H as [c' [E H]]. injection E as -> ->. exact H.
Qed.

Lemma prune_all_nss_class g s : ids_distinct g -> In s (prune_all_nss g) -> class_of g s = CNS.
Proof.
  intros Hd Hs. unfold prune_all_nss in Hs. apply in_app_iff in Hs. destruct Hs as [Hs|Hs].
  - unfold prune_seen_nss in Hs. apply in_flat_map in Hs. destruct Hs as [cn [_ Hs]].
    apply first_neighbor_In in Hs. tauto.
  - unfold prune_other_nss in Hs. apply filter_In in Hs. destruct Hs as [Hs _].
    apply (all_of_class_facts g CNS s Hd Hs).
Qed.

(* The four removal loops of prune, for any collection Ns of nodes and Is of connection points and any removal steps nb
   (deletes the nodes of the given name) and ib (deletes the given connection point): on normal return every marked
   element of the four collections is deleted.  api_prune7 / 8 / 9 from the initial state are instances. *)
Theorem prune_loops g (Ns Is : list N) (nb : N * N -> M unit) (ib : N -> M unit) s' :
  ids_distinct g ->
  (forall n, In n Ns -> In n (all_of_class g CNode)) ->
  (forall i, In i Is -> class_of g i = CCP) ->
  (forall nn, Inv (nb nn)) ->
  (forall nn x, In x (by_name g CNode (fst nn)) -> Del g x (nb nn)) ->
  (forall i, Inv (ib i)) ->
  (forall i, Del g i (ib i)) ->
  bind (for_each_set (fun nn => bind (exists_as CNode (snd nn)) (fun b : bool => if b then nb nn else ret tt))
          (map (fun n => (name_of g n, n)) (filter (marked g) Ns))) (fun _ =>
  bind (for_each_set prune_comp7
          (map (fun cn => (name_of g (fst cn), cn)) (filter (fun cn => marked g (fst cn)) (prune_comps g)))) (fun _ =>
  bind (for_each_set prune_ns7 (dedup (filter (marked g) (prune_all_nss g)))) (fun _ =>
  for_each_set (fun i => bind (exists_as CCP i) (fun b : bool => if b then ib i else ret tt))
          (dedup (filter (marked g) Is))))) (g, []) = (inl tt, s') ->
  forall x, marked g x = true ->
    In x Ns \/ (exists n, In (x, n) (prune_comps g)) \/ In x (prune_all_nss g) \/ In x Is -> In x (snd s').
Proof.
  intros Hd HN HI Inb Dnb Iib Dib E x Hm Hx.
  apply bind_ok in E. destruct E as [[] [s1 [L1 E]]].
  apply bind_ok in E. destruct E as [[] [s2 [L2 E]]].
  apply bind_ok in E. destruct E as [[] [s3 [L3 L4]]].
  destruct (guarded_loop g CNode snd nb _ _ _ ltac:(discriminate) (cons_init g) L1 Inb) as [C1 [_ H1]].
  { intros nn Ha. apply in_map_iff in Ha. destruct Ha as [n [<- Hn]]. apply filter_In in Hn.
    apply Dnb. apply (all_of_class_facts g CNode n Hd). apply HN. tauto. }
  { intros nn Ha. apply in_map_iff in Ha. destruct Ha as [n [<- Hn]]. apply filter_In in Hn.
    apply (all_of_class_facts g CNode n Hd). apply HN. tauto. }
  destruct (guarded_loop g CComp (fun cn : N * (N * N) => fst (snd cn))
              (fun cn => api_remove_component (snd (snd cn)) (fst cn)) _ _ _ ltac:(discriminate) C1 L2
              (fun cn => Inv_api_remove_component (snd (snd cn)) (fst cn))) as [C2 [M2 H2]].
  { intros cn Ha. apply in_map_iff in Ha. destruct Ha as [[c n] [<- Hn]]. apply filter_In in Hn.
    apply del_api_remove_component; [apply prune_comps_In; tauto | reflexivity]. }
  { intros cn Ha. apply in_map_iff in Ha. destruct Ha as [[c n] [<- Hn]]. apply filter_In in Hn.
    destruct Hn as [Hn _]. apply prune_comps_In, first_neighbor_In in Hn. tauto. }
  destruct (guarded_loop g CNS (fun s : N => s) remove_ns_disconnecting _ _ _ ltac:(discriminate) C2 L3
              Inv_remove_ns_disconnecting) as [C3 [M3 H3]].
  { intros s _. apply del_remove_ns_disconnecting. }
  { intros s Ha. rewrite dedup_In in Ha. apply filter_In in Ha. apply (prune_all_nss_class g s Hd). tauto. }
  destruct (guarded_loop g CCP (fun i : N => i) ib _ _ _ ltac:(discriminate) C3 L4 Iib) as [_ [M4 H4]].
  { intros i _. apply Dib. }
  { intros i Ha. rewrite dedup_In in Ha. apply filter_In in Ha. apply HI. tauto. }
  destruct Hx as [Hx|[[n Hx]|[Hx|Hx]]].
  - apply M4, M3, M2. apply (H1 (name_of g x, x)). apply (in_map (fun n => (name_of g n, n))), filter_In. auto.
  - apply M4, M3. apply (H2 (name_of g x, (x, n))). apply in_map_iff. exists (x, n). split; [reflexivity | apply filter_In; auto].
  - apply M4. apply (H3 x). rewrite dedup_In. apply filter_In. auto.
  - apply (H4 x). rewrite dedup_In. apply filter_In. auto.
Qed.

Lemma ns_interfaces_class g i : In i (flat_map (ns_interfaces g) (prune_all_nss g)) -> class_of g i = CCP.
Proof. rewrite in_flat_map. intros [s [_ Hi]]. apply (cpn_class g s i Hi). Qed.

Lemma with_children_class g (l : list N) :
  (forall j, In j l -> class_of g j = CCP) -> forall i, In i (flat_map (with_children g) l) -> class_of g i = CCP.
Proof.
  intros Hl i Hi. apply in_flat_map in Hi. destruct Hi as [j [Hj Hi]]. unfold with_children in Hi.
  destruct Hi as [<-|Hi]; [apply Hl; exact Hj|].
  destruct (N.eqb (type_of g j) T_DedicatedPort); [apply (cpn_class g j i Hi) | destruct Hi].
Qed.

(* what the collection phase of prune reaches: marked non-facility nodes, marked components of such nodes, marked
   services, marked interfaces of services *)
Definition prune_target (g : graph) (x : N) : Prop :=
  (In x (prune_nodes g) /\ marked g x = true) \/
  (exists n, In (x, n) (prune_comps g) /\ marked g x = true) \/
  (In x (prune_all_nss g) /\ marked g x = true) \/
  (exists s, In s (prune_all_nss g) /\ In x (cpn g s) /\ marked g x = true).

Lemma prune_nodes_sub g n : In n (prune_nodes g) -> In n (all_of_class g CNode).
Proof. unfold prune_nodes. rewrite filter_In. tauto. Qed.

Theorem prune7_targets ex cs g r g' tr :
  ids_distinct g -> run (exec ex OPrune7 cs) g = (inl r, (g', tr)) ->
  forall x, prune_target g x -> In x tr.
Proof.
  intros Hd E x Hx. apply bind_ret_ok in E. destruct E as [[] E].
  assert (Hm : marked g x = true) by (destruct Hx as [H|[[n H]|[H|[s H]]]]; tauto).
  refine (prune_loops g (prune_nodes g) (flat_map (ns_interfaces g) (prune_all_nss g))
            (fun nn => api_remove_node (fst nn)) _ (g', tr) Hd (prune_nodes_sub g) (ns_interfaces_class g)
            (fun nn => Inv_api_remove_node (fst nn)) (fun nn => del_api_remove_node g (fst nn))
            (fun i => Inv_after_disc _ _ (Inv_remove_cp i true))
            (fun i => del_after_disc g _ _ i (del_remove_cp g i true)) E x Hm _).
  destruct Hx as [H|[[n H]|[H|[s H]]]]; [tauto | right; left; exists n; tauto | tauto |].
    right. right. right. apply in_flat_map. exists s. tauto.
Qed.

(* after C08-8 the collection phase also reaches the sub-interfaces of the service ports *)
Definition prune_target8 (g : graph) (x : N) : Prop :=
  prune_target g x \/
  (exists s j, In s (prune_all_nss g) /\ In j (cpn g s) /\ In x (with_children g j) /\ marked g x = true).

Lemma Inv_prune_if8_body i :
  Inv (bind (m_get (fun g => disc_list g [i])) (fun ifs => bind (for_each_set disconnect_step ifs) (fun _ =>
       bind (m_get (fun g => negb (N.eqb (type_of g i) T_SubInterface))) (fun dp => remove_cp_and_links i dp)))).
Proof. auto 10 with inv. Qed.

Lemma del_prune_if8_body g i :
  Del g i (bind (m_get (fun g => disc_list g [i])) (fun ifs => bind (for_each_set disconnect_step ifs) (fun _ =>
           bind (m_get (fun g => negb (N.eqb (type_of g i) T_SubInterface))) (fun dp => remove_cp_and_links i dp)))).
Proof. apply del_after_disc, Del_later; [auto with inv | intros dp; apply del_remove_cp]. Qed.

Lemma prune_target8_In g x :
  prune_target8 g x -> marked g x = true /\
    (In x (prune_nodes g) \/ (exists n, In (x, n) (prune_comps g)) \/ In x (prune_all_nss g) \/
     In x (flat_map (with_children g) (flat_map (ns_interfaces g) (prune_all_nss g)))).
Proof.
  intros [[H|[[n H]|[H|[s H]]]]|[s [j H]]]; (split; [tauto|]);
    [tauto | right; left; exists n; tauto | tauto | |]; right; right; right; apply in_flat_map.
  - exists x. split; [apply in_flat_map; exists s; tauto | left; reflexivity].
  - exists j. split; [apply in_flat_map; exists s; tauto | tauto].
Qed.

Theorem prune8_targets ex cs g r g' tr :
  ids_distinct g -> run (exec ex OPrune8 cs) g = (inl r, (g', tr)) ->
  forall x, prune_target8 g x -> In x tr.
Proof.
  intros Hd E x Hx. apply bind_ret_ok in E. destruct E as [[] E]. destruct (prune_target8_In g x Hx) as [Hm Hin].
  exact (prune_loops g (prune_nodes g) _ (fun nn => api_remove_node (fst nn)) _ (g', tr) Hd (prune_nodes_sub g)
           (with_children_class g _ (ns_interfaces_class g))
           (fun nn => Inv_api_remove_node (fst nn)) (fun nn => del_api_remove_node g (fst nn))
           Inv_prune_if8_body (del_prune_if8_body g) E x Hm Hin).
Qed.

(* ... and everything a marked element owns *)
Definition prune_owned (g : graph) (x : N) : Prop :=
  (exists n, In n (prune_nodes g) /\ marked g n = true /\ O_node g n x) \/
  (exists c n, In (c, n) (prune_comps g) /\ marked g c = true /\ O_comp g c x) \/
  (exists s, In s (prune_all_nss g) /\ marked g s = true /\ O_ns g s x) \/
  (exists s i, In s (prune_all_nss g) /\ In i (cpn g s) /\ marked g i = true /\ O_cp g i true x).

Theorem prune7_owned ex cs g r g' tr :
  ids_distinct g -> run (exec ex OPrune7 cs) g = (inl r, (g', tr)) ->
  forall x, prune_owned g x -> In x tr.
Proof.
  intros Hd E x Hx. pose proof (prune7_targets ex cs g r g' tr Hd E) as T.
  pose proof (closed_exec ex OPrune7 cs g r g' tr eq_refl E) as HC.
  destruct Hx as [[n [Hn [Hm Ho]]]|[[c [n [Hc [Hm Ho]]]]|[[s [Hs [Hm Ho]]]|[s [i [Hs [Hi [Hm Ho]]]]]]]].
  - apply (closed_O_node g tr n x HC); [apply T; left; auto | | exact Ho].
    apply (all_of_class_facts g CNode n Hd (prune_nodes_sub g n Hn)).
  - apply (closed_O_comp g tr c x HC); [apply T; right; left; exists n; auto | | exact Ho].
    apply prune_comps_In, first_neighbor_In in Hc. tauto.
  - apply (closed_O_ns g tr s x HC); [apply T; right; right; left; auto | apply (prune_all_nss_class g s Hd Hs) | exact Ho].
  - apply (closed_O_cp g tr i x HC); [apply T; right; right; right; exists s; auto | exact Ho].
Qed.

(* after C08-9 the collection phase also reaches the Facility nodes *)
Definition prune_target9 (g : graph) (x : N) : Prop :=
  prune_target8 g x \/ (In x (all_of_class g CNode) /\ marked g x = true).

Theorem prune9_targets ex cs g r g' tr :
  ids_distinct g -> run (exec ex OPrune9 cs) g = (inl r, (g', tr)) ->
  forall x, prune_target9 g x -> In x tr.
Proof.
  intros Hd E x Hx. apply bind_ret_ok in E. destruct E as [[] E].
  assert (H : marked g x = true /\
    (In x (all_of_class g CNode) \/ (exists n, In (x, n) (prune_comps g)) \/ In x (prune_all_nss g) \/
     In x (flat_map (with_children g) (flat_map (ns_interfaces g) (prune_all_nss g))))).
  { destruct Hx as [Hx|Hx]; [|tauto]. destruct (prune_target8_In g x Hx) as [Hm [Hn|Hin]]; [|tauto].
    split; [exact Hm | left; apply prune_nodes_sub; exact Hn]. }
  destruct H as [Hm Hin].
  refine (prune_loops g (all_of_class g CNode) _
            (fun nn => bind (m_get (fun g => type_of g (snd nn))) (fun t =>
                       if N.eqb t T_Facility then api_remove_facility (fst nn) else api_remove_node (fst nn)))
            _ (g', tr) Hd (fun n Hn => Hn) (with_children_class g _ (ns_interfaces_class g)) _ _
            Inv_prune_if8_body (del_prune_if8_body g) E x Hm Hin).
  - intros nn. apply Inv_bind; [apply Inv_get | intros t].
    destruct (N.eqb t T_Facility); [apply Inv_api_remove_facility | apply Inv_api_remove_node].
  - intros nn y Hy. apply Del_later; [auto with inv | intros t].
    destruct (N.eqb t T_Facility); [apply del_api_remove_facility | apply del_api_remove_node]; exact Hy.
Qed.
