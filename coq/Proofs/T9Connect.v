(* C09 - one iteration of the interface loop of NetworkService.__init__ on the extended graph: it either
   fails before touching the graph, or fails leaving one orphan ServicePort on the service, or extends the graph
   by exactly one well-formed connection.
   connect_interface and its variant with a rollback are the same checks and the same Interface constructor,
   followed by a different last step (connect_with); the checks are walked once (connect_with_run). *)
From Coq Require Import List NArith Bool.
From FIM Require Import Base.ListFacts Base.Str Model.T9Graph Model.T9Ops Proofs.T9Monad Proofs.T9Simple Proofs.T9Ext.
Import ListNotations.
Open Scope N_scope.

Lemma add_node_result n G G' : g_add_node n G = Ok G' ->
  has_node G (nid n) = false /\ G' = mkGraph (gnodes G ++ [n]) (gedges G).
Proof. unfold g_add_node. destruct (has_node G (nid n)); intro H; inversion H; auto. Qed.

Lemma add_edge_result a r b G G' : g_add_edge a r b G = Ok G' ->
  existsb (same_pair a b) (gedges G) = false -> G' = mkGraph (gnodes G) (gedges G ++ [mkEdge a b r]).
Proof.
  unfold g_add_edge. destruct (find_node G a); [|discriminate]. destruct (find_node G b); [|discriminate].
  intros H Hex. rewrite Hex in H. inversion H; reflexivity.
Qed.

(* a node and the edge from an existing parent, on a closed graph *)
Lemma yields_node_edge {A} n p r (k : M A) (a : A) :
  (forall s, k s = (s, Ok a)) ->
  yields (m_add_node n ;;; m_add_edge p r (nid n) ;;; k)
         (fun g x g' => x = a /\ (closed g -> ~ In (nid n) (ids g) /\
                                   g' = mkGraph (gnodes g ++ [n]) (gedges g ++ [mkEdge p (nid n) r]))).
Proof.
  intros Hk s s1 x H.
  apply bind_ok in H as (s' & u1 & H1 & H). apply mutate_ok in H1 as (g1 & Hg1 & ->).
  apply add_node_result in Hg1 as [Hnew ->]. apply has_node_false_In in Hnew.
  apply bind_ok in H as (s' & u2 & H1 & H). apply mutate_ok in H1 as (g2 & Hg2 & ->). simpl in Hg2.
  rewrite Hk in H. inversion H; subst. split; [reflexivity|]. intro Hcl.
  apply add_edge_result in Hg2; [|simpl; apply same_pair_untouched, closed_untouched; auto]. auto.
Qed.

Definition plus_port (G : graph) (a : N) (o : node) : graph :=
  mkGraph (gnodes G ++ [o]) (gedges G ++ [mkEdge a (nid o) rConnects]).

Lemma ids_plus_port G a o : ids (plus_port G a o) = ids G ++ [nid o].
Proof. unfold ids, plus_port; simpl. apply map_app. Qed.
Lemma plus_port_closed G a o : closed G -> In a (ids G) -> closed (plus_port G a o).
Proof.
  intros Hc Ha e He. rewrite ids_plus_port. unfold plus_port in He; simpl in He.
  apply in_app_iff in He as [He|[<-|[]]].
  - destruct (Hc e He). split; apply in_app_iff; auto.
  - simpl. split; apply in_app_iff; [left; auto|right; left; auto].
Qed.
Lemma plus_port_nodup G a o : NoDup (ids G) -> ~ In (nid o) (ids G) -> NoDup (ids (plus_port G a o)).
Proof. intros. rewrite ids_plus_port. apply NoDup_snoc; auto. Qed.

Lemma new_interface_cases fl name node_id a ty pure s s1 r :
  closed (sg s) -> found (sg s) a ->
  new_interface fl name node_id (Some a) (Some ty) pure s = (s1, r) ->
  match r with
  | Err _ => sg s1 = sg s
  | Ok p => ~ In p (ids (sg s)) /\ sg s1 = plus_port (sg s) a (mkNode p cCP name ty 0) /\
            incl (sfresh s1) (sfresh s) /\ (node_id = Some p \/ In p (sfresh s))
  end.
Proof.
  intros Hcl Ha H. destruct r as [p|e]; [|exact (new_interface_clean _ _ _ _ _ _ _ _ _ Ha H I)].
  unfold new_interface in H.
  apply bind_ok in H as (s' & u1 & H1 & H). apply guard_ok in H1 as [-> _].
  apply bind_ok in H as (s0 & id & H1 & H). apply id_or_draw_ok in H1 as (G0 & F0 & I0).
  apply bind_ok in H as (s' & u2 & H1 & H). apply guard_ok in H1 as [-> _].
  apply bind_ok in H as (s' & u3 & H1 & H). apply opt_raise_ok in H1 as ->.
  apply bind_ok in H as (s' & u4 & H1 & H). apply mutate_ok in H1 as (g1 & Hg1 & ->).
  apply add_node_result in Hg1 as [Hnew ->]. simpl nid in Hnew.
  apply bind_ok in H as (s' & u5 & H1 & H). apply mutate_ok in H1 as (g2 & Hg2 & ->). simpl in Hg2.
  apply ret_ok in H as [-> <-]. simpl.
  rewrite G0 in *. apply has_node_false_In in Hnew.
  apply add_edge_result in Hg2;
    [|simpl; apply same_pair_untouched, closed_untouched; auto]. simpl in Hg2.
  repeat split; auto.
Qed.

Lemma add_port_cases fl G a cached name nid0 ty pure s s1 r :
  closed G -> NoDup (ids G) -> In a (ids G) -> sg s = G ->
  add_interface_cached fl a cached name nid0 (Some ty) pure s = (s1, r) ->
  match r with
  | Err _ => sg s1 = G
  | Ok p => ~ In p (ids G) /\ sg s1 = plus_port G a (mkNode p cCP name ty 0)
  end.
Proof.
  intros Hcl Hnd Ha <- H. unfold add_interface_cached in H.
  apply (bind_check (check_guard _ _)) in H as [[-> [e ->]]|(u & _ & H)]; [reflexivity|].
  apply new_interface_cases in H; [|exact Hcl|apply found_In; auto].
  destruct r; [destruct H as (H1 & H2 & _); auto|exact H].
Qed.

Lemma new_link2_ok fl name ty i j s s1 l :
  closed (sg s) -> ih_id i <> ih_id j ->
  new_link fl name None (Some ty) (Some [i; j]) None s = (s1, Ok l) ->
  In l (sfresh s) /\ incl (sfresh s1) (sfresh s) /\ ~ In l (ids (sg s)) /\
  sg s1 = mkGraph (gnodes (sg s) ++ [mkNode l cLink name ty 0])
                  (gedges (sg s) ++ [mkEdge l (ih_id i) rConnects; mkEdge l (ih_id j) rConnects]).
Proof.
  intros Hcl Hij H. unfold new_link in H.
  apply bind_ok in H as (s' & u1 & H1 & H). apply guard_ok in H1 as [-> _].
  apply bind_ok in H as (s0 & l' & H1 & H). apply id_or_draw_ok in H1 as (G0 & F0 & [Hx|Hl]); [discriminate|].
  apply bind_ok in H as (s' & u2 & H1 & H). apply guard_ok in H1 as [-> _].
  apply bind_ok in H as (s' & u3 & H1 & H). apply opt_raise_ok in H1 as ->.
  apply bind_ok in H as (s' & u4 & H1 & H). apply (ifaces_lookup_ok [i; j]) in H1 as [-> Hex].
  apply bind_ok in H as (s' & u5 & H1 & H). apply mutate_ok in H1 as (g1 & Hg1 & ->).
  apply add_node_result in Hg1 as [Hnew ->]. simpl nid in Hnew.
  apply bind_ok in H as (s' & u6 & H1 & H). apply ret_ok in H as [-> ->].
  simpl in H1.
  apply bind_ok in H1 as (sa & u7 & H1 & H2). apply mutate_ok in H1 as (g2 & Hg2 & ->).
  apply bind_ok in H2 as (sb & u8 & H2 & H3). apply mutate_ok in H2 as (g3 & Hg3 & ->).
  apply ret_ok in H3 as [-> _]. simpl in *.
  rewrite G0 in *. apply has_node_false_In in Hnew.
  assert (Hunt : untouched l' (gedges (sg s))) by (apply closed_untouched; auto).
  (* the Link is new, so neither of its two edges replaces an existing one *)
  apply add_edge_result in Hg2; [|simpl; apply same_pair_untouched_l; exact Hunt]. simpl in Hg2. subst g2.
  apply add_edge_result in Hg3.
  2:{ simpl. rewrite existsb_app, (same_pair_untouched_l _ _ _ Hunt). unfold same_pair; simpl.
      destruct (Hex j (or_intror (or_introl eq_refl))) as [nj Hj]. apply find_node_In in Hj.
      rewrite (neqb_of_neq (ih_id i) (ih_id j)) by auto.
      rewrite (neqb_of_neq l' (ih_id j)) by (intro X; apply Hnew; rewrite X; exact Hj).
      rewrite andb_false_r. reflexivity. }
  simpl in Hg3. rewrite <- app_assoc in Hg3. auto.
Qed.

(* connect_interface: checks, Interface constructor, last step *)
Definition link_step (fl : flavour) (i : iface_h) (pname : str) (p : N) : M unit :=
  ity <- ask (fun g => node_type g (ih_id i)) ;;
  let lty := if ity =? tSharedPort then tL2Path else tPatch in
  _ <- new_link fl (pname ++ suffix_link) None (Some lty) (Some [i; mkIface p pname]) None ;;
  ret tt.

Definition connect_with (tail : str -> N -> M unit) (fl : flavour) (ns : N) (i : iface_h) : M unit :=
  nsty <- ask (fun g => node_type g ns) ;;
  guardrails nsty i ;;;
  owner <- ask (fun g => iface_owner (owner_fuel g) g (ih_id i)) ;;
  match owner with
  | None => raise ETopology
  | Some on =>
      oname <- ask (fun g => node_name g on) ;;
      peers <- ask (fun g => peer_cps g (ih_id i)) ;;
      guard (match peers with [] => true | _ => false end) ETopology ;;;
      let pname := oname ++ dash ++ ih_name i in
      cps <- ask (fun g => service_iface_names g ns) ;;
      guard (negb (str_in pname cps)) ETopology ;;;
      ltaken <- ask (fun g => Ok (name_taken g cLink (pname ++ suffix_link))) ;;
      guard (negb ltaken) ETopology ;;;
      p <- new_interface fl pname None (Some ns) (Some tServicePort) None ;;
      tail pname p
  end.

Lemma connect_interface_with fl ns i : connect_interface fl ns i = connect_with (link_step fl i) fl ns i.
Proof. reflexivity. Qed.
Lemma connect_interface_rb_with fl ns i :
  connect_interface_rb fl ns i =
  connect_with (fun pname p => catch_any (link_step fl i pname p) (fun e => remove_cp_and_links p ;;; raise e)) fl ns i.
Proof. reflexivity. Qed.

Lemma check_guardrails ty i : check (guardrails ty i).
Proof.
  unfold guardrails. destruct (ty =? tL2PTP); [|apply check_ret].
  apply check_bind; [apply check_ask|intro; apply check_guard].
Qed.

(* a run either stops in the checks, with the state untouched, or is the Interface constructor followed by the last
   step, on an interface that has no peer yet *)
Lemma connect_with_run tail fl ns i s s' r :
  connect_with tail fl ns i s = (s', r) ->
  (s' = s /\ exists e, r = Err e) \/
  exists pname, peer_cps (sg s) (ih_id i) = Ok [] /\
    (p <- new_interface fl pname None (Some ns) (Some tServicePort) None ;; tail pname p) s = (s', r).
Proof.
  unfold connect_with. intro H.
  apply (bind_check (check_ask _)) in H as [H|(nsty & _ & H)]; [left; exact H|].
  apply (bind_check (check_guardrails _ _)) in H as [H|(u0 & _ & H)]; [left; exact H|].
  apply (bind_check (check_ask _)) in H as [H|(owner & _ & H)]; [left; exact H|].
  destruct owner as [on|]; [|left; inversion H; eauto].
  apply (bind_check (check_ask _)) in H as [H|(oname & _ & H)]; [left; exact H|].
  apply (bind_check (check_ask _)) in H as [H|(peers & Hpeers & H)]; [left; exact H|].
  apply (bind_check (check_guard _ _)) in H as [H|(u1 & Hnil & H)]; [left; exact H|].
  apply (bind_check (check_ask _)) in H as [H|(cps & _ & H)]; [left; exact H|].
  apply (bind_check (check_guard _ _)) in H as [H|(u2 & _ & H)]; [left; exact H|].
  apply (bind_check (check_ask _)) in H as [H|(ltaken & _ & H)]; [left; exact H|].
  apply (bind_check (check_guard _ _)) in H as [H|(u3 & _ & H)]; [left; exact H|].
  right. exists (oname ++ dash ++ ih_name i). split; [|exact H].
  apply ask_ok in Hpeers as [_ Hpeers]. apply guard_ok in Hnil as [_ Hnil].
  destruct peers; [exact Hpeers|discriminate].
Qed.

Lemma link_step_atomic fl i pname p : atomic (link_step fl i pname p).
Proof.
  intros s s' e H. unfold link_step in H.
  apply (bind_check (check_ask _)) in H as [[-> _]|(ity & _ & H)]; [reflexivity|].
  apply bind_ret_err in H. exact (new_link_atomic _ _ _ _ _ _ _ _ _ H).
Qed.

Definition iface_typed (g : graph) (i : iface_h) : Prop :=
  In (ih_id i) (ids g) -> has_cls g cCP (ih_id i) = true.

Lemma new_ids_snoc nsn cs c : new_ids nsn (cs ++ [c]) = new_ids nsn cs ++ [k_p c; k_l c].
Proof. unfold new_ids, conn_ids. rewrite flat_map_app. simpl. reflexivity. Qed.

Lemma ext_snoc g nsn cs c :
  ext g nsn (cs ++ [c]) =
  mkGraph (gnodes (ext g nsn cs) ++ conn_nodes c) (gedges (ext g nsn cs) ++ conn_edges (nid nsn) c).
Proof.
  unfold ext; simpl. rewrite !flat_map_app. simpl.
  rewrite <- !app_assoc. reflexivity.
Qed.

Section Step.
  Variables (g : graph) (nsn : node) (cs : list conn).
  Hypothesis Hcl : closed g.
  Hypothesis G : good g nsn cs.
  Let E := ext g nsn cs.
  Let ns := nid nsn.

  Lemma ext_facts : closed E /\ NoDup (ids E) /\ In ns (ids E).
  Proof.
    split; [apply ext_closed; auto|]. unfold E. rewrite ids_ext. split; [apply (gd_nodup _ _ _ G)|].
    apply in_app_iff. right. left. reflexivity.
  Qed.

  (* U bounds the ids the constructor has drawn or can still draw; an interface outside U is a node of g *)
  Lemma connect_ok_shape fl (U : list N) i s s1 :
    NoDup (ids g) -> sg s = E ->
    incl (new_ids nsn cs) U -> incl (sfresh s) U -> ~ In (ih_id i) U -> iface_typed g i ->
    connect_interface fl ns i s = (s1, Ok tt) ->
    exists c, k_if c = i /\ sg s1 = ext g nsn (cs ++ [c]) /\ good g nsn (cs ++ [c]) /\
              incl (new_ids nsn (cs ++ [c])) U /\ incl (sfresh s1) U.
  Proof.
    intros Hndg Hsg HU Hfr HiU Hty H. destruct ext_facts as (HclE & HndE & Hns).
    rewrite connect_interface_with in H.
    apply connect_with_run in H as [[_ [e He]]|(pname & Hpeers & H)]; [discriminate|].
    rewrite Hsg in Hpeers.
    assert (Hi_in : In (ih_id i) (ids E)).
    { unfold peer_cps in Hpeers. destruct (find_node E (ih_id i)) eqn:Ef; [|discriminate].
      eapply find_node_In; eauto. }
    (* the ServicePort, then the Link *)
    apply bind_ok in H as (s2 & p & Hp & H).
    apply new_interface_cases in Hp as (Hp_new & Hs2 & Hfr2 & [Hx|Hp_fr]);
      [discriminate| |rewrite Hsg; exact HclE|rewrite Hsg; apply found_In; auto].
    rewrite Hsg in Hp_new, Hs2.
    unfold link_step in H.
    apply bind_ok in H as (s' & ity & H1 & H). apply ask_ok in H1 as [-> _].
    apply bind_ok in H as (s3 & l & Hl & H). apply ret_ok in H as [-> _].
    set (lty := if ity =? tSharedPort then tL2Path else tPatch) in *.
    apply new_link2_ok in Hl as (Hl_fr & Hfr3 & Hl_new & Hs3);
      [|rewrite Hs2; apply plus_port_closed; auto
       |simpl; intro X; apply Hp_new; rewrite <- X; exact Hi_in].
    rewrite Hs2, ids_plus_port in Hl_new. simpl in Hl_new.
    rewrite Hs2 in Hs3. unfold plus_port in Hs3. simpl in Hs3.
    (* the interface is a node of g that the constructor has not connected yet *)
    assert (Hi_old : In (ih_id i) (ids g)).
    { unfold E in Hi_in. rewrite ids_ext in Hi_in. apply in_app_iff in Hi_in as [?|Hnew]; auto.
      exfalso. apply HiU. apply HU. exact Hnew. }
    assert (Hi_notcs : ~ In (ih_id i) (map k_i cs)).
    { intro Hin. apply in_map_iff in Hin as [c' [Hc'i Hc']].
      destruct (peers_member g nsn cs G c' Hc') as [L [HL HinL]].
      rewrite Hc'i in HL. fold E in HL. rewrite HL in Hpeers. inversion Hpeers; subst. contradiction. }
    exists (mkConn i p l lty pname).
    split; [reflexivity|]. split; [|split; [|split]].
    - rewrite Hs3, ext_snoc. fold E. unfold conn_nodes, conn_edges; simpl.
      rewrite <- !app_assoc. reflexivity.
    - destruct G as [Gnd Gcls Gcp Gifs Gpeers]. constructor; auto.
      + rewrite new_ids_snoc. cbn [k_p k_l]. rewrite app_assoc.
        replace ((ids g ++ new_ids nsn cs) ++ [p; l]) with (((ids g ++ new_ids nsn cs) ++ [p]) ++ [l])
          by (rewrite <- app_assoc; reflexivity).
        unfold E in Hp_new, Hl_new. rewrite ids_ext in Hp_new, Hl_new.
        apply NoDup_snoc; [apply NoDup_snoc; auto|exact Hl_new].
      + intros c' Hc'. apply in_app_iff in Hc' as [Hc'|[<-|[]]]; [auto | apply Hty; exact Hi_old].
      + rewrite map_app. simpl. apply NoDup_snoc; auto.
      + intros c' Hc'. apply in_app_iff in Hc' as [Hc'|[<-|[]]]; [auto|].
        unfold k_i; simpl. rewrite <- Hpeers. symmetry.
        apply (peers_transport g nsn cs Hcl (mkGood _ _ _ Gnd Gcls Gcp Gifs Gpeers)); auto.
    - rewrite new_ids_snoc. apply incl_app; auto. simpl.
      intros x [<-|[<-|[]]]; apply Hfr; auto.
    - intros x Hx. apply Hfr, Hfr2, Hfr3, Hx.
  Qed.

  (* a failing iteration leaves the shape, or the shape with one orphan port on the service *)
  Lemma step_fail_shape fl ty i s s1 e :
    sg s = E ->
    (guardrails ty i ;;; connect_interface fl ns i) s = (s1, Err e) ->
    sg s1 = E \/
    exists o, sg s1 = plus_port E ns o /\ ~ In (nid o) (ids E) /\ ncls o = cCP.
  Proof.
    intros Hsg H. destruct ext_facts as (HclE & HndE & Hns_in).
    assert (Hns : found (sg s) ns) by (rewrite Hsg; apply found_In; auto). rewrite <- Hsg in HclE.
    apply (bind_check (check_guardrails _ _)) in H as [[-> _]|(u & _ & H)]; [left; exact Hsg|].
    rewrite connect_interface_with in H.
    apply connect_with_run in H as [[-> _]|(pname & _ & H)]; [left; exact Hsg|].
    apply bind_err_cases in H as [H|(s2 & p & Hp & H)].
    - left. rewrite <- Hsg. exact (new_interface_cases _ _ _ _ _ _ _ _ (Err e) HclE Hns H).
    - right. apply (new_interface_cases _ _ _ _ _ _ _ _ (Ok p) HclE Hns) in Hp as (Hnew & Hs2 & _).
      exists (mkNode p cCP pname tServicePort 0). rewrite Hsg in *.
      split; [|split; [exact Hnew|reflexivity]].
      rewrite <- Hs2. exact (link_step_atomic _ _ _ _ _ _ _ H).
  Qed.
End Step.
