(* C08: everything the addressed element owns is deleted (normal return). *)
From Coq Require Import List NArith Bool.
From FIM Require Import Model.T8Graph Model.T8Ops Proofs.T8Query Proofs.T8Sound Proofs.T8Complete
     Proofs.T8Closed Proofs.T8Top.
Import ListNotations.

Definition owned (g : graph) (o : op) (x : N) : Prop :=
  match o with
  | ORemoveNode nm | ORemoveFacility nm | ORemoveSwitch nm =>
      exists n, In n (by_name g CNode nm) /\ class_of g n = CNode /\ O_node g n x
  | ORemoveLink nm => In x (by_name g CLink nm)
  | ORemoveNsTopo nm => exists s, In s (by_name g CNS nm) /\ class_of g s = CNS /\ O_ns g s x
  | ORemoveComponent n c => exists c', In c' (first_neighbor g n RHas CComp) /\ name_of g c' = c /\ O_comp g c' x
  | ONodeRemoveNs n sn => exists s, In s (first_neighbor g n RHas CNS) /\ name_of g s = sn /\ O_ns g s x
  | ODisconnect _ i => exists p, get_peers_typed g i T_ServicePort = Some [p] /\ O_cp g p true x
  | OUnpeer a b => exists xy, unpeer_ends g a b = Some [xy] /\ (x = fst xy \/ x = snd xy)
  | OUnpeer6 a b => exists xy, In xy (unpeer_pairs g a b) /\ (x = fst xy \/ x = snd xy)
  | ORemoveInterface s nm => exists i, In i (cpn g s) /\ name_of g i = nm /\ O_cp g i true x
  | ORemoveChild p nm => In x (cpn g p) /\ name_of g x = nm
  | OPrune | OPrune7 | OPrune8 | OPrune9 => False
  end.

Theorem owned_exec ex o cs g r g' tr :
  run (exec ex o cs) g = (inl r, (g', tr)) -> forall x, owned g o x -> In x tr.
Proof.
  intros E x Hx. pose proof (target_exec ex o cs g r g' tr E) as T.
  pose proof (fun H => closed_exec ex o cs g r g' tr H E) as HC.
  destruct o; simpl in Hx, T; try contradiction; try (apply T; exact Hx); specialize (HC eq_refl).
  1-3: destruct Hx as [n [Hn [Hc Ho]]]; apply (closed_O_node g tr n x HC (T n Hn) Hc Ho).
  - destruct Hx as [s [Hs [Hc Ho]]]. apply (closed_O_ns g tr s x HC (T s Hs) Hc Ho).
  - destruct Hx as [c [Hc [Hnm Ho]]]. apply (closed_O_comp g tr c x HC (T c (conj Hc Hnm))); [|exact Ho].
    apply first_neighbor_In in Hc. tauto.
  - destruct Hx as [s [Hs [Hnm Ho]]]. apply (closed_O_ns g tr s x HC (T s (conj Hs Hnm))); [|exact Ho].
    apply first_neighbor_In in Hs. tauto.
  - destruct Hx as [p [Hp Ho]]. apply (closed_O_cp g tr p x HC (T p Hp) Ho).
  - destruct Hx as [i [Hi [Hnm Ho]]]. apply (closed_O_cp g tr i x HC (T i (conj Hi Hnm)) Ho).
Qed.
