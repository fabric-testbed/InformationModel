(* C12, Model/Pools12H.v: ONE Pools object under any history of operations: the index built by
   build_index_by_delegation_id is a function of the current registry (not of the history), hence the regrouping
   identity holds after any history.  Rests on Deleg12Main.v (and through it on Enc, Pools, Regroup). *)
From Coq Require Import List ZArith Bool String.
From FIM Require Import Base.Str Base.Corr Model.Deleg12 Model.Pools12 Model.Pools12H
     Proofs.Deleg12Enc Proofs.Deleg12Pools Proofs.Deleg12Main.
Import ListNotations.

Lemma nth_error_set_nth_same {A} k (x : A) l y : nth_error l k = Some y -> nth_error (set_nth k x l) k = Some x.
Proof.
  revert k. induction l as [|a r IH]; intros [|k] H; simpl in *; try discriminate; [reflexivity|apply IH; exact H].
Qed.

Lemma nth_error_set_nth_other {A} k j (x : A) l : j <> k -> nth_error (set_nth k x l) j = nth_error l j.
Proof.
  revert k j. induction l as [|a r IH]; intros [|k] [|j] H; simpl; try reflexivity; try contradiction.
  apply IH. congruence.
Qed.

Lemma pool_apply_id p o p' : pool_apply p o = Ok p' -> p_id p' = p_id p.
Proof.
  destruct o; simpl; try (intro H; injection H as <-; reflexivity).
  destruct l; [discriminate|]. intro H. injection H as <-. reflexivity.
Qed.

(* reg_valid st is, by definition, reg_ok (st_heap st) (st_reg st): the lemmas below are about the two components a
   step changes, and close goals about reg_valid by conversion *)
Definition reg_ok (h : list pool) (reg : list (str * nat)) : Prop :=
  Forall (fun e => exists q, nth_error h (snd e) = Some q /\ p_id q = fst e) reg.

Lemma reg_ok_grow h x reg : reg_ok h reg -> reg_ok (h ++ [x]) reg.
Proof.
  apply Forall_impl. intros e (q & Hq & Hid). exists q. split; [apply nth_error_grow; exact Hq|exact Hid].
Qed.

Lemma reg_ok_set h k p p' reg : nth_error h k = Some p -> p_id p' = p_id p -> reg_ok h reg -> reg_ok (set_nth k p' h) reg.
Proof.
  intros Hk Hid. apply Forall_impl. intros e (q & Hq & Hqid).
  destruct (Nat.eq_dec (snd e) k) as [EQ|NE].
  - exists p'. rewrite EQ, (nth_error_set_nth_same _ _ _ _ Hk). split; [reflexivity|]. congruence.
  - exists q. rewrite nth_error_set_nth_other by exact NE. split; assumption.
Qed.

Lemma reg_ok_put h pid k reg p : nth_error h k = Some p -> p_id p = pid -> reg_ok h reg -> reg_ok h (put_reg pid k reg).
Proof.
  intros Hk Hp. induction reg as [|[q j] r IH]; intro F; simpl.
  - constructor; [exists p; split; assumption|constructor].
  - apply Forall_cons_iff in F as [Fh Ft]. destruct (str_eqb q pid) eqn:E.
    + apply str_eqb_eq in E as ->. constructor; [exists p; split; assumption|exact Ft].
    + constructor; [exact Fh|apply IH; exact Ft].
Qed.

Lemma get_or_create_valid st pn : reg_valid st ->
  reg_valid (fst (get_or_create st pn)) /\ st_type (fst (get_or_create st pn)) = st_type st /\
  exists p, nth_error (st_heap (fst (get_or_create st pn))) (snd (get_or_create st pn)) = Some p /\ p_id p = pn.
Proof.
  intro V. unfold get_or_create. destruct (lookup pn (st_reg st)) as [k|] eqn:L; cbn [fst snd].
  - split; [exact V|]. split; [reflexivity|]. exact (proj1 (Forall_forall _ _) V _ (lookup_In _ _ _ L)).
  - assert (N : nth_error (st_heap st ++ [fresh_pool (st_type st) pn]) (List.length (st_heap st))
                = Some (fresh_pool (st_type st) pn)).
    { rewrite nth_error_app2, Nat.sub_diag by apply Nat.le_refl. reflexivity. }
    split; [|split; [reflexivity|eexists; split; [exact N|reflexivity]]].
    apply Forall_app. split; [apply reg_ok_grow; exact V|].
    constructor; [eexists; split; [exact N|reflexivity]|constructor].
Qed.

Lemma hinc_one_valid st node d : reg_valid st ->
  reg_valid (fst (hinc_one st node d)) /\ st_type (fst (hinc_one st node d)) = st_type st.
Proof.
  intro V. unfold hinc_one.
  destruct (d_fmt d) eqn:F; try (split; [exact V|reflexivity]);
    (destruct (d_pool d) as [pn|]; [|split; [exact V|reflexivity]];
     destruct (get_or_create_valid st pn V) as (V1 & T1 & p & Hp & Hid);
     destruct (get_or_create st pn) as [st1 k]; cbn [fst snd] in *; rewrite Hp).
  - destruct (p_on p); [split; assumption|].
    destruct (d_details d); cbn [fst]; (split; [apply (reg_ok_set _ _ p); trivial|exact T1]).
  - cbn [fst]. split; [apply (reg_ok_set _ _ p); trivial|exact T1].
Qed.

Lemma hinc_items_valid node items : forall st, reg_valid st ->
  reg_valid (fst (hinc_items st node items)) /\ st_type (fst (hinc_items st node items)) = st_type st.
Proof.
  induction items as [|d r IH]; intros st V; [split; [exact V|reflexivity]|].
  cbn [hinc_items]. destruct (hinc_one_valid st node d V) as [V1 T1].
  destruct (hinc_one st node d) as [st1 [e|]]; cbn [fst] in *; [split; assumption|].
  destruct (IH st1 V1) as [V2 T2]. split; [exact V2|congruence].
Qed.

Lemma hstep_valid st o : reg_valid st -> reg_valid (fst (hstep st o)) /\ st_type (fst (hstep st o)) = st_type st.
Proof.
  intro V. destruct o; cbn [hstep]; try (split; [exact V|reflexivity]).
  - destruct (pool_apply_all _ _) as [p os]. split; [apply reg_ok_grow; exact V|reflexivity].
  - destruct (nth_error (st_heap st) k) as [p|] eqn:Hk; [|split; [exact V|reflexivity]].
    destruct (pool_apply p o) as [p'|e] eqn:A; [|split; [exact V|reflexivity]].
    split; [|reflexivity]. exact (reg_ok_set _ _ p p' _ Hk (pool_apply_id _ _ _ A) V).
  - destruct (nth_error (st_heap st) k) as [p|] eqn:Hk; [|split; [exact V|reflexivity]].
    destruct (dtype_eqb (p_type p) (st_type st)); [|split; [exact V|reflexivity]].
    split; [|reflexivity]. exact (reg_ok_put _ _ _ _ p Hk eq_refl V).
  - destruct (index_from _ _ _) as [idx oe]. split; [exact V|reflexivity].
  - destruct (dtype_eqb dty (st_type st)); [|split; [exact V|reflexivity]].
    destruct (hinc_items_valid node items st V) as [V1 T1].
    destruct (hinc_items st node items) as [st1 oe]. split; assumption.
  - destruct (get_or_create_valid st pid V) as (V1 & T1 & _).
    destruct (get_or_create st pid) as [st1 k]. split; assumption.
Qed.

Lemma hrun_valid ops : forall st, reg_valid st ->
  reg_valid (hfinal st ops) /\ st_type (hfinal st ops) = st_type st.
Proof.
  unfold hfinal. induction ops as [|o r IH]; intros st V; [split; [exact V|reflexivity]|].
  cbn [hrun]. destruct (hstep_valid st o V) as [V1 T1]. destruct (hstep st o) as [st1 v]. cbn [fst] in V1, T1.
  destruct (IH st1 V1) as [V2 T2]. destruct (hrun st1 r) as [st2 vs]. cbn [fst] in *. split; [exact V2|congruence].
Qed.

Lemma resolve_group_add h did k p acc : nth_error h k = Some p ->
  resolve h (group_add did k acc) = group_add did p (resolve h acc).
Proof.
  intro Hk. unfold resolve. induction acc as [|[d ks] r IH]; simpl.
  - unfold deref. simpl. rewrite Hk. reflexivity.
  - destruct (str_eqb d did); simpl; [|rewrite IH; reflexivity].
    unfold deref. rewrite flat_map_app. simpl. rewrite Hk. reflexivity.
Qed.

Lemma index_from_spec h ks : forall acc,
  Forall (fun k => exists p, nth_error h k = Some p) ks ->
  match index_from h ks acc with
  | (acc', None) => build_index_from (deref h ks) (resolve h acc) = Ok (resolve h acc')
  | (_, Some e) => build_index_from (deref h ks) (resolve h acc) = Err e
  end.
Proof.
  induction ks as [|k r IH]; intros acc V; [reflexivity|].
  apply Forall_cons_iff in V as [[p Hk] Vr]. cbn [index_from]. rewrite Hk.
  assert (D : deref h (k :: r) = p :: deref h r) by (unfold deref; simpl; rewrite Hk; reflexivity).
  rewrite D. cbn [build_index_from].
  destruct (validate_pool p) as [e|]; [reflexivity|].
  destruct (p_deleg p) as [did|]; [|reflexivity].
  rewrite <- (resolve_group_add h did k p acc Hk). apply IH. exact Vr.
Qed.

(* the step HIndex against build_index of the registry's current pools *)
Lemma hstep_index st : reg_valid st ->
  exists idx, fst (hstep st HIndex) = mkSt (st_type st) (st_heap st) (st_reg st) (Some idx) /\
              match build_index (reg_pools st) with
              | Ok i0 => resolve (st_heap st) idx = i0
              | Err e => snd (hstep st HIndex) = VErr (exn_name e)
              end.
Proof.
  intro V. cbn [hstep]. unfold build_index, reg_pools.
  assert (H : Forall (fun k => exists p, nth_error (st_heap st) k = Some p) (map snd (st_reg st))).
  { apply Forall_map. eapply Forall_impl; [|exact V]. intros e (p & Hp & _). exists p. exact Hp. }
  apply (index_from_spec _ _ []) in H.
  destruct (index_from (st_heap st) (map snd (st_reg st)) []) as [idx [e|]]; exists idx; cbn in *; rewrite H; auto.
Qed.

(* whatever the index held before (any history): after build_index it is the index of the current registry *)
Lemma reindex_is_index_of_registry st i0 : reg_valid st -> build_index (reg_pools st) = Ok i0 ->
  exists idx, st_index (fst (hstep st HIndex)) = Some idx /\ resolve (st_heap (fst (hstep st HIndex))) idx = i0 /\
              st_heap (fst (hstep st HIndex)) = st_heap st /\ st_reg (fst (hstep st HIndex)) = st_reg st /\
              st_type (fst (hstep st HIndex)) = st_type st.
Proof.
  intros V B. destruct (hstep_index st V) as (idx & -> & H). rewrite B in H. exists idx. repeat split. exact H.
Qed.

Lemma reindex_rejects st e : reg_valid st -> build_index (reg_pools st) = Err e ->
  snd (hstep st HIndex) = VErr (exn_name e).
Proof. intros V B. destruct (hstep_index st V) as (idx & _ & H). rewrite B in H. exact H. Qed.

(* build_index, accepted or refused, changes no pool and not the registry (only the index) *)
Lemma index_changes_no_pool st : st_heap (fst (hstep st HIndex)) = st_heap st /\ st_reg (fst (hstep st HIndex)) = st_reg st.
Proof. cbn [hstep]. destruct (index_from _ _ _). split; reflexivity. Qed.

(* the regrouping identity from any state: re-index, generate, read back = the pools of the registry *)
Lemma regroup_from_state st : reg_valid st -> pools_wf (st_type st) (reg_pools st) = true ->
  exists P', hregroup (fst (hstep st HIndex)) = Ok P' /\ pools_equiv P' (reg_pools st).
Proof.
  intros V WF. destruct (pools_regroup (st_type st) (reg_pools st) WF) as (P' & RG & EQ).
  unfold regroup in RG. destruct (build_index (reg_pools st)) as [i0|e] eqn:B; [|discriminate]. cbn [bind] in RG.
  destruct (reindex_is_index_of_registry st i0 V B) as (idx & SI & RS & SH & SR & ST).
  exists P'. split; [|exact EQ]. unfold hregroup, hgenerate. rewrite SI, RS, ST. exact RG.
Qed.

(* ... hence after ANY history on one Pools object *)
Lemma regroup_after_any_history ty ops :
  let st := hfinal (init_state ty) ops in
  pools_wf ty (reg_pools st) = true ->
  exists P', hregroup (fst (hstep st HIndex)) = Ok P' /\ pools_equiv P' (reg_pools st).
Proof.
  intros st WF. destruct (hrun_valid ops (init_state ty) (Forall_nil _)) as [V T]. fold st in V, T.
  cbn in T. apply regroup_from_state; [exact V|rewrite T; exact WF].
Qed.

Lemma conflict_after_any_history ty ops :
  let st := hfinal (init_state ty) ops in
  forallb (pool_ok ty) (reg_pools st) = true -> no_conflict (reg_pools st) = false ->
  hgenerate (fst (hstep st HIndex)) = Err EDelegation.
Proof.
  intros st OK NC. destruct (hrun_valid ops (init_state ty) (Forall_nil _)) as [V T]. fold st in V, T. cbn in T.
  destruct (index_complete ty (reg_pools st) OK) as (i0 & B & _).
  destruct (reindex_is_index_of_registry st i0 V B) as (idx & SI & RS & SH & SR & ST).
  unfold hgenerate. rewrite SI, RS, ST, T. eapply generate_conflict; eassumption.
Qed.

(* values of the non-vacuity Example: index, move pool1 to another delegation id, replace pool2 by a new object,
   and only then regroup *)
Definition ex_history : list hop :=
  [ HNew (mkPS TLab (S"pool1") (Some (S"del1")) (Some (S"node1")) [S"node2"; S"node3"] [PSetDetails (ex_labs (S"1-100"))]);
    HNew (mkPS TLab (S"pool2") (Some (S"del2")) (Some (S"node2")) [S"node1"] [PSetDetails (ex_labs (S"101-200"))]);
    HAdd 0; HAdd 1; HIndex;
    HPool 0 (PSetDeleg (S"del9"));
    HNew (mkPS TLab (S"pool2") (Some (S"del2")) (Some (S"node3")) [S"node4"] [PSetDetails (ex_labs (S"7-8"))]);
    HAdd 2 ].
