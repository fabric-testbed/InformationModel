(* C07 - connect_interface: the new service port and its link are built as one unit (T7RelAdd.WF_add_peering); the call
   keeps the graph well-formed when it returns or refuses, the only other outcomes being the three failures between the
   two constructions (id generator / duplicate id / link name too long), which leave a port without link.
   Interface(NEW) and Link(NEW) as runs are stated here and used by peer and add_facility as well. *)
From Coq Require Import String List Bool.
From FIM Require Import Base.Str Model.T7Graph Model.T7Ops Model.T7WF Model.T7Steps Model.T7Rel Proofs.T7Tables Proofs.T7WFRefl
     Proofs.T7Frame Proofs.T7Units Proofs.T7Api Proofs.T7Api2 Proofs.T7Api3 Proofs.T7RelUnits Proofs.T7RelRun
     Proofs.T7Api4 Proofs.T7RelAdd.
Import ListNotations.

Lemma reads_parent_of_comp c : reads (parent_of_comp c).
Proof. unfold parent_of_comp. apply reads_bind; [auto with reads|]. intros [[nm id]|]; auto with reads. Qed.
Lemma reads_parent_of_ns x : reads (parent_of_ns x).
Proof.
  unfold parent_of_ns. apply reads_bind; [auto with reads|]. intros [[nm id]|]; [auto with reads|].
  apply reads_bind; [auto with reads|]. intros [[nm id]|]; [auto with reads|].
  apply reads_bind; [auto with reads|]. intros [[nm id]|]; auto with reads.
Qed.
Lemma reads_owner_of_ns x : reads (owner_of_ns x).
Proof.
  unfold owner_of_ns. apply reads_bind; [apply reads_parent_of_ns|]. intros [[ ]|]; auto with reads;
  (apply reads_bind; [apply reads_parent_of_comp | intro; apply reads_ret]).
Qed.
Lemma reads_owner_of_iface f : forall i, reads (owner_of_iface f i).
Proof.
  induction f as [|f IH]; intro i; simpl; [apply reads_raise|].
  apply reads_bind; [auto with reads|]. intros [ | | | ]; try apply reads_owner_of_ns. apply IH.
Qed.
Lemma reads_q_second_nb x r k1 k2 : reads (q_second_nb x r k1 k2).
Proof. unfold q_second_nb. auto 8 with reads. Qed.
Lemma reads_find_peers i : reads (find_peers i).
Proof. unfold find_peers. apply reads_bind; [apply reads_q_second_nb | intro; apply reads_ret]. Qed.
Lemma reads_cps_of_ns_or_link x : reads (cps_of_ns_or_link x).
Proof. unfold cps_of_ns_or_link. auto 8 with reads. Qed.
#[export] Hint Resolve reads_parent_of_comp reads_parent_of_ns reads_owner_of_ns reads_owner_of_iface reads_q_second_nb
  reads_find_peers reads_cps_of_ns_or_link : reads.

(* element + owner edge as a run, without any judgement about well-formedness *)
Lemma add_owned_run n a rl s s' r :
  NoDup (map nid (gnodes (sg s))) -> has_id (sg s) a = true ->
  bind (add_node n) (fun _ => add_link a rl (nid n)) s = (s', r) ->
  (r = Ok tt /\ has_id (sg s) (nid n) = false /\ sg s' = add_owned (sg s) n a rl) \/ (exists e, r = Err e /\ sg s' = sg s).
Proof.
  intros ND Ha H. apply bind_inv in H as [[s1 [[] [H1 H2]]]|[e [H1 Hr]]].
  - apply add_node_inv in H1 as [[_ [Hf Hg]]|[e [He _]]]; [|discriminate].
    apply add_link_inv_ok in H2.
    + destruct H2 as [-> Hg2]. left. rewrite Hg2, Hg. auto.
    + rewrite Hg. apply nodup_add_node; assumption.
    + rewrite Hg, has_id_add_node, Ha. reflexivity.
    + rewrite Hg, has_id_add_node, str_eqb_refl. apply orb_true_r.
  - apply add_node_inv in H1 as [[H1 _]|[e' [_ Hg]]]; [discriminate|]. right. exists e. auto.
Qed.

(* the failures that can happen between the construction of the port and the construction of its link *)
Definition late (r : res unit) : Prop := r = Err ENoDraw \/ r = Err EQuery \/ r = Err EValue.
Definition late' {A} (r : res A) : Prop := r = Err ENoDraw \/ r = Err EQuery \/ r = Err EValue.

Lemma draw_err s s' e : draw s = (s', Err e) -> e = ENoDraw.
Proof. unfold draw. destruct (sdr s); intro H; inversion H. reflexivity. Qed.
Lemma find1_err x s s' e : find1 x s = (s', Err e) -> e = EQuery.
Proof.
  unfold find1. intro H. apply bind_inv in H as [[s1 [g [H1 H2]]]|[e' [H1 _]]].
  - destruct (find_nodes g x) as [|n [|m l]]; try (apply raise_inv in H2 as [_ H2]; congruence).
    apply ret_inv in H2 as [_ H2]. discriminate.
  - apply getg_inv in H1 as [_ H1]. discriminate.
Qed.
Lemma add_node_err n s s' e : add_node n s = (s', Err e) -> e = EQuery.
Proof.
  unfold add_node. intro H. apply bind_inv in H as [[s1 [g [H1 H2]]]|[e' [H1 _]]].
  - apply bind_inv in H2 as [[s2 [[] [H2 H3]]]|[e' [H2 Hr]]].
    + apply putg_inv in H3 as [_ H3]. discriminate.
    + apply guard_inv in H2 as [_ [[_ H2]|[_ H2]]]; congruence.
  - apply getg_inv in H1 as [_ H1]. discriminate.
Qed.
Lemma guard_err b e s s' ex : guard b e s = (s', Err ex) -> ex = e.
Proof. intros H. apply guard_inv in H as [_ [[_ H]|[_ H]]]; congruence. Qed.

(* ... the failure branch leaves the graph as it was *)
Ltac peelu H := peel_by H ltac:(fun e Hr Hg => right; exists e; split; [exact Hr | exact Hg]).

(* Interface(NEW) as a run: done entirely or not at all *)
Lemma new_iface_run sub name iid parent itype lab s s' r :
  NoDup (map nid (gnodes (sg s))) -> has_id (sg s) parent = true ->
  new_interface sub name iid parent itype lab s = (s', r) ->
  (exists id, r = Ok id /\ (iid = None -> sub = false) /\ has_id (sg s) id = false /\
              sg s' = add_owned (sg s) (mk id KCP (Some itype) name lab) parent Connects) \/
  (exists e, r = Err e /\ sg s' = sg s).
Proof.
  intros ND Hp H. unfold new_interface in H.
  peelu H. assert (Hsub : iid = None -> sub = false) by (intros ->; destruct sub; [discriminate Hm | reflexivity]).
  peelu H. peelu H.
  apply bind_inv in H as [[s4 [[] [H1 H2]]]|[e [H1 Hr]]]; unfold add_interface_sliver in H1;
    (apply add_owned_run in H1; [| exact ND | exact Hp]).
  - apply ret_inv in H2 as [-> ->]. destruct H1 as [[_ [Hf Hq]]|[e [He _]]]; [|discriminate]. left. eexists. eauto.
  - destruct H1 as [[H1 _]|[e' [_ Hq]]]; [discriminate|]. right. eauto.
Qed.

Lemma props_loop_err : forall (l : list str) s s' e, for_each l (fun i => props i ;;; ret tt) s = (s', Err e) -> e = EQuery.
Proof.
  induction l as [|x l IH]; simpl; intros s s' e H.
  - apply ret_inv in H as [_ H]. discriminate.
  - apply bind_inv in H as [[s1 [[] [H1 H2]]]|[e' [H1 Hr]]].
    + eapply IH; eauto.
    + inversion Hr; subst e'. apply bind_inv in H1 as [[s2 [n [H2 H3]]]|[e' [H2 Hr']]].
      * apply ret_inv in H3 as [_ H3]. discriminate.
      * inversion Hr'; subst e'. eapply find1_err; eauto.
Qed.

(* Link(NEW) on a pair of interfaces, as a run *)
Lemma new_link_pair_run sub name ltype a b s s' r :
  NoDup (map nid (gnodes (sg s))) -> has_id (sg s) a = true -> has_id (sg s) b = true ->
  new_link sub name None ltype [a; b] s = (s', r) ->
  (exists id, r = Ok id /\ has_id (sg s) id = false /\
     sg s' = g_add_edge (g_add_edge (g_add_node (sg s) (mk id KLink (Some ltype) name false)) id Connects a) id Connects b) \/
  (sg s' = sg s /\ (late' r \/ (r = Err ETopology /\ sub = true))).
Proof.
  intros ND Ha Hb H. unfold new_link in H.
  apply bind_inv in H as [[s1 [[] [H1 H]]]|[e [H1 Hr]]];
    [| right; split; [eapply reads_guard; eauto|]; right;
       destruct sub; [| apply ret_inv in H1 as [_ H1]; discriminate H1]; apply guard_err in H1; subst e; auto ].
  apply guard_ok_val in H1 as [-> _].
  apply bind_inv in H as [[s1 [id [H1 H]]]|[e [H1 Hr]]];
    [| right; split; [eapply reads_draw; eauto|]; left; apply draw_err in H1; subst e; left; exact Hr].
  assert (G1 : sg s1 = sg s) by (eapply reads_draw; eauto). clear H1.
  apply bind_inv in H as [[s2 [[] [H1 H]]]|[e [H1 Hr]]]; [| apply guard_inv in H1 as [_ [[_ H1]|[H1 _]]]; discriminate ].
  apply guard_ok_val in H1 as [-> _].
  apply bind_inv in H as [[s2 [[] [H1 H]]]|[e [H1 Hr]]];
    [| right; split; [rewrite <- G1; eapply reads_check_name; eauto|]; left; apply guard_err in H1; subst e; right; right; exact Hr].
  apply guard_ok_val in H1 as [-> _].
  assert (R : reads (for_each [a; b] (fun i => props i ;;; ret tt))) by auto 8 with reads.
  apply bind_inv in H as [[s2 [[] [H1 H]]]|[e [H1 Hr]]].
  2:{ right. split; [rewrite <- G1; eapply R; eauto|]. left. right. left. rewrite Hr. f_equal. eapply props_loop_err; eauto. }
  assert (G2 : sg s2 = sg s1) by (eapply R; eauto). clear H1.
  apply bind_inv in H as [[s3 [[] [H1 H]]]|[e [H1 Hr]]].
  2:{ right. split.
      - apply add_node_inv in H1 as [[X _]|[e' [_ Hq]]]; [discriminate | congruence].
      - left. right. left. rewrite Hr. f_equal. eapply add_node_err; eauto. }
  apply add_node_inv in H1 as [[_ [Hf Hq]]|[e [He _]]]; [|discriminate].
  rewrite G2, G1 in Hf, Hq. simpl in Hf.
  assert (ND3 : NoDup (map nid (gnodes (sg s3)))) by (rewrite Hq; apply nodup_add_node; assumption).
  assert (Hid3 : has_id (sg s3) id = true) by (rewrite Hq, has_id_add_node; simpl; rewrite str_eqb_refl; apply orb_true_r).
  (* the two edges cannot fail *)
  assert (E : for_each [a; b] (fun i => add_link id Connects i) s3
              = (mkSt (g_add_edge (g_add_edge (sg s3) id Connects a) id Connects b) (sdr s3), Ok tt)).
  { simpl. unfold bind. rewrite (add_link_ok id Connects a s3 ND3 Hid3) by (rewrite Hq, has_id_add_node, Ha; reflexivity).
    rewrite add_link_ok; simpl; [reflexivity | exact ND3 | rewrite has_id_add_edge; exact Hid3 |].
    rewrite has_id_add_edge, Hq, has_id_add_node, Hb. reflexivity. }
  unfold bind at 1 in H. rewrite E in H. apply ret_inv in H as [-> ->].
  left. exists id. split; [reflexivity|]. split; [exact Hf|]. simpl. rewrite Hq. reflexivity.
Qed.


Lemma type_is_err x t s s' e : type_is x t s = (s', Err e) -> e = EQuery.
Proof.
  unfold type_is, type_of_handle. intro H. apply bind_inv in H as [[s1 [o [H1 H2]]]|[e' [H1 Hr]]].
  - apply ret_inv in H2 as [_ H2]. discriminate.
  - inversion Hr; subst e'. apply bind_inv in H1 as [[s2 [n [H2 H3]]]|[e' [H2 Hr']]].
    + apply ret_inv in H3 as [_ H3]. discriminate.
    + inversion Hr'; subst e'. eapply find1_err; eauto.
Qed.

(* taking a freshly added owned element away again gives back the graph *)
Lemma remove_add_owned g n a r :
  sane g -> has_id g (nid n) = false ->
  remove_set (add_owned g n a r) (fun y => mem_str y [nid n]) = g.
Proof.
  intros [ND HE] Hf. destruct g as [ns es]. unfold remove_set, add_owned, g_add_edge, g_add_node. simpl in *. f_equal.
  - rewrite filter_app. simpl. rewrite str_eqb_refl. simpl. rewrite app_nil_r. apply filter_id.
    intros m Hm. destruct (str_eqb (nid m) (nid n)) eqn:E; [|reflexivity]. exfalso. apply str_eqb_eq in E.
    assert (has_id (mkG ns es) (nid n) = true) by (apply has_id_In; exists m; auto). congruence.
  - rewrite filter_app. simpl. rewrite str_eqb_refl. simpl. rewrite andb_false_r. simpl. rewrite app_nil_r.
    assert (Hends : forall e, In e es -> str_eqb (ea e) (nid n) = false /\ str_eqb (eb e) (nid n) = false).
    { intros e He. destruct (HE e He) as [[m1 [M1 E1]] [m2 [M2 E2]]]. split; apply str_eqb_neq; intro E.
      - assert (has_id (mkG ns es) (nid n) = true) by (apply has_id_In; exists m1; split; [exact M1 | congruence]). congruence.
      - assert (has_id (mkG ns es) (nid n) = true) by (apply has_id_In; exists m2; split; [exact M2 | congruence]). congruence. }
    rewrite (filter_id _ es).
    + apply filter_id. intros e He. destruct (Hends e He) as [E1 E2]. rewrite E1, E2. reflexivity.
    + intros e He. destruct (Hends e He) as [E1 E2]. unfold same_ends. apply negb_true_iff.
      rewrite E1, E2, !andb_false_r. reflexivity.
Qed.

(* the handler of peer: remove_cp_and_links on a service port that has just been added takes away exactly that port *)
Lemma undo_owned_port ep g sp s st e st' (r : res unit) :
  WFr no_exempt ep g -> owned_okR g sp s Connects = true -> ep (nid sp) = true -> cls_is g s KNS = true ->
  sg st = add_owned g sp s Connects ->
  (remove_cp_and_links (nid sp) true ;;; raise e) st = (st', r) -> sg st' = g /\ r = Err e.
Proof.
  intros W OK He Cs Hq H.
  pose proof (WFr_add_owned _ _ _ _ _ W OK (fun _ _ => He)) as W1.
  pose proof (aw_freshR _ _ _ _ OK) as Hf.
  assert (Hne : s <> nid sp) by (intro E; rewrite <- E in Hf; rewrite (cls_is_has_id _ _ _ Cs) in Hf; discriminate).
  assert (N1 : nbrs (add_owned g sp s Connects) (nid sp) = [(s, Connects)]) by (apply (ao_nbrs_xR _ _ _ _ _ W OK)).
  assert (F1 : forall k, k <> KNS -> first_nb (add_owned g sp s Connects) (nid sp) Connects k = []).
  { intros k Hk. unfold first_nb. rewrite N1. simpl. rewrite (ao_cls_old _ _ _ _ _ _ Hne), (cls_is_unique _ _ _ k Cs) by congruence. reflexivity. }
  assert (D : D_cp (add_owned g sp s Connects) (nid sp) true = [nid sp]).
  { unfold D_cp, cp_links, cp_ifs, cp_extra. rewrite (F1 KCP) by discriminate. simpl. rewrite (F1 KLink) by discriminate. reflexivity. }
  apply bind_inv in H as [[s1 [[] [H1 H2]]]|[e' [H1 Hr]]].
  - rewrite cp_unit_run in H1.
    + inversion H1; subst s1. clear H1. apply raise_inv in H2 as [-> ->]. simpl. split; [|reflexivity].
      rewrite Hq, D. apply remove_add_owned; [apply (WFr_sane _ _ _ W) | exact Hf].
    + rewrite Hq. apply (WFr_sane _ _ _ W1).
    + rewrite Hq, has_id_add_owned, str_eqb_refl. apply orb_true_r.
  - rewrite cp_unit_run in H1; [discriminate | rewrite Hq; apply (WFr_sane _ _ _ W1) |
      rewrite Hq, has_id_add_owned, str_eqb_refl; apply orb_true_r].
Qed.


Lemma sp_owned_ok g s id name :
  has_id g id = false -> cls_is g s KNS = true -> sibling_free g s Connects KCP (Some name) = true ->
  owned_okR g (mk id KCP (Some sServicePort) name false) s Connects = true.
Proof. intros Hf Cs SF. apply sp_owned_okR; auto. Qed.


Lemma type_is_ok x t s : NoDup (map nid (gnodes (sg s))) -> has_id (sg s) x = true -> exists b, type_is x t s = (s, Ok b).
Proof.
  intros ND H. destruct (find1_ok x s ND H) as [n E]. unfold type_is, type_of_handle, props, bind. rewrite E. unfold ret. eauto.
Qed.

(* the link on the interface i and the port pid that has just been made under the service s *)
Lemma port_link_run sub g s i pid pname ltype sC sD (r : res unit) :
  WF g -> cls_is g s KNS = true -> cls_is g i KCP = true -> typ_is g i sServicePort = false -> sub = false ->
  has_id g pid = false -> sibling_free g s Connects KCP (Some pname) = true -> name_free g KLink (Some (pname ++ S "-link")) = true ->
  type_allowed KLink ltype = true ->
  sg sC = add_owned g (mk pid KCP (Some sServicePort) pname false) s Connects ->
  (new_link sub (pname ++ S "-link") None ltype [i; pid] ;;; ret tt) sC = (sD, r) ->
  (r = Ok tt /\ exists sp l, peering_ok g s i sp l = true /\ sg sD = add_peering g s i sp l) \/
  (exists e, r = Err e /\ sg sD = sg sC /\ late r).
Proof.
  intros W Cs Ci Ti Hsub Hf SF NF Tl Hq H. set (sp := mk pid KCP (Some sServicePort) pname false) in *.
  apply bind_run in H as [sE [rE [H1 H]]].
  apply new_link_pair_run in H1.
  - destruct H1 as [[lid [-> [Hfl Hq4]]]|[Hc [X|[_ X]]]]; [| | congruence].
    + apply ret_inv in H as [-> ->]. left. split; [reflexivity|]. exists sp.
      exists (mk lid KLink (Some ltype) (pname ++ S "-link") false). split; [|rewrite Hq4, Hq; reflexivity].
      rewrite Hq, has_id_add_owned in Hfl. apply orb_false_iff in Hfl as [Hfl Hne]. change (nid sp) with pid in Hne.
      assert (Nl : new_node_ok (mk lid KLink (Some ltype) (pname ++ S "-link") false) = true)
        by (unfold new_node_ok; unfold mk; rewrite (type_allowed_vocab KLink ltype lid (pname ++ S "-link") false Tl); reflexivity).
      unfold peering_ok, fresh.
      repeat first [assumption | apply andb_true_iff; split]; try reflexivity; apply negb_true_iff; assumption.
    + right. destruct X as [X|[X|X]]; subst rE; destruct H as [-> ->]; eexists; (split; [reflexivity|]); (split; [exact Hc|]); unfold late; auto.
  - rewrite Hq. apply nodup_add_node; [apply (wf_ids _ W) | exact Hf].
  - rewrite Hq, has_id_add_owned, (cls_is_has_id _ _ _ Ci). reflexivity.
  - rewrite Hq, has_id_add_owned. simpl. rewrite str_eqb_refl. apply orb_true_r.
Qed.

Ltac peels H := peel_by H ltac:(fun e Hr Hg => right; exists e; split; [exact Hr | left; exact Hg]).

(* the shape of the result: the unit add_peering on a normal return; the graph before the call on a failure, except
   -- without the rollback -- for the late failures *)
Lemma api_connect_shape fl sub s i st st' r :
  WF (sg st) -> fl_connect_names fl = true ->
  cls_is (sg st) s KNS = true -> cls_is (sg st) i KCP = true -> typ_is (sg st) i sServicePort = false ->
  connect_interface fl sub s i st = (st', r) ->
  (r = Ok tt /\ exists sp l, peering_ok (sg st) s i sp l = true /\ sg st' = add_peering (sg st) s i sp l) \/
  (exists e, r = Err e /\ (sg st' = sg st \/ (fl_connect_undo fl = false /\ late r))).
Proof.
  intros W FL Cs Ci Ti H. unfold connect_interface in H. rewrite FL in H.
  peels H. peels H. peels H. peels H. peels H. peels H.
  match type of H with (match ?o with _ => _ end) _ = _ => destruct o as [parent|] end;
    [| apply raise_inv in H as [-> ->]; right; eexists; split; [reflexivity | left; reflexivity]].
  peels H. peels H.
  match type of W with WF (sg ?sc) => rename sc into scur end.
  match type of H with context [hname parent ++ dash ++ ?nm] => set (pname := hname parent ++ dash ++ nm) in * end.
  apply bind_reads in H; [| solve [auto 10 with reads]].
  destruct H as [[sA [[] [HmN [HgN H]]]] | [e [Hr HgN]]]; [| right; exists e; split; [exact Hr | left; exact HgN]].
  (* the name checks *)
  assert (Names : sibling_free (sg scur) s Connects KCP (Some pname) = true /\
                  name_free (sg scur) KLink (Some (pname ++ S "-link")) = true).
  { do 4 peelok HmN.
    apply guard_ok_val in HmN as [_ ->]. split; [eapply name_in_sibling; eauto | auto]. }
  destruct Names as [SF NF]. rewrite <- HgN in *. clear HgN HmN.
  pose proof (wf_ids _ W) as ND.
  apply bind_run in H as [sB [rB [H1 H]]].
  apply new_iface_run in H1; [| exact ND | eapply cls_is_has_id; eauto].
  destruct H1 as [[pid [-> [Hsub [Hf Hq]]]]|[e' [-> Hq]]]; [| destruct H as [-> ->]; right; exists e'; split; [reflexivity | left; exact Hq]].
  specialize (Hsub eq_refl).
  set (sp := mk pid KCP (Some sServicePort) pname false) in *.
  apply bind_inv in H as [[sC [shared [Hty H]]]|[e [Hty Hr]]].
  2:{ exfalso. destruct (type_is_ok i sSharedPort sB) as [b Eb]; [| | congruence].
      - rewrite Hq. apply nodup_add_node; assumption.
      - rewrite Hq, has_id_add_owned, (cls_is_has_id _ _ _ Ci). reflexivity. }
  assert (Hg3 : sg sC = add_owned (sg sA) sp s Connects) by (rewrite <- Hq; eapply reads_type_is; eauto). clear Hty.
  assert (Tl : type_allowed KLink (if shared then sL2Path else sPatch) = true) by (destruct shared; reflexivity).
  pose proof (fun sD r' => port_link_run sub (sg sA) s i pid pname _ sC sD r' W Cs Ci Ti Hsub Hf SF NF Tl Hg3) as Link.
  destruct (fl_connect_undo fl) eqn:FU.
  - (* with the rollback *)
    apply try_any_inv in H as [[v [E2 ->]]|[sD [e2 [E2 H]]]]; apply Link in E2 as [[Q X]|[e [Q [Hd _]]]]; try discriminate Q.
    + left. destruct v. auto.
    + right. rewrite Hg3 in Hd.
      assert (W0 : WFr no_exempt (fun _ => true) (sg sA)) by (apply WF_WFr_ep; exact W).
      assert (OK1 : owned_okR (sg sA) sp s Connects = true) by (apply sp_owned_ok; assumption).
      destruct (undo_owned_port _ _ sp s sD e2 st' r W0 OK1 eq_refl Cs Hd H) as [U1 U2].
      exists e2. split; [exact U2 | left; exact U1].
  - apply Link in H as [[Q X]|[e [Q [_ L]]]]; [left; auto | right; exists e; auto].
Qed.

Theorem api_connect fl sub s i st st' r :
  WF (sg st) -> fl_connect_names fl = true ->
  cls_is (sg st) s KNS = true -> cls_is (sg st) i KCP = true -> typ_is (sg st) i sServicePort = false ->
  connect_interface fl sub s i st = (st', r) -> WF (sg st') \/ (fl_connect_undo fl = false /\ late r).
Proof.
  intros W FL Cs Ci Ti H. destruct (api_connect_shape fl sub s i st st' r W FL Cs Ci Ti H) as [[_ [sp [l [OK G]]]]|[e [_ [G|X]]]].
  - left. rewrite G. apply WF_add_peering; assumption.
  - left. rewrite G. exact W.
  - right. exact X.
Qed.
