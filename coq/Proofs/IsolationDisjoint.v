(* C04 on the one-graph-per-id store: per-graph allocator invariant over all histories and the frame
   theorem (an operation addressed to g leaves the nx.Graph of every other id literally unchanged). *)
From Coq Require Import List NArith.
From FIM Require Import Base.Assoc Model.Store Model.StoreDisjoint Proofs.IsolationBase Proofs.IsolationShared.
Import ListNotations.
Open Scope N_scope.

Definition DInv (d : dstore) : Prop := forall g, SInv (mkS (dget d g) (dcounter d g)).

Lemma dget_dput d g G g' : dget (dput d g G) g' = if N.eqb g' g then G else dget d g'.
Proof. unfold dget, dput. simpl. rewrite aget_aset. now destruct (N.eqb g' g). Qed.

Lemma dget_dput_ctr d g c g' : dget (dput_ctr d g c) g' = dget d g'.
Proof. reflexivity. Qed.

Lemma dcounter_dput d g G g' : dcounter (dput d g G) g' = dcounter d g'.
Proof. reflexivity. Qed.

Lemma dcounter_dput_ctr d g c g' : dcounter (dput_ctr d g c) g' = if N.eqb g' g then c else dcounter d g'.
Proof. unfold dcounter, dput_ctr. simpl. rewrite aget_aset. now destruct (N.eqb g' g). Qed.

Lemma DInv_put d g G : DInv d -> SInv (mkS G (dcounter d g)) -> DInv (dput d g G).
Proof.
  intros H HG g'. rewrite dget_dput, dcounter_dput.
  destruct (N.eqb g' g) eqn:E; [apply N.eqb_eq in E; now subst | apply H].
Qed.

Lemma DInv_put_ctr d g G c : DInv d -> SInv (mkS G c) -> DInv (dput_ctr (dput d g G) g c).
Proof.
  intros H HG g'. rewrite dget_dput_ctr, dget_dput, dcounter_dput_ctr, dcounter_dput.
  destruct (N.eqb g' g); [exact HG | apply H].
Qed.

Lemma DInv_lift d g x : DInv d -> keeps (fst x) (dget d g) -> DInv (fst (dlift d g x)).
Proof.
  intros H K. unfold dlift. simpl. apply DInv_put; [exact H|].
  apply (SInv_keeps (mkS (dget d g) (dcounter d g))); [apply H | exact K].
Qed.

Lemma SInv_empty c : SInv (mkS empty_nxg c).
Proof. split; simpl; [constructor | intros i []]. Qed.

Lemma SInv_fresh_graph ns es k :
  map fst ns = seqN 1 k -> SInv (mkS (nx_add_all empty_nxg ns es) (N.of_nat k + 1)).
Proof.
  intro H. rewrite N.add_comm.
  apply (SInv_add_all (mkS empty_nxg 1)); [apply SInv_empty | exact H].
Qed.

Lemma d_clone_cases d g g2 :
  (gn (dget d g) = [] /\ d_clone d g g2 = (d, Err EQuery)) \/
  (gn (dget d g) <> [] /\ d_clone d g g2 = d_add_graph d g2 (d_extract d g)).
Proof.
  unfold d_clone, d_extract. destruct (gn (dget d g)) eqn:E; [left; now split | right; split; [discriminate | reflexivity]].
Qed.

Lemma DInv_add_graph d g ig : DInv d -> DInv (fst (d_add_graph d g ig)).
Proof.
  intro H. unfold d_add_graph. destruct (gn (dget d g)); [|exact H].
  destruct (existsb node_id_missing _); cbn [fst]; [exact H|].
  apply DInv_put_ctr; [exact H|]. apply SInv_fresh_graph. rewrite map_fst_stamp. apply relabel_inodes_fst.
Qed.

Lemma DInv_add_graph_direct d g ig : DInv d -> DInv (fst (d_add_graph_direct d g ig)).
Proof.
  intro H. unfold d_add_graph_direct. cbn [fst]. apply DInv_put_ctr; [exact H|].
  apply SInv_fresh_graph. apply relabel_inodes_fst.
Qed.

Lemma DInv_del_graph d g : DInv d -> DInv (d_del_graph d g).
Proof.
  intro H. unfold d_del_graph. destruct (gn (dget d g)); [exact H|].
  apply DInv_put; [exact H | apply SInv_empty].
Qed.

Lemma dstep_mutator d o x : mutator o (dget d (target o)) = Some x -> dstep d o = dlift d (target o) x.
Proof. destruct o; intros [= <-]; reflexivity. Qed.

Theorem DInv_step d o : DInv d -> DInv (fst (dstep d o)).
Proof.
  intro H. destruct (mutator o (dget d (target o))) as [x|] eqn:Em.
  { rewrite (dstep_mutator _ _ _ Em). apply DInv_lift; [exact H|].
    exact (write_keeps _ _ _ _ (mutator_write_any _ _ _ Em)). }
  destruct o; try discriminate Em; cbn [dstep fst]; try exact H.
  - now apply DInv_add_graph.
  - now apply DInv_add_graph_direct.
  - now apply DInv_del_graph.
  - destruct (d_clone_cases d g g2) as [[_ E]|[_ E]]; rewrite E; [exact H | now apply DInv_add_graph].
  - destruct (pg_add_node (dget d g) g (dcounter d g) n c ps) eqn:E; cbn [fst]; [|exact H].
    apply DInv_put_ctr; [exact H|].
    apply (SInv_add_node (mkS (dget d g) (dcounter d g)) g n c ps); [apply H | exact E].
Qed.

Lemma DInv_init : DInv init_dstore.
Proof. intro g. apply SInv_empty. Qed.

Theorem DInv_run ops : forall d, DInv d -> DInv (drun ops d).
Proof.
  induction ops as [|o r IH]; intros d H; simpl; [exact H|]. apply IH. now apply DInv_step.
Qed.

Theorem ids_unique_all_disjoint ops g :
  NoDup (ids (dget (drun ops init_dstore) g)) /\
  forall i, In i (ids (dget (drun ops init_dstore) g)) -> i < dcounter (drun ops init_dstore) g.
Proof. exact (DInv_run ops init_dstore DInv_init g). Qed.

Lemma dget_put_other d g G g' : g <> g' -> dget (dput d g G) g' = dget d g'.
Proof.
  intro H. rewrite dget_dput. destruct (N.eqb g' g) eqn:E; [apply N.eqb_eq in E; congruence | reflexivity].
Qed.

Lemma frame_d_add_graph d g ig g' : g <> g' -> dget (fst (d_add_graph d g ig)) g' = dget d g'.
Proof.
  intro H. unfold d_add_graph. destruct (gn (dget d g)); [|reflexivity].
  destruct (existsb node_id_missing _); cbn [fst]; [reflexivity | now apply dget_put_other].
Qed.

Theorem frame_step_disjoint d o g' : target o <> g' -> dget (fst (dstep d o)) g' = dget d g'.
Proof.
  intro Hne. destruct o; simpl in Hne; simpl; try reflexivity; try (now apply dget_put_other).
  - now apply frame_d_add_graph.
  - unfold d_del_graph. destruct (gn (dget d g)); [reflexivity | now apply dget_put_other].
  - destruct (d_clone_cases d g g2) as [[_ E]|[_ E]]; rewrite E; [reflexivity | now apply frame_d_add_graph].
  - destruct (pg_add_node (dget d g) g (dcounter d g) n c ps); simpl; [now apply dget_put_other | reflexivity].
Qed.

Theorem frame_histories_disjoint ops : forall d g',
  (forall o, In o ops -> target o <> g') -> dget (drun ops d) g' = dget d g'.
Proof.
  induction ops as [|o r IH]; intros d g' H; simpl; [reflexivity|].
  rewrite IH; [apply frame_step_disjoint; apply H; now left | intros o' Ho'; apply H; now right].
Qed.
