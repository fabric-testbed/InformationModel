(* C09 - Node.add_component is atomic for EVERY exception when the ids it is going to use (caller-supplied or
   drawn) are pairwise distinct and not yet in the graph - the hypothesis that excludes exactly the defect of
   C09_add_component_atomic_refuted - and, for the same reason, when add_component_sliver checks that itself first
   (proposed_fixes/C09-6.patch): on such ids the sequence of mutations cannot fail. *)
From Coq Require Import List NArith Bool Permutation String.
From FIM Require Import Base.Str Model.T9Graph Model.T9Ops Proofs.T9Monad Proofs.T9Simple Proofs.T9Ext
     Proofs.T9Component Proofs.T9Refuted.
Import ListNotations.
Open Scope N_scope.

(* the ids a sequence of `id_or_draw` calls yields from a supply *)
Fixpoint take_ids (l : list (option N)) (fresh : list N) : list N :=
  match l with
  | [] => []
  | Some x :: r => x :: take_ids r fresh
  | None :: r => match fresh with y :: f => y :: take_ids r f | [] => [] end
  end.

Definition component_id_requests (node_id : option N) (cat : res comp_spec) : list (option N) :=
  node_id :: match cat with
             | Ok spec => match cs_child spec with
                          | Some ch => map ci_id (cn_ifs ch) ++ [cn_id ch]
                          | None => []
                          end
             | Err _ => []
             end.
Definition component_ids (node_id : option N) (cat : res comp_spec) (fresh : list N) : list N :=
  take_ids (component_id_requests node_id cat) fresh.

Definition ids_fresh (g : graph) (l : list N) : bool :=
  nodupN l && forallb (fun x => negb (has_node g x)) l.

Lemma id_or_draw_take o s s1 x rest :
  id_or_draw o s = (s1, Ok x) -> sg s1 = sg s /\ take_ids (o :: rest) (sfresh s) = x :: take_ids rest (sfresh s1).
Proof.
  destruct o as [y|]; simpl.
  - unfold ret. intro H; inversion H; subst. auto.
  - intro H. apply draw_ok in H as (r & Hr & ->). simpl. rewrite Hr. auto.
Qed.

Lemma draw_if_ids_take l : forall s s1 out rest,
  draw_if_ids l s = (s1, Ok out) ->
  sg s1 = sg s /\ map fst out = l /\
  take_ids (map ci_id l ++ rest) (sfresh s) = map snd out ++ take_ids rest (sfresh s1).
Proof.
  induction l as [|c l IH]; intros s s1 out rest H; simpl in H.
  - unfold ret in H. inversion H; subst. simpl. auto.
  - apply bind_ok in H as (s2 & id & H1 & H). apply bind_ok in H as (s3 & r & H2 & H).
    apply ret_ok in H as [-> ->].
    destruct (id_or_draw_take _ _ _ _ (map ci_id l ++ rest) H1) as [G1 T1].
    destruct (IH _ _ _ rest H2) as (G2 & F2 & T2).
    split; [congruence|]. split; [simpl; congruence|].
    simpl map. simpl app. rewrite T1. rewrite T2. reflexivity.
Qed.

Lemma add_node_ok g n : has_node g (nid n) = false -> g_add_node n g = Ok (mkGraph (gnodes g ++ [n]) (gedges g)).
Proof. intro H. unfold g_add_node. rewrite H. reflexivity. Qed.

Lemma has_node_snoc g n e x : has_node (mkGraph (gnodes g ++ [n]) e) x = has_node g x || (nid n =? x).
Proof. unfold has_node; simpl. rewrite existsb_app. simpl. rewrite orb_false_r. reflexivity. Qed.

Lemma has_node_same_nodes g g' x : gnodes g' = gnodes g -> has_node g' x = has_node g x.
Proof. intro H. unfold has_node. rewrite H. reflexivity. Qed.

Lemma found_snoc g n e x : found g x -> has_node g (nid n) = false -> found (mkGraph (gnodes g ++ [n]) e) x.
Proof.
  intros [m Hm] Hn. exists m.
  assert (H := find_node_kept g n x m Hm Hn). unfold find_node, find_nodes in *. simpl in *. exact H.
Qed.
Lemma found_new g n e : has_node g (nid n) = false -> found (mkGraph (gnodes g ++ [n]) e) (nid n).
Proof.
  intro Hn. exists n. assert (H := find_node_added g n Hn). unfold find_node, find_nodes in *. simpl in *. exact H.
Qed.
Lemma found_same_nodes g g' x : gnodes g' = gnodes g -> found g x -> found g' x.
Proof. intros H [n Hn]. exists n. rewrite (find_node_same_nodes g g' x H). exact Hn. Qed.

(* one child interface: node + edge from the service *)
Lemma child_ifs_ok nsid : forall (ifs : list (child_if * N)) s,
  found (sg s) nsid ->
  NoDup (map snd ifs) -> (forall x, In x (map snd ifs) -> has_node (sg s) x = false) ->
  exists s', for_each ifs (fun ci =>
                m_add_node (mkNode (snd ci) cCP (ci_name (fst ci)) (ci_type (fst ci)) 0) ;;;
                m_add_edge nsid rConnects (snd ci)) s = (s', Ok tt).
Proof.
  induction ifs as [|ci ifs IH]; intros s Hns Hnd Hfresh; simpl.
  - eexists; reflexivity.
  - inversion Hnd as [|? ? Hnotin Hnd']; subst.
    assert (Hci : has_node (sg s) (snd ci) = false) by (apply Hfresh; left; reflexivity).
    set (n := mkNode (snd ci) cCP (ci_name (fst ci)) (ci_type (fst ci)) 0).
    unfold bind at 1. unfold bind at 1. unfold m_add_node, mutate.
    rewrite (add_node_ok (sg s) n Hci). simpl sg.
    set (g1 := mkGraph (gnodes (sg s) ++ [n]) (gedges (sg s))).
    assert (F1 : found g1 nsid) by (apply found_snoc; auto).
    assert (F2 : found g1 (snd ci)) by (apply (found_new (sg s) n); auto).
    destruct F1 as [a Ha]. destruct F2 as [b Hb].
    destruct (add_edge_ok nsid rConnects (snd ci) g1 a b Ha Hb) as [g2 Hg2].
    unfold m_add_edge, mutate. simpl sg. rewrite Hg2.
    assert (Hn2 : gnodes g2 = gnodes g1) by (eapply add_edge_nodes; eauto).
    apply IH; simpl.
    + apply (found_same_nodes g1 g2 nsid Hn2). exists a; exact Ha.
    + exact Hnd'.
    + intros x Hx. rewrite (has_node_same_nodes g1 g2 x Hn2). unfold g1. rewrite has_node_snoc.
      rewrite Hfresh by (right; exact Hx). simpl.
      apply N.eqb_neq. intro E. apply Hnotin. rewrite E. exact Hx.
Qed.

Definition drawn_ids (drawn : option (child_ns * N * list (child_if * N))) : list N :=
  match drawn with Some (_, nsid, ifs) => map snd ifs ++ [nsid] | None => [] end.

Lemma draw_children_take (child : option child_ns) s s2 drawn :
  match child with
  | None => ret None
  | Some ch => ifs <- draw_if_ids (cn_ifs ch) ;; nsid <- id_or_draw (cn_id ch) ;; ret (Some (ch, nsid, ifs))
  end s = (s2, Ok drawn) ->
  sg s2 = sg s /\
  take_ids (match child with Some ch => map ci_id (cn_ifs ch) ++ [cn_id ch] | None => [] end) (sfresh s) = drawn_ids drawn.
Proof.
  destruct child as [ch|]; intro H.
  - apply bind_ok in H as (s3 & ifs & D1 & H). apply bind_ok in H as (s4 & nsid & D2 & H).
    apply ret_ok in H as [-> ->].
    destruct (draw_if_ids_take _ _ _ _ [cn_id ch] D1) as (G3 & _ & T3).
    destruct (id_or_draw_take _ _ _ _ [] D2) as [G4 T4].
    split; [congruence|]. rewrite T3, T4. reflexivity.
  - apply ret_ok in H as [-> ->]. auto.
Qed.

Lemma component_tail_ok pn id name ty (drawn : option (child_ns * N * list (child_if * N))) s :
  found (sg s) pn -> NoDup (sliver_ids id drawn) ->
  (forall x, In x (sliver_ids id drawn) -> has_node (sg s) x = false) ->
  exists s',
    (m_add_node (mkNode id cComp name ty 0) ;;;
     m_add_edge pn rHas id ;;;
     match drawn with
     | None => ret tt
     | Some (ch, nsid, ifs) =>
         m_add_node (mkNode nsid cNS (cn_name ch) (cn_type ch) 0) ;;;
         m_add_edge id rHas nsid ;;;
         for_each ifs (fun ci =>
            m_add_node (mkNode (snd ci) cCP (ci_name (fst ci)) (ci_type (fst ci)) 0) ;;;
            m_add_edge nsid rConnects (snd ci))
     end ;;;
     ret id) s = (s', Ok id).
Proof.
  intros Hpn Hnd Hnew. unfold sliver_ids in *.
  inversion Hnd as [|? ? Hid_notin Hnd']; subst.
  assert (Hid_new := Hnew id (or_introl eq_refl)).
  set (comp := mkNode id cComp name ty 0).
  unfold bind at 1. unfold m_add_node at 1, mutate at 1. rewrite (add_node_ok (sg s) comp Hid_new).
  set (g1 := mkGraph (gnodes (sg s) ++ [comp]) (gedges (sg s))).
  assert (Fpn : found g1 pn) by (apply found_snoc; auto).
  assert (Fid : found g1 id) by (apply (found_new (sg s) comp); auto).
  destruct Fpn as [a Ha]. destruct Fid as [b Hb].
  destruct (add_edge_ok pn rHas id g1 a b Ha Hb) as [g2 Hg2].
  unfold bind at 1. unfold m_add_edge at 1, mutate at 1. simpl sg. rewrite Hg2.
  assert (N2 : gnodes g2 = gnodes g1) by (eapply add_edge_nodes; eauto).
  destruct drawn as [[[ch nsid] ifs]|]; [|eexists; reflexivity].
  inversion Hnd' as [|? ? Hns_notin Hnd'']; subst.
  assert (Hns_ne : nsid <> id) by (intro E; apply Hid_notin; left; auto).
  assert (Hns2 : has_node g2 nsid = false).
  { rewrite (has_node_same_nodes g1 g2 nsid N2). unfold g1. rewrite has_node_snoc.
    rewrite (Hnew nsid) by (right; left; auto). simpl. apply N.eqb_neq. auto. }
  set (nsn := mkNode nsid cNS (cn_name ch) (cn_type ch) 0).
  unfold bind at 1. unfold bind at 1. unfold m_add_node at 1, mutate at 1. simpl sg. rewrite (add_node_ok g2 nsn Hns2).
  set (g3 := mkGraph (gnodes g2 ++ [nsn]) (gedges g2)).
  assert (Fid3 : found g3 id).
  { apply found_snoc; auto. apply (found_same_nodes g1 g2 id N2). exists b; exact Hb. }
  assert (Fns3 : found g3 nsid) by (apply (found_new g2 nsn); auto).
  destruct Fid3 as [c Hc]. destruct Fns3 as [d Hd].
  destruct (add_edge_ok id rHas nsid g3 c d Hc Hd) as [g4 Hg4].
  unfold bind at 1. unfold m_add_edge at 1, mutate at 1. simpl sg. rewrite Hg4.
  assert (N4 : gnodes g4 = gnodes g3) by (eapply add_edge_nodes; eauto).
  destruct (child_ifs_ok nsid ifs (mkSt g4 (sfresh s))) as [s6 H6].
  - simpl. apply (found_same_nodes g3 g4 nsid N4). exists d; exact Hd.
  - exact Hnd''.
  - intros x Hx. simpl. rewrite (has_node_same_nodes g3 g4 x N4). unfold g3. rewrite has_node_snoc.
    rewrite (has_node_same_nodes g1 g2 x N2). unfold g1. rewrite has_node_snoc.
    rewrite (Hnew x) by (right; right; exact Hx). simpl.
    assert (x <> id) by (intro E; apply Hid_notin; right; rewrite <- E; exact Hx).
    assert (x <> nsid) by (intro E; apply Hns_notin; rewrite <- E; exact Hx).
    rewrite (neqb_of_neq id x) by auto. rewrite (neqb_of_neq nsid x) by auto. reflexivity.
  - simpl sfresh. rewrite H6. eexists; reflexivity.
Qed.

(* the ids as the hypothesis lists them (component, interfaces, service) and as the sliver adder uses them *)
Lemma sliver_ids_perm id drawn : Permutation (id :: drawn_ids drawn) (sliver_ids id drawn).
Proof.
  unfold sliver_ids, drawn_ids. destruct drawn as [[[ch nsid] ifs]|]; [|reflexivity].
  apply perm_skip, Permutation_sym, Permutation_cons_append.
Qed.

Lemma ids_fresh_spec g l : ids_fresh g l = true -> NoDup l /\ forall x, In x l -> has_node g x = false.
Proof.
  unfold ids_fresh. intro H. apply andb_true_iff in H as [H1 H2]. split; [apply nodupN_NoDup; exact H1|].
  intros x Hx. rewrite forallb_forall in H2. apply negb_true_iff, H2, Hx.
Qed.

(* either the pre-check or the hypothesis on the ids makes the mutations safe; everything before them is a check *)
Lemma add_component_clean pc fl pn name node_id spec_given nic sub_ids cat pure s s' e :
  (pc = false -> ids_fresh (sg s) (component_ids node_id cat (sfresh s)) = true) ->
  op_add_component pc fl pn name node_id spec_given nic sub_ids cat pure s = (s', Err e) -> sg s' = sg s.
Proof.
  intros Hfresh H. unfold op_add_component in H.
  apply (bind_check (check_ask _)) in H as [[-> _]|(names & _ & H)]; [reflexivity|].
  apply (bind_check (check_guard _ _)) in H as [[-> _]|(u1 & _ & H)]; [reflexivity|].
  apply (bind_check (check_guard _ _)) in H as [[-> _]|(u2 & _ & H)]; [reflexivity|].
  apply bind_err_cases in H as [H|(s1 & id & H1 & H)]; [exact (no_mut_id_or_draw _ _ _ _ H)|].
  unfold component_ids, component_id_requests in Hfresh.
  destruct (id_or_draw_take _ _ _ _
              (match cat with
               | Ok spec => match cs_child spec with
                            | Some ch => map ci_id (cn_ifs ch) ++ [cn_id ch]
                            | None => []
                            end
               | Err _ => []
               end) H1) as [G1 T1]. rewrite T1, <- G1 in Hfresh. rewrite <- G1. clear H1 T1 G1.
  apply (bind_check (check_guard _ _)) in H as [[-> _]|(u3 & _ & H)]; [reflexivity|].
  apply (bind_check (check_guard _ _)) in H as [[-> _]|(u4 & _ & H)]; [reflexivity|].
  apply (bind_check (check_ask _)) in H as [[-> _]|(pname & Hpn & H)]; [reflexivity|].
  apply ask_ok in Hpn as [_ Hpn].
  assert (Hpnf : found (sg s1) pn).
  { unfold node_name in Hpn. destruct (find_node (sg s1) pn) eqn:Ef; [eexists; eauto|discriminate]. }
  destruct cat as [spec|e0]; [|inversion H; reflexivity].
  apply bind_err_cases in H as [H|(s2 & drawn & H1 & H)].
  { refine ((_ : no_mut _) _ _ _ H). destruct (cs_child spec); nm. apply no_mut_draw_if_ids. }
  apply draw_children_take in H1 as [G2 T2]. rewrite T2, <- G2 in Hfresh. rewrite <- G2 in *. clear T2 G2.
  apply bind_err_cases in H as [H|(s3 & u5 & H1 & H)]; [exact (no_mut_opt_raise _ _ _ _ H)|].
  apply opt_raise_ok in H1 as ->.
  assert (Hsafe : pc = true \/ (NoDup (sliver_ids id drawn) /\
                                forall x, In x (sliver_ids id drawn) -> has_node (sg s2) x = false)).
  { destruct pc; [left; reflexivity|right].
    destruct (ids_fresh_spec _ _ (Hfresh eq_refl)) as [Hnd Hnew]. split.
    - eapply Permutation_NoDup; [apply sliver_ids_perm|exact Hnd].
    - intros x Hx. apply Hnew. eapply Permutation_in; [apply Permutation_sym, sliver_ids_perm|exact Hx]. }
  apply bind_err_cases in H as [H|(s3 & u6 & H1 & H)].
  { refine ((_ : no_mut _) _ _ _ H). destruct pc; nm. }
  assert (s3 = s2 /\ NoDup (sliver_ids id drawn) /\
          forall x, In x (sliver_ids id drawn) -> has_node (sg s2) x = false) as (-> & Hnd & Hnew).
  { destruct pc.
    - apply bind_ok in H1 as (sx & pnode & Ha & H1). apply ask_ok in Ha as [-> _].
      apply bind_ok in H1 as (sx & ok & Ha & H1). apply ask_ok in Ha as [-> Hok]. apply guard_ok in H1 as [-> Hok'].
      split; [reflexivity|]. apply ids_fresh_spec. injection Hok as <-. exact Hok'.
    - apply ret_ok in H1 as [-> _]. destruct Hsafe as [?|[? ?]]; [discriminate|auto]. }
  destruct (component_tail_ok pn id name (cs_type spec) drawn s2 Hpnf Hnd Hnew) as [s4 H4].
  rewrite H4 in H. discriminate.
Qed.

Lemma add_component_atomic_fresh fl pn name node_id spec_given nic sub_ids cat pure g fresh s' e :
  ids_fresh g (component_ids node_id cat fresh) = true ->
  op_add_component false fl pn name node_id spec_given nic sub_ids cat pure (mkSt g fresh) = (s', Err e) ->
  sg s' = g.
Proof. intros Hfresh H. exact (add_component_clean false _ _ _ _ _ _ _ _ _ (mkSt g fresh) _ _ (fun _ => Hfresh) H). Qed.

Lemma add_component_atomic_precheck fl pn name node_id spec_given nic sub_ids cat pure :
  atomic (op_add_component true fl pn name node_id spec_given nic sub_ids cat pure).
Proof. intros s s' e H. eapply add_component_clean; [|exact H]. discriminate. Qed.

(* the hypothesis holds for distinct new child ids and fails exactly on the refutation witness *)
Lemma ex_ids_fresh :
  ids_fresh g_two_nodes (component_ids (Some 20) (Ok (spec_smartnic 21 22 23)) supply) = true /\
  ids_fresh g_two_nodes (component_ids (Some 20) (Ok (spec_smartnic 21 22 22)) supply) = false /\
  ids_fresh g_two_nodes (component_ids None (Ok (mkCompSpec tNIC (Some (mkChildNs (S "x") tOVS None
                                         [mkChildIf (S "p") tSharedPort None])))) supply) = true.
Proof. vm_compute. auto. Qed.
