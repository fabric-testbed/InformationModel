(* C14 - store level: merge_adm / unmerge_adm / snapshot / rollback do not alter any OTHER graph of the shared
   store (the source delegation models, the snapshots): its nodes with all their properties and the
   connections among them stay exactly as they were, hence its canonical view.  (Frame theorem over
   Model/Cbm14Store.v.) *)
From Coq Require Import List NArith Bool Lia.
From FIM Require Import Base.ListFacts Model.Cbm14Store Model.Cbm14Check.
Import ListNotations.
Open Scope N_scope.

Lemma memN_In x l : memN x l = true <-> In x l.
Proof. apply (existsb_eqb_In N.eqb N.eqb_eq). Qed.
Lemma memN_false x l : memN x l = false <-> ~ In x l.
Proof. apply (existsb_eqb_notIn N.eqb N.eqb_eq). Qed.

(* the part of the store that belongs to graph g (of_gid g st is gnodes g (s_nodes st)) *)
Definition gnodes (g : N) (ns : list node) : list node := filter (fun n => n_gid n =? g) ns.
Definition gE (I : list N) (es : list edge) : list edge := filter (touches I) es.
(* no connection leaves the graph *)
Definition closedI (I : list N) (es : list edge) : Prop :=
  forall e, In e es -> touches I e = true -> In (e_a e) I /\ In (e_b e) I.
Definition uniq (ns : list node) : Prop := NoDup (map n_int ns).
Definition below (nx : N) (ns : list node) : Prop := forall n, In n ns -> n_int n < nx.
Definition ebelow (nx : N) (es : list edge) : Prop := forall e, In e es -> e_a e < nx /\ e_b e < nx.

(* store invariant + g is closed *)
Definition Good (g : N) (st : store) : Prop :=
  uniq (s_nodes st) /\ below (s_next st) (s_nodes st) /\ ebelow (s_next st) (s_edges st) /\
  closedI (gints g st) (s_edges st).
(* what "g is untouched" means *)
Definition Same (g : N) (st st' : store) : Prop :=
  of_gid g st' = of_gid g st /\ gE (gints g st) (s_edges st') = gE (gints g st) (s_edges st).

Lemma Same_refl g st : Same g st st.
Proof. split; reflexivity. Qed.
Lemma Same_trans g a b c : Same g a b -> Same g b c -> Same g a c.
Proof.
  intros [H1 H2] [H3 H4]. split; [congruence|].
  unfold gints in *. rewrite H1 in H4. congruence.
Qed.
Lemma Same_gints g st st' : Same g st st' -> gints g st' = gints g st.
Proof. intros [H _]. unfold gints. rewrite H. reflexivity. Qed.

Lemma in_gints g st n : In n (s_nodes st) -> n_gid n = g -> In (n_int n) (gints g st).
Proof.
  intros H E. unfold gints, of_gid. apply in_map. apply filter_In. split; auto. apply N.eqb_eq. exact E.
Qed.

(* a node of another graph has an internal id that no node of g has *)
Lemma not_in_gints g st n : uniq (s_nodes st) -> In n (s_nodes st) -> n_gid n <> g -> ~ In (n_int n) (gints g st).
Proof.
  intros U H NE X. apply in_map_iff in X as (m & E & Hm). apply filter_In in Hm as [Hm G].
  apply N.eqb_eq in G. rewrite (NoDup_map_inj n_int _ _ _ U Hm H E) in G. contradiction.
Qed.

Lemma gints_below g st : below (s_next st) (s_nodes st) -> forall i, In i (gints g st) -> i < s_next st.
Proof.
  intros B i Hi. unfold gints, of_gid in Hi. apply in_map_iff in Hi as (n & E & Hn).
  apply filter_In in Hn as [Hn _]. subst. auto.
Qed.

(* whether a connection leaves I is a question about the connections that touch I: a transformation that keeps
   gE I keeps closedI I *)
Lemma closedI_gE I es es' : gE I es' = gE I es -> closedI I es -> closedI I es'.
Proof.
  intros E C e Hin T. assert (In e (gE I es')) as X by (apply filter_In; auto).
  rewrite E in X. apply filter_In in X as [X _]. exact (C e X T).
Qed.

Lemma gE_app I es new : (forall e, In e new -> touches I e = false) -> gE I (es ++ new) = gE I es.
Proof. intro H. unfold gE. rewrite filter_app, (filter_none _ new H). apply app_nil_r. Qed.

Lemma gE_map I es f :
  (forall e, e_a (f e) = e_a e /\ e_b (f e) = e_b e) ->
  (forall e, In e es -> touches I e = true -> f e = e) -> gE I (map f es) = gE I es.
Proof.
  intros Hf H. apply filter_map_fix. intros e Hin. split; auto.
  unfold touches. destruct (Hf e) as [-> ->]. reflexivity.
Qed.

Lemma touches_false I e : ~ In (e_a e) I -> ~ In (e_b e) I -> touches I e = false.
Proof. intros A B. unfold touches. apply memN_false in A, B. rewrite A, B. reflexivity. Qed.

Lemma closed_other I es e x :
  closedI I es -> In e es -> ~ In x I -> (e_a e = x \/ e_b e = x) -> touches I e = false.
Proof.
  intros C Hin NX EX. destruct (touches I e) eqn:T; auto.
  destruct (C e Hin T) as [A B]. destruct EX; subst; contradiction.
Qed.

Lemma gE_delete I es i : closedI I es -> ~ In i I ->
  gE I (filter (fun e => negb (e_a e =? i) && negb (e_b e =? i)) es) = gE I es.
Proof.
  intros C NI. apply filter_filter_sub. intros e Hin T.
  destruct (C e Hin T) as [A B].
  destruct (e_a e =? i) eqn:E1; [apply N.eqb_eq in E1; subst; contradiction|].
  destruct (e_b e =? i) eqn:E2; [apply N.eqb_eq in E2; subst; contradiction|]. reflexivity.
Qed.

Lemma joins_ends a b e : joins a b e = true -> (e_a e = a /\ e_b e = b) \/ (e_a e = b /\ e_b e = a).
Proof.
  unfold joins. rewrite orb_true_iff, !andb_true_iff, !N.eqb_eq. tauto.
Qed.

(* one step of contracted_nodes: the connection u - x is flagged if it exists, added otherwise *)
Lemma gE_attach I es u x cls oth con :
  closedI I es -> ~ In u I -> ~ In x I ->
  gE I (if has_edge u x es then flag_edge u x es else es ++ [mkEdge u x cls oth con]) = gE I es.
Proof.
  intros C NU NX. destruct (has_edge u x es).
  - apply gE_map.
    + intro e0. destruct (joins u x e0); simpl; auto.
    + intros e0 Hin T. destruct (joins u x e0) eqn:J; auto.
      apply joins_ends in J. rewrite (closed_other I es e0 u C Hin NU) in T; [discriminate|tauto].
  - apply gE_app. intros e0 [E|[]]. subst. apply touches_false; simpl; auto.
Qed.

Lemma gE_fold_reattach I u v ev : forall es,
  closedI I es -> ~ In u I -> (forall e, In e ev -> touches I e = false) ->
  gE I (fold_left (reattach u v) ev es) = gE I es.
Proof.
  induction ev as [|e r IH]; intros es C NU H; simpl; auto.
  assert (gE I (reattach u v es e) = gE I es) as S.
  { apply gE_attach; auto. specialize (H e (or_introl eq_refl)).
    apply orb_false_iff in H as [TA TB]. apply memN_false in TA, TB.
    destruct (e_a e =? v); [destruct (e_b e =? v)|destruct (e_a e =? v)]; auto. }
  rewrite IH; auto.
  - exact (closedI_gE _ _ _ S C).
  - intros; apply H; simpl; auto.
Qed.

Lemma gE_pop I es u : closedI I es -> ~ In u I -> gE I (pop_contraction u es) = gE I es.
Proof.
  intros C NU. apply gE_map.
  - intro e. destruct ((e_a e =? u) || (e_b e =? u)); simpl; auto.
  - intros e Hin T. destruct ((e_a e =? u) || (e_b e =? u)) eqn:J; auto.
    apply orb_true_iff in J. rewrite !N.eqb_eq in J.
    rewrite (closed_other I es e u C Hin NU) in T; [discriminate|tauto].
Qed.

Lemma gE_contract I es u v :
  closedI I es -> ~ In u I -> ~ In v I ->
  gE I (pop_contraction u (fold_left (reattach u v) (filter (fun e => (e_a e =? v) || (e_b e =? v)) es)
                                     (filter (fun e => negb (e_a e =? v) && negb (e_b e =? v)) es))) = gE I es.
Proof.
  intros C NU NV.
  pose proof (gE_delete I es v C NV) as S1. pose proof (closedI_gE _ _ _ S1 C) as C1.
  assert (gE I (fold_left (reattach u v) (filter (fun e => (e_a e =? v) || (e_b e =? v)) es)
                          (filter (fun e => negb (e_a e =? v) && negb (e_b e =? v)) es)) = gE I es) as S2.
  { rewrite gE_fold_reattach; auto. intros e Hin. apply filter_In in Hin as [Hin Hv].
    apply (closed_other I es e v C Hin NV). apply orb_true_iff in Hv. rewrite !N.eqb_eq in Hv. tauto. }
  rewrite gE_pop; auto. exact (closedI_gE _ _ _ S2 C).
Qed.

Lemma gnodes_map g h l :
  (forall n, In n l -> (n_gid n = g -> h n = n) /\ (n_gid n <> g -> n_gid (h n) <> g)) ->
  gnodes g (map h l) = gnodes g l.
Proof.
  intro H. apply filter_map_fix. intros n Hn. destruct (H n Hn) as [H1 H2].
  destruct (N.eqb_spec (n_gid n) g) as [E|E].
  - rewrite (H1 E). split; auto. apply N.eqb_eq, E.
  - split; [apply N.eqb_neq, H2, E | discriminate].
Qed.

Lemma ebelow_filter nx p es : ebelow nx es -> ebelow nx (filter p es).
Proof. intros E e H. apply filter_In in H as [H _]. exact (E e H). Qed.

Definition Pres (g : N) (st st' : store) : Prop := Same g st st' /\ Good g st'.

(* what every operation below is shown to do: g's node records and the connections touching g stay, and the
   store invariant holds again *)
Lemma Pres_intro g st st' :
  Good g st -> of_gid g st' = of_gid g st ->
  gE (gints g st) (s_edges st') = gE (gints g st) (s_edges st) ->
  uniq (s_nodes st') -> below (s_next st') (s_nodes st') -> ebelow (s_next st') (s_edges st') ->
  Pres g st st'.
Proof.
  intros (_ & _ & _ & C) ON EE U B EB. split; [split; assumption|].
  unfold Good, gints. rewrite ON. split; [|split; [|split]]; auto. exact (closedI_gE _ _ _ EE C).
Qed.

Lemma pres_delete g st i :
  Good g st -> ~ In i (gints g st) -> Pres g st (delete_node i st).
Proof.
  intros G NI. pose proof G as (U & B & EB & C). apply Pres_intro; auto; simpl.
  - apply filter_filter_sub. intros m Hm Em.
    destruct (n_int m =? i) eqn:E; auto. apply N.eqb_eq in E, Em.
    exfalso. apply NI. rewrite <- E. apply in_gints; auto.
  - apply gE_delete; auto.
  - apply NoDup_map_filter. exact U.
  - intros m Hm. apply filter_In in Hm as [Hm _]. auto.
  - apply ebelow_filter, EB.
Qed.

(* replacing node records (same internal ids, g's nodes untouched) *)
Lemma pres_nodes g st ns' :
  Good g st -> map n_int ns' = map n_int (s_nodes st) -> gnodes g ns' = gnodes g (s_nodes st) ->
  Pres g st (mkStore ns' (s_edges st) (s_next st)).
Proof.
  intros G HI HG. pose proof G as (U & B & EB & _). apply Pres_intro; auto; simpl.
  - unfold uniq. rewrite HI. exact U.
  - intros n Hn. assert (In (n_int n) (map n_int (s_nodes st))) as X by (rewrite <- HI; apply in_map; auto).
    apply in_map_iff in X as (m & E & Hm). rewrite <- E. auto.
Qed.

Lemma pres_map_gid g st t f :
  Good g st -> t <> g -> (forall n, n_int (f n) = n_int n /\ (n_gid n <> g -> n_gid (f n) <> g)) ->
  Pres g st (map_gid t f st).
Proof.
  intros G NE Hf. unfold map_gid. apply pres_nodes; auto.
  - rewrite map_map. apply map_ext. intro n. destruct (n_gid n =? t); auto. apply Hf.
  - apply gnodes_map. intros n _. split.
    + intro E. destruct (n_gid n =? t) eqn:T; auto. apply N.eqb_eq in T. congruence.
    + intro NG. destruct (n_gid n =? t); auto. apply Hf. auto.
Qed.

Lemma pres_upd_node g st c c' :
  Good g st -> In c (s_nodes st) -> n_gid c <> g -> n_int c' = n_int c -> n_gid c' <> g ->
  Pres g st (upd_node c' st).
Proof.
  intros G Hin NE EI NG. pose proof G as (U & _). unfold upd_node. apply pres_nodes; auto.
  - rewrite map_map. apply map_ext. intro n. destruct (n_int n =? n_int c') eqn:E; auto.
    apply N.eqb_eq in E. auto.
  - apply gnodes_map. intros n Hn. split.
    + intro Eg. destruct (n_int n =? n_int c') eqn:E; auto. apply N.eqb_eq in E.
      exfalso. apply (not_in_gints g st c U Hin NE). rewrite <- EI, <- E. apply in_gints; auto.
    + intro NG'. destruct (n_int n =? n_int c'); auto.
Qed.

(* l' is l with new properties on some nodes of graph t: internal ids and graph ids stay *)
Definition redone (t : N) : list node -> list node -> Prop :=
  Forall2 (fun n n' => n_int n' = n_int n /\ n_gid n' = n_gid n /\ (n_gid n <> t -> n' = n)).

Lemma pres_redone g st t ns' :
  Good g st -> t <> g -> redone t (s_nodes st) ns' -> Pres g st (mkStore ns' (s_edges st) (s_next st)).
Proof.
  intros G NE R. apply pres_nodes; auto; induction R as [|n n' l l' (Ei & Eg & Eo) _ IH]; simpl; auto.
  - rewrite Ei, IH. reflexivity.
  - rewrite Eg, IH. destruct (n_gid n =? g) eqn:E; auto.
    rewrite Eo; auto. apply N.eqb_eq in E. congruence.
Qed.

Lemma rw_nodes_redone adm tmp : forall l l', rw_nodes adm tmp l = inl l' -> redone tmp l l'.
Proof.
  induction l as [|n r IH]; simpl; intros l' H.
  - inversion H. constructor.
  - destruct (n_gid n =? tmp) eqn:T.
    + destruct (rw_node adm n) as [n'|] eqn:R; [|discriminate].
      destruct (rw_nodes adm tmp r) as [r'|]; [|discriminate]. inversion H; subst.
      constructor; [|exact (IH r' eq_refl)]. unfold rw_node in R. destruct (rw_d adm (n_ld n)); [|discriminate].
      destruct (rw_d adm (n_cd n)); [|discriminate]. inversion R; subst. simpl.
      apply N.eqb_eq in T. repeat split; auto. contradiction.
    + destruct (rw_nodes adm tmp r) as [r'|]; [|discriminate]. inversion H; subst.
      constructor; [auto | exact (IH r' eq_refl)].
Qed.

Lemma fold_reattach_ebelow nx u v ev : forall es,
  u < nx -> ebelow nx es -> ebelow nx ev -> ebelow nx (fold_left (reattach u v) ev es).
Proof.
  induction ev as [|e r IH]; intros es Hu E1 E2; simpl; auto.
  apply IH; auto; [|intros x Hx; apply E2; simpl; auto].
  unfold reattach. destruct (E2 e (or_introl eq_refl)) as [Ea Eb].
  match goal with |- ebelow nx (if ?c then _ else _) => destruct c end.
  - unfold flag_edge. intros x Hx. apply in_map_iff in Hx as (y & E & Hy). subst.
    destruct (joins _ _ y); simpl; apply (E1 y Hy).
  - intros x Hx. apply in_app_iff in Hx as [Hx|[Hx|[]]]; [apply (E1 x Hx)|]. subst; simpl. split; auto.
    destruct (e_a e =? v); [destruct (e_b e =? v)|destruct (e_a e =? v)]; auto.
Qed.

Lemma pop_ebelow nx u es : ebelow nx es -> ebelow nx (pop_contraction u es).
Proof.
  intros E x Hx. unfold pop_contraction in Hx. apply in_map_iff in Hx as (y & Ey & Hy). subst.
  destruct ((e_a y =? u) || (e_b y =? u)); simpl; apply (E y Hy).
Qed.

Lemma pres_contract g st u v :
  Good g st -> ~ In u (gints g st) -> ~ In v (gints g st) -> u < s_next st ->
  Pres g st (contract u v st).
Proof.
  intros G NIu NIv Hu. pose proof G as (U & B & EB & C).
  destruct (pres_delete g st v G NIv) as [[ON _] (U1 & B1 & _)].
  apply Pres_intro; [exact G | exact ON | | exact U1 | exact B1 | ].
  - apply gE_contract; auto.
  - apply pop_ebelow, fold_reattach_ebelow; auto; apply ebelow_filter, EB.
Qed.

Lemma clone_nodes_spec new : forall l next ns m,
  clone_nodes new next l = (ns, m) ->
  (forall n, In n ns -> n_gid n = new /\ next <= n_int n /\ n_int n < next + N.of_nat (length l)) /\
  NoDup (map n_int ns) /\
  (forall k v, lookup m k = Some v -> next <= v /\ v < next + N.of_nat (length l)).
Proof.
  induction l as [|x r IH]; intros next ns m H; simpl in H.
  - inversion H; subst. split; [|split]; simpl; [tauto | constructor | discriminate].
  - destruct (clone_nodes new (N.succ next) r) as [ns0 m0] eqn:E. inversion H; subst; clear H.
    destruct (IH _ _ _ E) as (I1 & I2 & I3).
    assert (N.of_nat (length (x :: r)) = N.succ (N.of_nat (length r))) as L by (simpl length; lia).
    rewrite L. split; [|split].
    + intros n [Hn|Hn].
      * subst. simpl. lia.
      * destruct (I1 n Hn) as (? & ? & ?). repeat split; auto; lia.
    + simpl. constructor; auto. intro X. apply in_map_iff in X as (n & En & Hn).
      destruct (I1 n Hn) as (_ & ? & _). lia.
    + intros k v. simpl. destruct (n_int x =? k).
      * intro X; inversion X; subst. lia.
      * intro X. destruct (I3 k v X). lia.
Qed.

Lemma clone_edges_range m es lo hi :
  (forall k v, lookup m k = Some v -> lo <= v /\ v < hi) ->
  forall e, In e (clone_edges m es) -> (lo <= e_a e /\ e_a e < hi) /\ (lo <= e_b e /\ e_b e < hi).
Proof.
  intros R e He. apply in_flat_map in He as (e0 & _ & He).
  destruct (lookup m (e_a e0)) as [x|] eqn:La; [|destruct He].
  destruct (lookup m (e_b e0)) as [y|] eqn:Lb; [|destruct He].
  destruct He as [He|[]]. subst; simpl. split; eauto.
Qed.

Lemma pres_clone g st a new : Good g st -> new <> g -> Pres g st (clone a new st).
Proof.
  intros G NE. pose proof G as (U & B & EB & C). unfold clone.
  destruct (clone_nodes new (s_next st) (of_gid a st)) as [cn m] eqn:E.
  destruct (clone_nodes_spec new _ _ _ _ E) as (S1 & S2 & S3).
  set (len := N.of_nat (length (of_gid a st))) in *.
  pose proof (clone_edges_range m (s_edges st) _ _ S3) as CE.
  apply Pres_intro; auto; simpl.
  - unfold of_gid; simpl. rewrite filter_app, (filter_none _ cn), app_nil_r; auto.
    intros n Hn. destruct (S1 n Hn) as [-> _]. apply N.eqb_neq, NE.
  - apply gE_app. intros e He. destruct (CE e He) as [[? ?] [? ?]].
    apply touches_false; intro X; apply (gints_below g st B) in X; lia.
  - unfold uniq. rewrite map_app. apply NoDup_app_intro; auto.
    intros x Hx Hy. apply in_map_iff in Hx as (n & En & Hn). apply in_map_iff in Hy as (n' & En' & Hn').
    specialize (B n Hn). destruct (S1 n' Hn') as (_ & ? & _). lia.
  - intros n Hn. apply in_app_iff in Hn as [Hn|Hn]; [specialize (B n Hn); lia|].
    destruct (S1 n Hn) as (_ & _ & ?). assumption.
  - intros e He. apply in_app_iff in He as [He|He]; [destruct (EB e He); lia|].
    destruct (CE e He) as [[? ?] [? ?]]. lia.
Qed.

Lemma Pres_trans g a b c : Pres g a b -> Pres g b c -> Pres g a c.
Proof. intros [S1 _] [S2 G]. split; eauto using Same_trans. Qed.
Lemma Pres_refl g st : Good g st -> Pres g st st.
Proof. intro G. split; auto using Same_refl. Qed.

Definition out_pres (g : N) (st : store) (o : outcome) : Prop :=
  match o with OOk s' => Pres g st s' | OErr _ s' => Pres g st s' | OErrU _ => True end.

Lemma pres_rehome g st t new : Good g st -> t <> g -> new <> g -> out_pres g st (rehome t new st).
Proof.
  intros G T NN. unfold rehome. destruct (gexists t st); simpl; [|apply Pres_refl; auto].
  apply pres_map_gid; auto; intro n; simpl; auto.
Qed.

Lemma Pres_step g a b c : Pres g a b -> (Good g b -> Pres g b c) -> Pres g a c.
Proof. intros P F. exact (Pres_trans _ _ _ _ P (F (proj2 P))). Qed.

Lemma pres_then_rehome g a b t new : Pres g a b -> t <> g -> new <> g -> out_pres g a (rehome t new b).
Proof.
  intros P T NN. pose proof (pres_rehome g b t new (proj2 P) T NN) as R.
  destruct (rehome t new b); simpl in *; eauto using Pres_trans.
Qed.

Lemma find_node_some gid x st n : find_node gid x st = Some n -> In n (s_nodes st) /\ n_gid n = gid.
Proof.
  unfold find_node. intro H. apply find_some in H as [H1 H2]. split; auto.
  apply andb_true_iff in H2 as [H2 _]. apply N.eqb_eq. exact H2.
Qed.

Lemma pres_delete_list {A} (f : A -> N) g l : forall st,
  Good g st -> (forall x, In x l -> ~ In (f x) (gints g st)) ->
  Pres g st (fold_left (fun s x => delete_node (f x) s) l st).
Proof.
  induction l as [|x r IH]; intros st G H; simpl; [apply Pres_refl; auto|].
  assert (Pres g st (delete_node (f x) st)) as P by (apply pres_delete; auto; apply H; simpl; auto).
  eapply Pres_trans; eauto. destruct P as [S G']. apply IH; auto.
  intros y Hy. rewrite (Same_gints _ _ _ S). apply H; simpl; auto.
Qed.

Lemma pres_delete_graph g st t : Good g st -> t <> g -> Pres g st (delete_graph t st).
Proof.
  intros G NE. apply (pres_delete_list n_int); auto. intros n Hn.
  apply filter_In in Hn as [Hn Hg]. apply N.eqb_eq in Hg.
  destruct G as (U & _). apply not_in_gints; auto. congruence.
Qed.

Lemma merge_one_None cbm tmp adm l : fold_left (merge_one cbm tmp adm) l None = None.
Proof. induction l; simpl; auto. Qed.

(* one common node: its record is replaced, then its image is contracted into it *)
Lemma pres_merge_step g st c t c' :
  Good g st -> In c (s_nodes st) -> In t (s_nodes st) -> n_gid c <> g -> n_gid t <> g ->
  n_int c' = n_int c -> n_gid c' <> g -> Pres g st (contract (n_int c) (n_int t) (upd_node c' st)).
Proof.
  intros G Hc Ht NC NT EI NG. pose proof G as (U & B & _).
  pose proof (pres_upd_node g st c c' G Hc NC EI NG) as P1. apply (Pres_step _ _ _ _ P1). intro G1.
  apply pres_contract; auto; rewrite (Same_gints _ _ _ (proj1 P1)); apply not_in_gints; auto.
Qed.

Lemma pres_merge_one g cbm tmp adm st0 : cbm <> g -> tmp <> g -> forall l st st',
  Pres g st0 st -> fold_left (merge_one cbm tmp adm) l (Some st) = Some st' -> Pres g st0 st'.
Proof.
  intros NC NT. induction l as [|x r IH]; intros st st' P H; simpl in H.
  - inversion H; subst. exact P.
  - destruct (find_node cbm x st) as [c|] eqn:Fc; [|rewrite merge_one_None in H; discriminate].
    destruct (find_node tmp x st) as [t|] eqn:Ft; [|rewrite merge_one_None in H; discriminate].
    destruct (n_si c) as [| |ids] eqn:Si; try (rewrite merge_one_None in H; discriminate).
    apply find_node_some in Fc as [Hc Gc]. apply find_node_some in Ft as [Ht Gt].
    eapply IH; [|exact H]. apply (Pres_trans _ _ _ _ P).
    apply pres_merge_step; simpl; auto; try congruence. apply P.
Qed.

Theorem merge_adm_frame g cbm adm tmp st :
  Good g st -> cbm <> g -> tmp <> g -> out_pres g st (merge_adm cbm adm tmp st).
Proof.
  intros G NC NT. unfold merge_adm.
  destruct (negb (gexists adm st)); [simpl; apply Pres_refl; auto|].
  destruct (rw_nodes adm tmp (s_nodes (clone adm tmp st))) as [ns|e] eqn:R; [|simpl; apply pres_clone; auto].
  set (st2 := map_gid tmp (set_si (SIds [adm])) _).
  assert (Pres g st st2) as P.   (* clone under the temporary id, rewrite_delegations, stamp adm_graph_ids *)
  { apply (Pres_step _ _ _ _ (pres_clone g st adm tmp G NT)). intro G1.
    apply (Pres_step _ _ _ _ (pres_redone _ _ tmp _ G1 NT (rw_nodes_redone _ _ _ _ R))). intro G2.
    apply pres_map_gid; auto; intro n; simpl; auto. }
  destruct (negb (gexists cbm st2)); [apply pres_then_rehome; auto|].
  match goal with |- out_pres _ _ (if ?c then _ else _) => destruct c end; [exact I|].
  match goal with |- out_pres _ _ (match ?f with _ => _ end) => destruct f as [st3|] eqn:F end; [|exact I].
  pose proof (pres_merge_one g cbm tmp adm st NC NT _ st2 st3 P F) as P4.
  destruct (gexists tmp st3); [apply pres_then_rehome; auto | exact P4].
Qed.

Lemma unm_node_ok g n n' d : unm_node g n = inl (Some (n', d)) -> n_int n' = n_int n /\ n_gid n' = n_gid n.
Proof.
  unfold unm_node. destruct (n_si n) as [| |l]; try discriminate.
  - intro H; inversion H; subst; auto.
  - destruct (mem g l).
    + destruct (remove_first g l); simpl;
        (destruct (unm_d g (n_cd _)); [|discriminate]); (destruct (unm_d g (n_ld _)); [|discriminate]);
        intro H; inversion H; subst; simpl; auto.
    + simpl. destruct (unm_d g (n_cd n)); [|discriminate]. destruct (unm_d g (n_ld n)); [|discriminate].
      intro H; inversion H; subst; simpl; auto.
Qed.

Lemma unm_nodes_redone cbm gid : forall l l' ds,
  unm_nodes cbm gid l = inl (Some (l', ds)) ->
  redone cbm l l' /\ (forall i, In i ds -> exists n, In n l /\ n_gid n = cbm /\ n_int n = i).
Proof.
  induction l as [|n r IH]; simpl; intros l' ds H.
  - inversion H. split; [constructor | intros i []].
  - destruct (n_gid n =? cbm) eqn:T.
    + destruct (unm_node gid n) as [[[n' d]|]|] eqn:U; try discriminate.
      destruct (unm_nodes cbm gid r) as [[[r' ds']|]|]; try discriminate. inversion H; subst; clear H.
      destruct (IH r' ds' eq_refl) as (I1 & I3). destruct (unm_node_ok _ _ _ _ U) as [Ei Eg].
      apply N.eqb_eq in T. split.
      * constructor; [|exact I1]. repeat split; auto. contradiction.
      * intros i Hi. destruct d; [destruct Hi as [Hi|Hi]; [exists n; auto|]|];
          destruct (I3 i Hi) as (m & ? & ? & ?); exists m; auto.
    + destruct (unm_nodes cbm gid r) as [[[r' ds']|]|]; try discriminate. inversion H; subst; clear H.
      destruct (IH r' ds eq_refl) as (I1 & I3). split; [constructor; [auto | exact I1]|].
      intros i Hi. destruct (I3 i Hi) as (m & ? & ? & ?). exists m; auto.
Qed.

Theorem unmerge_adm_frame g cbm gid st :
  Good g st -> cbm <> g -> out_pres g st (unmerge_adm cbm gid st).
Proof.
  intros G NC. unfold unmerge_adm.
  destruct (negb (gexists cbm st)); [simpl; apply Pres_refl; auto|].
  destruct (unm_nodes cbm gid (s_nodes st)) as [[[ns ds]|]|] eqn:U; simpl; auto.
  destruct (unm_nodes_redone cbm gid _ _ _ U) as (I1 & I3).
  assert (Pres g st (mkStore ns (s_edges st) (s_next st))) as P1 by (apply (pres_redone _ _ cbm); auto).
  eapply Pres_trans; eauto. destruct P1 as [S1 G1]. apply (pres_delete_list (fun i => i)); auto.
  intros i Hi. rewrite (Same_gints _ _ _ S1). destruct (I3 i Hi) as (n & Hn & Eg & Ei). subst i.
  destruct G as (U0 & _). apply not_in_gints; auto. congruence.
Qed.

Theorem snapshot_frame g cbm new st : Good g st -> new <> g -> out_pres g st (snapshot cbm new st).
Proof.
  intros G NN. unfold snapshot. destruct (negb (gexists cbm st)); simpl; [apply Pres_refl; auto|].
  apply pres_clone; auto.
Qed.

Lemma rollback_gen_live b cbm sid st :
  gexists sid st = true -> gexists sid (delete_graph cbm st) = true ->
  rollback_gen b cbm sid st = rehome sid cbm (delete_graph cbm st).
Proof. intros G G'. unfold rollback_gen. destruct b; cbv zeta; [rewrite G|rewrite G']; reflexivity. Qed.

Theorem rollback_gen_frame b g cbm sid st :
  Good g st -> cbm <> g -> sid <> g -> out_pres g st (rollback_gen b cbm sid st).
Proof.
  intros G NC NS. unfold rollback_gen.
  pose proof (pres_delete_graph g st cbm G NC) as P1.
  destruct b; cbv zeta.
  - destruct (negb (gexists sid st)); [simpl; apply Pres_refl; auto | apply pres_then_rehome; auto].
  - destruct (negb (gexists sid (delete_graph cbm st))); [exact P1 | apply pres_then_rehome; auto].
Qed.

Theorem rollback_frame g cbm sid st : Good g st -> cbm <> g -> sid <> g -> out_pres g st (rollback cbm sid st).
Proof. apply rollback_gen_frame. Qed.

(* the canonical view of g depends only on g's part of the store *)
Lemma nid_of_int_in ns i x : nid_of_int ns i = Some x -> In i (map n_int ns).
Proof.
  unfold nid_of_int. destruct (find (fun n => n_int n =? i) ns) as [n|] eqn:F; [|discriminate].
  intros _. apply find_some in F as [H E]. apply N.eqb_eq in E. subst. apply in_map. exact H.
Qed.

Lemma vedges_gE ns es : vedges_of ns es = vedges_of ns (gE (map n_int ns) es).
Proof.
  unfold vedges_of, gE. induction es as [|e r IH]; simpl; auto.
  destruct (touches (map n_int ns) e) eqn:T; simpl; [rewrite IH; reflexivity|].
  unfold touches in T. apply orb_false_iff in T as [TA TB]. apply memN_false in TA, TB.
  destruct (nid_of_int ns (e_a e)) eqn:A; [apply nid_of_int_in in A; contradiction|]. simpl. exact IH.
Qed.

Lemma Same_view g st st' : Same g st st' -> view_of g st' = view_of g st.
Proof.
  intros [H1 H2]. unfold view_of. rewrite H1. destruct (of_gid g st) as [|n ns] eqn:E; auto.
  rewrite (vedges_gE (n :: ns) (s_edges st')), (vedges_gE (n :: ns) (s_edges st)).
  unfold gints in H2. rewrite E in H2. rewrite H2. reflexivity.
Qed.

(* g is none of the graphs the operation works on *)
Definition outside (cbm g : N) (o : op) : Prop :=
  g <> cbm /\ match o with
              | OpMerge _ tmp => g <> tmp
              | OpUnmerge _ => True
              | OpSnap new => g <> new
              | OpRollback sid => g <> sid
              end.

Theorem step_frame g cbm o st : Good g st -> outside cbm g o -> out_pres g st (step cbm o st).
Proof.
  intros G [NC H]. destruct o; simpl.
  - apply merge_adm_frame; auto.
  - apply unmerge_adm_frame; auto.
  - apply snapshot_frame; auto.
  - apply rollback_frame; auto.
Qed.

(* run a history on the store model; None when the code raised with unpredicted partial effects *)
Fixpoint run (cbm : N) (st : store) (ops : list op) : option store :=
  match ops with
  | [] => Some st
  | o :: r => match step cbm o st with
              | OOk st' => run cbm st' r
              | OErr _ st' => run cbm st' r
              | OErrU _ => None
              end
  end.

Theorem history_frame g cbm ops : forall st st',
  Good g st -> Forall (outside cbm g) ops -> run cbm st ops = Some st' ->
  view_of g st' = view_of g st /\ of_gid g st' = of_gid g st /\ Good g st'.
Proof.
  induction ops as [|o r IH]; intros st st' G F H; simpl in H.
  - inversion H; subst. auto.
  - inversion F; subst. pose proof (step_frame g cbm o st G H2) as P.
    destruct (step cbm o st) as [s1|e s1|e]; simpl in P; [| |discriminate];
      destruct P as [S G1]; destruct (IH s1 st' G1 H3 H) as (V & O & G2);
      (split; [rewrite V; apply Same_view; auto | split; [rewrite O; apply S | auto]]).
Qed.

Lemma nodupN_sound l : nodupN l = true -> NoDup l.
Proof.
  induction l as [|x r IH]; simpl; intro H; constructor.
  - apply andb_true_iff in H as [H _]. apply negb_true_iff in H. apply memN_false. exact H.
  - apply IH. apply andb_true_iff in H. tauto.
Qed.

Lemma goodb_sound g st : goodb g st = true -> Good g st.
Proof.
  unfold goodb, Good. rewrite !andb_true_iff, !forallb_forall. intros [[[H1 H2] H3] H4].
  split; [|split; [|split]].
  - apply nodupN_sound. exact H1.
  - intros n Hn. apply N.ltb_lt. auto.
  - intros e He. specialize (H3 e He). apply andb_true_iff in H3. rewrite !N.ltb_lt in H3. exact H3.
  - intros e He T. specialize (H4 e He). rewrite T in H4. simpl in H4.
    apply andb_true_iff in H4. rewrite !memN_In in H4. exact H4.
Qed.

Definition ex_store : store :=
  mkStore [mkNode 1 1 10 1 [] SAbs DAbs DAbs; mkNode 2 1 11 2 [] SAbs DAbs (DDict [(7, 8)]);
           mkNode 3 2 10 1 [] SAbs DAbs DAbs; mkNode 4 2 11 2 [] SAbs DAbs DAbs; mkNode 5 2 12 3 [] SAbs (DDict [(7, 9)]) DAbs]
          [mkEdge 1 2 4 [] false; mkEdge 3 4 4 [] false; mkEdge 4 5 4 [] false] 6.
Definition ex_sops : list op := [OpMerge 1 100; OpSnap 101; OpMerge 2 102; OpUnmerge 1; OpRollback 101; OpUnmerge 2].
Lemma ex_frame :
  goodb 1 ex_store = true /\ goodb 2 ex_store = true /\
  Forall (outside 0 1) ex_sops /\ Forall (outside 0 2) ex_sops /\
  exists st', run 0 ex_store ex_sops = Some st' /\
              map n_nid (of_gid 0 st') = [10; 11] /\ map n_si (of_gid 0 st') = [SIds [1]; SIds [1]].
Proof.
  split; [vm_compute; reflexivity|]. split; [vm_compute; reflexivity|].
  split; [repeat constructor; discriminate|]. split; [repeat constructor; discriminate|].
  eexists. split; [vm_compute; reflexivity|]. split; vm_compute; reflexivity.
Qed.
