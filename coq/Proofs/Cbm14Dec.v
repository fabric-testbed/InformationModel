(* C14 - the decidable checkers imply the propositional hypotheses; concrete witnesses. *)
From Coq Require Import List NArith Bool.
From FIM Require Import Model.Cbm14Spec Proofs.Cbm14Assoc Proofs.Cbm14Merge Proofs.Cbm14Unmerge Proofs.Cbm14Inv
     Proofs.Cbm14Hist.
Import ListNotations.
Open Scope N_scope.

Lemma nodupb_sound {A} (eqb : A -> A -> bool) (eqb_eq : forall a b, eqb a b = true <-> a = b) l :
  nodupb eqb l = true -> NoDup l.
Proof.
  induction l as [|x r IH]; simpl; intro H; constructor.
  - apply andb_true_iff in H as [H _]. apply negb_true_iff in H. intro X.
    assert (existsb (eqb x) r = true); [|congruence].
    apply existsb_exists. exists x. split; auto. apply eqb_eq. reflexivity.
  - apply IH. apply andb_true_iff in H. tauto.
Qed.

Lemma wf_admb_sound A : wf_admb A = true -> wf_adm A.
Proof.
  unfold wf_admb, wf_adm. rewrite !andb_true_iff, forallb_forall. intros [[H1 H2] H3]. split; [|split].
  - apply (nodupb_sound N.eqb N.eqb_eq); auto.
  - apply (nodupb_sound ekey_eqb ekey_eqb_eq); auto.
  - intros e H. apply in_map_iff in H as (kd & <- & Hin). apply andb_true_iff, H3, Hin.
Qed.

Lemma props_eqb_eq a : forall b, props_eqb a b = true -> a = b.
Proof.
  induction a as [|[x1 x2] a IH]; destruct b as [|[y1 y2] b]; simpl; try discriminate; auto.
  rewrite !andb_true_iff, !N.eqb_eq. intros [[E1 E2] E3]. subst. f_equal. auto.
Qed.

Lemma edata_eqb_eq a b : edata_eqb a b = true -> a = b.
Proof.
  destruct a, b; unfold edata_eqb; simpl. rewrite andb_true_iff, N.eqb_eq. intros [? H].
  apply props_eqb_eq in H. subst. reflexivity.
Qed.

Lemma compatibleb_sound A B : compatibleb A B = true -> compatible A B.
Proof.
  unfold compatibleb, compatible. rewrite andb_true_iff, !forallb_forall. intros [H1 H2]. split.
  - intros k a b Ha Hb. apply (get_Some_In N.eqb N.eqb_eq) in Ha. specialize (H1 _ Ha). simpl in H1.
    rewrite Hb in H1. apply andb_true_iff in H1 as [X Y]. apply N.eqb_eq in X. apply props_eqb_eq in Y. auto.
  - intros e d d' Ha Hb. apply (get_Some_In ekey_eqb ekey_eqb_eq) in Ha. specialize (H2 _ Ha). simpl in H2.
    rewrite Hb in H2. apply edata_eqb_eq. exact H2.
Qed.

Lemma one_speakerb_sound A B : one_speakerb A B = true -> one_speaker A B.
Proof.
  unfold one_speakerb, one_speaker. rewrite forallb_forall. intros H k a b Ha Hb.
  apply (get_Some_In N.eqb N.eqb_eq) in Ha. specialize (H _ Ha). simpl in H. rewrite Hb in H.
  apply andb_true_iff in H as [X Y]. apply negb_true_iff in X, Y. auto.
Qed.

Lemma consistentb_sound As : consistentb As = true -> consistent As.
Proof.
  unfold consistentb, consistent, pairwise_compatible. rewrite andb_true_iff, forallb_forall. intros [H1 H2].
  assert (forall A B, In A As -> In B As -> adm_id A <> adm_id B -> compatibleb A B && one_speakerb A B = true) as X.
  { intros A B HA HB NE. specialize (H2 A HA). rewrite forallb_forall in H2. specialize (H2 B HB).
    apply orb_true_iff in H2 as [E|E]; auto. apply N.eqb_eq in E. contradiction. }
  split; [split|].
  - apply (nodupb_sound N.eqb N.eqb_eq); auto.
  - intros A B HA HB NE. apply compatibleb_sound. specialize (X A B HA HB NE). apply andb_true_iff in X. tauto.
  - intros A B HA HB NE. apply one_speakerb_sound. specialize (X A B HA HB NE). apply andb_true_iff in X. tauto.
Qed.

Lemma Forall_wf_admb As : forallb wf_admb As = true -> Forall wf_adm As.
Proof. rewrite forallb_forall, Forall_forall. intros H A HA. apply wf_admb_sound. auto. Qed.

Lemma not_contributorb_sound g C : not_contributorb g C = true -> not_contributor g C.
Proof.
  unfold not_contributorb, not_contributor. rewrite forallb_forall. intros H k c Hc Hin.
  apply (get_Some_In N.eqb N.eqb_eq) in Hc. specialize (H _ Hc). simpl in H. apply negb_true_iff in H.
  apply mem_In in Hin. congruence.
Qed.

Lemma no_new_inner_edgesb_sound C A : no_new_inner_edgesb C A = true -> no_new_inner_edges C A.
Proof.
  unfold no_new_inner_edgesb, no_new_inner_edges. rewrite forallb_forall. intros H e He H1 H2.
  apply (has_get ekey_eqb) in He as [d Hd]. apply (get_Some_In ekey_eqb ekey_eqb_eq) in Hd.
  specialize (H _ Hd). simpl in H. rewrite H1, H2 in H. exact H.
Qed.

Lemma merge_all_wf As C :
  forallb wf_admb As = true -> nodupb N.eqb (map adm_id As) = true -> merge_all As = Some C -> wf_cbm C.
Proof.
  intros W ND H. apply (Inv_wf_cbm As). apply family_inv; auto.
  - apply Forall_wf_admb; auto.
  - apply (nodupb_sound N.eqb N.eqb_eq); auto.
Qed.

(* concrete delegation models (node ids 10.., classes 1-3, delegation contents 7/8) *)
Definition pA (cls : N) (ld cd : option N) : anode := mkA cls [(5, 6)] ld cd.
(* A1 and A2 share the ADJACENT stitch nodes 10 - 11; node 10 is delegated by A2; A3 is disjoint *)
Definition A1 : adm := mkAdm 1 [(10, pA 1 None None); (11, pA 2 None None); (12, pA 3 (Some 7) (Some 8))]
                              [((10, 11), (4, [])); ((10, 12), (4, []))].
Definition A2 : adm := mkAdm 2 [(11, pA 2 None None); (10, pA 1 (Some 7) None); (13, pA 3 None (Some 8))]
                              [((10, 11), (4, [])); ((11, 13), (4, []))].
Definition A3 : adm := mkAdm 3 [(13, pA 3 None None); (14, pA 3 None None)] [((13, 14), (4, []))].
(* A4 shares node 10 with A1 but no connection *)
Definition A4 : adm := mkAdm 4 [(10, pA 1 (Some 7) None); (15, pA 3 None (Some 8))] [((10, 15), (4, []))].
(* B1 has 10, B3 has 11, B2 has both and the connection between them *)
Definition B1 : adm := mkAdm 1 [(10, pA 1 None None)] [].
Definition B3 : adm := mkAdm 3 [(11, pA 2 None None)] [].
Definition B2 : adm := mkAdm 2 [(10, pA 1 None None); (11, pA 2 None None)] [((10, 11), (4, []))].
(* D2 speaks for node 12, which A1 already delegates *)
Definition D2 : adm := mkAdm 2 [(12, pA 3 (Some 7) None)] [].

Lemma fam_A_consistent : consistent [A1; A2; A3] /\ Forall wf_adm [A1; A2; A3].
Proof. split; [apply consistentb_sound | apply Forall_wf_admb]; vm_compute; reflexivity. Qed.

Lemma fam_B_consistent : consistent [B1; B3; B2] /\ Forall wf_adm [B1; B3; B2].
Proof. split; [apply consistentb_sound | apply Forall_wf_admb]; vm_compute; reflexivity. Qed.

Definition the (o : option cbm) : cbm := match o with Some C => C | None => empty end.
Definition CA1 : cbm := the (merge_all [A1]).
Definition CB13 : cbm := the (merge_all [B1; B3]).


(* the full statement "merge then unmerge restores the combined model" is FALSE of the model (and of the
   code) without "no new inner connection": the family [B1; B3; B2] is consistent, yet unmerging B2 leaves its
   connection 10 - 11 behind (connections carry no contributor record) *)
Theorem unmerge_inverse_edge_refuted :
  exists C A C', wf_cbm C /\ wf_adm A /\ not_contributor (adm_id A) C /\
                 smerge C A = Some C' /\ ~ eqv (sunmerge C' (adm_id A)) C.
Proof.
  exists CB13, B2, (the (smerge CB13 B2)). split; [apply (merge_all_wf [B1; B3]); vm_compute; reflexivity|]. split; [apply wf_admb_sound; vm_compute; reflexivity|].
  split; [apply not_contributorb_sound; vm_compute; reflexivity|].
  split; [vm_compute; reflexivity|].
  intros [_ H]. specialize (H (10, 11)). vm_compute in H. discriminate.
Qed.

(* without "a shared element is described identically" the result DOES depend on the merge order: the
   combined model keeps the class / plain properties of whichever model was merged first *)
Definition P1 : adm := mkAdm 1 [(10, mkA 1 [(5, 6)] None None)] [].
Definition P2 : adm := mkAdm 2 [(10, mkA 1 [(5, 7)] None None); (11, mkA 2 [] None (Some 8))] [((10, 11), (4, []))].
Theorem order_dependent_refuted :
  exists A B C C', wf_adm A /\ wf_adm B /\ one_speaker A B /\
                   merge_all [A; B] = Some C /\ merge_all [B; A] = Some C' /\ ~ eqv C C'.
Proof.
  exists P1, P2, (the (merge_all [P1; P2])), (the (merge_all [P2; P1])).
  split; [apply wf_admb_sound; vm_compute; reflexivity|]. split; [apply wf_admb_sound; vm_compute; reflexivity|].
  split; [apply one_speakerb_sound; vm_compute; reflexivity|].
  split; [vm_compute; reflexivity|]. split; [vm_compute; reflexivity|].
  intros [H _]. specialize (H 10). vm_compute in H. destruct H as (_ & H & _). discriminate.
Qed.

Lemma ex_order :
  exists C C', merge_all [A1; A2; A3] = Some C /\ merge_all [A3; A2; A1] = Some C' /\
               getn 10 (nodes C) = Some (mkC 1 [(5, 6)] [1; 2] (Some (2, 7)) None) /\
               getn 10 (nodes C') = Some (mkC 1 [(5, 6)] [2; 1] (Some (2, 7)) None).
Proof. eexists. eexists. repeat split; vm_compute; reflexivity. Qed.

Lemma ex_unmerge :
  wf_cbm CA1 /\ wf_adm A2 /\ not_contributor (adm_id A2) CA1 /\ no_new_inner_edges CA1 A2 /\
  exists C', smerge CA1 A2 = Some C' /\ hasn 13 (nodes C') = true /\ hasn 13 (nodes (sunmerge C' 2)) = false /\
             gete (10, 11) (edges C') = Some (4, []).
Proof.
  split; [apply (merge_all_wf [A1]); vm_compute; reflexivity|]. split; [apply wf_admb_sound; vm_compute; reflexivity|].
  split; [apply not_contributorb_sound; vm_compute; reflexivity|].
  split; [apply no_new_inner_edgesb_sound; vm_compute; reflexivity|].
  eexists. repeat split; vm_compute; reflexivity.
Qed.

Lemma ex_double_speaker : smerge CA1 D2 = None.
Proof. vm_compute. reflexivity. Qed.

Definition ex_ops : list hop :=
  [HMerge A1; HSnap 100; HMerge A2; HUnmerge 1; HMerge A3; HRollback 100; HMerge A3; HUnmerge 9].
Lemma ex_history :
  Forall op_wf ex_ops /\
  map fst (nodes (h_cur (hrun hinit ex_ops))) = [10; 11; 12; 13; 14] /\ map adm_id (h_ms (hrun hinit ex_ops)) = [1; 3].
Proof.
  split; [|split; vm_compute; reflexivity].
  unfold ex_ops. repeat (apply Forall_cons; [simpl; try exact I; try (apply wf_admb_sound; vm_compute; reflexivity)|]).
  apply Forall_nil.
Qed.

Lemma ex_rollback :
  hasn 100 (h_snaps (hrun hinit [HMerge A1])) = false /\
  forallb (fun o => negb (touches 100 o)) [HMerge A2; HSnap 101; HUnmerge 1; HRollback 101; HMerge A3] = true /\
  nodes (h_cur (hrun (hstep (hrun hinit [HMerge A1]) (HSnap 100)) [HMerge A2; HSnap 101; HUnmerge 1; HRollback 101; HMerge A3]))
    <> nodes (h_cur (hrun hinit [HMerge A1])).
Proof. split; [|split]; vm_compute; try reflexivity. discriminate. Qed.

(* two snapshots outstanding at the same time, the model changed in between, rolled back in either order: each
   rollback gives the model of ITS snapshot (instance of rollback_restores; a later HSnap with another id is one of
   the "operations not using that snapshot id") *)
Lemma ex_two_snapshots :
  let s1 := hrun hinit [HMerge A1] in
  let s2 := hrun hinit [HMerge A1; HSnap 100; HMerge A2] in
  let mid := [HMerge A2; HSnap 101; HMerge A3] in
  forallb (fun o => negb (touches 100 o)) mid = true /\
  h_cur (hrun hinit ([HMerge A1; HSnap 100] ++ mid ++ [HRollback 100])) = h_cur s1 /\
  h_cur (hrun hinit ([HMerge A1; HSnap 100] ++ mid ++ [HRollback 101])) = h_cur s2 /\
  h_cur (hrun hinit ([HMerge A1; HSnap 100] ++ mid ++ [HRollback 101; HRollback 100])) = h_cur s1 /\
  nodes (h_cur s1) <> nodes (h_cur s2).
Proof. repeat split; try (vm_compute; reflexivity). vm_compute. discriminate. Qed.
