(* C11: the topology collectors are sequences of writes into the attribute mapping; what a sequence of
   writes leaves under each key. *)
From Coq Require Import List ZArith NArith Bool String Permutation.
From FIM Require Import Base.Str Base.ListFacts Gen.CollectGen Model.Collect11 Model.Collect11Spec Proofs.Collect11Tables.
Import ListNotations.

Lemma Permutation_filter' {A} (f : A -> bool) l l' : Permutation l l' -> Permutation (filter f l) (filter f l').
Proof.
  induction 1; simpl.
  - constructor.
  - destruct (f x); [constructor|]; assumption.
  - destruct (f x), (f y); try constructor; try apply Permutation_refl.
  - eapply Permutation_trans; eassumption.
Qed.

(* adding a value unless it is there: add_unique / addus on attribute values, sadd on the LogCollector's sets of strings *)
Section AddOnce.
  Context {A : Type} (eqb : A -> A -> bool) (eqb_eq : forall a b, eqb a b = true <-> a = b).

  Definition add_once (x : A) (l : list A) : list A := if existsb (eqb x) l then l else l ++ [x].
  Definition add_all (xs l : list A) : list A := fold_left (fun l x => add_once x l) xs l.

  Lemma add_once_In y l x : In x (add_once y l) <-> In x l \/ y = x.
  Proof.
    unfold add_once. destruct (existsb (eqb y) l) eqn:E.
    - apply (existsb_eqb_In eqb eqb_eq) in E. split; [tauto | intros [H|<-]; assumption].
    - rewrite in_app_iff. simpl. tauto.
  Qed.

  Lemma add_once_NoDup y l : NoDup l -> NoDup (add_once y l).
  Proof.
    unfold add_once. intro H. destruct (existsb (eqb y) l) eqn:E; [exact H|].
    apply NoDup_snoc; [exact H|]. rewrite <- (existsb_eqb_In eqb eqb_eq), E. discriminate.
  Qed.

  Lemma add_all_In xs l x : In x (add_all xs l) <-> In x l \/ In x xs.
  Proof.
    unfold add_all. revert l. induction xs as [|y r IH]; simpl; intro l; [tauto|].
    rewrite IH, add_once_In. clear IH. tauto.
  Qed.

  Lemma add_all_NoDup xs l : NoDup l -> NoDup (add_all xs l).
  Proof.
    unfold add_all. revert l. induction xs as [|y r IH]; simpl; intros l H; [exact H|].
    apply IH, add_once_NoDup, H.
  Qed.

  (* values already there change nothing *)
  Lemma add_all_absorbed xs l : (forall x, In x xs -> In x l) -> add_all xs l = l.
  Proof.
    unfold add_all. induction xs as [|y r IH]; simpl; intro H; [reflexivity|].
    unfold add_once at 2. rewrite (proj2 (existsb_eqb_In eqb eqb_eq y l)) by (apply H; left; reflexivity).
    apply IH. intros x Hx. apply H. right. exact Hx.
  Qed.

  (* the result depends on the values as a set only *)
  Lemma add_all_perm xs ys : Permutation xs ys -> Permutation (add_all xs []) (add_all ys []).
  Proof.
    intro H. apply NoDup_Permutation; try (apply add_all_NoDup; constructor).
    intro x. rewrite !add_all_In, H. reflexivity.
  Qed.
End AddOnce.

Lemma aval_eqb_eq a b : aval_eqb a b = true <-> a = b.
Proof.
  destruct a as [x|x], b as [y|y]; simpl; split; intro H; try discriminate; try congruence.
  - apply Z.eqb_eq in H. congruence.
  - inversion H. apply Z.eqb_refl.
  - apply str_eqb_eq in H. congruence.
  - inversion H. apply str_eqb_refl.
Qed.

Lemma amem_In v l : amem v l = true <-> In v l.
Proof. apply existsb_eqb_In, aval_eqb_eq. Qed.

Lemma opt_str_eqb_eq a b : opt_str_eqb a b = true <-> a = b.
Proof.
  destruct a as [x|], b as [y|]; simpl; split; intro H; try discriminate; try congruence.
  - apply str_eqb_eq in H. congruence.
  - inversion H. apply str_eqb_refl.
Qed.

Lemma mem_port_In p ports : mem_port p ports = true <-> In p ports.
Proof. apply existsb_eqb_In, opt_str_eqb_eq. Qed.

Lemma mem_port_same p ports ports' : same_ports ports ports' -> mem_port p ports = mem_port p ports'.
Proof. intro H. apply eq_true_iff_eq. rewrite !mem_port_In. apply H. Qed.

Lemma add_unique_In v l x : In x (add_unique v l) <-> In x l \/ v = x.
Proof. exact (add_once_In aval_eqb aval_eqb_eq v l x). Qed.

Lemma add_unique_NoDup v l : NoDup l -> NoDup (add_unique v l).
Proof. exact (add_once_NoDup aval_eqb aval_eqb_eq v l). Qed.

Lemma add_unique_ne v l : add_unique v l <> [].
Proof. intro E. assert (H : In v (add_unique v l)) by (apply add_unique_In; right; reflexivity). rewrite E in H. exact H. Qed.

Definition addus (vals l : list aval) : list aval := fold_left (fun l v => add_unique v l) vals l.

Lemma addus_In vals l x : In x (addus vals l) <-> In x l \/ In x vals.
Proof. exact (add_all_In aval_eqb aval_eqb_eq vals l x). Qed.

Lemma addus_NoDup vals l : NoDup l -> NoDup (addus vals l).
Proof. exact (add_all_NoDup aval_eqb aval_eqb_eq vals l). Qed.

Lemma addus_app a b l : addus (a ++ b) l = addus b (addus a l).
Proof. apply fold_left_app. Qed.

Lemma addus_absorbed vals l : (forall v, In v vals -> In v l) -> addus vals l = l.
Proof. exact (add_all_absorbed aval_eqb aval_eqb_eq vals l). Qed.

Lemma addus_perm a b : Permutation a b -> Permutation (addus a []) (addus b []).
Proof. exact (add_all_perm aval_eqb aval_eqb_eq a b). Qed.

Lemma addus_ne vals l : l <> [] \/ vals <> [] -> addus vals l <> [].
Proof.
  unfold addus. revert l. induction vals as [|v r IH]; simpl; intros l H.
  - destruct H; congruence.
  - apply IH. left. apply add_unique_ne.
Qed.

Lemma getk_upd k k' f m : getk k (upd k' f m) = if N.eqb k k' then f (getk k m) else getk k m.
Proof.
  induction m as [|[k0 l] r IH]; simpl.
  - destruct (N.eqb k k'); reflexivity.
  - destruct (N.eqb_spec k' k0) as [<-|Hn]; simpl.
    + destruct (N.eqb k k'); reflexivity.
    + destruct (N.eqb_spec k k0) as [->|_]; [|exact IH].
      rewrite (proj2 (N.eqb_neq k0 k')) by congruence. reflexivity.
Qed.

Lemma keys_upd k k' f m : In k (keys (upd k' f m)) <-> k' = k \/ In k (keys m).
Proof.
  unfold keys. induction m as [|[k0 l] r IH]; simpl.
  - tauto.
  - destruct (N.eqb_spec k' k0) as [->|_]; simpl; [|rewrite IH]; clear IH; tauto.
Qed.

Lemma getk_nonempty_key k m : getk k m <> [] -> In k (keys m).
Proof.
  unfold keys. induction m as [|[k0 l] r IH]; simpl; [congruence|].
  destruct (N.eqb_spec k k0) as [->|_]; [left; reflexivity | right; auto].
Qed.

Lemma getk_In k m : In k (keys m) -> In (k, getk k m) m.
Proof.
  unfold keys. induction m as [|[k0 l] r IH]; simpl; [tauto|].
  destruct (N.eqb_spec k k0) as [->|Hn]; [left; reflexivity|]. intros [E|H]; [congruence | right; exact (IH H)].
Qed.

(* no key maps to the empty list *)
Definition NE (m : attrs) : Prop := forall k, In k (keys m) -> getk k m <> [].

Lemma NE_upd k f m : NE m -> (forall l, f l <> []) -> NE (upd k f m).
Proof.
  intros H Hf k0 Hk. rewrite getk_upd. destruct (N.eqb_spec k0 k) as [->|Hn]; [apply Hf|].
  apply keys_upd in Hk as [Hk|Hk]; [congruence | exact (H k0 Hk)].
Qed.

Lemma comps_fold_keys k cs m :
  In k (keys (fold_left (fun m c => dd_append A_RESOURCE_COMPONENT (AS c) m) cs m)) ->
  In k (keys m) \/ k = A_RESOURCE_COMPONENT.
Proof.
  revert m. induction cs as [|c r IH]; simpl; intros m H; [tauto|].
  apply IH in H as [H|H]; [|tauto]. apply keys_upd in H as [<-|H]; tauto.
Qed.

Definition sel (k : N) (ps : list (N * aval)) : list aval := map snd (filter (fun p => N.eqb (fst p) k) ps).

Lemma required_of_sel k s : required_of k s = sel k (required s).
Proof. reflexivity. Qed.

Lemma sel_app k a b : sel k (a ++ b) = sel k a ++ sel k b.
Proof. unfold sel. rewrite filter_app, map_app. reflexivity. Qed.

Lemma sel_tag k k' l : sel k (tag k' l) = if N.eqb k' k then l else [].
Proof.
  unfold sel, tag. induction l as [|v r IH]; simpl; [destruct (N.eqb k' k); reflexivity|].
  destruct (N.eqb k' k) eqn:E; simpl; rewrite IH; reflexivity.
Qed.

Lemma sel_flat_map {A} k (g : A -> list (N * aval)) l : sel k (flat_map g l) = flat_map (fun x => sel k (g x)) l.
Proof. induction l as [|x r IH]; simpl; [reflexivity|]. rewrite sel_app, IH. reflexivity. Qed.

Lemma sel_In k v ps : In v (sel k ps) <-> In (k, v) ps.
Proof.
  unfold sel. rewrite in_map_iff. split.
  - intros [[k0 v0] [H1 H2]]. simpl in H1. subst v0. apply filter_In in H2 as [H2 H3].
    apply N.eqb_eq in H3. simpl in H3. subst. exact H2.
  - intro H. exists (k, v). split; [reflexivity|]. apply filter_In. split; [exact H | apply N.eqb_refl].
Qed.

Lemma tag_map {X} k (h : X -> aval) xs : tag k (map h xs) = flat_map (fun x => [(k, h x)]) xs.
Proof. unfold tag. induction xs as [|x r IH]; simpl; congruence. Qed.

(* what writing the values `vals` under key k does to the list stored there: a site attribute takes a value once,
   every other attribute takes them all *)
Definition put (k : N) (vals l : list aval) : list aval := if memN k set_keys then addus vals l else l ++ vals.

Lemma put_nil k l : put k [] l = l.
Proof. unfold put. destruct (memN k set_keys); [reflexivity | apply app_nil_r]. Qed.

Lemma put_app k a b l : put k (a ++ b) l = put k b (put k a l).
Proof. unfold put. destruct (memN k set_keys); [apply addus_app | apply app_assoc]. Qed.

Lemma put_In k vals l x : In x (put k vals l) <-> In x l \/ In x vals.
Proof. unfold put. destruct (memN k set_keys); [apply addus_In | apply in_app_iff]. Qed.

Lemma put_ne k v l : put k [v] l <> [].
Proof. unfold put. destruct (memN k set_keys); [apply add_unique_ne | destruct l; discriminate]. Qed.

Lemma put_multi k vals l : In k multi_keys -> put k vals l = l ++ vals.
Proof.
  intro H. unfold put. replace (memN k set_keys) with false; [reflexivity|].
  symmetry. apply negb_true_iff. revert k H. apply forallb_forall. reflexivity.
Qed.

Lemma put_set k vals l : In k set_keys -> put k vals l = addus vals l.
Proof. intro H. unfold put. rewrite (proj2 (memN_In k set_keys) H). reflexivity. Qed.

(* dd_append under a per-resource key and dd_append_unique under a site key are both `write` *)
Definition write (m : attrs) (p : N * aval) : attrs := upd (fst p) (put (fst p) [snd p]) m.

Lemma getk_writes k ps m : getk k (fold_left write ps m) = put k (sel k ps) (getk k m).
Proof.
  revert m. induction ps as [|[k' v] ps IH]; intro m; simpl; [symmetry; apply put_nil|].
  rewrite IH. unfold write, sel. cbn [fst snd filter]. rewrite getk_upd, (N.eqb_sym k' k).
  destruct (N.eqb_spec k k') as [<-|_]; [|reflexivity]. symmetry. apply (put_app k [v]).
Qed.

Lemma writes_flat_map {X} (g : X -> list (N * aval)) xs m :
  fold_left (fun m x => fold_left write (g x) m) xs m = fold_left write (flat_map g xs) m.
Proof. revert m. induction xs as [|x r IH]; intro m; simpl; [reflexivity|]. rewrite fold_left_app. apply IH. Qed.

Lemma getk_fold {X} k (f : attrs -> X -> attrs) (g : X -> list (N * aval)) :
  (forall m x, getk k (f m x) = put k (sel k (g x)) (getk k m)) ->
  forall xs m, getk k (fold_left f xs m) = put k (sel k (flat_map g xs)) (getk k m).
Proof.
  intros H xs. induction xs as [|x r IH]; intro m; simpl; [symmetry; apply put_nil|].
  rewrite IH, H, sel_app, put_app. reflexivity.
Qed.

Definition sw_val : list aval := [AS (S"switch-p4")].

(* the order in which _collect_attributes_from_node_sliver writes; `required_node` lists the site first *)
Definition node_writes (n : node) : list (N * aval) :=
  tag A_RESOURCE_CPU (node_cpu n) ++ tag A_RESOURCE_RAM (node_ram n) ++ tag A_RESOURCE_DISK (node_disk n) ++
  tag A_RESOURCE_SITE (node_site n) ++ tag A_RESOURCE_COMPONENT (node_comps n).

Lemma collect_node_writes m n :
  collect_node m n = fold_left write (node_writes n)
                       (if N.eqb (n_kind n) NT_Switch then dd_set A_RESOURCE_TYPE sw_val m else m).
Proof.
  unfold collect_node, node_writes, node_comps. rewrite !fold_left_app, tag_map, <- writes_flat_map.
  unfold node_cpu, node_ram, node_disk, node_site.
  destruct (n_caps n) as [[[c r] d]|], (n_site n); reflexivity.
Qed.

Lemma node_writes_sel k n : sel k (node_writes n) = sel k (required_node n).
Proof.
  unfold node_writes, required_node. rewrite !sel_app, !sel_tag.
  destruct (N.eqb_spec A_RESOURCE_SITE k) as [<-|_]; reflexivity.
Qed.

Definition collect_svc_pure (ports : list (option str)) (m : attrs) (v : svc) : attrs :=
  let m := collect_svc_base m v in
  if is_special v then
    match lookupN (s_type v) nstype_lut with
    | None => m
    | Some rn => if in_slice_mirror ports v then m else dd_append_unique rn (AS (site_or_unknown v)) m
    end
  else m.

Lemma fold_bind_err {A X} (f : X -> A -> res A) xs e : fold_left (fun acc x => bind acc (f x)) xs (Err e) = Err e.
Proof. induction xs as [|x r IH]; [reflexivity | exact IH]. Qed.

Lemma collect_svc_ok ports m v : collect_svc ports m v = Ok (collect_svc_pure ports m v).
Proof.
  unfold collect_svc, collect_svc_pure. destruct (is_special v) eqn:E; [|reflexivity].
  destruct (lut_total _ E) as [rn Hrn]. rewrite Hrn.
  destruct (in_slice_mirror ports v); reflexivity.
Qed.

Lemma collect_svcs_ok ports vs m : collect_svcs ports m vs = Ok (fold_left (collect_svc_pure ports) vs m).
Proof.
  unfold collect_svcs. revert m. induction vs as [|v r IH]; simpl; intro m; [reflexivity|].
  rewrite collect_svc_ok. apply IH.
Qed.

Definition svc_writes (ports : list (option str)) (v : svc) : list (N * aval) :=
  tag A_RESOURCE_BW (svc_bw v) ++ tag A_RESOURCE_SITE (svc_site v) ++ svc_typed_site ports v.

(* the guarded set, NSTYPE_LUT and the exemption of in-slice mirrors against the specification's three cases *)
Lemma collect_svc_writes ports m v : collect_svc_pure ports m v = fold_left write (svc_writes ports v) m.
Proof.
  unfold collect_svc_pure, svc_writes. rewrite !fold_left_app.
  replace (fold_left write (tag A_RESOURCE_SITE (svc_site v)) (fold_left write (tag A_RESOURCE_BW (svc_bw v)) m))
    with (collect_svc_base m v)
    by (unfold collect_svc_base, svc_bw, svc_site; destruct (s_bw v), (s_site v); reflexivity).
  generalize (collect_svc_base m v). intro m'.
  unfold is_special, in_slice_mirror, svc_typed_site, mirror_outside. rewrite mirror_type_is.
  destruct lut_v4 as [L4 M4], lut_v6 as [L6 M6], lut_pm as [Lp Mp].
  destruct (N.eqb_spec (s_type v) ST_FABNetv4Ext) as [E|N4]; [rewrite E, M4, L4; reflexivity|].
  destruct (N.eqb_spec (s_type v) ST_FABNetv6Ext) as [E|N6]; [rewrite E, M6, L6; reflexivity|].
  destruct (N.eqb_spec (s_type v) ST_PortMirror) as [E|Np].
  - rewrite E, Mp, Lp. destruct (mem_port (s_mirror v) ports); reflexivity.
  - destruct (memN (s_type v) special_types) eqn:Es; [|reflexivity]. apply special_only in Es. tauto.
Qed.

Lemma svc_writes_sel k ports v : sel k (svc_writes ports v) = sel k (required_svc ports v).
Proof.
  unfold svc_writes, required_svc. rewrite !sel_app, !sel_tag.
  destruct (N.eqb_spec A_RESOURCE_SITE k) as [<-|_]; reflexivity.
Qed.

Definition topo_pure (m : attrs) (s : slice) : attrs :=
  fold_left (fun m f => dd_append A_RESOURCE_FACILITY_PORT (AS f) m) (sl_facs s)
    (fold_left (collect_svc_pure (sl_ports s)) (sl_svcs s) (fold_left collect_node (sl_nodes s) m)).

Lemma collect_topo_ok m s : collect_topo m s = Ok (topo_pure m s).
Proof. unfold collect_topo, topo_pure. rewrite collect_svcs_ok. reflexivity. Qed.

Lemma facs_writes fs m :
  fold_left (fun m f => dd_append A_RESOURCE_FACILITY_PORT (AS f) m) fs m
  = fold_left write (tag A_RESOURCE_FACILITY_PORT (map AS fs)) m.
Proof. rewrite tag_map. exact (writes_flat_map (fun f => [(A_RESOURCE_FACILITY_PORT, AS f)]) fs m). Qed.

(* the keys a topology collection writes, the resource type apart *)
Definition topo_keys : list N := multi_keys ++ set_keys.
Definition topo_pairs : list (N * aval) -> Prop := Forall (fun p => In (fst p) topo_keys).

Lemma topo_pairs_tag k l : memN k topo_keys = true -> topo_pairs (tag k l).
Proof. intro H. apply Forall_map, Forall_forall. intros. apply memN_In, H. Qed.

Lemma node_writes_keys n : topo_pairs (node_writes n).
Proof. repeat (apply Forall_app; split); apply topo_pairs_tag; reflexivity. Qed.

Lemma svc_writes_keys ports v : topo_pairs (svc_writes ports v).
Proof.
  repeat (apply Forall_app; split); try (apply topo_pairs_tag; reflexivity). unfold svc_typed_site.
  destruct (N.eqb (s_type v) ST_FABNetv4Ext); [apply (topo_pairs_tag _ [_]); reflexivity|].
  destruct (N.eqb (s_type v) ST_FABNetv6Ext); [apply (topo_pairs_tag _ [_]); reflexivity|].
  destruct (_ && _); [apply (topo_pairs_tag _ [_]); reflexivity | constructor].
Qed.

Lemma written_not_type k : In k topo_keys -> k <> A_RESOURCE_TYPE.
Proof. intros H ->. apply memN_In in H. discriminate H. Qed.

Lemma multi_not_type k : In k multi_keys -> k <> A_RESOURCE_TYPE.
Proof. intro H. apply written_not_type, in_or_app. left. exact H. Qed.

Lemma set_not_type k : In k set_keys -> k <> A_RESOURCE_TYPE.
Proof. intro H. apply written_not_type, in_or_app. right. exact H. Qed.

Lemma sel_type ps : topo_pairs ps -> sel A_RESOURCE_TYPE ps = [].
Proof.
  induction 1 as [|[k v] ps Hk _ IH]; [reflexivity|]. unfold sel. cbn [filter fst].
  rewrite (proj2 (N.eqb_neq _ _) (written_not_type k Hk)). exact IH.
Qed.

Lemma collect_svc_getk k ports m v :
  getk k (collect_svc_pure ports m v) = put k (sel k (required_svc ports v)) (getk k m).
Proof. rewrite collect_svc_writes, getk_writes, svc_writes_sel. reflexivity. Qed.

Lemma getk_retype k l m : k <> A_RESOURCE_TYPE -> getk k (dd_set A_RESOURCE_TYPE l m) = getk k m.
Proof. intro H. unfold dd_set. rewrite getk_upd, (proj2 (N.eqb_neq _ _) H). reflexivity. Qed.

Lemma collect_node_getk k m n : k <> A_RESOURCE_TYPE ->
  getk k (collect_node m n) = put k (sel k (required_node n)) (getk k m).
Proof.
  intro H. rewrite collect_node_writes, getk_writes, node_writes_sel.
  destruct (N.eqb (n_kind n) NT_Switch); [rewrite getk_retype by exact H|]; reflexivity.
Qed.

(* services and facilities in closed form for every key, the node fold still to be done *)
Lemma topo_getk_rest m s k :
  getk k (topo_pure m s)
  = put k (sel k (flat_map (required_svc (sl_ports s)) (sl_svcs s) ++ tag A_RESOURCE_FACILITY_PORT (map AS (sl_facs s))))
      (getk k (fold_left collect_node (sl_nodes s) m)).
Proof.
  unfold topo_pure. rewrite facs_writes, getk_writes, sel_app, put_app. f_equal.
  apply getk_fold. intros. apply collect_svc_getk.
Qed.

Theorem topo_getk m s k : k <> A_RESOURCE_TYPE -> getk k (topo_pure m s) = put k (required_of k s) (getk k m).
Proof.
  intro H. rewrite topo_getk_rest, required_of_sel. unfold required.
  rewrite (sel_app k (flat_map required_node _)), put_app. f_equal.
  apply getk_fold. intros. apply collect_node_getk, H.
Qed.

(* the resource type: no pair of `required` carries it, a switch sets it *)
Lemma sel_type_node n : sel A_RESOURCE_TYPE (required_node n) = [].
Proof. rewrite <- node_writes_sel. apply sel_type, node_writes_keys. Qed.

Lemma sel_type_rest s :
  sel A_RESOURCE_TYPE (flat_map (required_svc (sl_ports s)) (sl_svcs s) ++ tag A_RESOURCE_FACILITY_PORT (map AS (sl_facs s))) = [].
Proof.
  rewrite sel_app, sel_tag, sel_flat_map, flat_map_nil; [reflexivity|].
  intros v _. rewrite <- svc_writes_sel. apply sel_type, svc_writes_keys.
Qed.

Lemma required_no_type s v : ~ In (A_RESOURCE_TYPE, v) (required s).
Proof.
  rewrite <- sel_In. unfold required.
  rewrite (sel_app _ (flat_map required_node _)), sel_type_rest, sel_flat_map, flat_map_nil by (intros; apply sel_type_node).
  intros [].
Qed.

Lemma collect_node_type m n :
  getk A_RESOURCE_TYPE (collect_node m n) = if N.eqb (n_kind n) NT_Switch then sw_val else getk A_RESOURCE_TYPE m.
Proof.
  rewrite collect_node_writes, getk_writes, node_writes_sel, sel_type_node, put_nil.
  destruct (N.eqb (n_kind n) NT_Switch); [apply getk_upd | reflexivity].
Qed.

Theorem type_closed m s : getk A_RESOURCE_TYPE (topo_pure m s) = if has_switch s then sw_val else getk A_RESOURCE_TYPE m.
Proof.
  rewrite topo_getk_rest, sel_type_rest, put_nil. unfold has_switch.
  revert m. induction (sl_nodes s) as [|n r IH]; simpl; intro m; [reflexivity|].
  rewrite IH, collect_node_type. destruct (N.eqb (n_kind n) NT_Switch); simpl; [|reflexivity].
  destruct (existsb _ r); reflexivity.
Qed.

Section Kept.
  Variable P : attrs -> Prop.
  Hypothesis Pwrite : forall m p, In (fst p) topo_keys -> P m -> P (write m p).
  Hypothesis Ptype : forall m, P m -> P (dd_set A_RESOURCE_TYPE sw_val m).

  Lemma writes_kept ps m : topo_pairs ps -> P m -> P (fold_left write ps m).
  Proof.
    intro H. revert m. induction H as [|p ps Hp _ IH]; simpl; intros m Hm; [exact Hm | apply IH, Pwrite; assumption].
  Qed.

  Lemma collect_node_kept m n : P m -> P (collect_node m n).
  Proof.
    intro H. rewrite collect_node_writes. apply writes_kept; [apply node_writes_keys|].
    destruct (N.eqb (n_kind n) NT_Switch); [apply Ptype|]; exact H.
  Qed.

  Lemma collect_svc_kept ports m v : P m -> P (collect_svc_pure ports m v).
  Proof. rewrite collect_svc_writes. apply writes_kept, svc_writes_keys. Qed.

  Lemma topo_kept m s : P m -> P (topo_pure m s).
  Proof.
    intro H. unfold topo_pure. rewrite facs_writes. apply writes_kept; [apply topo_pairs_tag; reflexivity|].
    apply fold_left_inv; [intros; apply collect_svc_kept; assumption|].
    apply fold_left_inv; [intros; apply collect_node_kept; assumption | exact H].
  Qed.
End Kept.

Lemma topo_NE m s : NE m -> NE (topo_pure m s).
Proof.
  apply topo_kept.
  - intros m0 p _ H. apply NE_upd; [exact H | intro l; apply put_ne].
  - intros m0 H. apply NE_upd; [exact H | discriminate].
Qed.

Lemma init_NE : NE init_attrs.
Proof. intros k [<-|[]]. discriminate. Qed.
