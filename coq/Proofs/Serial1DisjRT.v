(* C01 proofs for the second store flavour (Model/Serial1Disjoint.v, NetworkXGraphStorageDisjoint as of /repo commit
   74c0984): what the four entry points do to a serialized graph of this store - on a free graph id, on an id
   that already holds nodes (re-stamping entry points: skipped; direct entry points: REPLACED), and that no other
   graph is touched. *)
From Coq Require Import List NArith Bool.
From FIM Require Import Base.Str Model.Serial1Graph Model.Serial1Json Model.Serial1Corr Model.Serial1Disjoint.
From FIM Require Import Proofs.Serial1Doc Proofs.Serial1Store Proofs.Serial1Main.
Import ListNotations.
Open Scope N_scope.

Lemma dget_dset_same s gid g : dget (dset s gid g) gid = g.
Proof.
  induction s as [|[k g'] r IH]; simpl; [rewrite str_eqb_refl; reflexivity|].
  destruct (str_eqb k gid) eqn:E; simpl; rewrite E; [reflexivity|exact IH].
Qed.

Lemma dget_dset_other s gid g other : other <> gid -> dget (dset s gid g) other = dget s other.
Proof.
  intro NE. induction s as [|[k g'] r IH]; simpl.
  - destruct (str_eqb gid other) eqn:E; [apply str_eqb_eq in E; congruence|reflexivity].
  - destruct (str_eqb k gid) eqn:E; simpl.
    + apply str_eqb_eq in E. subst k. destruct (str_eqb gid other) eqn:E2; [apply str_eqb_eq in E2; congruence|reflexivity].
    + destruct (str_eqb k other); [reflexivity|exact IH].
Qed.

(* the copies this store files: ids always start at 1 *)
Definition d_copy_of (gid : str) (g : nxg) : nxg := stamp gid (relabelled 1 g).
Definition d_copy_direct (g : nxg) : nxg := relabelled 1 g.

Lemma d_add_graph_free s gid g :
  nonempty (dget s gid) = false -> NoDup (map fst (g_nodes g)) -> closed g -> graph_ids_ok g = true ->
  d_add_graph s gid g = (dset s gid (d_copy_of gid g), ROk gid).
Proof.
  intros F ND CL IDS. unfold d_add_graph. rewrite F, (relabel_spec _ g ND CL).
  fold (graph_ids_ok (relabelled 1 g)). rewrite relabelled_ids_ok, IDS. reflexivity.
Qed.

Lemma d_add_graph_direct_spec s gid g : NoDup (map fst (g_nodes g)) -> closed g ->
  d_add_graph_direct s gid g = (dset s gid (d_copy_direct g), ROk gid).
Proof. intros ND CL. unfold d_add_graph_direct. rewrite (relabel_spec _ g ND CL). reflexivity. Qed.

(* the text of the graph filed under an id, and what the entry points do with a text that denotes a non-empty graph *)
Lemma d_serialize_then_read f s gid g : dget s gid = g -> fmt_ok f g = true ->
  exists t, d_serialize_graph s gid f = Some (Some t) /\ text_graph t = Some g.
Proof.
  intros E OK. destruct (serialize_then_read f g OK) as (t & SE & RD). exists t.
  unfold d_serialize_graph. rewrite E, SE. split; [reflexivity|exact RD].
Qed.

Lemma d_import_restamp ep s t gid g : is_direct ep = false -> read_any t = Some g -> g_nodes g <> [] ->
  d_import_via ep s t gid = d_add_graph s gid g.
Proof.
  intros D T NE. unfold d_import_via, file_trip, d_import_string. rewrite D, T, (nonempty_b _ NE). reflexivity.
Qed.

Lemma d_import_direct ep s t gid g : is_direct ep = true -> read_any t = Some g -> g_nodes g <> [] ->
  (forall n, In n (g_nodes g) -> has_gid gid n = true) ->
  forall gid', d_import_via ep s t gid' = d_add_graph_direct s gid g.
Proof.
  intros D T NE HG gid'. unfold d_import_via, file_trip, d_import_string_direct.
  rewrite D, (get_graph_id_spec t _ _ T NE HG), T, (nonempty_b _ NE). reflexivity.
Qed.

(* import_graph_from_string / _from_file (re-stamping) onto a graph id that holds no nodes: the copy is filed,
   nothing else changes *)
Theorem d_roundtrip_restamp_free f ep s gid gid' g :
  is_direct ep = false -> dget s gid = g -> g_nodes g <> [] ->
  fmt_ok f g = true -> graph_ids_ok g = true -> nonempty (dget s gid') = false ->
  exists t s',
    d_serialize_graph s gid f = Some (Some t)
    /\ d_import_via ep s t gid' = (s', ROk gid')
    /\ dget s' gid' = d_copy_of gid' g
    /\ content (dget s' gid') = content (restamp gid' g)
    /\ (forall other, other <> gid' -> dget s' other = dget s other).
Proof.
  intros D E NE OK IDS FR. destruct (d_serialize_then_read f s gid g E OK) as (t & SE & TG).
  destruct (proj1 (graph_shape_iff g) (fmt_ok_shape f g OK)) as [ND CL].
  exists t, (dset s gid' (d_copy_of gid' g)). split; [exact SE|].
  rewrite (d_import_restamp ep s t gid' g D TG NE), dget_dset_same.
  split; [apply d_add_graph_free; assumption|]. split; [reflexivity|].
  split; [apply content_stamp_relabelled; assumption|]. intros other NEQ. apply dget_dset_other, NEQ.
Qed.

(* onto a graph id that already holds nodes (in particular onto the source id itself): the call returns
   normally and the store is exactly as before - the text is NOT imported *)
Theorem d_roundtrip_restamp_busy f ep s gid gid' g :
  is_direct ep = false -> dget s gid = g -> g_nodes g <> [] -> fmt_ok f g = true ->
  nonempty (dget s gid') = true ->
  exists t, d_serialize_graph s gid f = Some (Some t) /\ d_import_via ep s t gid' = (s, ROk gid').
Proof.
  intros D E NE OK BUSY. destruct (d_serialize_then_read f s gid g E OK) as (t & SE & TG).
  exists t. split; [exact SE|]. rewrite (d_import_restamp ep s t gid' g D TG NE).
  unfold d_add_graph. rewrite BUSY. reflexivity.
Qed.

(* import_graph_from_string_direct / _from_file_direct: the graph id is read from the text - it need not be the id the graph is filed under in this store (possible
   after a direct load) - and whatever that id held is REPLACED by the copy *)
Theorem d_direct_replaces f ep s src gid g :
  is_direct ep = true -> dget s src = g -> g_nodes g <> [] -> fmt_ok f g = true ->
  (forall n, In n (g_nodes g) -> has_gid gid n = true) ->
  forall gid', exists t s',
    d_serialize_graph s src f = Some (Some t)
    /\ d_import_via ep s t gid' = (s', ROk gid)
    /\ dget s' gid = d_copy_direct g
    /\ (forall other, other <> gid -> dget s' other = dget s other).
Proof.
  intros D E NE OK HG gid'. destruct (d_serialize_then_read f s src g E OK) as (t & SE & TG).
  destruct (proj1 (graph_shape_iff g) (fmt_ok_shape f g OK)) as [ND CL].
  exists t, (dset s gid (d_copy_direct g)). split; [exact SE|].
  rewrite (d_import_direct ep s t gid g D TG NE HG). split; [apply d_add_graph_direct_spec; assumption|].
  split; [apply dget_dset_same|]. intros other NEQ. apply dget_dset_other, NEQ.
Qed.

(* in particular the source itself *)
Theorem d_roundtrip_direct f ep s gid g :
  is_direct ep = true -> dget s gid = g -> g_nodes g <> [] -> fmt_ok f g = true ->
  (forall n, In n (g_nodes g) -> has_gid gid n = true) ->
  forall gid', exists t s',
    d_serialize_graph s gid f = Some (Some t)
    /\ d_import_via ep s t gid' = (s', ROk gid)
    /\ dget s' gid = d_copy_direct g
    /\ content (dget s' gid) = content g
    /\ (forall other, other <> gid -> dget s' other = dget s other).
Proof.
  intros D E NE OK HG gid'. destruct (d_direct_replaces f ep s gid gid g D E NE OK HG gid') as (t & s' & A & B & C & O).
  destruct (proj1 (graph_shape_iff g) (fmt_ok_shape f g OK)) as [ND CL].
  exists t, s'. rewrite C. repeat split; try assumption. apply content_relabelled; assumption.
Qed.

(* the copies are again well formed: serializing them again denotes exactly the copy *)
Theorem d_reserialize_restamp f gid' g : fmt_ok f g = true -> gid_ok f gid' = true ->
  exists t2, serialize f (d_copy_of gid' g) = Some t2 /\ text_graph t2 = Some (d_copy_of gid' g).
Proof. intros OK GO. apply serialize_then_read, stamp_fmt_ok, relabelled_fmt_ok; assumption. Qed.

Theorem d_reserialize_direct f g : fmt_ok f g = true ->
  exists t2, serialize f (d_copy_direct g) = Some t2 /\ text_graph t2 = Some (d_copy_direct g).
Proof. intros OK. apply serialize_then_read, relabelled_fmt_ok, OK. Qed.

(* an absent graph id serializes as the empty graph, whose text no entry point accepts *)
Theorem d_empty_text_refused f ep s gid gid' : dget s gid = empty_graph ->
  exists t, d_serialize_graph s gid f = Some (Some t) /\ d_import_via ep s t gid' = (s, RErrImport).
Proof.
  intro E. unfold d_serialize_graph. rewrite E.
  destruct f; [exists (TGraphML {| d_keys := []; d_nodes := []; d_edges := [] |})|exists (TJson {| j_nodes := []; j_links := [] |})];
    (split; [reflexivity|]); destruct ep; reflexivity.
Qed.

(* the boolean check harness/c01.py runs on every API-built snapshot implies every hypothesis of the theorems *)
Theorem api_check_domain tbl g : api_graph_ok tbl g = true ->
  fmt_ok GraphMLFmt g = true /\ fmt_ok JsonFmt g = true /\ graph_ids_ok g = true
  /\ names_ok tbl = true /\ graph_json_ok g = true /\ Serial1Json.graph_json_text_ok tbl g = true.
Proof.
  unfold api_graph_ok. rewrite !andb_true_iff. intros [[[[[W I] J] _] N] T].
  simpl. rewrite W, (proj1 (proj1 (graph_wf_iff g) W)), J. repeat split; assumption.
Qed.
