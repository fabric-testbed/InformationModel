(* C09 - the service constructor's rollback: whenever Topology.add_network_service raises - whatever the
   exception, whichever interface of the list is the rejected one - the graph is what it was.  Corollary:
   add_port_mirror_service. *)
From Coq Require Import List NArith Bool.
From FIM Require Import Base.ListFacts Model.T9Graph Model.T9Ops Proofs.T9Monad Proofs.T9Ext
     Proofs.T9Rollback Proofs.T9Connect.
Import ListNotations.
Open Scope N_scope.

(* every interface handle names a ConnectionPoint of the graph, or nothing of the graph (a stale handle) *)
Definition ifaces_typed (g : graph) (ifs : list iface_h) : bool :=
  forallb (fun i => match cls_of g (ih_id i) with None => true | Some c => c =? cCP end) ifs.
(* ids the call may create (the caller-supplied service id, the uuid supply) are not interface ids *)
Definition potential_ids (node_id : option N) (fresh : list N) : list N :=
  match node_id with Some x => [x] | None => [] end ++ fresh.
Definition supply_apart (node_id : option N) (fresh : list N) (ifs : list iface_h) : bool :=
  forallb (fun i => negb (existsb (N.eqb (ih_id i)) (potential_ids node_id fresh))) ifs.

Lemma cls_of_In g y : In y (ids g) -> exists c, cls_of g y = Some c.
Proof.
  intro H. unfold cls_of, find_nodes. apply in_map_iff in H as [n [He Hin]].
  destruct (filter (fun n0 => nid n0 =? y) (gnodes g)) as [|m l] eqn:E; [|eauto].
  exfalso. assert (In n (filter (fun n0 => nid n0 =? y) (gnodes g))).
  { apply filter_In; split; auto. apply N.eqb_eq; auto. }
  rewrite E in H; contradiction.
Qed.

Lemma ifaces_typed_prop g ifs i : ifaces_typed g ifs = true -> In i ifs -> iface_typed g i.
Proof.
  unfold ifaces_typed. rewrite forallb_forall. intros H Hin Hids. specialize (H i Hin).
  destruct (cls_of_In g _ Hids) as [c Hc]. unfold has_cls. rewrite Hc in *. exact H.
Qed.

Lemma supply_apart_prop node_id fresh ifs i :
  supply_apart node_id fresh ifs = true -> In i ifs -> ~ In (ih_id i) (potential_ids node_id fresh).
Proof.
  unfold supply_apart. rewrite forallb_forall. intros H Hin Hp. specialize (H i Hin).
  apply negb_true_iff in H.
  assert (existsb (N.eqb (ih_id i)) (potential_ids node_id fresh) = true).
  { apply existsb_exists. exists (ih_id i). split; auto. apply N.eqb_refl. }
  congruence.
Qed.

Lemma handler_never_ok (done : list iface_h) ns e s s' u : rollback_service ns done e s <> (s', Ok u).
Proof.
  unfold rollback_service, bind. destruct (for_each done disconnect_interface s) as [s1 [a|e1]]; [|discriminate].
  destruct (remove_ns_with_cps_and_links ns s1) as [s2 [b|e2]]; discriminate.
Qed.

Lemma connect_all_rollback fl g nsn ty (U : list N) :
  closed g -> NoDup (ids g) ->
  forall todo cs s s' e,
    good g nsn cs -> sg s = ext g nsn cs -> incl (new_ids nsn cs) U -> incl (sfresh s) U ->
    (forall i, In i todo -> ~ In (ih_id i) U /\ iface_typed g i) ->
    connect_all fl (nid nsn) ty todo (map k_if cs) s = (s', Err e) -> sg s' = g.
Proof.
  intros Hcl Hndg. induction todo as [|i r IH]; intros cs s s' e G Hsg HU Hfr Hifs H.
  - simpl in H. discriminate.
  - simpl in H. unfold bind at 1 in H.
    set (B := guardrails ty i ;;; connect_interface fl (nid nsn) i) in *.
    unfold catch_any in H.
    destruct (B s) as [s0 [u|e0]] eqn:EB.
    + (* connected: go on with one more connection *)
      unfold B in EB. apply bind_ok in EB as (s1 & u1 & Hg & Hc).
      apply check_guardrails in Hg as ->.
      destruct (Hifs i (or_introl eq_refl)) as [HiU Hty].
      destruct u.
      destruct (connect_ok_shape g nsn cs Hcl G fl U i s s0 Hndg Hsg HU Hfr HiU Hty Hc)
        as (c & Hci & Hsg' & G' & HU' & Hfr').
      apply (IH (cs ++ [c]) s0 s' e); auto.
      * intros j Hj. apply Hifs. right; auto.
      * rewrite map_app. simpl. rewrite Hci. exact H.
    + (* the body raised: the handler runs in the state the body left: the loop's state, possibly with
         one ServicePort of a half-finished connect *)
      destruct (rollback_service (nid nsn) (map k_if cs) e0 s0) as [s2 [u|e2]] eqn:EH.
      { exfalso. eapply handler_never_ok; eauto. }
      inversion H; subst s2 e2. clear H.
      destruct s0 as [g0 fr0].
      destruct (step_fail_shape g nsn cs Hcl G fl ty i s (mkSt g0 fr0) e0 Hsg EB) as [Hs0|(o & Hs0 & Hnew & Hcls)];
        simpl sg in Hs0; subst g0.
      * rewrite <- (extO_nil g nsn cs) in EH.
        rewrite (rollback_restores g nsn cs [] fr0 e0 Hcl) in EH; [inversion EH; reflexivity|].
        constructor; auto; [rewrite app_nil_r; apply (gd_nodup _ _ _ G)|intros o' []].
      * assert (HE : plus_port (ext g nsn cs) (nid nsn) o = extO g nsn cs [o]).
        { unfold plus_port, extO, ext, tail_nodes, tail_edges. cbn [gnodes gedges]. rewrite <- !app_assoc. reflexivity. }
        rewrite HE in EH.
        rewrite (rollback_restores g nsn cs [o] fr0 e0 Hcl) in EH; [inversion EH; reflexivity|].
        constructor; auto.
        -- cbn [map]. rewrite ids_ext in Hnew. rewrite app_assoc. apply NoDup_snoc; [apply (gd_nodup _ _ _ G)|exact Hnew].
        -- intros o' [<-|[]]. exact Hcls.
Qed.

Lemma service_rollback fl name node_id nstype ifs pure g fresh s' e :
  wf_graph g = true -> ifaces_typed g ifs = true -> supply_apart node_id fresh ifs = true ->
  op_add_service fl name node_id nstype ifs pure (mkSt g fresh) = (s', Err e) ->
  sg s' = g.
Proof.
  intros Hwf Hty Hsup H.
  assert (Hcl := wf_closed g Hwf). assert (Hnd := wf_nodup g Hwf).
  unfold op_add_service, new_service in H.
  apply bind_err_cases in H as [H|(s0 & id & Eid & H)]; [exact (no_mut_id_or_draw _ _ _ _ H)|].
  apply id_or_draw_ok in Eid as (Hg0 & Hfr0 & Hid). simpl in Hg0, Hfr0, Hid.
  assert (HfrU : incl (sfresh s0) (potential_ids node_id fresh)) by (apply incl_appr; exact Hfr0).
  assert (HidU : In id (potential_ids node_id fresh)).
  { unfold potential_ids. destruct Hid as [->|Hid]; [left; reflexivity|apply in_or_app; right; exact Hid]. }
  destruct nstype as [ty|]; [|inversion H; subst s'; exact Hg0].
  apply (bind_check (check_guard _ _)) in H as [[-> _]|(u1 & _ & H)]; [exact Hg0|].
  apply (bind_check (check_opt_raise _)) in H as [[-> _]|(u2 & _ & H)]; [exact Hg0|].
  apply (bind_check (check_bind _ _ (check_ask _) (fun _ => check_guard _ _))) in H as [[-> _]|(u3 & _ & H)]; [exact Hg0|].
  set (nsn := mkNode id cNS name ty 0) in *.
  apply bind_err_cases in H as [H|(s1 & u4 & E4 & H)].
  { rewrite <- Hg0. exact (clean_mutate any any _ _ _ _ I H I). }
  apply mutate_ok in E4 as (g1 & Hg1 & ->). rewrite Hg0 in Hg1. apply add_node_result in Hg1 as [Hnew ->].
  simpl nid in Hnew.
  apply bind_err_cases in H as [H|(s1 & u5 & E5 & H)]; [discriminate|].
  apply ret_ok in E5 as [-> _].
  apply bind_ret_err in H.
  apply (connect_all_rollback fl g nsn ty (potential_ids node_id fresh) Hcl Hnd ifs []
           (mkSt (mkGraph (gnodes g ++ [nsn]) (gedges g)) (sfresh s0)) s' e).
  - constructor.
    + unfold new_ids, conn_ids; simpl. apply NoDup_snoc; auto. apply has_node_false_In; auto.
    + reflexivity.
    + intros c Hc; destruct Hc.
    + constructor.
    + intros c Hc; destruct Hc.
  - unfold ext; simpl. rewrite app_nil_r. reflexivity.
  - unfold new_ids; simpl. intros y [<-|[]]. exact HidU.
  - exact HfrU.
  - intros i Hi. split; [eapply supply_apart_prop; eauto | eapply ifaces_typed_prop; eauto].
  - exact H.
Qed.

Lemma port_mirror_atomic fl name node_id to_if from_given pure g fresh s' e :
  wf_graph g = true ->
  (forall i, to_if = Some i -> ifaces_typed g [i] = true /\ supply_apart node_id fresh [i] = true) ->
  op_port_mirror fl name node_id to_if from_given pure (mkSt g fresh) = (s', Err e) -> sg s' = g.
Proof.
  intros Hwf Hi H. unfold op_port_mirror in H. destruct to_if as [i|]; [|inversion H; reflexivity].
  destruct (Hi i eq_refl) as [H1 H2].
  apply (bind_check (check_guard _ _)) in H as [[-> _]|(u & _ & H)]; [reflexivity|].
  eapply service_rollback; eauto.
Qed.
