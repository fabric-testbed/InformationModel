(* C18: what holds of map_caps for EVERY catalogue and EVERY request without evaluating anything, from the one
   fact proved about Base/PySort.v (it returns a permutation of its input, Proofs/PySortPerm.v): the answer,
   when candidates exist, is the name of a catalogue entry that satisfies the request (sufficiency).
   Minimality is NOT of this kind: Capacities.__lt__ is the non-strict componentwise order, not a strict weak
   order, so "sorted and stable" does not determine which element a correct sort puts first -- two textbook
   stable sorts disagree (choice_depends_on_algorithm) -- and C18_sizing (Pareto-minimality of the shipped
   catalogue) has to go through what list.sort actually does. *)
From Coq Require Import List ZArith Bool.
From FIM Require Import Base.PySort Model.Catalog18 Proofs.PySortPerm.
Import ListNotations.
Open Scope Z_scope.

Lemma caps3_eq_dec : forall x y : caps3, {x = y} + {x <> y}.
Proof. decide equality; [apply Z.eq_dec|decide equality; apply Z.eq_dec]. Qed.

Lemma ceq3_eq a b : ceq3 a b = true -> a = b.
Proof.
  destruct a as [[a1 a2] a3], b as [[b1 b2] b3]. unfold ceq3. cbn [core ram disk fst snd].
  rewrite !andb_true_iff, !Z.eqb_eq. intros [[-> ->] ->]. reflexivity.
Qed.

Lemma index_eq_spec x : forall l i, index_eq x l = Some i -> nth_error l i = Some x.
Proof.
  induction l as [|y l IH]; intros i H; simpl in H; [discriminate|].
  destruct (ceq3 y x) eqn:E.
  - inversion H; subst. apply ceq3_eq in E. subst. reflexivity.
  - destruct (index_eq x l) as [j|]; [|discriminate]. inversion H; subst. simpl. apply IH. reflexivity.
Qed.

Lemma nth_fst_snd : forall (cat : list inst_entry) i n c,
  nth_error (map fst cat) i = Some n -> nth_error (map snd cat) i = Some c ->
  exists e, nth_error cat i = Some e /\ fst e = n /\ snd e = c.
Proof.
  induction cat as [|e cat IH]; intros [|i] n c H1 H2; simpl in *; try discriminate.
  - inversion H1; inversion H2; subst. exists e. auto.
  - apply IH; assumption.
Qed.

Theorem map_caps_sufficient : forall cat req n,
  candidates cat req <> [] -> map_caps cat req = Some n ->
  exists e, In e cat /\ fst e = n /\ fits req (snd e) = true.
Proof.
  intros cat req n Hne H. unfold map_caps, pick in H.
  destruct (candidates cat req) as [|c cs] eqn:Ec; [congruence|].
  destruct (py_sort_first clt3 (c :: cs)) as [c0|] eqn:Es; [|discriminate].
  apply (py_sort_first_in caps3_eq_dec) in Es. rewrite <- Ec in Es.
  unfold candidates in Es. apply filter_In in Es. destruct Es as [_ Hfit].
  destruct (index_eq c0 (map snd cat)) as [i|] eqn:Ei; [|discriminate].
  apply index_eq_spec in Ei.
  destruct (nth_fst_snd cat i n c0 H Ei) as [e [En [Hn Hc]]].
  exists e. split; [eapply nth_error_In; eassumption|]. split; [exact Hn|]. congruence.
Qed.

(* nothing fits: the last key, for every catalogue *)
Theorem map_caps_fallback : forall cat req, candidates cat req = [] -> map_caps cat req = last_opt (map fst cat).
Proof. intros cat req H. unfold map_caps, pick. rewrite H. reflexivity. Qed.

(* the textbook stable insertion sort, with the same comparison *)
Fixpoint ins {A} (lt : A -> A -> bool) (x : A) (l : list A) : list A :=
  match l with
  | [] => [x]
  | y :: r => if lt x y then x :: y :: r else y :: ins lt x r
  end.
Definition ins_sort {A} (lt : A -> A -> bool) (l : list A) : list A := fold_left (fun acc x => ins lt x acc) l [].

Theorem choice_depends_on_algorithm :
  exists l, py_sort_first clt3 l = Some (5, 5, 5) /\ hd_error (ins_sort clt3 l) = Some (2, 2, 2) /\
            clt3 (2, 2, 2) (5, 5, 5) = true.
Proof. exists [(5, 5, 5); (1, 9, 1); (2, 2, 2)]. vm_compute. repeat split. Qed.
