(* C05: forward simulation between the graph-object methods over one nx.Graph (Model/Store.v, used by
   both storage flavours) and the reference model (Model/PGSpec.v), through the abstraction
   abs_nxg G g = reference graph of what graph id g sees of G. *)
From Coq Require Import List NArith Bool.
From FIM Require Import Base.ListFacts Base.Assoc Model.Store Model.PGSpec.
From FIM Require Import Proofs.IsolationBase Proofs.IsolationShared Proofs.RefineBase Proofs.RefineUnique.
Import ListNotations.
Open Scope N_scope.

Lemma filter_map_snd {A B} (f : B -> bool) (l : list (A * B)) :
  filter f (map snd l) = map snd (filter (fun x => f (snd x)) l).
Proof. apply filter_map_comm. Qed.

Lemma find_map {A B} (f : B -> bool) (K : A -> B) l :
  find f (map K l) = option_map K (find (fun x => f (K x)) l).
Proof. induction l as [|x r IH]; simpl; [reflexivity|]. destruct (f (K x)); [reflexivity | exact IH]. Qed.

Lemma find_ext_in {A} (f h : A -> bool) l : (forall x, In x l -> f x = h x) -> find f l = find h l.
Proof.
  intro H. induction l as [|x r IH]; simpl; [reflexivity|].
  rewrite (H x (or_introl eq_refl)). destruct (h x); [reflexivity|]. apply IH. intros; apply H; now right.
Qed.

Lemma filter_set_node_in (f : node -> bool) x ps ps' l :
  aget x l = Some ps -> f (x, ps) = true -> f (x, ps') = true ->
  filter f (set_node x ps' l) = set_node x ps' (filter f l).
Proof.
  induction l as [|[i q] r IH]; [reflexivity|]. cbn [aget set_node]. intros Hget H1 H2.
  rewrite N.eqb_sym in Hget. destruct (N.eqb i x) eqn:E.
  - apply N.eqb_eq in E; subst i. inversion Hget; subst q. cbn [filter]. rewrite H1, H2. cbn [set_node].
    now rewrite N.eqb_refl.
  - cbn [filter]. destruct (f (i, q)); cbn [set_node]; [rewrite E; f_equal|]; now apply IH.
Qed.

Lemma skey_is_nid_key q a : skey_is (nid_key q) a = nid_is a q.
Proof.
  unfold nid_key, nid_is, has_val. destruct (aget k_nodeid q) as [[x| |l|l]|]; reflexivity.
Qed.

(* every link joins two stored nodes (a structural fact of nx.Graph) *)
Definition EClosed (G : nxg) : Prop := forall a b ps, In (a, b, ps) (ge G) -> In a (ids G) /\ In b (ids G).

Lemma match_fst_snd3 {A B C} (l : list (A * B)) (x y z : C) :
  (match map fst l with [] => x | [_] => y | _ => z end) = (match map snd l with [] => x | [_] => y | _ => z end).
Proof. destruct l as [|a [|b r]]; reflexivity. Qed.
Lemma match_fst_snd2 {A B C} (l : list (A * B)) (x y : C) :
  (match map fst l with [] => x | _ => y end) = (match map snd l with [] => x | _ => y end).
Proof. destruct l as [|a r]; reflexivity. Qed.

Lemma filter_in_ids_nil (l : list edge) : filter (in_ids []) l = [].
Proof. induction l as [|[[a b] q] r IH]; [reflexivity|]. cbn [filter]. exact IH. Qed.

Lemma abs_sees_none G g : filter (in_g g) (gn G) = [] -> abs_nxg G g = empty_sg.
Proof. intro H. unfold abs_nxg, view, ids_in. rewrite H. cbn [map]. now rewrite filter_in_ids_nil. Qed.

Lemma memN_filter (p : N -> bool) l a : memN a (filter p l) = memN a l && p a.
Proof.
  unfold memN. induction l as [|i r IH]; [reflexivity|]. cbn [filter existsb].
  destruct (p i) eqn:Ep; cbn [existsb]; rewrite IH; destruct (N.eqb_spec a i) as [->|_]; cbn [orb andb];
    rewrite ?Ep, ?andb_false_r; reflexivity.
Qed.

(* what g sees after nodes were dropped by internal id, together with links none of whose ends survives a drop *)
Lemma view_filter_nodes G g (p : N -> bool) (pe : edge -> bool) :
  (forall a b q, pe (a, b, q) = true -> p a = true /\ p b = true) ->
  view (mkG (filter (fun n => p (fst n)) (gn G)) (filter pe (ge G))) g =
  (filter (fun n => p (fst n)) (fst (view G g)), filter pe (snd (view G g))).
Proof.
  intro Hpe. unfold view, ids_in. cbn [gn ge fst snd].
  assert (E : filter (in_g g) (filter (fun n => p (fst n)) (gn G)) = filter (fun n => p (fst n)) (filter (in_g g) (gn G)))
    by (rewrite !filter_filter; apply filter_ext; intro nd; apply andb_comm).
  rewrite E. f_equal. rewrite (map_fst_filter_fst p), !filter_filter. apply filter_ext. intros [[a b] q].
    destruct (pe (a, b, q)) eqn:Ee; [|now rewrite !andb_false_r]. destruct (Hpe a b q Ee) as [Ha Hb].
    unfold in_ids. now rewrite !memN_filter, Ha, Hb, !andb_true_r.
Qed.

(* ... and after the property dictionaries were rewritten node by node, GraphID membership kept *)
Lemma view_map_nodes G g (F : node -> node) :
  (forall nd, fst (F nd) = fst nd /\ in_g g (F nd) = in_g g nd) ->
  view (mkG (map F (gn G)) (ge G)) g = (map F (fst (view G g)), snd (view G g)).
Proof.
  intro HF. unfold view, ids_in. cbn [gn ge fst snd].
  assert (E : filter (in_g g) (map F (gn G)) = map F (filter (in_g g) (gn G))).
  { induction (gn G) as [|nd r IH]; [reflexivity|]. cbn [map filter]. rewrite (proj2 (HF nd)).
    destruct (in_g g nd); cbn [map]; now rewrite IH. }
  rewrite E, map_map. f_equal. f_equal. f_equal. apply map_ext. intro nd. apply HF.
Qed.

Section Sim.
Variable G : nxg.
Variable g : N.
Hypothesis Hnd : NoDup (ids G).
Hypothesis Hcl : EClosed G.

Definition vns : list node := fst (view G g).
Definition ves : list edge := snd (view G g).

Lemma abs_unfold : abs_nxg G g = mkSG (map snd vns) (map (abs_edge vns) ves).
Proof. reflexivity. Qed.

Lemma vns_nodup : NoDup (map fst vns).
Proof. unfold vns, view. simpl. now apply NoDup_map_filter. Qed.

Lemma vns_ids : map fst vns = ids_in G g.
Proof. reflexivity. Qed.

Lemma vns_in i ps : In (i, ps) vns -> aget i vns = Some ps /\ nx_node G i = Some ps /\ in_g g (i, ps) = true.
Proof.
  intro H. split; [apply NoDup_In_aget; [apply vns_nodup | exact H]|].
  unfold vns, view in H. simpl in H. apply filter_In in H as [H1 H2]. split; [|exact H2].
  unfold nx_node. now apply NoDup_In_aget.
Qed.

Lemma vns_aget i ps : aget i vns = Some ps -> In (i, ps) vns.
Proof. apply aget_In. Qed.

(* the nodes of g that carry NodeID n *)
Definition nid_nodes (n : N) : list node := filter (fun nd => nid_is n (snd nd)) vns.

Lemma search_vns preds :
  search G ((k_graphid, g) :: preds) = map fst (filter (fun nd => matches preds (snd nd)) vns).
Proof.
  unfold search, vns, view. simpl. rewrite filter_filter. f_equal.
Qed.

Lemma search_gid_nid_nodes n : search G [(k_graphid, g); (k_nodeid, n)] = map fst (nid_nodes n).
Proof. rewrite search_vns. unfold nid_nodes. f_equal. apply filter_ext. intro nd. apply andb_true_r. Qed.

Lemma search_nid_gid_nodes n : search G [(k_nodeid, n); (k_graphid, g)] = map fst (nid_nodes n).
Proof.
  unfold search, nid_nodes, vns, view. simpl. rewrite filter_filter. f_equal. apply filter_ext.
  intros [i ps]. unfold matches, in_g, nid_is. simpl. rewrite andb_true_r. apply andb_comm.
Qed.

Lemma spec_nid_nodes n : filter (nid_is n) (sn (abs_nxg G g)) = map snd (nid_nodes n).
Proof. rewrite abs_unfold. simpl. apply filter_map_snd. Qed.

Lemma find_node_nid_nodes n : find_node G g n = match nid_nodes n with [(x, _)] => Some x | _ => None end.
Proof.
  unfold find_node. rewrite search_nid_gid_nodes. destruct (nid_nodes n) as [|[x ps] [|y r]]; reflexivity.
Qed.

Lemma sp_find_nid_nodes n : sp_find (abs_nxg G g) n = match nid_nodes n with [(_, ps)] => Some ps | _ => None end.
Proof.
  unfold sp_find. rewrite spec_nid_nodes. destruct (nid_nodes n) as [|[x ps] [|y r]]; reflexivity.
Qed.

Lemma nid_nodes_single n x ps :
  nid_nodes n = [(x, ps)] ->
  aget x vns = Some ps /\ nx_node G x = Some ps /\ in_g g (x, ps) = true /\ nid_is n ps = true /\
  (forall i q, In (i, q) vns -> nid_is n q = N.eqb i x).
Proof.
  intro H.
  assert (Hin : In (x, ps) (nid_nodes n)) by (rewrite H; now left).
  unfold nid_nodes in Hin. apply filter_In in Hin as [Hin Hn]. simpl in Hn.
  destruct (vns_in x ps Hin) as [A [B C]]. repeat split; auto.
  intros i q Hiq. destruct (nid_is n q) eqn:E.
  - assert (In (i, q) (nid_nodes n)) by (unfold nid_nodes; apply filter_In; now split).
    rewrite H in H0. destruct H0 as [H0|[]]. inversion H0; subst. symmetry. apply N.eqb_refl.
  - symmetry. apply N.eqb_neq. intro Eq. subst i.
    destruct (vns_in x q Hiq) as [A' _]. rewrite A in A'. inversion A'; subst q. congruence.
Qed.

Lemma sim_get_node n : pg_get_node G g n = sp_get_node (abs_nxg G g) n.
Proof.
  unfold pg_get_node, sp_get_node. rewrite find_node_nid_nodes, sp_find_nid_nodes.
  destruct (nid_nodes n) as [|[x ps] [|y r]] eqn:E; try reflexivity.
  destruct (nid_nodes_single n x ps E) as [_ [B _]]. now rewrite B.
Qed.

Lemma node_ids_of_vals (l : list node) :
  (forall i ps, In (i, ps) l -> nx_node G i = Some ps) ->
  node_ids_of G (map fst l) = vals_of (map snd l).
Proof.
  induction l as [|[i ps] r IH]; intro H; simpl; [reflexivity|].
  rewrite (H i ps (or_introl eq_refl)). rewrite IH by (intros; apply H; now right). reflexivity.
Qed.

Lemma sim_by preds : ids_result G (search G ((k_graphid, g) :: preds)) = sp_by (abs_nxg G g) preds.
Proof.
  unfold ids_result, sp_by, vals_result. rewrite search_vns, abs_unfold. simpl.
  rewrite filter_map_snd. rewrite node_ids_of_vals; [reflexivity|].
  intros i ps Hin. apply filter_In in Hin as [Hin _]. now apply vns_in.
Qed.

Lemma find_all_vns : find_all G g = match vns with [] => None | _ => Some (map fst vns) end.
Proof.
  unfold find_all. rewrite search_graphid_ids_in, <- vns_ids. now destruct vns.
Qed.

Lemma sim_list_ids : pg_list_ids G g = sp_list_ids (abs_nxg G g).
Proof.
  unfold pg_list_ids, sp_list_ids. rewrite find_all_vns, abs_unfold. simpl.
  destruct vns as [|nd r] eqn:E; [reflexivity|].
  unfold ids_result, vals_result. rewrite <- E. rewrite node_ids_of_vals; [now rewrite E|].
  intros i ps Hin. now apply vns_in.
Qed.

Lemma sim_graph_exists : pg_graph_exists G g = sp_exists (abs_nxg G g).
Proof.
  unfold pg_graph_exists, sp_exists. rewrite search_graphid_ids_in, <- vns_ids, abs_unfold. simpl.
  now destruct vns.
Qed.

Lemma sim_node_exists n c : pg_node_exists G g n c = sp_node_exists (abs_nxg G g) n c.
Proof.
  unfold pg_node_exists, sp_node_exists. rewrite search_vns, abs_unfold. simpl. rewrite filter_map_snd.
  apply match_fst_snd3.
Qed.

Lemma sim_unique c name : pg_unique G g c name = sp_unique (abs_nxg G g) c name.
Proof.
  unfold pg_unique, sp_unique. rewrite search_vns, abs_unfold. simpl. rewrite filter_map_snd.
  apply match_fst_snd2.
Qed.

Lemma map_snd_set_node n x ps f (l : list node) :
  NoDup (map fst l) -> filter (fun nd => nid_is n (snd nd)) l = [(x, ps)] ->
  map snd (set_node x (f ps) l) = map (fun q => if nid_is n q then f q else q) (map snd l).
Proof.
  induction l as [|[i q] r IH]; [discriminate|]. cbn [map fst filter snd set_node]. intros Hnd' HF.
  inversion Hnd'; subst. destruct (nid_is n q) eqn:E.
  - injection HF as Ei Eq Etl. subst i q. rewrite N.eqb_refl. cbn [map snd]. f_equal.
    clear -Etl. induction r as [|[j q'] r IH]; [reflexivity|]. cbn [filter snd] in Etl. cbn [map snd].
    destruct (nid_is n q') eqn:E'; [discriminate|]. f_equal. now apply IH.
  - assert (Hx : In x (map fst r)).
    { assert (In (x, ps) (filter (fun nd => nid_is n (snd nd)) r)) by (rewrite HF; now left).
      apply filter_In in H as [H _]. change x with (fst (x, ps)). now apply in_map. }
    assert (N.eqb i x = false) by (apply N.eqb_neq; intro; subst; contradiction).
    rewrite H. cbn [map snd]. f_equal. now apply IH.
Qed.

Lemma key_nid_set_node x ps ps' a :
  aget x vns = Some ps -> nid_key ps' = nid_key ps -> key_nid (set_node x ps' vns) a = key_nid vns a.
Proof.
  intros Hx Hk. unfold key_nid. rewrite aget_set_node. destruct (N.eqb a x) eqn:E; [|reflexivity].
  apply N.eqb_eq in E; subst a. now rewrite Hx.
Qed.

(* what g sees after the properties of its node x were replaced, GraphID kept *)
Lemma view_set_node_in n x ps ps' :
  nid_nodes n = [(x, ps)] -> in_g g (x, ps') = true ->
  view (nx_set_node G x ps') g = (set_node x ps' vns, ves).
Proof.
  intros HF Hg. destruct (nid_nodes_single n x ps HF) as [A [B [C _]]].
  assert (E : filter (in_g g) (set_node x ps' (gn G)) = set_node x ps' vns).
  { unfold vns, view. simpl. now apply (filter_set_node_in (in_g g) x ps ps'). }
  unfold view, ids_in, nx_set_node. cbn [gn ge]. rewrite E. f_equal.
  rewrite map_fst_set_node. reflexivity.
Qed.

Lemma sim_node_update n f x ps :
  nid_nodes n = [(x, ps)] -> in_g g (x, f ps) = true -> nid_key (f ps) = nid_key ps ->
  abs_nxg (nx_set_node G x (f ps)) g = sp_map_node (abs_nxg G g) n f.
Proof.
  intros HF Hg Hk. destruct (nid_nodes_single n x ps HF) as [A _].
  unfold abs_nxg at 1. rewrite (view_set_node_in n x ps (f ps) HF Hg). unfold abs_of_view. cbn [fst snd].
  rewrite abs_unfold. unfold sp_map_node. cbn [sn se]. f_equal.
  - apply map_snd_set_node; [apply vns_nodup | exact HF].
  - apply map_ext. intros [[a b] q]. unfold abs_edge. now rewrite !(key_nid_set_node x ps (f ps)).
Qed.

Lemma nid_key_keeps ps ps' : keeps_identity ps ps' -> nid_key ps' = nid_key ps.
Proof. intros [H _]. unfold nid_key. now rewrite H. Qed.

(* a guarded single-node update whose function leaves NodeID / GraphID alone *)
Lemma sim_with_node (n : N) (guard : bool) (f : props -> props) :
  (guard = false -> forall ps, keeps_identity ps (f ps)) ->
  abs_nxg (fst (with_node G g n guard f)) g = fst (sp_with_node (abs_nxg G g) n guard f) /\
  snd (with_node G g n guard f) = snd (sp_with_node (abs_nxg G g) n guard f).
Proof.
  intros Hf. unfold with_node, sp_with_node. destruct guard; [split; reflexivity|]. specialize (Hf eq_refl).
  rewrite find_node_nid_nodes, sp_find_nid_nodes.
  destruct (nid_nodes n) as [|[x ps] [|y r]] eqn:E; try (split; reflexivity).
  destruct (nid_nodes_single n x ps E) as [A [B [C _]]]. rewrite B. cbn [fst snd]. split; [|reflexivity].
  apply sim_node_update; auto.
  - now rewrite (in_g_keeps g x ps (f ps) (Hf ps)).
  - now apply nid_key_keeps.
Qed.

Lemma sim_update_nodes p v :
  ident_key p = false ->
  abs_nxg (fst (pg_update_nodes G g p v)) g = fst (sp_update_nodes (abs_nxg G g) p v) /\
  snd (pg_update_nodes G g p v) = snd (sp_update_nodes (abs_nxg G g) p v).
Proof.
  intro Hp. apply orb_false_iff in Hp as [Hp1 Hp2]. apply N.eqb_neq in Hp1, Hp2.
  unfold pg_update_nodes, sp_update_nodes. rewrite find_all_vns. rewrite abs_unfold. cbn [sn se].
  destruct vns as [|nd0 r0] eqn:Ev; [cbn [fst snd map]; split; [rewrite abs_unfold, Ev|]; reflexivity|]. cbn [map].
  destruct (N.eqb p k_class); [cbn [fst snd map]; split; [rewrite abs_unfold, Ev|]; reflexivity|]. cbn [fst snd]. split; [|reflexivity].
  change (fst nd0 :: map fst r0) with (map fst (nd0 :: r0)).
  change (aset p v (snd nd0) :: map (aset p v) (map snd r0)) with (map (aset p v) (map snd (nd0 :: r0))).
  rewrite <- Ev, vns_ids.
  set (U := fun nd : node => (fst nd, aset p v (snd nd))).
  assert (HU : forall nd, in_g g (U nd) = in_g g nd)
    by (intro nd; unfold U, in_g; cbn [snd]; now rewrite has_val_aset_other by congruence).
  (* every node g sees is rewritten, no other *)
  unfold abs_nxg, upd_nodes. rewrite view_map_nodes
    by (intro nd; cbv beta; destruct (memN _ _); [split; [reflexivity | apply HU] | now split]).
  fold vns ves. replace (map _ vns) with (map U vns).
  - unfold abs_of_view. cbn [fst snd]. f_equal; [now rewrite !map_map|].
    apply map_ext. intros [[a b] q]. unfold abs_edge, key_nid. unfold U. rewrite !(aget_map_snd (aset p v) vns).
    assert (K : forall o, match option_map (aset p v) o with Some ps => nid_key ps | None => None end
                          = match o with Some ps => nid_key ps | None => None end).
    { intros [ps|]; [|reflexivity]. cbn [option_map]. unfold nid_key. now rewrite aget_aset_other by congruence. }
    now rewrite !K.
  - apply map_ext_in. intros [i q] Hin. destruct (vns_in i q Hin) as [_ [Hn Hg]]. cbn [fst].
    now rewrite (memN_ids_in G g i q Hnd (aget_In _ _ _ Hn)), Hg.
Qed.

Lemma ves_endpoints a b q : In (a, b, q) ves -> In a (map fst vns) /\ In b (map fst vns).
Proof.
  unfold ves, view. cbn [snd]. intro H. apply filter_In in H as [_ H]. unfold in_ids in H.
  apply andb_true_iff in H as [H1 H2]. apply memN_In in H1, H2. rewrite vns_ids. now split.
Qed.

Lemma sim_add_node newid n c ps G' :
  nx_node G newid = None ->
  match ps with Some u => ident_free u = true | None => True end ->
  pg_add_node G g newid n c ps = Some G' ->
  abs_nxg G' g = fst (sp_add_node (abs_nxg G g) g n c ps) /\ snd (sp_add_node (abs_nxg G g) g n c ps) = Ok RUnit.
Proof.
  intros Hfresh Hps Hadd. destruct (pg_add_node_result G g newid n c ps G' Hfresh Hadd) as [Es ->].
  unfold sp_add_node. rewrite search_gid_nid_nodes in Es. rewrite spec_nid_nodes.
  destruct (nid_nodes n) as [|x r]; [|discriminate]. cbn [map fst snd]. split; [|reflexivity].
  apply aget_None_notin in Hfresh.
  (* g sees the new node after its old ones, and the same links: none of them ends at the fresh id *)
  unfold abs_nxg, view, ids_in. cbn [gn ge].
  rewrite filter_app. cbn [filter]. rewrite (added_in_g g n c ps newid Hps). change (filter (in_g g) (gn G)) with vns.
  rewrite map_app. cbn [map fst].
  match goal with |- context [filter (in_ids (?l ++ [newid])) (ge G)] =>
    assert (Ees : filter (in_ids (l ++ [newid])) (ge G) = ves) end.
  { unfold ves, view. cbn [snd]. rewrite <- vns_ids. apply filter_ext_in. intros [[a b] q] Hin.
    destruct (Hcl _ _ _ Hin) as [Ha Hb].
    assert (Hne : forall c0, In c0 (ids G) -> N.eqb c0 newid = false)
      by (intros c0 Hc; apply N.eqb_neq; intro; subst; contradiction).
    unfold in_ids, memN. rewrite !existsb_app. cbn [existsb]. now rewrite (Hne a Ha), (Hne b Hb), !orb_false_r. }
  rewrite Ees. unfold abs_of_view. cbn [fst snd sn se].
  rewrite map_app. cbn [map snd]. f_equal.
  apply map_ext_in. intros [[a b] q] Hin. destruct (ves_endpoints a b q Hin) as [Ha Hb].
  unfold abs_edge, key_nid. now rewrite !(aget_app_in vns) by assumption.
Qed.

Lemma sim_add_node_fail newid n c ps :
  pg_add_node G g newid n c ps = None ->
  sp_add_node (abs_nxg G g) g n c ps = (abs_nxg G g, Err EQuery).
Proof.
  intro Hadd. unfold pg_add_node in Hadd. unfold sp_add_node.
  rewrite search_gid_nid_nodes in Hadd. rewrite spec_nid_nodes. destruct (nid_nodes n) as [|x r]; [|reflexivity].
  cbn [map] in Hadd. destruct ps; [destruct (nx_node _ newid)|]; discriminate.
Qed.

(* ---------- the NodeID key of a node of g identifies it ---------- *)
Lemma key_nid_is n x ps p :
  nid_nodes n = [(x, ps)] -> In p (map fst vns) -> skey_is (key_nid vns p) n = N.eqb p x.
Proof.
  intros HF Hp. apply in_map_iff in Hp as [[i q] [Hi Hin]]. simpl in Hi; subst i.
  destruct (vns_in p q Hin) as [A _]. unfold key_nid. rewrite A, skey_is_nid_key.
  destruct (nid_nodes_single n x ps HF) as [_ [_ [_ [_ K]]]]. now apply K.
Qed.

Lemma key_of_found n x ps : nid_nodes n = [(x, ps)] -> key_nid vns x = Some n.
Proof.
  intro HF. destruct (nid_nodes_single n x ps HF) as [A [_ [_ [Hn _]]]]. unfold key_nid. rewrite A.
  unfold nid_is, has_val in Hn. unfold nid_key. destruct (aget k_nodeid ps) as [[m| |l|l]|]; try discriminate.
  simpl in Hn. apply N.eqb_eq in Hn. now subst.
Qed.

Lemma found_in_ids n x ps : nid_nodes n = [(x, ps)] -> In x (map fst vns).
Proof.
  intro HF. destruct (nid_nodes_single n x ps HF) as [A _]. apply aget_In in A. change x with (fst (x, ps)). now apply in_map.
Qed.

Lemma sim_delete_node n :
  abs_nxg (fst (pg_delete_node G g n)) g = fst (sp_delete_node (abs_nxg G g) n) /\
  snd (pg_delete_node G g n) = snd (sp_delete_node (abs_nxg G g) n).
Proof.
  unfold pg_delete_node, sp_delete_node. rewrite find_node_nid_nodes, sp_find_nid_nodes.
  destruct (nid_nodes n) as [|[x ps] [|y r]] eqn:E; try (split; reflexivity).
  cbn [fst snd]. split; [|reflexivity].
  destruct (nid_nodes_single n x ps E) as [A [B [C [D K]]]].
  unfold abs_nxg at 1, nx_remove_node. rewrite (view_filter_nodes G g (fun i => negb (N.eqb i x))).
  2:{ intros a b q Ht. now apply negb_true_iff, orb_false_iff in Ht as [-> ->]. }
  fold vns ves. unfold abs_of_view. cbn [fst snd]. rewrite abs_unfold. cbn [sn se]. f_equal.
  - rewrite filter_map_snd. f_equal. apply filter_ext_in. intros [i q] Hin. cbn [fst snd].
    now rewrite (K i q Hin).
  - rewrite filter_map_comm.
    assert (E4 : filter (fun e => negb (sedge_touches n (abs_edge vns e))) ves = filter (fun e => negb (edge_touches x e)) ves).
    { apply filter_ext_in. intros [[a b] q] Hin. destruct (ves_endpoints a b q Hin) as [Ha Hb].
      unfold abs_edge, sedge_touches, edge_touches. now rewrite (key_nid_is n x ps a E Ha), (key_nid_is n x ps b E Hb). }
    rewrite E4. apply map_ext_in. intros [[a b] q] Hin. apply filter_In in Hin as [Hin Ht].
    unfold edge_touches in Ht. apply negb_true_iff in Ht. apply orb_false_iff in Ht as [Ha Hb].
    unfold abs_edge, key_nid. rewrite !(aget_filter_fst (fun i => negb (N.eqb i x))). now rewrite Ha, Hb.
Qed.

Lemma sedge_is_abs a b ia psa ib psb e :
  nid_nodes a = [(ia, psa)] -> nid_nodes b = [(ib, psb)] -> In e ves -> sedge_is a b (abs_edge vns e) = edge_is ia ib e.
Proof.
  intros Ha Hb Hin. destruct e as [[p q] d]. destruct (ves_endpoints p q d Hin) as [Hp Hq].
  unfold abs_edge, sedge_is, edge_is.
  now rewrite (key_nid_is a ia psa p Ha Hp), (key_nid_is b ib psb q Hb Hq), (key_nid_is b ib psb p Hb Hp), (key_nid_is a ia psa q Ha Hq).
Qed.

Lemma edge_is_in_ids ia ib e : In ia (map fst vns) -> In ib (map fst vns) -> edge_is ia ib e = true -> in_ids (ids_in G g) e = true.
Proof.
  intros Ha Hb. destruct e as [[p q] d]. unfold edge_is, in_ids. rewrite <- vns_ids. intro H.
  apply memN_In in Ha, Hb.
  apply orb_true_iff in H as [H|H]; apply andb_true_iff in H as [H1 H2]; apply N.eqb_eq in H1, H2; subst; now rewrite Ha, Hb.
Qed.

Lemma nx_edge_ves ia ib : In ia (map fst vns) -> In ib (map fst vns) -> find (edge_is ia ib) (ge G) = find (edge_is ia ib) ves.
Proof.
  intros Ha Hb. unfold ves, view. cbn [snd]. symmetry. apply find_filter_pass. intros e He. exact (edge_is_in_ids ia ib e Ha Hb He).
Qed.

Lemma sp_edge_corr a b ia psa ib psb :
  nid_nodes a = [(ia, psa)] -> nid_nodes b = [(ib, psb)] -> sp_edge (abs_nxg G g) a b = nx_edge G ia ib.
Proof.
  intros Ha Hb. unfold sp_edge, nx_edge. rewrite abs_unfold. cbn [se]. rewrite find_map.
  rewrite (find_ext_in _ (edge_is ia ib)) by (intros e He; eapply sedge_is_abs; eauto).
  rewrite (nx_edge_ves ia ib) by (eapply found_in_ids; eauto).
  destruct (find (edge_is ia ib) ves) as [[[p q] d]|]; reflexivity.
Qed.

Lemma find_link_corr a b :
  match find_link G g a b with
  | Some (ia, ib, ps) => (exists psa psb, nid_nodes a = [(ia, psa)] /\ nid_nodes b = [(ib, psb)]) /\ nx_edge G ia ib = Some ps /\
                         sp_find_link (abs_nxg G g) a b = Some ps
  | None => sp_find_link (abs_nxg G g) a b = None
  end.
Proof.
  unfold find_link, sp_find_link. rewrite !find_node_nid_nodes, !sp_find_nid_nodes.
  destruct (nid_nodes a) as [|[ia psa] [|y r]] eqn:Ea; try reflexivity;
  destruct (nid_nodes b) as [|[ib psb] [|y' r']] eqn:Eb; try reflexivity.
  rewrite (sp_edge_corr a b ia psa ib psb Ea Eb).
  destruct (nx_edge G ia ib) as [ps|] eqn:E; [|reflexivity].
  repeat split; eauto.
Qed.

Lemma sim_get_link a b : pg_get_link G g a b = sp_get_link (abs_nxg G g) a b.
Proof.
  unfold pg_get_link, sp_get_link. pose proof (find_link_corr a b) as H.
  destruct (find_link G g a b) as [[[ia ib] ps]|]; [destruct H as [_ [_ H]]|]; now rewrite H.
Qed.

(* replacing the properties of the first link between ia and ib *)
Fixpoint map_first_edge (ia ib : N) (f : props -> props) (l : list edge) : list edge :=
  match l with
  | [] => []
  | e :: r => if edge_is ia ib e then (fst (fst e), snd (fst e), f (snd e)) :: r else e :: map_first_edge ia ib f r
  end.

Lemma set_edge_first ia ib f ps l :
  (match find (edge_is ia ib) l with Some (_, _, q) => Some q | None => None end) = Some ps ->
  set_edge ia ib (f ps) l = map_first_edge ia ib f l.
Proof.
  induction l as [|[[p q] d] r IH]; [discriminate|]. cbn [find set_edge map_first_edge].
  destruct (edge_is ia ib (p, q, d)).
  - intro H. inversion H. reflexivity.
  - intro H. f_equal. now apply IH.
Qed.

Lemma filter_set_edge_in I ia ib ps l :
  memN ia I = true -> memN ib I = true ->
  filter (in_ids I) (set_edge ia ib ps l) = set_edge ia ib ps (filter (in_ids I) l).
Proof.
  intros Ha Hb. induction l as [|[[p q] d] r IH]; [reflexivity|]. cbn [set_edge].
  destruct (edge_is ia ib (p, q, d)) eqn:E.
  - assert (in_ids I (p, q, d) = true).
    { unfold edge_is in E. unfold in_ids.
      apply orb_true_iff in E as [E|E]; apply andb_true_iff in E as [E1 E2]; apply N.eqb_eq in E1, E2; subst; now rewrite Ha, Hb. }
    cbn [fst snd filter]. assert (in_ids I (p, q, ps) = true) by exact H. rewrite H, H0. cbn [set_edge]. now rewrite E.
  - cbn [filter]. destruct (in_ids I (p, q, d)); cbn [set_edge]; [rewrite E; f_equal|]; exact IH.
Qed.

Lemma sp_map_edge_corr a b ia psa ib psb f :
  nid_nodes a = [(ia, psa)] -> nid_nodes b = [(ib, psb)] ->
  sp_map_edge (abs_nxg G g) a b f = mkSG (map snd vns) (map (abs_edge vns) (map_first_edge ia ib f ves)).
Proof.
  intros Ha Hb. unfold sp_map_edge. rewrite abs_unfold. cbn [sn se]. f_equal.
  assert (K : forall e, In e ves -> sedge_is a b (abs_edge vns e) = edge_is ia ib e) by (intros; eapply sedge_is_abs; eauto).
  induction ves as [|[[p q] d] r IH]; [reflexivity|]. cbn [map map_first_edge].
  rewrite (K (p, q, d)) by now left. destruct (edge_is ia ib (p, q, d)).
  - reflexivity.
  - cbn [map]. f_equal. apply IH. intros; apply K; now right.
Qed.

Lemma abs_set_edge ia ib ps' :
  In ia (map fst vns) -> In ib (map fst vns) ->
  abs_nxg (nx_set_edge G ia ib ps') g = mkSG (map snd vns) (map (abs_edge vns) (set_edge ia ib ps' ves)).
Proof.
  intros Ha Hb. unfold abs_nxg, view, ids_in, nx_set_edge. cbn [gn ge].
  change (map fst (filter (in_g g) (gn G))) with (map fst vns).
  rewrite filter_set_edge_in by (now apply memN_In). reflexivity.
Qed.

Lemma sim_with_link a b kind (guard : bool) f :
  abs_nxg (fst (with_link G g a b kind guard f)) g = fst (sp_with_link (abs_nxg G g) a b kind guard f) /\
  snd (with_link G g a b kind guard f) = snd (sp_with_link (abs_nxg G g) a b kind guard f).
Proof.
  unfold with_link, sp_with_link. destruct guard; [split; reflexivity|].
  pose proof (find_link_corr a b) as H.
  destruct (find_link G g a b) as [[[ia ib] ps]|]; [|rewrite H; split; reflexivity].
  destruct H as [[psa [psb [Ha Hb]]] [He Hs]]. rewrite Hs.
  destruct (has_val ps k_class kind); [|split; reflexivity]. cbn [fst snd]. split; [|reflexivity].
  rewrite abs_set_edge by (eapply found_in_ids; eauto).
  rewrite (sp_map_edge_corr a b ia psa ib psb f Ha Hb). f_equal. f_equal.
  apply set_edge_first. unfold nx_edge in He. rewrite (nx_edge_ves ia ib) in He by (eapply found_in_ids; eauto). exact He.
Qed.

(* add_edge between the nodes found for a and b: the link is updated if there is one, appended otherwise *)
Lemma sim_add_edge a b ia psa ib psb attrs :
  nid_nodes a = [(ia, psa)] -> nid_nodes b = [(ib, psb)] ->
  abs_nxg (nx_add_edge G ia ib attrs) g =
  match sp_edge (abs_nxg G g) a b with
  | Some _ => sp_map_edge (abs_nxg G g) a b (aupdate attrs)
  | None => mkSG (sn (abs_nxg G g)) (se (abs_nxg G g) ++ [(Some a, Some b, attrs)])
  end.
Proof.
  intros Ea Eb.
  assert (Hia : In ia (map fst vns)) by (eapply found_in_ids; eauto).
  assert (Hib : In ib (map fst vns)) by (eapply found_in_ids; eauto).
  rewrite (sp_edge_corr a b ia psa ib psb Ea Eb). unfold nx_add_edge.
  destruct (nx_edge G ia ib) as [q|] eqn:E.
  - rewrite abs_set_edge by assumption. rewrite (sp_map_edge_corr a b ia psa ib psb _ Ea Eb). f_equal. f_equal.
    apply set_edge_first. unfold nx_edge in E. now rewrite (nx_edge_ves ia ib) in E by assumption.
  - unfold abs_nxg at 1. unfold view, ids_in. cbn [gn ge]. change (map fst (filter (in_g g) (gn G))) with (map fst vns).
    rewrite filter_app. cbn [filter]. unfold in_ids at 2. apply memN_In in Hia, Hib. rewrite Hia, Hib. cbn [andb].
    change (filter (in_ids (map fst vns)) (ge G)) with ves. change (filter (in_g g) (gn G)) with vns.
    unfold abs_of_view. cbn [fst snd]. rewrite abs_unfold. cbn [sn se]. rewrite map_app. cbn [map].
    unfold abs_edge at 2. now rewrite (key_of_found a ia psa Ea), (key_of_found b ib psb Eb).
Qed.

Lemma sim_add_link a rel b ps :
  abs_nxg (fst (pg_add_link G g a rel b ps)) g = fst (sp_add_link (abs_nxg G g) a rel b ps) /\
  snd (pg_add_link G g a rel b ps) = snd (sp_add_link (abs_nxg G g) a rel b ps).
Proof.
  unfold pg_add_link, sp_add_link. rewrite !find_node_nid_nodes, !sp_find_nid_nodes.
  destruct (nid_nodes a) as [|[ia psa] [|y r]] eqn:Ea; try (split; reflexivity);
  destruct (nid_nodes b) as [|[ib psb] [|y' r']] eqn:Eb; try (split; reflexivity).
  destruct ps as [upd|]; [destruct (ahas k_class upd); [split; reflexivity|]|]; cbn [fst snd];
    rewrite (sim_add_edge a b ia psa ib psb _ Ea Eb); destruct (sp_edge (abs_nxg G g) a b); split; reflexivity.
Qed.

Lemma sim_del_graph : abs_nxg (nx_remove_nodes G (search G [(k_graphid, g)])) g = empty_sg.
Proof. apply abs_sees_none, remove_graph_no_nodes. Qed.

End Sim.

(* ---------- the reference model's step on one graph, and the simulation of [pg_step] ---------- *)
Lemma sget_sput sp g X g' : sget (sput sp g X) g' = if N.eqb g' g then X else sget sp g'.
Proof. unfold sget, sput. rewrite aget_aset. now destruct (N.eqb g' g). Qed.

Definition sp_step (X : sgraph) (o : op) : sgraph * res :=
  match o with
  | OAddNode g n c ps => sp_add_node X g n c ps
  | ODelNode _ n => sp_delete_node X n
  | OAddLink _ a r b ps => sp_add_link X a r b ps
  | OUpdNode _ n p v => sp_update_node X n p v
  | OUnsetNode _ n p => sp_unset_node X n p
  | OUpdNodes _ p v => sp_update_nodes X p v
  | OUpdNodeProps _ n ps => sp_update_node_props X n ps
  | OUpdLink _ a b k p v => sp_with_link X a b k (N.eqb p k_class) (aset p v)
  | OUnsetLink _ a b k p => sp_with_link X a b k (N.eqb p k_class) (aremove p)
  | OUpdLinkProps _ a b k ps => sp_with_link X a b k (ahas k_class ps) (aupdate ps)
  | OGetNode _ n => (X, sp_get_node X n)
  | OGetLink _ a b => (X, sp_get_link X a b)
  | OByClass _ c => (X, sp_by X [(k_class, c)])
  | OByClassType _ c t => (X, sp_by X [(k_class, c); (k_type, t)])
  | OListIds _ => (X, sp_list_ids X)
  | ONodeExists _ n c => (X, sp_node_exists X n c)
  | OUnique _ c name => (X, sp_unique X c name)
  | OGraphExists _ => (X, Ok (RBool (sp_exists X)))
  | _ => (X, Ok RUnit)
  end.

Lemma spec_step_pg sp o :
  pg_op o = true ->
  (forall g', sget (fst (spec_step sp o)) g' =
              if N.eqb g' (target o) then fst (sp_step (sget sp (target o)) o) else sget sp g') /\
  snd (spec_step sp o) = snd (sp_step (sget sp (target o)) o).
Proof.
  destruct o; try discriminate; intros _; cbn [spec_step sp_step target splift fst snd];
    (split; [intro g' | reflexivity]); try apply sget_sput; destruct (N.eqb_spec g' g); now subst.
Qed.

Lemma scope_ident_key p : negb (is_identity p) = true -> ident_key p = false.
Proof. unfold is_identity, ident_key. apply negb_true_iff. Qed.
Lemma scope_ident_free u : negb (writes_identity u) = true -> ident_free u = true.
Proof.
  unfold writes_identity, ident_free. intro H. apply negb_true_iff in H. apply orb_false_iff in H as [H1 H2].
  now rewrite H1, H2.
Qed.

Lemma sim_pg_step G newid o :
  NoDup (ids G) -> EClosed G -> nx_node G newid = None -> pg_op o = true -> in_spec_scope o = true ->
  abs_nxg (fst (pg_step G newid o)) (target o) = fst (sp_step (abs_nxg G (target o)) o) /\
  snd (pg_step G newid o) = snd (sp_step (abs_nxg G (target o)) o).
Proof.
  intros Hnd Hcl Hf Hpg Hsc. destruct o; try discriminate; cbn in Hsc; cbn [pg_step sp_step target];
    try (split; [reflexivity | cbn [snd]]).
  - destruct (pg_add_node G g newid n c ps) as [G'|] eqn:E; cbn [fst snd].
    + destruct (sim_add_node G g Hcl newid n c ps G' Hf) as [A B]; [|exact E|now rewrite B].
      destruct ps; [now apply scope_ident_free | exact I].
    + now rewrite (sim_add_node_fail G g newid n c ps E).
  - now apply sim_delete_node.
  - now apply sim_add_link.
  - rewrite pg_update_node_eq. apply sim_with_node; [exact Hnd|]. intros _ ps0.
    apply scope_ident_key, orb_false_iff in Hsc as [H1 H2]. now apply keeps_identity_aset.
  - rewrite pg_unset_node_eq. apply sim_with_node; [exact Hnd|]. intros Hg ps0. apply orb_false_iff in Hg as [_ Hg].
    now apply keeps_identity_aremove.
  - apply sim_update_nodes; [exact Hnd | now apply scope_ident_key].
  - rewrite pg_update_node_props_eq. apply sim_with_node; [exact Hnd|]. intros _ ps0.
    apply scope_ident_free, andb_true_iff in Hsc as [H1 H2]. apply negb_true_iff in H1, H2. now apply keeps_identity_aupdate.
  - now apply (sim_with_link G g Hnd a b k (N.eqb p k_class) (aset p v)).
  - now apply (sim_with_link G g Hnd a b k (N.eqb p k_class) (aremove p)).
  - now apply (sim_with_link G g Hnd a b k (ahas k_class ps) (aupdate ps)).
  - now apply sim_get_node.
  - now apply sim_get_link.
  - now apply (sim_by G g Hnd [(k_class, c)]).
  - now apply (sim_by G g Hnd [(k_class, c); (k_type, t)]).
  - now apply sim_list_ids.
  - apply sim_node_exists.
  - apply sim_unique.
  - now rewrite sim_graph_exists.
Qed.
