(* C08: reasoning about the delete-only monad relative to a fixed initial graph g0 (rests on T8Frame, T8Query).
   cons s ("consistent"): the state graph is restrict g0 (trace); ext s s': the trace of s' extends that of s.
   Inversion lemmas (named ..._ok) for runs that return normally, loop rules, and Sound P m: every id m deletes
   satisfies P (all outcomes).  In a file that imports this one `cons` is this predicate: the list constructor
   is written `::` or List.cons. *)
From Coq Require Import List NArith Bool.
From FIM Require Import Model.T8Graph Model.T8Ops Proofs.T8Frame Proofs.T8Query.
Import ListNotations.

Section Hoare.
Variable g0 : graph.

Definition cons (s : st) : Prop := fst s = restrict g0 (snd s).
Definition ext (s s' : st) : Prop := exists d, snd s' = d ++ snd s.

Lemma ext_refl s : ext s s.
Proof. exists []. reflexivity. Qed.

Lemma ext_trans a b c : ext a b -> ext b c -> ext a c.
Proof. intros [d1 H1] [d2 H2]. exists (d2 ++ d1). rewrite H2, H1, app_assoc. reflexivity. Qed.

Lemma ext_In a b x : ext a b -> In x (snd a) -> In x (snd b).
Proof. intros [d H] Hx. rewrite H. apply in_or_app. right. exact Hx. Qed.

Lemma cons_init : cons (g0, []).
Proof. unfold cons. simpl. symmetry. apply restrict_nil. Qed.

Lemma Inv_cons {A} (m : M A) : Inv m -> forall s, cons s -> cons (snd (m s)) /\ ext s (snd (m s)).
Proof. intros Hm s Hs. exact (Hm g0 s Hs). Qed.

Lemma Inv_cons_eq {A} (m : M A) s r s' : Inv m -> cons s -> m s = (r, s') -> cons s' /\ ext s s'.
Proof. intros Hm Hs E. pose proof (Inv_cons m Hm s Hs) as P. rewrite E in P. exact P. Qed.

Lemma bind_ok {A B} (m : M A) (f : A -> M B) s y s'' :
  bind m f s = (inl y, s'') -> exists x s', m s = (inl x, s') /\ f x s' = (inl y, s'').
Proof.
  unfold bind. destruct (m s) as [[x|e] s'] eqn:E; intros H.
  - exists x, s'. auto.
  - discriminate.
Qed.

Lemma ret_ok {A} (x y : A) s s' : ret x s = (inl y, s') -> y = x /\ s' = s.
Proof. unfold ret. intros H. inversion H. auto. Qed.

Lemma get_ok {A} (f : graph -> A) s x s' : m_get f s = (inl x, s') -> x = f (fst s) /\ s' = s.
Proof. unfold m_get. intros H. inversion H. auto. Qed.

Lemma read_ok {A} (f : graph -> A + exn) s x s' : m_read f s = (inl x, s') -> f (fst s) = inl x /\ s' = s.
Proof. unfold m_read. intros H. inversion H. auto. Qed.

Lemma guard_ok b e s u s' : guard b e s = (inl u, s') -> b = true /\ s' = s.
Proof. unfold guard. destruct b; unfold ret, fail; intros H; inversion H; auto. Qed.

Lemma need_node_ok n s x s' : need_node n s = (inl x, s') -> find_node (fst s) n = Some x /\ s' = s.
Proof.
  unfold need_node. intros H. apply read_ok in H. destruct H as [H ->].
  destruct (find_node (fst s) n); inversion H. auto.
Qed.

Lemma need_class_ok n c s u s' :
  need_class n c s = (inl u, s') -> has_node (fst s) n = true /\ class_of (fst s) n = c /\ s' = s.
Proof.
  unfold need_class. intros H. apply bind_ok in H. destruct H as [x [s1 [H1 H2]]].
  apply need_node_ok in H1. destruct H1 as [H1 ->]. apply guard_ok in H2. destruct H2 as [H2 ->].
  unfold has_node, class_of. rewrite H1. split; [reflexivity|]. split; [|reflexivity].
  destruct (ncls x), c; simpl in H2; try discriminate; reflexivity.
Qed.

Lemma delete_ok n s u s' :
  m_delete n s = (inl u, s') -> has_node (fst s) n = true /\ s' = (delete (fst s) n, n :: snd s).
Proof. unfold m_delete. destruct (has_node (fst s) n); intros H; inversion H. auto. Qed.

Lemma uniq_ok l e1 e2 s x s' : uniq l e1 e2 s = (inl x, s') -> l = [x] /\ s' = s.
Proof.
  unfold uniq. destruct l as [|a [|b r]]; unfold ret, fail; intros H; inversion H. auto.
Qed.

(* the two sides are convertible: the lemma performs, on a hypothesis, the one computation step of a read *)
Lemma bind_get_ok {A B} (q : graph -> A) (f : A -> M B) s y s' :
  bind (m_get q) f s = (inl y, s') -> f (q (fst s)) s = (inl y, s').
Proof. intros H. exact H. Qed.

Lemma bind_guard_ok {B} b e (f : unit -> M B) s y s' :
  bind (guard b e) f s = (inl y, s') -> b = true /\ f tt s = (inl y, s').
Proof. destruct b; [intros H; split; [reflexivity | exact H] | discriminate]. Qed.

Lemma bind_need_node_ok {B} n (f : node -> M B) s y s' :
  bind (need_node n) f s = (inl y, s') -> exists x, find_node (fst s) n = Some x /\ f x s = (inl y, s').
Proof.
  intros H. apply bind_ok in H. destruct H as [x [s1 [H1 H2]]]. apply need_node_ok in H1. destruct H1 as [H1 ->].
  exists x. auto.
Qed.

Lemma bind_need_class_ok {B} n c (f : unit -> M B) s y s' :
  bind (need_class n c) f s = (inl y, s') ->
  has_node (fst s) n = true /\ class_of (fst s) n = c /\ f tt s = (inl y, s').
Proof.
  intros H. apply bind_ok in H. destruct H as [[] [s1 [H1 H2]]]. apply need_class_ok in H1. destruct H1 as [H1 [H3 ->]]. auto.
Qed.

Lemma get_uniq_ok {B} (q : graph -> list N) e1 e2 (f : N -> M B) s y s' :
  bind (m_get q) (fun l => bind (uniq l e1 e2) f) s = (inl y, s') -> exists n, q (fst s) = [n] /\ f n s = (inl y, s').
Proof.
  intros H. apply bind_get_ok, bind_ok in H. destruct H as [n [s1 [H1 H2]]]. apply uniq_ok in H1. destruct H1 as [H1 ->].
  exists n. auto.
Qed.

Lemma bind_ret_ok {A B} (m : M A) (h : A -> B) s r s' :
  bind m (fun x => ret (h x)) s = (inl r, s') -> exists x, m s = (inl x, s').
Proof.
  intros E. apply bind_ok in E. destruct E as [x [s1 [E1 E2]]]. apply ret_ok in E2. destruct E2 as [_ ->]. exists x. exact E1.
Qed.

(* the guard "still in the graph, with class c" of the repaired prune and unpeer, read on the current graph *)
Lemma there_class s c :
  cons s -> has_node (fst s) c && cls_eqb (class_of (fst s) c) CCP = true -> class_of g0 c = CCP.
Proof.
  intros C Eb. rewrite C, has_node_restrict in Eb. destruct (memN c (snd s)) eqn:Hm; [discriminate|].
  rewrite (class_of_restrict _ _ _ Hm) in Eb. apply andb_true_iff in Eb. destruct Eb as [_ Hc].
  destruct (class_of g0 c); simpl in Hc; try discriminate; reflexivity.
Qed.

Lemma gone_in_D s x c :
  cons s -> class_of g0 x = c -> c <> COther ->
  has_node (fst s) x && cls_eqb (class_of (fst s) x) c = false -> In x (snd s).
Proof.
  intros C Hc Hne Eb. destruct (in_dec N.eq_dec x (snd s)) as [Hd|Hd]; [exact Hd|]. exfalso.
  assert (Hm : memN x (snd s) = false) by (apply memN_false; exact Hd).
  rewrite C, has_node_restrict, Hm, (class_of_restrict _ _ _ Hm), Hc in Eb. simpl in Eb.
  assert (Hh : has_node g0 x = true).
  { unfold has_node, class_of in *. destruct (find_node g0 x); [reflexivity | exfalso; apply Hne; symmetry; exact Hc]. }
  rewrite Hh in Eb. destruct c; simpl in Eb; discriminate.
Qed.

Lemma for_each_set_ok {A} (f : A -> M unit) l s u s' :
  for_each_set f l s = (inl u, s') -> for_each f l s = (inl u, s').
Proof.
  unfold for_each_set. destruct (for_each f l s) as [[v|e] s1]; intros H; [exact H | discriminate].
Qed.

Lemma for_each_set_state {A} (f : A -> M unit) l s : snd (for_each_set f l s) = snd (for_each f l s).
Proof. unfold for_each_set. destruct (for_each f l s) as [[v|e] s1]; reflexivity. Qed.

Lemma for_each_ok_inv {A} (f : A -> M unit) (J : st -> Prop) l :
  (forall x s1 s2, In x l -> J s1 -> f x s1 = (inl tt, s2) -> J s2) ->
  forall s s', J s -> for_each f l s = (inl tt, s') -> J s'.
Proof.
  induction l as [|a l IH]; intros Hstep s s' HJ E.
  - simpl in E. apply ret_ok in E. destruct E as [_ ->]. exact HJ.
  - simpl in E. apply bind_ok in E. destruct E as [[] [s1 [E1 E2]]].
    apply (IH (fun x s1 s2 Hx => Hstep x s1 s2 (or_intror Hx)) s1 s'); [|exact E2].
    exact (Hstep a s s1 (or_introl eq_refl) HJ E1).
Qed.

(* a per-element postcondition that is stable under the later iterations: once R a holds, the rest of the loop
   carries J /\ R a *)
Lemma for_each_ok_all {A} (f : A -> M unit) (J : st -> Prop) (R : A -> st -> Prop) l :
  (forall x s1 s2, In x l -> J s1 -> f x s1 = (inl tt, s2) -> J s2 /\ R x s2) ->
  (forall x y s1 s2, In y l -> J s1 -> R x s1 -> f y s1 = (inl tt, s2) -> R x s2) ->
  forall s s', J s -> for_each f l s = (inl tt, s') -> J s' /\ forall x, In x l -> R x s'.
Proof.
  induction l as [|a l IH]; intros Hstep Hstab s s' HJ E.
  - simpl in E. apply ret_ok in E. destruct E as [_ ->]. split; [exact HJ | intros x []].
  - simpl in E. apply bind_ok in E. destruct E as [[] [s1 [E1 E2]]].
    destruct (Hstep a s s1 (or_introl eq_refl) HJ E1) as [HJ1 HR1].
    destruct (IH (fun x t1 t2 Hx => Hstep x t1 t2 (or_intror Hx))
                 (fun x y t1 t2 Hy => Hstab x y t1 t2 (or_intror Hy)) s1 s' HJ1 E2) as [HJ' HR'].
    split; [exact HJ'|]. intros x [<-|Hx]; [|exact (HR' x Hx)].
    apply (for_each_ok_inv f (fun t => J t /\ R a t) l) with (s := s1) (s' := s'); [|auto|exact E2].
    intros y t1 t2 Hy [A1 A2] Et. split; [apply (Hstep y t1 t2 (or_intror Hy) A1 Et) | apply (Hstab a y t1 t2 (or_intror Hy) A1 A2 Et)].
Qed.

Definition Sound {A} (P : N -> Prop) (m : M A) : Prop :=
  forall s, cons s -> forall x, In x (snd (snd (m s))) -> In x (snd s) \/ P x.

Lemma Sound_weaken {A} (P Q : N -> Prop) (m : M A) : (forall x, P x -> Q x) -> Sound P m -> Sound Q m.
Proof. intros H Hm s Hs x Hx. destruct (Hm s Hs x Hx); auto. Qed.

Lemma Sound_pure {A} P (m : M A) : Pure m -> Sound P m.
Proof. intros H s _ y Hy. left. rewrite H in Hy. exact Hy. Qed.

Lemma Sound_ret {A} P (x : A) : Sound P (ret x).
Proof. apply Sound_pure, Pure_ret. Qed.

Lemma Sound_fail {A} P e : Sound P (@fail A e).
Proof. apply Sound_pure, Pure_fail. Qed.

Lemma Sound_uniq P l e1 e2 : Sound P (uniq l e1 e2).
Proof. apply Sound_pure, Pure_uniq. Qed.

Lemma Sound_delete (P : N -> Prop) n : P n -> Sound P (m_delete n).
Proof.
  intros Hn s _ y Hy. unfold m_delete in Hy. destruct (has_node (fst s) n); simpl in Hy.
  - destruct Hy as [<-|Hy]; auto.
  - auto.
Qed.

Lemma Sound_bind {A B} P (m : M A) (f : A -> M B) :
  Inv m -> Sound P m -> (forall x s s', cons s -> m s = (inl x, s') -> Sound P (f x)) -> Sound P (bind m f).
Proof.
  intros Im Hm Hf s Hs y Hy. unfold bind in Hy.
  pose proof (Inv_cons m Im s Hs) as [C1 _]. pose proof (Hm s Hs) as S1.
  destruct (m s) as [[x|e] s1] eqn:E; simpl in *.
  - destruct (Hf x s s1 Hs E s1 C1 y Hy) as [H|H]; [apply S1; exact H | right; exact H].
  - apply S1. exact Hy.
Qed.

Lemma Sound_bind' {A B} P (m : M A) (f : A -> M B) :
  Inv m -> Sound P m -> (forall x, Sound P (f x)) -> Sound P (bind m f).
Proof. intros Im Hm Hf. apply Sound_bind; auto. Qed.

(* a read of the current graph followed by a continuation: the value is a query on some restrict g0 d *)
Lemma Sound_bind_get {A B} P (q : graph -> A) (f : A -> M B) :
  (forall d, Sound P (f (q (restrict g0 d)))) -> Sound P (bind (m_get q) f).
Proof.
  intros Hf. apply Sound_bind; [apply Inv_get | apply Sound_pure, Pure_get |].
  intros x s s' Hs E. apply get_ok in E. destruct E as [-> _]. rewrite Hs. apply Hf.
Qed.

Lemma Sound_after {A B} P (m : M A) (f : A -> M B) : Pure m -> (forall x, Sound P (f x)) -> Sound P (bind m f).
Proof. intros H Hf. apply Sound_bind'; [apply Inv_pure, H | apply Sound_pure, H | exact Hf]. Qed.

Lemma Sound_bind_ret {A B} P (m : M A) (h : A -> B) : Inv m -> Sound P m -> Sound P (bind m (fun x => ret (h x))).
Proof. intros Im Hm. apply Sound_bind'; [exact Im | exact Hm | intros x; apply Sound_ret]. Qed.

Lemma Sound_guarded P (q : graph -> bool) (m : M unit) :
  Sound P m -> Sound P (bind (m_get q) (fun b : bool => if b then m else ret tt)).
Proof.
  intros Hm. apply Sound_after; [apply Pure_get | intros b]. destruct b; [exact Hm | apply Sound_ret].
Qed.

Lemma Sound_for_each {A} P (f : A -> M unit) l :
  (forall x, In x l -> Inv (f x) /\ Sound P (f x)) -> Sound P (for_each f l).
Proof.
  induction l as [|a l IH]; intros H; simpl.
  - apply Sound_ret.
  - apply Sound_bind'; [apply H; simpl; auto | apply H; simpl; auto |].
    intros _. apply IH. intros x Hx. apply H. simpl. auto.
Qed.

Lemma Sound_for_each_set {A} P (f : A -> M unit) l :
  (forall x, In x l -> Inv (f x) /\ Sound P (f x)) -> Sound P (for_each_set f l).
Proof.
  intros H s Hs y Hy. rewrite for_each_set_state in Hy. exact (Sound_for_each P f l H s Hs y Hy).
Qed.

End Hoare.
