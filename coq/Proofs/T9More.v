(* C09 - calls on existing elements that delete or connect: unpeer, connect_interface called directly (with and
   without the rollback of proposed_fixes/C09-7.patch); witnesses and instances. *)
From Coq Require Import List NArith Bool String.
From FIM Require Import Base.Str Model.T9Graph Model.T9Ops Proofs.T9Monad Proofs.T9Simple Proofs.T9Ext
     Proofs.T9Connect Proofs.T9Peer Proofs.T9Refuted Proofs.T9Final.
Import ListNotations.
Open Scope N_scope.

Lemma op_unpeer_not_peering a b s s' e :
  op_unpeer a b s = (s', Err e) ->
  (forall m t, peerings (sg s) a b = Ok (m, t) -> m = []) ->
  sg s' = sg s.
Proof.
  intros H Hno. unfold op_unpeer in H.
  apply (bind_check (check_ask _)) in H as [[-> _]|(pr & Hp & H)]; [reflexivity|].
  apply ask_ok in Hp as [_ Hp]. destruct pr as [m t]. rewrite (Hno m t Hp) in H. inversion H. reflexivity.
Qed.

(* the removals only ever raise PropertyGraphQueryException *)
Lemma raises_remove_cp (R : exn -> Prop) x : R EQuery -> raises R (remove_cp_and_links x).
Proof.
  intro HR. unfold remove_cp_and_links.
  apply raises_bind; [apply raises_query; [intros; eapply first_neighbor_err; eauto|exact HR]|intro parents].
  apply raises_bind.
  { apply raises_query; [|exact HR]. intros g. induction parents as [|p r IH]; intros e H; [discriminate|].
    destruct (first_neighbor g p rConnects cCP) eqn:E1; [|inversion H; subst; eapply first_neighbor_err; eauto].
    match type of H with context [match ?X with _ => _ end] => destruct X eqn:E2 end;
      [discriminate|inversion H; subst; eapply IH; eauto]. }
  intro extra.
  apply raises_bind.
  { apply raises_query; [|exact HR]. intros g. generalize (dedupN (x :: extra)).
    induction l as [|i r IH]; intros e H; [discriminate|].
    destruct (first_neighbor g i rConnects cLink) as [ls|e1] eqn:E1; [|inversion H; subst; eapply first_neighbor_err; eauto].
    (* the inner loop over the links of i, taken from the program text as it stands *)
    match type of H with context [match ?F ls with _ => _ end] => set (go2 := F) in * end.
    assert (Hgo2 : forall ls0 e0, go2 ls0 = Err e0 -> e0 = EQuery).
    { induction ls0 as [|l r2 IH2]; intros e0 H0; [discriminate|]. simpl in H0.
      destruct (first_neighbor g l rConnects cCP) eqn:E4; [|inversion H0; subst; eapply first_neighbor_err; eauto].
      destruct (go2 r2) eqn:E5; [discriminate|inversion H0; subst; eapply IH2; eauto]. }
    destruct (go2 ls) as [a|e2] eqn:E2.
    - match type of H with context [match ?X with _ => _ end] => destruct X eqn:E3 end;
        [discriminate|inversion H; subst; eapply IH; eauto].
    - inversion H; subst. eapply Hgo2; eauto. }
  intro links. auto with raises.
Qed.

Lemma raises_remove_if_cp (R : exn -> Prop) x : R EQuery -> raises R (remove_if_cp x).
Proof.
  intro HR. unfold remove_if_cp. apply raises_bind.
  - apply raises_query; [|exact HR]. intros g e H.
    destruct (filter (fun n => (nid n =? x) && (ncls n =? cCP)) (gnodes g)) as [|? [|? ?]]; inversion H; reflexivity.
  - intros [|]; [apply raises_remove_cp; exact HR|apply raises_ret].
Qed.

(* a TopologyException from unpeer ("do not peer") means nothing was touched, whatever the graph *)
Lemma op_unpeer_topo_atomic a b : topo_atomic (op_unpeer a b).
Proof.
  apply clean_topo. unfold op_unpeer. checks.
  apply (clean_raises _ (fun e => e <> ETopology)); [|intros e H <-; exact (H eq_refl)].
  apply raises_for_each. intro. apply raises_remove_if_cp. discriminate.
Qed.

Lemma link_step_raises i pname p : raises (fun e => e <> ETopology) (link_step Experiment i pname p).
Proof. unfold link_step, new_link. simpl. auto 20 with raises. Qed.

(* a TopologyException is always raised before the port is made: by the checks, or for the substrate flavour by the
   Interface constructor; in the experiment flavour nothing from the constructor on raises one *)
Lemma connect_with_topo tail fl ns i :
  (fl = Experiment -> forall pname p, raises (fun e => e <> ETopology) (tail pname p)) ->
  topo_atomic (connect_with tail fl ns i).
Proof.
  intros Htail s s' H. apply connect_with_run in H as [[-> _]|(pname & _ & H)]; [reflexivity|].
  destruct fl.
  - exfalso. revert H.
    assert (NT : raises (fun e => e <> ETopology)
                   (p <- new_interface Experiment pname None (Some ns) (Some tServicePort) None ;; tail pname p)).
    { apply raises_bind; [unfold new_interface; simpl; auto 12 with raises|intro; apply Htail; reflexivity]. }
    intro H. exact (NT _ _ _ H eq_refl).
  - inversion H. reflexivity.
Qed.

Lemma connect_topo_atomic rb fl ns i : topo_atomic (op_connect rb fl ns i).
Proof.
  destruct rb; simpl; [rewrite connect_interface_rb_with|rewrite connect_interface_with];
    apply connect_with_topo; intros -> pname p; [|apply link_step_raises].
  apply raises_catch; [apply link_step_raises|]. intros e He.
  apply raises_bind; [apply raises_remove_cp; discriminate|intro; apply raises_raise; exact He].
Qed.

(* with the rollback: the handler removes the port that hangs on the service *)
Lemma connect_rb_atomic fl ns i g fresh s' e :
  wf_graph g = true -> node_cls g ns = Ok cNS ->
  connect_interface_rb fl ns i (mkSt g fresh) = (s', Err e) -> sg s' = g.
Proof.
  intros Hwf Hns H. assert (Hcl := wf_closed g Hwf). assert (Hnd := wf_nodup g Hwf).
  destruct (node_cls_facts g ns Hns) as (Hin & Hc1 & Hc2).
  assert (Hf : found g ns) by (apply found_In; auto).
  rewrite connect_interface_rb_with in H.
  apply connect_with_run in H as [[-> _]|(pname & _ & H)]; [reflexivity|].
  apply bind_err_cases in H as [H|(s2 & p & H1 & H)].
  - exact (new_interface_cases _ _ _ _ _ _ (mkSt g fresh) _ (Err e) Hcl Hf H).
  - apply (new_interface_cases _ _ _ _ _ _ (mkSt g fresh) _ (Ok p) Hcl Hf) in H1 as (Hnew & Hs2 & _). simpl in Hnew, Hs2.
    eapply catch_undo; [|exact H]. intros [g3 fr3] e3 Hm. exists fr3.
    apply link_step_atomic in Hm. simpl in Hm. rewrite Hs2 in Hm. subst g3.
    apply (remove_fresh_port g ns); auto.
Qed.


Definition g_long_svc : graph :=
  mkGraph (gnodes g_long ++ [mkNode 9 cNS (S "s1") tL2Bridge 7]) (gedges g_long).

(* connect_interface called directly, without the rollback of C09-7: the link name has 256 characters, the
   ServicePort stays *)
Definition w_connect_long : st * res unit :=
  connect_interface Experiment 9 (mkIface 4 (long_name 50)) (mkSt g_long_svc supply).

Lemma connect_atomic_refuted :
  exists fl ns i g fresh s',
    wf_graph g = true /\ node_cls g ns = Ok cNS /\
    op_connect false fl ns i (mkSt g fresh) = (s', Err EValue) /\ sg s' <> g.
Proof.
  exists Experiment, 9, (mkIface 4 (long_name 50)), g_long_svc, supply, (fst w_connect_long).
  split; [vm_compute; reflexivity|]. split; [vm_compute; reflexivity|]. split; [vm_compute; reflexivity|differs].
Qed.

Lemma ex_connect_rb_long :
  let r := op_connect true Experiment 9 (mkIface 4 (long_name 50)) (mkSt g_long_svc supply) in
  snd r = Err EValue /\ sg (fst r) = g_long_svc /\ List.length (sfresh (fst r)) = 6%nat.
Proof. vm_compute. auto. Qed.

Lemma ex_rename :
  snd (op_rename 5 cNN (S "n1") (mkSt g_two_nodes supply)) = Err ETopology /\
  sg (fst (op_rename 5 cNN (S "n1") (mkSt g_two_nodes supply))) = g_two_nodes /\
  snd (op_rename 6 cComp (S "nic1") (mkSt g_two_nodes supply)) = Ok tt /\
  snd (op_rename 8 cCP (S "nic1-p2") (mkSt g_two_nodes supply)) = Err ETopology /\
  snd (op_rename 8 cCP (S "x") (mkSt g_two_nodes supply)) = Ok tt /\
  snd (op_rename 5 cNN (S "x") (mkSt g_two_nodes supply)) = Err EValue.
Proof. vm_compute. repeat split. Qed.

(* the witness of C09_add_component_atomic_refuted is refused before anything is added when the pre-check is there *)
Lemma ex_component_precheck :
  let r := op_add_component true Substrate 1 (S "nic2") (Some 20) true true true (Ok (spec_smartnic 21 22 22)) None
                            (mkSt g_two_nodes supply) in
  snd r = Err EQuery /\ sg (fst r) = g_two_nodes.
Proof. vm_compute. auto. Qed.

(* peering: services 30 and 31 peered; remove_link on the peering link and unpeer with a third service are refused *)
Definition g_peered : graph :=
  mkGraph [mkNode 30 cNS (S "a") tL2Bridge 1; mkNode 31 cNS (S "b") tL2Bridge 1; mkNode 33 cNS (S "c") tL2Bridge 1;
           mkNode 40 cCP (S "a-b") tServicePort 2; mkNode 41 cCP (S "b-a") tServicePort 2;
           mkNode 42 cLink (S "a-b-link") tL2Path 3]
          [mkEdge 30 40 rConnects; mkEdge 31 41 rConnects; mkEdge 42 40 rConnects; mkEdge 42 41 rConnects].
Lemma ex_peered :
  wf_graph g_peered = true /\
  snd (op_remove_link (S "a-b-link") (mkSt g_peered supply)) = Err ETopology /\
  snd (op_unpeer 30 33 (mkSt g_peered supply)) = Err ETopology /\
  sg (fst (op_unpeer 30 33 (mkSt g_peered supply))) = g_peered /\
  snd (op_unpeer 30 31 (mkSt g_peered supply)) = Ok tt /\
  List.length (gnodes (sg (fst (op_unpeer 30 31 (mkSt g_peered supply))))) = 3%nat.
Proof. vm_compute. repeat split. Qed.
