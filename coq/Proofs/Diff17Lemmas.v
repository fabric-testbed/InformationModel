(* C17 - lemmas about Model/Diff17.v: the transcribed comparisons equal the declarative specification.
   At service level [svc_diff_fixed] transcribes NetworkServiceSliver.diff as /repo has it (commit 0ebb5f3 =
   proposed_fixes/C17-1.patch) and meets the specification in full; [svc_diff] transcribes the method without that
   commit, the one finding C17-1 was about: it equals the specification up to the port flag [if_flags_code], and
   NodeSliver.diff, which only asks whether a service comparison is None, cannot tell the two apart
   ([svc_diff_fixed_some]).  Then: added/removed antisymmetry, single edits applied to a copy, histories of
   comparisons.  Rests on Base/ListFacts.v. *)
From Coq Require Import List ZArith Bool.
Import ListNotations.
From FIM Require Import Base.ListFacts Model.Diff17.

Lemma optN_eqb_refl x : optN_eqb x x = true.
Proof. destruct x; cbn; auto using N.eqb_refl. Qed.

Lemma labels_eqb_refl a : labels_eqb a a = true.
Proof. unfold labels_eqb. apply forallb_forall. intros; apply optN_eqb_refl. Qed.

Lemma caps_eqb_refl a : caps_eqb a a = true.
Proof. unfold caps_eqb. apply forallb_forall. intros; apply Z.eqb_refl. Qed.

Lemma py_ne_refl {A} (eqb : A -> A -> bool) (H : forall a, eqb a a = true) x : py_ne eqb x x = false.
Proof. destruct x; cbn; auto. now rewrite H. Qed.

Lemma props_same_refl p : props_same p p = true.
Proof.
  unfold props_same, labels_same, caps_same, udata_same.
  rewrite (py_ne_refl labels_eqb labels_eqb_refl), (py_ne_refl caps_eqb caps_eqb_refl), (py_ne_refl N.eqb N.eqb_refl).
  reflexivity.
Qed.

Lemma prop_diff_flags p q :
  prop_diff p q = mkFlags (negb (labels_same p q)) (negb (caps_same p q)) (negb (udata_same p q)) false.
Proof. unfold prop_diff, labels_same, caps_same, udata_same. now rewrite !negb_involutive. Qed.

(* every flag set of the specification has this form *)
Lemma is_none_flags l c u s : is_none (mkFlags (negb l) (negb c) (negb u) s) = l && c && u && negb s.
Proof. destruct l, c, u, s; reflexivity. Qed.

Lemma is_none_prop_diff p q : is_none (prop_diff p q) = props_same p q.
Proof. rewrite prop_diff_flags, is_none_flags. apply andb_true_r. Qed.

Lemma self_mod_exp p q : self_mod p q = exp_self p q.
Proof.
  unfold self_mod, exp_self. cbv zeta. rewrite is_none_prop_diff, prop_diff_flags. reflexivity.
Qed.

Lemma isnil_exp_self p q : isnil (exp_self p q) = props_same p q.
Proof. unfold exp_self. destruct (props_same p q); reflexivity. Qed.

Lemma isnil_true {A} (l : list A) : isnil l = true -> l = [].
Proof. destruct l; cbn; congruence. Qed.

Lemma isSome_mk_opt {D} (empty : D -> bool) d : isSome (mk_opt empty d) = negb (empty d).
Proof. unfold mk_opt. destruct (empty d); reflexivity. Qed.

(* a list field that an empty result forces to be [] reads the same off the optional result *)
Lemma mk_opt_list {D A} (empty : D -> bool) (fld : D -> list A) d :
  (empty d = true -> fld d = []) -> match mk_opt empty d with Some x => fld x | None => [] end = fld d.
Proof. unfold mk_opt. destruct (empty d); auto using eq_sym. Qed.

Lemma none_iff {A} (o : option A) b : isSome o = negb b -> (o = None <-> b = true).
Proof. destruct o, b; cbn; split; congruence. Qed.

Lemma isnil_filter {A} (f : A -> bool) l : isnil (filter f l) = forallb (fun x => negb (f x)) l.
Proof. induction l as [|x l IH]; cbn; auto. destruct (f x); cbn; auto. Qed.

Lemma isnil_flat_map {A B} (g : A -> list B) l : isnil (flat_map g l) = forallb (fun x => isnil (g x)) l.
Proof. induction l as [|x l IH]; cbn; auto. destruct (g x); cbn; auto. Qed.

Lemma forallb_and {A} (f g : A -> bool) l : forallb f l && forallb g l = forallb (fun x => f x && g x) l.
Proof.
  induction l as [|x l IH]; cbn; auto. rewrite <- IH.
  destruct (f x), (g x), (forallb f l), (forallb g l); reflexivity.
Qed.

Lemma nodupb_NoDup l : nodupb l = true -> NoDup l.
Proof.
  induction l as [|x l IH]; cbn; intros H; constructor.
  - apply andb_true_iff in H. destruct H as [H _]. apply negb_true_iff in H.
    intros Hin. assert (existsb (N.eqb x) l = true) as E.
    { apply existsb_exists. exists x. split; auto. apply N.eqb_refl. }
    congruence.
  - apply IH. apply andb_true_iff in H. tauto.
Qed.

Section DictLemmas.
  Context {E : Type} (nm : E -> N).

  Lemma has_dget k d : has nm k d = isSome (dget nm k d).
  Proof.
    unfold has, dget. induction d as [|x d IH]; cbn; auto.
    destruct (N.eqb (nm x) k); cbn; auto.
  Qed.

  Lemma has_in k d : has nm k d = true <-> In k (map nm d).
  Proof.
    unfold has. rewrite existsb_exists, in_map_iff. split; intros [x [H1 H2]]; exists x.
    - apply N.eqb_eq in H2. tauto.
    - split; try tauto. apply N.eqb_eq. tauto.
  Qed.

  Lemma has_self e d : In e d -> has nm (nm e) d = true.
  Proof. intros H. apply has_in. now apply in_map. Qed.

  Lemma dget_some k d e : dget nm k d = Some e -> In e d /\ nm e = k.
  Proof.
    unfold dget. intros H. apply find_some in H. destruct H as [H1 H2]. apply N.eqb_eq in H2. tauto.
  Qed.

  Lemma dget_nodup d e : NoDup (map nm d) -> In e d -> dget nm (nm e) d = Some e.
  Proof.
    unfold dget. induction d as [|x d IH]; cbn; intros ND Hin; [tauto|].
    inversion ND as [|? ? Hx ND']; subst.
    destruct Hin as [->|Hin].
    - now rewrite N.eqb_refl.
    - destruct (N.eqb (nm x) (nm e)) eqn:Q.
      + apply N.eqb_eq in Q. exfalso. apply Hx. rewrite Q. now apply in_map.
      + now apply IH.
  Qed.

  (* a flat_map that vanishes off the key k reads the entry under k *)
  Lemma flat_map_key {B} k (f : E -> list B) d :
    NoDup (map nm d) -> (forall y, nm y <> k -> f y = []) ->
    flat_map f d = match dget nm k d with Some y => f y | None => [] end.
  Proof.
    intros ND H. unfold dget. induction d as [|x d IH]; cbn; auto.
    inversion ND as [|? ? Hx ND']; subst.
    destruct (N.eqb (nm x) k) eqn:Q.
    - apply N.eqb_eq in Q. rewrite <- (app_nil_r (f x)) at 2. f_equal.
      apply isnil_true. rewrite isnil_flat_map. apply forallb_forall. intros y Hy.
      rewrite H; auto. intros Q'. apply Hx. rewrite Q, <- Q'. now apply in_map.
    - rewrite H, IH; auto. now apply N.eqb_neq.
  Qed.

  Lemma kids_added_exp oa ob : kids_added nm oa ob = exp_added nm oa ob.
  Proof. destruct oa, ob; cbn; auto using eq_sym, filter_true. Qed.

  Lemma kids_removed_exp oa ob : kids_removed nm oa ob = exp_removed nm oa ob.
  Proof. destruct oa, ob; cbn; auto using eq_sym, filter_true. Qed.

  (* what is 'added' from old to new is what is 'removed' from new to old *)
  Lemma exp_added_removed oa ob : exp_added nm oa ob = exp_removed nm ob oa.
  Proof. reflexivity. Qed.

  Lemma dict_common_nil_r a : dict_common nm a [] = [].
  Proof. unfold dict_common. induction a; cbn; auto. Qed.

  Lemma kids_common_dflt oa ob : kids_common nm oa ob = dict_common nm (dflt oa) (dflt ob).
  Proof.
    destruct oa as [a|], ob as [b|]; cbn [kids_common dflt]; auto. now rewrite dict_common_nil_r.
  Qed.

  Lemma flat_map_common {B} (g : E * E -> list B) a b :
    flat_map g (dict_common nm a b)
    = flat_map (fun e => match dget nm (nm e) b with Some e' => g (e, e') | None => [] end) a.
  Proof.
    unfold dict_common. induction a as [|x a IH]; cbn; auto.
    rewrite flat_map_app, IH. f_equal.
    destruct (dget nm (nm x) b); cbn; auto using app_nil_r.
  Qed.

  Lemma in_common a b e e' : In (e, e') (dict_common nm a b) <-> In e a /\ dget nm (nm e) b = Some e'.
  Proof.
    unfold dict_common. rewrite in_flat_map. split.
    - intros [x [Hx H]]. destruct (dget nm (nm x) b) eqn:Q; cbn in H; try tauto.
      destruct H as [H|[]]. inversion H; subst. tauto.
    - intros [H1 H2]. exists e. split; auto. rewrite H2. now left.
  Qed.

  Lemma in_common_in a b e e' : In (e, e') (dict_common nm a b) -> In e a /\ In e' b /\ nm e' = nm e.
  Proof. rewrite in_common. intros [H Q]. apply dget_some in Q. tauto. Qed.

  (* two sub-dictionaries of one dictionary with distinct keys pair an entry with itself only *)
  Lemma common_diag d a b e e' :
    NoDup (map nm d) -> incl a d -> incl b d -> In (e, e') (dict_common nm a b) -> e' = e /\ In e a.
  Proof.
    intros ND Ia Ib H. apply in_common_in in H. destruct H as (Ha & Hb & Q). split; auto.
    apply (NoDup_map_inj nm d); auto.
  Qed.

  (* The bridge between code and specification for the 'modified' lists: the code's loop over the common keys with
     a flag computation [pd] is [exp_mod] with any flag function [fl] that agrees with [pd] on the common pairs.
     Every [*_mods_exp] below is an instance. *)
  Lemma mods_exp (pd fl : E -> E -> flags) oa ob :
    (forall e e', In (e, e') (dict_common nm (dflt oa) (dflt ob)) -> pd e e' = fl e e') ->
    flat_map (fun p : E * E => let f := pd (fst p) (snd p) in if is_none f then [] else [(fst p, f)])
             (kids_common nm oa ob)
    = exp_mod nm fl oa ob.
  Proof.
    intros H. rewrite kids_common_dflt, flat_map_common. unfold exp_mod.
    apply flat_map_ext_in. intros e He.
    destruct (dget nm (nm e) (dflt ob)) as [e'|] eqn:Q; auto.
    cbn [fst snd]. cbv zeta. rewrite (H e e'); auto. apply in_common. tauto.
  Qed.

  Lemma exp_mod_ext (fl1 fl2 : E -> E -> flags) oa ob :
    (forall e e', In (e, e') (dict_common nm (dflt oa) (dflt ob)) -> fl1 e e' = fl2 e e') ->
    exp_mod nm fl1 oa ob = exp_mod nm fl2 oa ob.
  Proof.
    intros H. unfold exp_mod. apply flat_map_ext_in. intros e He.
    destruct (dget nm (nm e) (dflt ob)) as [e'|] eqn:Q; auto.
    rewrite (H e e'); auto. apply in_common. tauto.
  Qed.

  Lemma isnil_exp_mod fl oa ob :
    isnil (exp_mod nm fl oa ob)
    = forallb (fun e => match dget nm (nm e) (dflt ob) with Some e' => is_none (fl e e') | None => true end) (dflt oa).
  Proof.
    unfold exp_mod. rewrite isnil_flat_map. apply forallb_ext_in. intros e _.
    destruct (dget nm (nm e) (dflt ob)) as [e'|]; auto. destruct (is_none (fl e e')); reflexivity.
  Qed.

  (* nothing added, nothing removed, nothing modified  =  same key set and every common pair the same *)
  Lemma exp_empty_same (fl : E -> E -> flags) (same : E -> E -> bool) oa ob :
    (forall e e', In (e, e') (dict_common nm (dflt oa) (dflt ob)) -> is_none (fl e e') = same e e') ->
    isnil (exp_added nm oa ob) && isnil (exp_removed nm oa ob) && isnil (exp_mod nm fl oa ob)
    = kids_same nm same oa ob.
  Proof.
    intros H. unfold exp_added, exp_removed, kids_same.
    rewrite !isnil_filter, isnil_exp_mod.
    rewrite <- andb_assoc, forallb_and, andb_comm. f_equal.
    - apply forallb_ext_in. intros e He. rewrite negb_involutive, has_dget.
      destruct (dget nm (nm e) (dflt ob)) as [e'|] eqn:Q; cbn; auto.
      apply H, in_common. tauto.
    - apply forallb_ext_in. intros e He. now rewrite negb_involutive.
  Qed.

  Lemma kids_same_refl (same : E -> E -> bool) oa :
    NoDup (map nm (dflt oa)) -> (forall e, In e (dflt oa) -> same e e = true) -> kids_same nm same oa oa = true.
  Proof.
    intros ND H. unfold kids_same. apply andb_true_iff. split; apply forallb_forall; intros e He.
    - rewrite dget_nodup; auto.
    - now apply has_self.
  Qed.

  Lemma exp_added_spec oa ob x :
    In x (exp_added nm oa ob) <-> In x (dflt ob) /\ ~ In (nm x) (map nm (dflt oa)).
  Proof.
    unfold exp_added. rewrite filter_In, negb_true_iff, <- not_true_iff_false, has_in. tauto.
  Qed.

  Lemma exp_removed_spec oa ob x :
    In x (exp_removed nm oa ob) <-> In x (dflt oa) /\ ~ In (nm x) (map nm (dflt ob)).
  Proof. apply exp_added_spec. Qed.

  Lemma exp_mod_spec fl oa ob x f :
    NoDup (map nm (dflt ob)) ->
    (In (x, f) (exp_mod nm fl oa ob) <->
     In x (dflt oa) /\ exists y, In y (dflt ob) /\ nm y = nm x /\ f = fl x y /\ is_none f = false).
  Proof.
    intros ND. unfold exp_mod. rewrite in_flat_map. split.
    - intros (e & He & H). destruct (dget nm (nm e) (dflt ob)) as [y|] eqn:Q; [|easy].
      destruct (is_none (fl e y)) eqn:Z; [easy|]. destruct H as [[= -> <-]|[]].
      apply dget_some in Q. split; [|exists y]; intuition.
    - intros [Hx [y [Hy [Hn [Hf Hz]]]]]. exists x. split; auto.
      assert (dget nm (nm x) (dflt ob) = Some y) as Q by (rewrite <- Hn; apply dget_nodup; auto).
      rewrite Q. subst f. rewrite Hz. now left.
  Qed.

  Lemma exp_removed_sub oa ob : incl (dflt oa) (dflt ob) -> exp_removed nm oa ob = [].
  Proof.
    intros I. apply isnil_true. unfold exp_removed. rewrite isnil_filter. apply forallb_forall. intros e He.
    rewrite negb_involutive. apply has_self, I, He.
  Qed.

  Lemma exp_mod_sub fl oa ob :
    NoDup (map nm (dflt ob)) -> incl (dflt oa) (dflt ob) -> (forall e, In e (dflt oa) -> is_none (fl e e) = true) ->
    exp_mod nm fl oa ob = [].
  Proof.
    intros ND I H. apply isnil_true. rewrite isnil_exp_mod. apply forallb_forall. intros e He.
    rewrite dget_nodup; auto.
  Qed.

  Lemma exp_added_app oa c :
    has nm (nm c) (dflt oa) = false -> exp_added nm oa (Some (dflt oa ++ [c])) = [c].
  Proof.
    intros H. unfold exp_added. cbn [dflt]. rewrite filter_app. cbn. rewrite H.
    change (exp_removed nm oa oa ++ [c] = [c]). now rewrite exp_removed_sub by apply incl_refl.
  Qed.

  Lemma nodup_app_fresh l c : NoDup (map nm (l ++ [c])) -> has nm (nm c) l = false.
  Proof.
    rewrite map_app. cbn. intros ND. apply NoDup_remove_2 in ND. rewrite app_nil_r in ND.
    destruct (has nm (nm c) l) eqn:Q; auto. apply has_in in Q. tauto.
  Qed.
End DictLemmas.

(* InterfaceSliver.diff *)

Lemma sub_mods_exp oa ob : sub_mods oa ob = exp_mod sub_name sub_flags oa ob.
Proof.
  unfold sub_mods.
  apply (mods_exp sub_name (fun x y => prop_diff (sub_props x) (sub_props y)) sub_flags).
  intros. apply prop_diff_flags.
Qed.

Lemma iface_diff_exact a b : iface_diff a b = iface_expected a b.
Proof.
  unfold iface_diff, iface_expected, mk_opt, idiff_empty. cbv zeta. cbn [i_self i_added i_removed i_mod].
  now rewrite kids_added_exp, kids_removed_exp, self_mod_exp, sub_mods_exp.
Qed.

Lemma is_none_sub_flags x y : is_none (sub_flags x y) = sub_same x y.
Proof. unfold sub_flags. rewrite is_none_flags. apply andb_true_r. Qed.

Lemma subs_empty_same a b :
  isnil (exp_added sub_name (if_subs a) (if_subs b)) && isnil (exp_removed sub_name (if_subs a) (if_subs b))
  && isnil (exp_mod sub_name sub_flags (if_subs a) (if_subs b)) = subs_same a b.
Proof. apply exp_empty_same. intros; apply is_none_sub_flags. Qed.

Lemma iface_diff_some a b : isSome (iface_diff a b) = negb (iface_same a b).
Proof.
  rewrite iface_diff_exact. unfold iface_expected. rewrite isSome_mk_opt. f_equal.
  unfold idiff_empty, iface_same. cbn [i_self i_added i_removed i_mod].
  rewrite <- subs_empty_same, isnil_exp_self, !andb_assoc. reflexivity.
Qed.

Lemma iface_diff_none_iff a b : iface_diff a b = None <-> iface_same a b = true.
Proof. apply none_iff, iface_diff_some. Qed.

Lemma wf_iface_inv i :
  wf_iface i = true -> NoDup (map sub_name (dflt (if_subs i))) /\ (if_dedicated i = false -> dflt (if_subs i) = []).
Proof.
  unfold wf_iface. rewrite andb_true_iff. intros [ND H]. split; [now apply nodupb_NoDup|].
  intros D. rewrite D in H. now apply isnil_true.
Qed.

Lemma iface_same_refl i : wf_iface i = true -> iface_same i i = true.
Proof.
  intros W. unfold iface_same, subs_same. rewrite props_same_refl. cbn.
  apply kids_same_refl; [apply wf_iface_inv, W|]. intros; apply props_same_refl.
Qed.

Lemma iface_diff_self i : wf_iface i = true -> iface_diff i i = None.
Proof. intros W. now apply iface_diff_none_iff, iface_same_refl. Qed.

(* NetworkServiceSliver.diff without commit 0ebb5f3: [svc_diff] *)

Lemma if_flag_code a b : if_flag a b = if_flags_code a b.
Proof.
  unfold if_flag, if_flags_code. cbv zeta. rewrite iface_diff_some, prop_diff_flags. unfold set_sub. cbn.
  destruct (if_dedicated a), (iface_same a b); reflexivity.
Qed.

Lemma if_mods_exp oa ob : if_mods oa ob = exp_mod if_name if_flags_code oa ob.
Proof.
  unfold if_mods. apply (mods_exp if_name if_flag if_flags_code). intros. apply if_flag_code.
Qed.

(* unconditional: the service comparison is exactly the specification with the port flag [if_flags_code] *)
Lemma svc_diff_exact_code a b : svc_diff a b = svc_expected_code a b.
Proof.
  unfold svc_diff, svc_expected_code, svc_expected_with, mk_opt, sdiff_empty. cbv zeta.
  cbn [s_self s_added s_removed s_mod].
  now rewrite kids_added_exp, kids_removed_exp, self_mod_exp, if_mods_exp.
Qed.

Lemma wf_svc_inv s :
  wf_svc s = true ->
  NoDup (map if_name (dflt (sv_ifs s))) /\ forall i, In i (dflt (sv_ifs s)) -> wf_iface i = true.
Proof.
  unfold wf_svc. rewrite andb_true_iff, forallb_forall. intros [ND H]. split; [now apply nodupb_NoDup|exact H].
Qed.

(* a port present in both versions that is not a DedicatedPort has no children, on either side *)
Lemma plain_common_subs_same a b x y :
  wf_svc a = true -> wf_svc b = true -> compat_svc a b = true ->
  In (x, y) (dict_common if_name (dflt (sv_ifs a)) (dflt (sv_ifs b))) ->
  if_dedicated x = false -> subs_same x y = true.
Proof.
  intros Wa Wb C Hin D. unfold compat_svc in C. rewrite kids_common_dflt, forallb_forall in C.
  specialize (C _ Hin). apply eqb_prop in C. cbn in C. rewrite D in C.
  apply in_common_in in Hin. destruct Hin as (Hx & Hy & _).
  apply (wf_svc_inv a Wa), wf_iface_inv in Hx. apply (wf_svc_inv b Wb), wf_iface_inv in Hy.
  unfold subs_same, kids_same. rewrite (proj2 Hx), (proj2 Hy); auto.
Qed.

(* The three port flags, compared under the conclusion of [plain_common_subs_same]:
   code = SUB_INTERFACES on a dedicated port that differs at all, dedicated = on a dedicated port whose
   sub-interfaces differ, spec = whenever the sub-interfaces differ. *)
Lemma is_none_if_flags_code x y :
  (if_dedicated x = false -> subs_same x y = true) -> is_none (if_flags_code x y) = iface_same x y.
Proof.
  intros P. unfold if_flags_code, iface_same, props_same. rewrite is_none_flags.
  destruct (if_dedicated x); [|rewrite P by reflexivity];
    destruct (labels_same _ _ && caps_same _ _ && udata_same _ _), (subs_same x y); reflexivity.
Qed.

Lemma if_flags_dedicated_spec x y :
  (if_dedicated x = false -> subs_same x y = true) -> if_flags_dedicated x y = if_flags_spec x y.
Proof.
  intros P. unfold if_flags_dedicated, if_flags_spec. f_equal.
  destruct (if_dedicated x); cbn; auto. now rewrite P.
Qed.

(* [if_flags_code] (the flag of [svc_diff]) is the specified one except for the signature of finding C17-1 *)
Lemma if_flags_code_spec x y :
  (if_dedicated x = false -> subs_same x y = true) -> port_only_change x y = false ->
  if_flags_code x y = if_flags_spec x y.
Proof.
  intros P Q. unfold if_flags_code, if_flags_spec. f_equal.
  unfold port_only_change, iface_same in *.
  destruct (if_dedicated x).
  - cbn in *. destruct (props_same _ _), (subs_same x y); cbn in *; congruence.
  - now rewrite P.
Qed.

Lemma is_none_dedicated_code x y : is_none (if_flags_dedicated x y) = is_none (if_flags_code x y).
Proof.
  unfold if_flags_dedicated, if_flags_code, iface_same, props_same. rewrite !is_none_flags.
  destruct (labels_same _ _ && caps_same _ _ && udata_same _ _), (if_dedicated x), (subs_same x y); reflexivity.
Qed.

Lemma svc_diff_some a b :
  wf_svc a = true -> wf_svc b = true -> compat_svc a b = true ->
  isSome (svc_diff a b) = negb (svc_same a b).
Proof.
  intros Wa Wb C. rewrite svc_diff_exact_code. unfold svc_expected_code, svc_expected_with.
  rewrite isSome_mk_opt. f_equal.
  unfold sdiff_empty, svc_same. cbn [s_self s_added s_removed s_mod].
  rewrite <- (exp_empty_same if_name if_flags_code iface_same).
  - rewrite isnil_exp_self, !andb_assoc. reflexivity.
  - intros x y Hin. apply is_none_if_flags_code. now apply (plain_common_subs_same a b).
Qed.

Lemma svc_diff_none_iff a b :
  wf_svc a = true -> wf_svc b = true -> compat_svc a b = true ->
  (svc_diff a b = None <-> svc_same a b = true).
Proof. intros. now apply none_iff, svc_diff_some. Qed.

Lemma svc_diff_exact_partial a b :
  wf_svc a = true -> wf_svc b = true -> compat_svc a b = true -> no_port_only_change a b = true ->
  svc_diff a b = svc_expected a b.
Proof.
  intros Wa Wb C P. rewrite svc_diff_exact_code.
  unfold svc_expected_code, svc_expected, svc_expected_with.
  rewrite (exp_mod_ext if_name if_flags_code if_flags_spec); auto.
  intros x y Hin. apply if_flags_code_spec.
  - now apply (plain_common_subs_same a b).
  - unfold no_port_only_change in P. rewrite kids_common_dflt, forallb_forall in P.
    specialize (P _ Hin). now apply negb_true_iff in P.
Qed.

Lemma svc_same_refl s : wf_svc s = true -> svc_same s s = true.
Proof.
  intros W. apply wf_svc_inv in W. destruct W as [ND W]. unfold svc_same. rewrite props_same_refl. cbn.
  apply kids_same_refl; auto using iface_same_refl.
Qed.

Lemma compat_svc_refl s : wf_svc s = true -> compat_svc s s = true.
Proof.
  intros W. apply wf_svc_inv in W. destruct W as [ND _].
  unfold compat_svc. rewrite kids_common_dflt. apply forallb_forall. intros [x y] H.
  apply (common_diag if_name _ _ _ _ _ ND (incl_refl _) (incl_refl _)) in H. destruct H as [-> _]. apply eqb_reflx.
Qed.

Lemma svc_diff_self s : wf_svc s = true -> svc_diff s s = None.
Proof. intros W. apply svc_diff_none_iff; auto using compat_svc_refl, svc_same_refl. Qed.

(* NetworkServiceSliver.diff as /repo has it: [svc_diff_fixed] *)

Lemma if_flag_fixed_dedicated a b : if_flag_fixed a b = if_flags_dedicated a b.
Proof.
  unfold if_flag_fixed, if_flags_dedicated. cbv zeta. rewrite prop_diff_flags, iface_diff_exact.
  destruct (if_dedicated a); cbn [andb]; auto.
  unfold iface_expected, mk_opt. destruct (idiff_empty _) eqn:Q.
  - unfold idiff_empty in Q. cbn [i_self i_added i_removed i_mod] in Q.
    rewrite <- !andb_assoc in Q. apply andb_true_iff in Q. destruct Q as [_ Q].
    rewrite andb_assoc, subs_empty_same in Q. now rewrite Q.
  - unfold subs_changed. cbn [i_self i_added i_removed i_mod]. rewrite subs_empty_same.
    unfold set_sub. cbn. destruct (subs_same a b); reflexivity.
Qed.

Lemma if_mods_fixed_exp oa ob : if_mods_fixed oa ob = exp_mod if_name if_flags_dedicated oa ob.
Proof.
  unfold if_mods_fixed. apply (mods_exp if_name if_flag_fixed if_flags_dedicated). intros. apply if_flag_fixed_dedicated.
Qed.

Lemma svc_diff_fixed_exact_dedicated a b : svc_diff_fixed a b = svc_expected_with if_flags_dedicated a b.
Proof.
  unfold svc_diff_fixed, svc_expected_with, mk_opt, sdiff_empty. cbv zeta.
  cbn [s_self s_added s_removed s_mod].
  now rewrite kids_added_exp, kids_removed_exp, self_mod_exp, if_mods_fixed_exp.
Qed.

(* the full statement *)
Lemma svc_diff_fixed_exact a b :
  wf_svc a = true -> wf_svc b = true -> compat_svc a b = true -> svc_diff_fixed a b = svc_expected a b.
Proof.
  intros Wa Wb C. rewrite svc_diff_fixed_exact_dedicated. unfold svc_expected, svc_expected_with.
  rewrite (exp_mod_ext if_name if_flags_dedicated if_flags_spec); auto.
  intros x y Hin. apply if_flags_dedicated_spec. now apply (plain_common_subs_same a b).
Qed.

(* whether a service comparison is None is the same for the two methods (unconditional), so [comp_flag], which
   is written with [svc_diff] and only tests that, is NodeSliver.diff of /repo all the same *)
Lemma svc_diff_fixed_some a b : isSome (svc_diff_fixed a b) = isSome (svc_diff a b).
Proof.
  rewrite svc_diff_fixed_exact_dedicated, svc_diff_exact_code. unfold svc_expected_code, svc_expected_with.
  rewrite !isSome_mk_opt. f_equal. unfold sdiff_empty. cbn [s_self s_added s_removed s_mod].
  f_equal. rewrite !isnil_exp_mod. apply forallb_ext_in. intros e _.
  destruct (dget if_name (if_name e) (dflt (sv_ifs b))); auto. apply is_none_dedicated_code.
Qed.

Lemma svc_diff_fixed_self s : wf_svc s = true -> svc_diff_fixed s s = None.
Proof.
  intros W. apply (none_iff _ true); auto. now rewrite svc_diff_fixed_some, (svc_diff_self s W).
Qed.

(* NodeSliver.diff *)

Lemma the_svc_first c s : the_svc c = Some s -> first_svc c = Ok s.
Proof.
  unfold the_svc, first_svc. destruct (c_svcs c) as [[|x [|y l]]|]; intros H; inversion H; reflexivity.
Qed.

Lemma wf_comp_the_svc c s : wf_comp c = true -> the_svc c = Some s -> wf_svc s = true.
Proof.
  unfold wf_comp, the_svc. destruct (c_svcs c) as [[|x [|y l]]|]; intros W H; inversion H; subst.
  cbn in W. rewrite andb_true_r in W. apply andb_true_iff in W. tauto.
Qed.

Lemma wf_comp_smartnic c : wf_comp c = true -> c_smartnic c = true -> exists s, the_svc c = Some s.
Proof.
  unfold wf_comp. intros H S. apply andb_true_iff in H. destruct H as [_ H]. rewrite S in H. cbn in H.
  destruct (the_svc c) as [s|]; [now exists s|discriminate].
Qed.

Lemma comp_flag_spec x y :
  wf_comp x = true -> wf_comp y = true -> compat_comp x y = true ->
  comp_flag x y = Ok (comp_flags_spec x y).
Proof.
  intros Wx Wy C. unfold comp_flag, comp_flags_spec. cbv zeta. rewrite prop_diff_flags.
  unfold compat_comp in C. apply andb_true_iff in C. destruct C as [C1 C2]. apply eqb_prop in C1.
  destruct (c_smartnic x) eqn:S; [|reflexivity].
  destruct (wf_comp_smartnic x Wx S) as [sa Ha].
  destruct (wf_comp_smartnic y Wy (eq_sym C1)) as [sb Hb].
  rewrite Ha, Hb in *. rewrite (the_svc_first _ _ Ha), (the_svc_first _ _ Hb).
  rewrite svc_diff_some by eauto using wf_comp_the_svc.
  cbn. destruct (svc_same sa sb); reflexivity.
Qed.

Lemma comp_mods_pairs_ok (l : list (comp * comp)) fl :
  (forall a b, In (a, b) l -> comp_flag a b = Ok (fl a b)) ->
  comp_mods_pairs l
  = Ok (flat_map (fun p : comp * comp => let f := fl (fst p) (snd p) in if is_none f then [] else [(fst p, f)]) l).
Proof.
  induction l as [|[a b] l IH]; intros H; cbn [comp_mods_pairs flat_map]; auto.
  rewrite (H a b) by now left. rewrite IH by (intros; apply H; now right). cbn. destruct (is_none (fl a b)); reflexivity.
Qed.

(* what the proofs use of [wf_node]; that the node-level services are [wf_svc] is never needed *)
Lemma wf_node_inv n :
  wf_node n = true ->
  NoDup (map c_name (dflt (n_comps n))) /\ (forall c, In c (dflt (n_comps n)) -> wf_comp c = true) /\
  NoDup (map sv_name (dflt (n_svcs n))).
Proof.
  unfold wf_node. rewrite !andb_true_iff, forallb_forall. intros [[[NDc Wc] NDs] _]. auto using nodupb_NoDup.
Qed.

Lemma comp_mods_exp a b :
  (forall c, In c (dflt (n_comps a)) -> wf_comp c = true) -> (forall c, In c (dflt (n_comps b)) -> wf_comp c = true) ->
  compat_node a b = true ->
  comp_mods (n_comps a) (n_comps b) = Ok (exp_mod c_name comp_flags_spec (n_comps a) (n_comps b)).
Proof.
  intros Wa Wb C. unfold comp_mods. rewrite (comp_mods_pairs_ok _ comp_flags_spec).
  - f_equal. apply (mods_exp c_name comp_flags_spec comp_flags_spec). reflexivity.
  - intros x y Hin. unfold compat_node in C. rewrite forallb_forall in C.
    pose proof (C _ Hin) as Cxy. rewrite kids_common_dflt in Hin. apply in_common_in in Hin.
    apply comp_flag_spec; auto; [apply Wa|apply Wb]; tauto.
Qed.

Lemma nsvc_mods_exp oa ob : nsvc_mods oa ob = exp_mod sv_name nsvc_flags oa ob.
Proof.
  unfold nsvc_mods.
  apply (mods_exp sv_name (fun x y => prop_diff (sv_props x) (sv_props y)) nsvc_flags).
  intros. apply prop_diff_flags.
Qed.

(* Of well-formedness, exactness uses that a SmartNIC carries exactly one service and that only a DedicatedPort has
   children; distinct names are not needed. *)
Lemma node_diff_exact_of_wf_comps a b :
  (forall c, In c (dflt (n_comps a)) -> wf_comp c = true) -> (forall c, In c (dflt (n_comps b)) -> wf_comp c = true) ->
  compat_node a b = true -> node_diff a b = Ok (node_expected a b).
Proof.
  intros Wa Wb C. unfold node_diff. rewrite comp_mods_exp; auto.
  unfold node_expected, mk_opt. cbv zeta.
  now rewrite !kids_added_exp, !kids_removed_exp, self_mod_exp, nsvc_mods_exp.
Qed.

Lemma node_diff_exact a b :
  wf_node a = true -> wf_node b = true -> compat_node a b = true ->
  node_diff a b = Ok (node_expected a b).
Proof. intros Wa Wb. apply node_diff_exact_of_wf_comps; [apply (wf_node_inv a Wa)|apply (wf_node_inv b Wb)]. Qed.

Lemma is_none_comp_flags x y : is_none (comp_flags_spec x y) = comp_same x y.
Proof.
  unfold comp_flags_spec. rewrite is_none_flags, negb_andb, negb_involutive. reflexivity.
Qed.

Lemma is_none_nsvc_flags x y : is_none (nsvc_flags x y) = nsvc_same x y.
Proof. unfold nsvc_flags. rewrite is_none_flags. apply andb_true_r. Qed.

Lemma node_expected_some a b : isSome (node_expected a b) = negb (node_same a b).
Proof.
  unfold node_expected. rewrite isSome_mk_opt. f_equal.
  unfold ndiff_empty, node_same. cbn [n_added_c n_removed_c n_added_s n_removed_s n_self n_mod_c n_mod_s].
  rewrite <- (exp_empty_same c_name comp_flags_spec comp_same) by (intros; apply is_none_comp_flags).
  rewrite <- (exp_empty_same sv_name nsvc_flags nsvc_same) by (intros; apply is_none_nsvc_flags).
  rewrite isnil_exp_self, (andb_comm _ (props_same _ _)), <- !andb_assoc. do 3 f_equal.
  destruct (isnil (exp_removed sv_name _ _)), (isnil (exp_added sv_name _ _)), (isnil (exp_mod c_name _ _ _));
    reflexivity.
Qed.

Lemma node_diff_none_iff a b :
  wf_node a = true -> wf_node b = true -> compat_node a b = true ->
  (node_diff a b = Ok None <-> node_same a b = true).
Proof.
  intros Wa Wb C. rewrite node_diff_exact, <- (none_iff _ _ (node_expected_some a b)); auto.
  split; congruence.
Qed.

Lemma node_diff_same_none a b :
  wf_node a = true -> wf_node b = true -> compat_node a b = true -> node_same a b = true ->
  node_diff a b = Ok None.
Proof. intros. now apply node_diff_none_iff. Qed.

Lemma comp_same_refl c : wf_comp c = true -> comp_same c c = true.
Proof.
  intros W. unfold comp_same. rewrite props_same_refl. apply orb_true_iff. right.
  destruct (the_svc c) as [s|] eqn:Q; cbn; eauto using svc_same_refl, wf_comp_the_svc.
Qed.

Lemma compat_comp_refl c : wf_comp c = true -> compat_comp c c = true.
Proof.
  intros W. unfold compat_comp. rewrite eqb_reflx. cbn.
  destruct (the_svc c) as [s|] eqn:Q; eauto using compat_svc_refl, wf_comp_the_svc.
Qed.

(* two versions whose components all come from one well-formed dictionary *)
Lemma compat_node_sub d a b :
  NoDup (map c_name d) -> (forall c, In c d -> wf_comp c = true) ->
  incl (dflt (n_comps a)) d -> incl (dflt (n_comps b)) d -> compat_node a b = true.
Proof.
  intros ND W Ia Ib. unfold compat_node. rewrite kids_common_dflt. apply forallb_forall. intros [x y] H.
  apply (common_diag c_name d _ _ _ _ ND Ia Ib) in H. destruct H as [-> Hx]. apply compat_comp_refl, W, Ia, Hx.
Qed.

Lemma compat_node_refl n : wf_node n = true -> compat_node n n = true.
Proof.
  intros W. apply wf_node_inv in W. destruct W as (ND & W & _).
  apply (compat_node_sub _ n n ND W); apply incl_refl.
Qed.

Lemma node_same_refl n : wf_node n = true -> node_same n n = true.
Proof.
  intros W. apply wf_node_inv in W. destruct W as (NDc & W & NDs).
  unfold node_same. rewrite props_same_refl, !kids_same_refl; auto using comp_same_refl.
  intros; apply props_same_refl.
Qed.

Lemma node_diff_self n : wf_node n = true -> node_diff n n = Ok None.
Proof. intros W. apply node_diff_none_iff; auto using compat_node_refl, node_same_refl. Qed.

Lemma idiff_empty_lists d : idiff_empty d = true -> i_added d = [] /\ i_removed d = [].
Proof. unfold idiff_empty. intros H. repeat (apply andb_true_iff in H; destruct H as [H ?]). auto using isnil_true. Qed.

Lemma sdiff_empty_lists d : sdiff_empty d = true -> s_added d = [] /\ s_removed d = [].
Proof. unfold sdiff_empty. intros H. repeat (apply andb_true_iff in H; destruct H as [H ?]). auto using isnil_true. Qed.

Lemma ndiff_empty_lists d :
  ndiff_empty d = true -> n_added_c d = [] /\ n_removed_c d = [] /\ n_added_s d = [] /\ n_removed_s d = [].
Proof.
  unfold ndiff_empty. intros H. repeat (apply andb_true_iff in H; destruct H as [H ?]). auto using isnil_true.
Qed.

Lemma iface_antisym a b :
  id_added (iface_diff a b) = id_removed (iface_diff b a) /\ id_removed (iface_diff a b) = id_added (iface_diff b a).
Proof.
  rewrite !iface_diff_exact. unfold iface_expected, id_added, id_removed.
  rewrite !mk_opt_list by (intros H; apply idiff_empty_lists in H; apply H). split; reflexivity.
Qed.

Lemma svc_expected_antisym fl a b :
  sd_added (svc_expected_with fl a b) = sd_removed (svc_expected_with fl b a) /\
  sd_removed (svc_expected_with fl a b) = sd_added (svc_expected_with fl b a).
Proof.
  unfold svc_expected_with, sd_added, sd_removed.
  rewrite !mk_opt_list by (intros H; apply sdiff_empty_lists in H; apply H). split; reflexivity.
Qed.

Lemma svc_antisym a b :
  sd_added (svc_diff a b) = sd_removed (svc_diff b a) /\ sd_removed (svc_diff a b) = sd_added (svc_diff b a).
Proof. rewrite !svc_diff_exact_code. apply svc_expected_antisym. Qed.

Lemma svc_fixed_antisym a b :
  sd_added (svc_diff_fixed a b) = sd_removed (svc_diff_fixed b a) /\
  sd_removed (svc_diff_fixed a b) = sd_added (svc_diff_fixed b a).
Proof. rewrite !svc_diff_fixed_exact_dedicated. apply svc_expected_antisym. Qed.

Lemma node_diff_lists a b o :
  node_diff a b = Ok o ->
  nd_added_c o = exp_added c_name (n_comps a) (n_comps b) /\
  nd_removed_c o = exp_removed c_name (n_comps a) (n_comps b) /\
  nd_added_s o = exp_added sv_name (n_svcs a) (n_svcs b) /\
  nd_removed_s o = exp_removed sv_name (n_svcs a) (n_svcs b).
Proof.
  unfold node_diff. destruct (comp_mods _ _) as [cm|e]; [|discriminate]. cbv zeta. intros [= <-].
  rewrite <- !kids_added_exp, <- !kids_removed_exp.
  destruct (ndiff_empty _) eqn:Q; cbn; auto.
  apply ndiff_empty_lists in Q. cbn in Q. destruct Q as (-> & -> & -> & ->). auto.
Qed.

Lemma node_antisym a b oab oba :
  node_diff a b = Ok oab -> node_diff b a = Ok oba ->
  nd_added_c oab = nd_removed_c oba /\ nd_removed_c oab = nd_added_c oba /\
  nd_added_s oab = nd_removed_s oba /\ nd_removed_s oab = nd_added_s oba.
Proof.
  intros H1 H2. apply node_diff_lists in H1. apply node_diff_lists in H2.
  destruct H1 as (-> & -> & -> & ->), H2 as (-> & -> & -> & ->). auto using exp_added_removed.
Qed.

Lemma exp_self_refl p : exp_self p p = [].
Proof. unfold exp_self. now rewrite props_same_refl. Qed.

(* When the new version keeps every component of the old one and the same node-level services, only added
   components and the node's own flags are reported. *)
Lemma node_diff_grow a b :
  wf_node b = true -> n_svcs b = n_svcs a -> incl (dflt (n_comps a)) (dflt (n_comps b)) ->
  node_diff a b
  = Ok (mk_opt ndiff_empty
          (mkNdiff (exp_added c_name (n_comps a) (n_comps b)) [] [] [] (exp_self (n_props a) (n_props b)) [] [])).
Proof.
  intros Wb S I. destruct (wf_node_inv _ Wb) as (NDc & Wc & NDs). rewrite S in NDs.
  rewrite node_diff_exact_of_wf_comps by eauto using compat_node_sub, incl_refl.
  unfold node_expected.
  rewrite S, (exp_added_removed sv_name), !exp_removed_sub, !exp_mod_sub; auto using incl_refl.
  - intros e He. rewrite is_none_nsvc_flags. apply props_same_refl.
  - intros e He. rewrite is_none_comp_flags. auto using comp_same_refl.
Qed.

Lemma add_comp_incl c s : incl (dflt (n_comps s)) (dflt (n_comps (add_comp c s))).
Proof. apply incl_appl, incl_refl. Qed.

(* adding one component to a copy is reported as exactly that component added, nothing else *)
Lemma add_comp_reported s c :
  wf_node s = true -> wf_node (add_comp c s) = true ->
  node_diff s (add_comp c s) = Ok (Some (mkNdiff [c] [] [] [] [] [] [])).
Proof.
  intros Ws W. rewrite node_diff_grow; auto using add_comp_incl.
  destruct (wf_node_inv _ W) as (ND & _ & _). cbn [add_comp n_comps n_props] in *.
  now rewrite exp_added_app, exp_self_refl by (now apply nodup_app_fresh).
Qed.

(* ... and seen from the other side it is exactly that component removed *)
Lemma add_comp_reported_reverse s c :
  wf_node s = true -> wf_node (add_comp c s) = true ->
  exists o, node_diff (add_comp c s) s = Ok o /\ nd_removed_c o = [c] /\ nd_added_c o = [] /\
            nd_added_s o = [] /\ nd_removed_s o = [].
Proof.
  intros Ws W. destruct (wf_node_inv _ W) as (ND & Wc & _).
  assert (node_diff (add_comp c s) s = Ok (node_expected (add_comp c s) s)) as Q
    by (apply node_diff_exact; eauto using compat_node_sub, incl_refl, add_comp_incl).
  exists (node_expected (add_comp c s) s). split; auto.
  destruct (node_antisym _ _ _ _ (add_comp_reported s c Ws W) Q) as (A & B & A' & B').
  repeat split; symmetry; assumption.
Qed.

(* changing the node's own tracked properties is reported as exactly those flags on the node, nothing else *)
Lemma set_props_reported s p :
  wf_node s = true ->
  node_diff s (set_node_props p s)
  = Ok (if props_same (n_props s) p then None else Some (mkNdiff [] [] [] [] (exp_self (n_props s) p) [] [])).
Proof.
  intros W. rewrite (node_diff_grow s (set_node_props p s)); auto using incl_refl.
  cbn [set_node_props n_comps n_props]. rewrite exp_added_removed, exp_removed_sub by apply incl_refl.
  unfold mk_opt, ndiff_empty. cbn. now rewrite isnil_exp_self.
Qed.

(* The modelled comparison is a function of its two operands, so these hold by construction; they are stated
   because the TIE checks exactly this of the implementation (stream `history`: edit in place, compare, edit more,
   compare again, undo, compare). *)

Lemma history_memoryless pre a b post :
  nth_error (run_history (pre ++ (a, b) :: post)) (length pre) = Some (node_diff a b).
Proof.
  unfold run_history. rewrite map_app. cbn [map fst snd].
  rewrite nth_error_app2 by (rewrite map_length; auto).
  rewrite map_length, PeanoNat.Nat.sub_diag. reflexivity.
Qed.

Lemma history_repeatable h i j p :
  nth_error h i = Some p -> nth_error h j = Some p -> nth_error (run_history h) i = nth_error (run_history h) j.
Proof.
  intros Hi Hj. unfold run_history. now rewrite (map_nth_error _ _ _ Hi), (map_nth_error _ _ _ Hj).
Qed.

(* whatever was compared before, a sliver brought back to the state of the other one compares as identical *)
Lemma history_undo_none h s :
  wf_node s = true -> nth_error (run_history (h ++ [(s, s)])) (length h) = Some (Ok None).
Proof. intros W. rewrite history_memoryless. now rewrite (node_diff_self s W). Qed.

(* finding C17-1: the full statement at service level is false of [svc_diff], the method without commit 0ebb5f3
   (witness of Model/Diff17.v, replayed on the implementation by harness/c17.py) *)

Lemma svc_exact_refuted :
  exists a b, wf_svc a = true /\ wf_svc b = true /\ compat_svc a b = true /\ svc_diff a b <> svc_expected a b.
Proof. exists w_old, w_new. repeat split; try (vm_compute; reflexivity). vm_compute. discriminate. Qed.

(* ... and what the two sides are on the witness: LABELS|SUB_INTERFACES reported, LABELS expected *)
Lemma svc_exact_refuted_values :
  option_map (fun d => map (fun p => flag_val (snd p)) (s_mod d)) (svc_diff w_old w_new) = Some [9%N] /\
  option_map (fun d => map (fun p => flag_val (snd p)) (s_mod d)) (svc_expected w_old w_new) = Some [1%N].
Proof. split; vm_compute; reflexivity. Qed.
