(* C20, over Model/Locks20.v alone: fuel adequacy of `run`, soundness of the compositional checker `ab` for ANY
   event automaton (ab_sound, meth_ok_sound), and its instance for the lock automaton (lock_ok): balance, identity
   of the lock object, sequences of calls; the singleton guard of the shell classes. *)
From Coq Require Import List NArith Bool Lia.
From FIM Require Import Model.Locks20.
Import ListNotations.
Open Scope N_scope.

Lemma pop_len p : (List.length (snd (pop p)) <= List.length p)%nat.
Proof. destruct p; simpl; lia. Qed.

Lemma pop_true_len p : fst (pop p) = true -> (List.length (snd (pop p)) < List.length p)%nat.
Proof. destruct p; simpl; intros; [discriminate|lia]. Qed.

Lemma accept_app tf a e1 e2 :
  accept tf a (e1 ++ e2) = match accept tf a e1 with Some a1 => accept tf a1 e2 | None => None end.
Proof.
  revert a; induction e1 as [|[ln k] e1 IH]; intro a; simpl; [reflexivity|].
  destruct (tf a k); [apply IH|reflexivity].
Qed.

(* ------------------------------------------------------------------------------------------- *)
(* fuel: with fuel > length of the path no loop runs out of fuel, and the path never grows       *)
(* ------------------------------------------------------------------------------------------- *)
(* x, run on a path shorter than the fuel, does not run out of fuel and hands back a path that is no longer *)
Definition fine (fuel : nat) (x : path -> xres) : Prop :=
  forall p, (List.length p < fuel)%nat ->
    out_of (x p) <> OFuel /\ (List.length (rest_of (x p)) <= List.length p)%nat.

Lemma fine_le n m x : (n <= m)%nat -> fine m x -> fine n x.
Proof. intros Hle H p Hp. apply H. lia. Qed.

Lemma fine_ret fuel o evs : o <> OFuel -> fine fuel (fun p => (o, evs, p)).
Proof. intros Ho p _. split; [exact Ho|apply le_n]. Qed.

(* a choice read from the path; the choice `true` shortens it *)
Lemma fine_pop fuel (x : bool -> path -> xres) :
  fine (pred fuel) (x true) -> fine fuel (x false) -> fine fuel (fun p => let (b, p') := pop p in x b p').
Proof.
  intros Ht Hf p Hp. pose proof (pop_len p) as Hl. pose proof (pop_true_len p) as Hs.
  destruct (pop p) as [[] p']; cbn [fst snd] in *.
  - destruct (Ht p') as [H1 H2]; [specialize (Hs eq_refl); lia|]. split; [exact H1|lia].
  - destruct (Hf p') as [H1 H2]; [lia|]. split; [exact H1|lia].
Qed.

Lemma fine_guard fm f ln fuel k :
  fine fuel k -> fine fuel (fun p => guard_fault fm f ln p k).
Proof.
  intro Hk. unfold guard_fault. destruct (is_fp fm f); [|exact Hk].
  apply (fine_pop fuel (fun b p' => if b then (ORaise, [(ln, KFault f)], p') else k p'));
    [apply fine_ret; discriminate|exact Hk].
Qed.

(* what sequencing does, by the outcome of its first part *)
Lemma seqx_cases x1 k :
  (out_of x1 = ONormal /\
   seqx x1 k = let x2 := k (rest_of x1) in (out_of x2, evs_of x1 ++ evs_of x2, rest_of x2))
  \/ (out_of x1 <> ONormal /\ seqx x1 k = x1).
Proof. unfold seqx. destruct (out_of x1); [left|right|right|right]; split; congruence. Qed.

Lemma fine_seqx fuel x k :
  fine fuel x -> fine fuel k -> fine fuel (fun p => seqx (x p) k).
Proof.
  intros Hx Hk p Hp. destruct (Hx p Hp) as [H1 H2].
  destruct (seqx_cases (x p) k) as [[_ ->]|[_ ->]]; [|exact (conj H1 H2)].
  destruct (Hk (rest_of (x p))) as [H3 H4]; [lia|]. exact (conj H3 (PeanoNat.Nat.le_trans _ _ _ H4 H2)).
Qed.

Lemma fine_pre fuel e x : fine fuel x -> fine fuel (fun p => pre e (x p)).
Proof. intros Hx p Hp. exact (Hx p Hp). Qed.

(* the n-th unrolling of a loop is fine for paths shorter than n: every iteration consumes a `true` *)
Lemma fine_loop fm ln f fuel body :
  fine fuel body -> forall n, (n <= fuel)%nat -> fine n (loop_exec fm ln f body n).
Proof.
  intros Hb. induction n as [|n IH]; intro Hn; [intros p Hp; lia|].
  apply (fine_guard fm f ln (S n)).
  apply (fine_pop (S n) (fun b p'' => if b then pre (ln, KAct XLocal) (seqx (body p'') (loop_exec fm ln f body n))
                                      else (ONormal, [(ln, KAct XLocal)], p''))); [|apply fine_ret; discriminate].
  apply fine_pre, fine_seqx; [apply (fine_le n fuel); [lia|exact Hb]|apply IH; lia].
Qed.

Lemma fine_hstage fuel x hl hs :
  fine fuel x -> fine fuel hs -> fine fuel (fun p => hstage (x p) hl hs).
Proof.
  intros Hx Hh p Hp. destruct (Hx p Hp) as [B1 B2]. unfold hstage.
  destruct (out_of (x p)) eqn:Eo; try (split; [congruence|exact B2]).
  destruct hl as [l|]; [|split; [congruence|exact B2]].
  destruct (Hh (rest_of (x p))) as [C1 C2]; [lia|].
  unfold out_of, rest_of in *; simpl. split; [exact C1|lia].
Qed.

(* the finally block runs after every outcome; a pending outcome is kept when the block ends normally *)
Lemma fstage_eq x2 fin :
  out_of x2 <> OFuel ->
  fstage x2 fin = let x3 := fin (rest_of x2) in
                  (match out_of x3 with ONormal => out_of x2 | o => o end, evs_of x2 ++ evs_of x3, rest_of x3).
Proof. unfold fstage. destruct (out_of x2); congruence. Qed.

Lemma fine_fstage fuel x fin :
  fine fuel x -> fine fuel fin -> fine fuel (fun p => fstage (x p) fin).
Proof.
  intros Hx Hf p Hp. destruct (Hx p Hp) as [D1 D2]. destruct (Hf (rest_of (x p))) as [F1 F2]; [lia|].
  rewrite (fstage_eq _ _ D1). split; [|exact (PeanoNat.Nat.le_trans _ _ _ F2 D2)].
  cbn. destruct (out_of (fin (rest_of (x p)))); congruence.
Qed.

Lemma fine_try fuel ln body hl hs fin :
  fine fuel body -> fine fuel hs -> fine fuel fin ->
  fine fuel (try_exec ln body hl hs fin).
Proof.
  intros Hb Hh Hf p Hp. unfold try_exec. cbv zeta.
  pose proof (fine_fstage fuel _ fin (fine_hstage fuel body hl hs Hb Hh) Hf p Hp) as G.
  destruct (Hb p Hp) as [B1 _]. destruct (out_of (body p)); try congruence; exact G.
Qed.

Lemma exec_fine fm fuel s : fine fuel (exec fm fuel s).
Proof.
  induction s; cbn [exec].
  - (* SSkip *) apply fine_ret; discriminate.
  - (* SAcq *) apply fine_ret; discriminate.
  - (* SRel *) apply fine_ret; discriminate.
  - (* SAct *) apply fine_guard, fine_ret; discriminate.
  - (* SSeq *) apply fine_seqx; assumption.
  - (* SIf *) apply fine_guard.
    apply (fine_pop fuel (fun b p'' => pre (ln, KIf a c b) (exec fm fuel (if b then s1 else s2) p'')));
      apply fine_pre; [apply (fine_le _ fuel); [lia|]|]; assumption.
  - (* SLoop *) exact (fine_loop fm ln f fuel _ IHs fuel (le_n fuel)).
  - (* STry *) apply fine_try; assumption.
  - (* SReturn *) apply fine_guard, fine_ret; discriminate.
  - (* SRaise *) apply fine_ret; discriminate.
  - (* SWith *) apply fine_pre, fine_fstage; [exact IHs|apply fine_ret; discriminate].
  - (* SAcqT *) apply (fine_pop fuel (fun b p' => if b then pre (ln, KAct XAcqFail) (exec fm fuel s p') else (ONormal, [(ln, KAcq)], p')));
      [apply fine_pre, (fine_le _ fuel); [lia|exact IHs]|apply fine_ret; discriminate].
Qed.

Lemma run_no_fuel fm s p : out_of (run fm s p) <> OFuel.
Proof. unfold run. apply (exec_fine fm (S (List.length p)) s p). lia. Qed.

(* ------------------------------------------------------------------------------------------- *)
(* soundness of the compositional checker for any automaton                                     *)
(* ------------------------------------------------------------------------------------------- *)
Lemma runion_ok r1 r2 : ok (runion r1 r2) = true -> ok r1 = true /\ ok r2 = true.
Proof. unfold runion; simpl. intro H. apply andb_true_iff in H. exact H. Qed.

Lemma sel_runion_l o r1 r2 x : In x (sel o r1) -> In x (sel o (runion r1 r2)).
Proof. destruct o; simpl; intro H; try apply in_or_app; auto. Qed.
Lemma sel_runion_r o r1 r2 x : In x (sel o r2) -> In x (sel o (runion r1 r2)).
Proof. destruct o; simpl; intro H; try apply in_or_app; auto. Qed.

Lemma fold_ok (f : N -> res) l x :
  ok (fold_right (fun a acc => runion (f a) acc) rempty l) = true -> In x l -> ok (f x) = true.
Proof.
  induction l as [|y l IH]; simpl; intros H Hin; [contradiction|].
  apply andb_true_iff in H as [H1 H2]. destruct Hin as [->|Hin]; auto.
Qed.
Lemma fold_sel (f : N -> res) l x o y :
  In x l -> In y (sel o (f x)) -> In y (sel o (fold_right (fun a acc => runion (f a) acc) rempty l)).
Proof.
  induction l as [|z l IH]; simpl; intros Hin Hy; [contradiction|].
  destruct Hin as [->|Hin]; [apply sel_runion_l; exact Hy|apply sel_runion_r; auto].
Qed.

Lemma bindr_ok f l x : ok (bindr l f) = true -> In x l -> ok (f x) = true.
Proof. unfold bindr, dedup. intros H Hin. eapply fold_ok; [exact H|]. apply nodup_In. exact Hin. Qed.
Lemma bindr_sel f l x o y : In x l -> In y (sel o (f x)) -> In y (sel o (bindr l f)).
Proof. unfold bindr, dedup. intros Hin Hy. eapply fold_sel; [|exact Hy]. apply nodup_In. exact Hin. Qed.

Lemma st_n_inv x : ok (st_n x) = true -> exists a, x = Some a /\ In a (sel ONormal (st_n x)).
Proof. destruct x as [a|]; [exists a; split; [reflexivity|left; reflexivity]|discriminate]. Qed.
Lemma st_r_inv x : ok (st_r x) = true -> exists a, x = Some a /\ In a (sel OReturn (st_r x)).
Proof. destruct x as [a|]; [exists a; split; [reflexivity|left; reflexivity]|discriminate]. Qed.
Lemma st_x_inv x : ok (st_x x) = true -> exists a, x = Some a /\ In a (sel ORaise (st_x x)).
Proof. destruct x as [a|]; [exists a; split; [reflexivity|left; reflexivity]|discriminate]. Qed.

Section Sound.
Variable tf : auto.
Variable fm : fmode.

(* r, the checker's result from automaton state a, covers the run x: if the checker found no forbidden event then the
   trace of x is accepted from a and ends in one of the states r lists for x's outcome *)
Definition good (a : N) (r : res) (x : xres) : Prop :=
  ok r = true -> out_of x <> OFuel ->
  exists a', accept tf a (evs_of x) = Some a' /\ In a' (sel (out_of x) r).

(* a single event *)
Lemma good_leaf a k ln o r p :
  (ok r = true -> exists a', tf a k = Some a' /\ In a' (sel o r)) -> good a r (o, [(ln, k)], p).
Proof. intros H Hok _. destruct (H Hok) as [a' [E Hin]]. exists a'. cbn. rewrite E. auto. Qed.

Lemma good_runion_l a r1 r2 x : good a r1 x -> good a (runion r1 r2) x.
Proof.
  intros H Hok Hf. apply runion_ok in Hok as [H1 _]. destruct (H H1 Hf) as [a' [A1 A2]].
  exists a'. split; [exact A1|apply sel_runion_l, A2].
Qed.
Lemma good_runion_r a r1 r2 x : good a r2 x -> good a (runion r1 r2) x.
Proof.
  intros H Hok Hf. apply runion_ok in Hok as [_ H2]. destruct (H H2 Hf) as [a' [A1 A2]].
  exists a'. split; [exact A1|apply sel_runion_r, A2].
Qed.

Lemma good_fault a f ln r k p :
  (forall p', good a r (k p')) ->
  good a (with_fault tf fm f a r) (guard_fault fm f ln p k).
Proof.
  intros Hk. unfold with_fault, guard_fault. destruct (is_fp fm f); [|apply Hk].
  destruct (pop p) as [[] p']; [apply good_runion_l, good_leaf, st_x_inv|apply good_runion_r, Hk].
Qed.

Lemma good_pre a a1 k ln r x :
  tf a k = Some a1 -> good a1 r x -> good a r (pre (ln, k) x).
Proof.
  intros E H Hok Hf. unfold pre, out_of, evs_of in *; simpl in *.
  destruct (H Hok Hf) as [a' [A1 A2]]. exists a'. rewrite E. auto.
Qed.

(* an event whose successor state the checker looks up: nothing to show when the automaton refuses it *)
Lemma good_pre_opt a k ln (r : N -> res) x :
  (forall a1, good a1 (r a1) x) ->
  good a (match tf a k with Some a1 => r a1 | None => rbad end) (pre (ln, k) x).
Proof.
  intro H. destruct (tf a k) as [a1|] eqn:E; [exact (good_pre a a1 k ln _ x E (H a1))|intro Hok; discriminate Hok].
Qed.

(* x1 ends in a state of l, x2 goes on from there: the checker's view of the rest is bindr l f *)
Lemma good_then a a1 x1 (f : N -> res) l x2 :
  accept tf a (evs_of x1) = Some a1 -> In a1 l -> good a1 (f a1) x2 ->
  ok (bindr l f) = true -> out_of x2 <> OFuel ->
  exists a2, accept tf a (evs_of x1 ++ evs_of x2) = Some a2 /\ In a2 (sel (out_of x2) (bindr l f)).
Proof.
  intros A1 Hin H2 Okb Hf. destruct (H2 (bindr_ok _ _ _ Okb Hin) Hf) as [a2 [B1 B2]].
  exists a2. rewrite accept_app, A1. split; [exact B1|exact (bindr_sel _ _ _ _ _ Hin B2)].
Qed.

(* the SSeq case of `ab` (Model/Locks20.v) with the second statement abstracted: `ab tf fm (SSeq s1 s2) a` is
   convertible to `seq_res (ab tf fm s1 a) (ab tf fm s2)` *)
Definition seq_res (r1 : res) (f : N -> res) : res :=
  let r2 := bindr (rn r1) f in R (ok r1 && ok r2) (rn r2) (rr r1 ++ rr r2) (rx r1 ++ rx r2).

Lemma good_seq a r1 f x1 k :
  good a r1 x1 ->
  (forall a1 p, In a1 (rn r1) -> good a1 (f a1) (k p)) ->
  good a (seq_res r1 f) (seqx x1 k).
Proof.
  intros H1 H2 Hok Hf. apply andb_true_iff in Hok as [Ok1 Ok2].
  destruct (seqx_cases x1 k) as [[Eo E]|[Eo E]]; rewrite E in *; cbv zeta in *.
  - destruct (H1 Ok1) as [a1 [A1 A2]]; [congruence|]. rewrite Eo in A2.
    destruct (good_then a a1 x1 f (rn r1) _ A1 A2 (H2 a1 _ A2) Ok2 Hf) as [a2 [B1 B2]].
    exists a2. split; [exact B1|]. destruct (out_of (k (rest_of x1))); cbn in *; auto using in_or_app.
  - destruct (H1 Ok1 Hf) as [a1 [A1 A2]]. exists a1. split; [exact A1|].
    destruct (out_of x1); cbn in *; try congruence; auto using in_or_app.
Qed.

Lemma sel_with_fault o f a r x : In x (sel o r) -> In x (sel o (with_fault tf fm f a r)).
Proof. unfold with_fault. destruct (is_fp fm f); [apply sel_runion_r|auto]. Qed.

(* a loop whose head event and normally ending body leave the state a unchanged *)
Lemma good_loop a ln f body rb :
  tf a (KAct XLocal) = Some a ->
  ok rb = true -> forallb (N.eqb a) (rn rb) = true ->
  (forall p, good a rb (body p)) ->
  forall n p, good a (with_fault tf fm f a (R true [a] (rr rb) (rx rb))) (loop_exec fm ln f body n p).
Proof.
  intros Eh Okb Hall Hb. set (W := with_fault tf fm f a (R true [a] (rr rb) (rx rb))).
  induction n as [|n IH]; intro p; [intros _ Hf; destruct (Hf eq_refl)|].
  cbn [loop_exec].
  assert (Hcont : forall p', good a W
            (let (b, p'') := pop p' in
             if b then pre (ln, KAct XLocal) (seqx (body p'') (loop_exec fm ln f body n))
             else (ONormal, [(ln, KAct XLocal)], p''))).
  { intro p'. destruct (pop p') as [[] p''].
    - apply (good_pre a a _ ln _ _ Eh). intros Hok Hf.
      destruct (seqx_cases (body p'') (loop_exec fm ln f body n)) as [[Eo E]|[Eo E]]; rewrite E in *; cbv zeta in *.
      + destruct (Hb p'' Okb) as [a1 [A1 A2]]; [congruence|]. rewrite Eo in A2.
        apply (proj1 (forallb_forall _ _) Hall), N.eqb_eq in A2. subst a1.
        destruct (IH _ Hok Hf) as [a2 [B1 B2]].
        exists a2. cbn [out_of evs_of fst snd]. rewrite accept_app, A1. auto.
      + destruct (Hb p'' Okb Hf) as [a1 [A1 A2]]. exists a1. split; [exact A1|]. apply sel_with_fault.
        destruct (out_of (body p'')); try congruence; exact A2.
    - apply good_leaf. intros _. exists a. split; [exact Eh|]. apply (sel_with_fault ONormal). left; reflexivity. }
  unfold guard_fault. destruct (is_fp fm f) eqn:Efp; [|apply Hcont].
  destruct (pop p) as [[] p']; [|apply Hcont].
  unfold W, with_fault. rewrite Efp. apply good_runion_l, good_leaf, st_x_inv.
Qed.

(* try / except / finally: the handler with its `except` line continues a raising body *)
Lemma good_hstage a0 rb x1 hl hs H :
  good a0 rb x1 ->
  (forall ax q, good ax (H ax) (hs q)) ->
  good a0 (hres tf rb hl H) (hstage x1 hl hs).
Proof.
  intros Hb Hh Hok Hfuel. unfold hstage, hres in *. destruct hl as [l|].
  - cbn in Hok. apply andb_true_iff in Hok as [Okb Okh].
    destruct (out_of x1) eqn:Eo; [| | |destruct (Hfuel Eo)];
      (destruct (Hb Okb) as [a1 [A1 A2]]; [congruence|]); rewrite Eo in A2.
    3: destruct (good_then a0 a1 x1 _ (rx rb) (pre (l, KAct XLocal) (hs (rest_of x1))) A1 A2
                   (good_pre_opt a1 _ l H _ (fun ax => Hh ax _)) Okh Hfuel) as [a2 [B1 B2]];
       exists a2; split; [exact B1|]; destruct (hs (rest_of x1)) as [[[] ?] ?]; cbn in *; auto using in_or_app.
    all: exists a1; split; [exact A1|]; cbn; rewrite Eo; cbn in *; auto using in_or_app.
  - (* without a handler hstage returns x1 on every outcome, but only case by case *)
    assert (E : match out_of x1 with ORaise => x1 | _ => x1 end = x1) by (destruct (out_of x1); reflexivity).
    rewrite E in *. apply Hb; assumption.
Qed.

(* the finally stage: x2 ends with outcome o2, the block goes on from there and ends with o3; a pending
   outcome is kept when the block ends normally *)
Lemma sel_fres r2 F o2 o3 a3 :
  o2 <> OFuel -> o3 <> OFuel -> In a3 (sel o3 (bindr (sel o2 r2) F)) ->
  In a3 (sel (match o3 with ONormal => o2 | OReturn => OReturn | ORaise => ORaise | OFuel => OFuel end) (fres r2 F)).
Proof. intros N2 N3 B. destruct o2, o3; try congruence; cbn in *; auto 7 using in_or_app. Qed.

Lemma ok_fres r2 F :
  ok (fres r2 F) = true -> ok r2 = true /\ forall o2, o2 <> OFuel -> ok (bindr (sel o2 r2) F) = true.
Proof.
  unfold fres. cbn. rewrite !andb_true_iff. intros [[[Ok2 OkN] OkR] OkX]. split; [exact Ok2|].
  intros o2 N2. destruct o2; [exact OkN|exact OkR|exact OkX|congruence].
Qed.

Lemma good_fstage a0 r2 x2 fin F :
  good a0 r2 x2 ->
  (forall ax q, good ax (F ax) (fin q)) ->
  good a0 (fres r2 F) (fstage x2 fin).
Proof.
  intros H2 Hf Hok Hfuel. destruct (ok_fres r2 F Hok) as [Ok2 Ok3].
  assert (N2 : out_of x2 <> OFuel) by (intro Q; unfold fstage in Hfuel; rewrite Q in Hfuel; exact (Hfuel Q)).
  destruct (H2 Ok2 N2) as [a2 [A1 A2]].
  rewrite (fstage_eq _ _ N2) in *. cbv zeta in *. cbn [out_of evs_of fst snd] in *.
  assert (N3 : out_of (fin (rest_of x2)) <> OFuel) by (intro Q; rewrite Q in Hfuel; exact (Hfuel eq_refl)).
  destruct (good_then a0 a2 x2 F _ _ A1 A2 (Hf a2 _) (Ok3 _ N2) N3) as [a3 [B1 B2]].
  exists a3. split; [exact B1|exact (sel_fres _ _ _ _ _ N2 N3 B2)].
Qed.

Lemma good_try a ln body hl hs fin R0 H F p :
  (forall a0 q, good a0 (R0 a0) (body q)) ->
  (forall ax q, good ax (H ax) (hs q)) ->
  (forall ax q, good ax (F ax) (fin q)) ->
  good a (match tf a (KAct XLocal) with Some a0 => fres (hres tf (R0 a0) hl H) F | None => rbad end)
         (try_exec ln body hl hs fin p).
Proof.
  intros Hb Hh Hf. unfold try_exec. apply good_pre_opt. intro a0.
  assert (G : good a0 (fres (hres tf (R0 a0) hl H) F) (fstage (hstage (body p) hl hs) fin))
    by (apply good_fstage; [apply good_hstage; [apply Hb|exact Hh]|exact Hf]).
  cbv zeta. destruct (out_of (body p)) eqn:Eo; try exact G.
  intros _ Hfuel. congruence.
Qed.

Theorem ab_sound : forall s fuel p a, good a (ab tf fm s a) (exec fm fuel s p).
Proof.
  induction s; intros fuel p a0; cbn [ab exec].
  - (* SSkip *) intros _ _. exists a0. split; [reflexivity|left; reflexivity].
  - (* SAcq *) apply good_leaf, st_n_inv.
  - (* SRel *) apply good_leaf, st_n_inv.
  - (* SAct *) apply good_fault. intro p'. apply good_leaf, st_n_inv.
  - (* SSeq *) apply (good_seq a0 (ab tf fm s1 a0) (ab tf fm s2)); [apply IHs1|]. intros a1 q _. apply IHs2.
  - (* SIf *) apply good_fault. intro p'.
    destruct (pop p') as [[] p'']; [apply good_runion_l|apply good_runion_r];
      apply (good_pre_opt a0 _ ln (ab tf fm _)); intro a1; [apply IHs1|apply IHs2].
  - (* SLoop: the checker's side condition makes the loop lemma applicable *) destruct (tf a0 (KAct XLocal)) as [a1|] eqn:E; [|intros Hok; discriminate].
    intros Hok Hf.
    assert (C : N.eqb a1 a0 && ok (ab tf fm s a0) && forallb (N.eqb a0) (rn (ab tf fm s a0)) = true).
    { unfold with_fault in Hok. destruct (is_fp fm f); [apply runion_ok in Hok; tauto|exact Hok]. }
    rewrite C in *. apply andb_true_iff in C as [C C3]. apply andb_true_iff in C as [C1 C2].
    apply N.eqb_eq in C1. subst a1.
    exact (good_loop a0 ln f (exec fm fuel s) (ab tf fm s a0) E C2 C3 (fun q => IHs fuel q a0) fuel p Hok Hf).
  - (* STry *) apply (good_try a0 ln _ hl _ _ (ab tf fm s1) (ab tf fm s2) (ab tf fm s3)); intros; [apply IHs1|apply IHs2|apply IHs3].
  - (* SReturn *) apply good_fault. intro p'. apply good_leaf, st_r_inv.
  - (* SRaise *) apply good_leaf, st_x_inv.
  - (* with self.lock *)
    apply (good_pre_opt a0 KAcq ln (fun a1 => fres (ab tf fm s a1) (fun a' => st_n (tf a' KRel)))). intro a1.
    apply good_fstage; [apply IHs|]. intros ax q. apply good_leaf, st_n_inv.
  - (* acquire with timeout *)
    destruct (pop p) as [[] p'].
    + apply good_runion_r, (good_pre_opt a0 _ ln (ab tf fm s)). intro a1. apply IHs.
    + apply good_runion_l, good_leaf, st_n_inv.
Qed.

End Sound.

(* ------------------------------------------------------------------------------------------- *)
(* a method that passes the checker: every path's trace is accepted and comes back to a0        *)
(* ------------------------------------------------------------------------------------------- *)
Theorem meth_ok_sound tf fm a0 m :
  meth_ok tf fm a0 m = true ->
  forall p, out_of (run fm m p) <> OFuel /\ accept tf a0 (evs_of (run fm m p)) = Some a0.
Proof.
  unfold meth_ok. intros H p. apply andb_true_iff in H as [Hok Hall].
  pose proof (run_no_fuel fm m p) as Hf. split; [exact Hf|].
  destruct (ab_sound tf fm m _ p a0 Hok Hf) as [a' [A1 A2]]. fold (run fm m p) in A1, A2.
  rewrite A1. f_equal. symmetry. apply N.eqb_eq, (proj1 (forallb_forall _ _) Hall).
  destruct (out_of (run fm m p)); cbn in A2; rewrite !in_app_iff; tauto.
Qed.

(* the lock automaton and the readable `balanced` *)
Definition b2n (h : bool) : N := if h then 1 else 0.

Lemma lockA_step h k a' :
  lockA (b2n h) k = Some a' ->
  is_relock k = false /\
  match k with
  | KAcq => h = false /\ a' = 1
  | KRel => h = true /\ a' = 0
  | _ => a' = b2n h
  end.
Proof.
  unfold lockA. destruct (is_relock k) eqn:Er; [discriminate|]. intro H. split; [reflexivity|].
  destruct k; destruct h; simpl in H; try discriminate; inversion H; auto.
Qed.

Lemma lockA_balanced : forall evs h, accept lockA (b2n h) evs = Some 0 -> balanced_from h evs = true.
Proof.
  induction evs as [|[ln k] evs IH]; intros h H.
  - destruct h; simpl in *; [discriminate|reflexivity].
  - simpl in H. destruct (lockA (b2n h) k) as [a'|] eqn:E; [|discriminate].
    apply lockA_step in E as [_ E]. destruct k; simpl; try (subst a'; exact (IH h H)); destruct E as [-> ->].
    + exact (IH true H).
    + exact (IH false H).
Qed.

(* the lock object is never replaced along an accepted trace *)
Lemma lockA_gen : forall pre suf a a' g, accept lockA a (pre ++ suf) = Some a' -> lock_gen pre g = g.
Proof.
  induction pre as [|[ln k] pre IH]; intros suf a a' g H; [reflexivity|].
  cbn in *. destruct (lockA a k) as [a1|] eqn:E; [|discriminate].
  unfold lockA in E. destruct (is_relock k); [discriminate|]. exact (IH suf a1 a' g H).
Qed.

Lemma balanced_counts : forall evs h, balanced_from h evs = true ->
  (count_acq evs + (if h then 1 else 0) = count_rel evs)%nat.
Proof.
  unfold count_acq, count_rel.
  induction evs as [|[ln k] evs IH]; intros h H.
  - destruct h; simpl in *; [discriminate|reflexivity].
  - simpl in H. destruct k; simpl in *; try exact (IH h H).
    + destruct h; simpl in *; [discriminate|]. specialize (IH true H). simpl in IH. lia.
    + destruct h; simpl in *; [|discriminate]. specialize (IH false H). simpl in IH. lia.
Qed.

(* an accepted trace has only accepted prefixes (for lockA: at no point a release while free or an acquire while held) *)
Lemma accept_prefix tf a e1 e2 : accept tf a (e1 ++ e2) <> None -> accept tf a e1 <> None.
Proof. rewrite accept_app. destruct (accept tf a e1); congruence. Qed.

Theorem lock_checker_sound m :
  lock_ok m = true ->
  forall p, let r := run AllFaults m p in
    out_of r <> OFuel /\ balanced (evs_of r) = true /\ count_acq (evs_of r) = count_rel (evs_of r).
Proof.
  intros H p r. destruct (meth_ok_sound lockA AllFaults 0 m H p) as [H1 H2]. fold r in H1, H2.
  split; [exact H1|]. pose proof (lockA_balanced (evs_of r) false H2) as B. split; [exact B|].
  pose proof (balanced_counts _ _ B) as C. simpl in C. lia.
Qed.

(* the trace of a sequence of calls, each along its own path (failing ones included); used by the statements
   C20_sequences* of Properties/C20.v *)
Definition run_calls (cs : list (stmt * path)) : list event :=
  flat_map (fun c => evs_of (run AllFaults (fst c) (snd c))) cs.

Lemma run_calls_accepted cs :
  (forall c, In c cs -> lock_ok (fst c) = true) -> accept lockA 0 (run_calls cs) = Some 0.
Proof.
  intro H. induction cs as [|c cs IH]; [reflexivity|].
  unfold run_calls in *. cbn [flat_map]. rewrite accept_app.
  rewrite (proj2 (meth_ok_sound lockA AllFaults 0 (fst c) (H c (or_introl eq_refl)) (snd c))).
  apply IH. intros c' Hin. apply H. right; exact Hin.
Qed.

Theorem sequences_balanced cs :
  (forall c, In c cs -> lock_ok (fst c) = true) -> balanced (run_calls cs) = true.
Proof. intro H. exact (lockA_balanced _ false (run_calls_accepted cs H)). Qed.

(* lock identity: along every path of a method that passes lock_ok, at every point of the trace the lock
   object is still the one the store was created with (no assignment to self.lock, no re-run of __init__) *)
Theorem lock_identity_constant m :
  lock_ok m = true ->
  forall p pre suf g, evs_of (run AllFaults m p) = pre ++ suf -> lock_gen pre g = g.
Proof.
  intros H p pre suf g E. apply (lockA_gen pre suf 0 0). rewrite <- E.
  exact (proj2 (meth_ok_sound lockA AllFaults 0 m H p)).
Qed.

Theorem sequences_lock_identity cs :
  (forall c, In c cs -> lock_ok (fst c) = true) ->
  forall pre suf g, run_calls cs = pre ++ suf -> lock_gen pre g = g.
Proof.
  intros H pre suf g E. apply (lockA_gen pre suf 0 0). rewrite <- E. exact (run_calls_accepted cs H).
Qed.

(* the store object is created once: with an accepted guard shape, constructing further shells (importers,
   topologies) never replaces an existing store, whatever it holds *)
Theorem singleton_identity sh : singleton_ok sh = true -> forall n, replaces sh (Some n) = false.
Proof.
  unfold singleton_ok, replaces. destruct (sg_guard sh); intros H n; [reflexivity|].
  destruct (sg_has_len sh), (sg_has_bool sh); simpl in H; try discriminate. reflexivity.
Qed.

Theorem singleton_rejected_witness sh : singleton_ok sh = false -> exists n, singleton_witness sh = Some n /\ replaces sh (Some n) = true.
Proof.
  unfold singleton_ok, singleton_witness, replaces. destruct (sg_guard sh); [discriminate|].
  destruct (sg_has_bool sh), (sg_has_len sh); simpl; intro H; try discriminate; exists 0; split; reflexivity.
Qed.
