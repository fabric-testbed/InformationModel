(* Python str = list of Unicode code points (N).  Conversions from Coq string literals (ASCII),
   equality, ordering (code-point lexicographic = Python's str ordering), decimal printing of Z
   (with the stdlib's proven round trip), join, insertion sort on keys. *)
From Coq Require Import List NArith ZArith String Ascii Bool.
From Coq Require Import DecimalString DecimalZ DecimalPos Decimal.
Import ListNotations.

Definition str := list N.

Definition of_string (s : string) : str := map N_of_ascii (list_ascii_of_string s).
Notation "'S' s" := (of_string s%string) (at level 9, only parsing).

Fixpoint str_eqb (a b : str) : bool :=
  match a, b with
  | [], [] => true
  | x :: a', y :: b' => N.eqb x y && str_eqb a' b'
  | _, _ => false
  end.

Lemma str_eqb_eq a b : str_eqb a b = true <-> a = b.
Proof.
  revert b; induction a as [|x a IH]; destruct b as [|y b]; simpl; split; intro H; try congruence; try discriminate.
  - apply andb_true_iff in H as [H1 H2]. apply N.eqb_eq in H1. apply IH in H2. congruence.
  - inversion H; subst. rewrite N.eqb_refl. simpl. apply IH. reflexivity.
Qed.

Lemma str_eqb_refl a : str_eqb a a = true.
Proof. apply str_eqb_eq; reflexivity. Qed.

Lemma str_eqb_neq a b : str_eqb a b = false <-> a <> b.
Proof. rewrite <- str_eqb_eq. symmetry. apply not_true_iff_false. Qed.

Lemma str_eqb_spec a b : reflect (a = b) (str_eqb a b).
Proof. apply iff_reflect. symmetry. apply str_eqb_eq. Qed.

Lemma str_eqb_sym a b : str_eqb a b = str_eqb b a.
Proof. destruct (str_eqb_spec a b), (str_eqb_spec b a); congruence. Qed.

Definition str_eq_dec (a b : str) : {a = b} + {a <> b} := list_eq_dec N.eq_dec a b.

(* Python's str < : lexicographic on code points, a proper prefix is smaller *)
Fixpoint str_ltb (a b : str) : bool :=
  match a, b with
  | [], [] => false
  | [], _ :: _ => true
  | _ :: _, [] => false
  | x :: a', y :: b' => if N.ltb x y then true else if N.ltb y x then false else str_ltb a' b'
  end.

Definition str_leb (a b : str) : bool := negb (str_ltb b a).

Fixpoint list_eqb {A} (eqb : A -> A -> bool) (a b : list A) : bool :=
  match a, b with
  | [], [] => true
  | x :: a', y :: b' => eqb x y && list_eqb eqb a' b'
  | _, _ => false
  end.

Definition opt_eqb {A} (eqb : A -> A -> bool) (a b : option A) : bool :=
  match a, b with
  | None, None => true
  | Some x, Some y => eqb x y
  | _, _ => false
  end.

Lemma list_eqb_eq {A} (eqb : A -> A -> bool) (H : forall x y, eqb x y = true -> x = y) :
  forall a b, list_eqb eqb a b = true -> a = b.
Proof.
  induction a as [|x a IH]; destruct b as [|y b]; simpl; intro E; try discriminate; [reflexivity|].
  apply andb_true_iff in E. destruct E as [E1 E2]. rewrite (H _ _ E1), (IH _ E2). reflexivity.
Qed.

Lemma list_eqb_refl {A} (eqb : A -> A -> bool) (H : forall x, eqb x x = true) a : list_eqb eqb a a = true.
Proof. induction a as [|x a IH]; simpl; [reflexivity|]. rewrite H, IH. reflexivity. Qed.

Lemma opt_eqb_eq {A} (eqb : A -> A -> bool) (H : forall x y, eqb x y = true -> x = y) :
  forall a b, opt_eqb eqb a b = true -> a = b.
Proof. intros [x|] [y|]; simpl; intro E; try discriminate; [rewrite (H _ _ E)|]; reflexivity. Qed.

Fixpoint join (sep : str) (l : list str) : str :=
  match l with
  | [] => []
  | [x] => x
  | x :: r => x ++ sep ++ join sep r
  end.

(* insertion sort of key/value pairs by key (stable) -- json.dumps(sort_keys=True) *)
Fixpoint insert_kv {V} (k : str) (v : V) (l : list (str * V)) : list (str * V) :=
  match l with
  | [] => [(k, v)]
  | (k', v') :: r => if str_ltb k k' then (k, v) :: l else (k', v') :: insert_kv k v r
  end.

Fixpoint sort_kv {V} (l : list (str * V)) : list (str * V) :=
  match l with
  | [] => []
  | (k, v) :: r => insert_kv k v (sort_kv r)
  end.

(* decimal text of an integer: Python's str(int) / json.dumps(int) *)
Definition str_of_Z (z : Z) : str := of_string (NilZero.string_of_int (Z.to_int z)).

Definition to_ascii_list (s : str) : option (list ascii) :=
  fold_right (fun c acc => match acc with
                           | Some l => if N.ltb c 256 then Some (ascii_of_N c :: l) else None
                           | None => None end) (Some []) s.

Definition Z_of_str (s : str) : option Z :=
  match to_ascii_list s with
  | Some l => match NilZero.int_of_string (string_of_list_ascii l) with
              | Some i => Some (Z.of_int i)
              | None => None
              end
  | None => None
  end.

Lemma to_ascii_list_of_string s : to_ascii_list (of_string s) = Some (list_ascii_of_string s).
Proof.
  unfold of_string. induction (list_ascii_of_string s) as [|a l IH]; simpl; [reflexivity|].
  rewrite IH.
  assert (H : (N_of_ascii a <? 256)%N = true).
  { apply N.ltb_lt. apply N_ascii_bounded. }
  rewrite H, ascii_N_embedding. reflexivity.
Qed.

Theorem Z_of_str_of_Z z : Z_of_str (str_of_Z z) = Some z.
Proof.
  unfold Z_of_str, str_of_Z. rewrite to_ascii_list_of_string, string_of_list_ascii_of_string.
  rewrite NilZero.isi.
  - rewrite DecimalZ.of_to. reflexivity.
  - destruct z as [|p|p]; simpl; try discriminate.
    intro H; inversion H as [H1]. exact (DecimalPos.Unsigned.to_uint_nonnil p H1).
  - destruct z as [|p|p]; simpl; try discriminate.
    intro H; inversion H as [H1]. exact (DecimalPos.Unsigned.to_uint_nonnil p H1).
Qed.
