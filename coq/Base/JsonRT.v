(* Round-trip theorem for Base/Json.v: jparse (jprint v) = Some v for every well-formed value
   (jwfb v = true: strings of Unicode scalar values -- below 0x110000, no surrogates --, float tokens that the number scanner reads
   back whole, dict keys pairwise distinct).  Also for the sort_keys form. *)
From Coq Require Import List NArith ZArith Bool Lia Permutation.
From Coq Require Import DecimalString DecimalFacts Decimal.
From FIM Require Import Base.Str Base.Json.
Import ListNotations.
Open Scope N_scope.

Lemma hexval_hexdigit d : d < 16 -> hexval (hexdigit d) = Some d.
Proof.
  intro H. unfold hexdigit, hexval.
  destruct (N.ltb_spec d 10) as [L|L].
  - rewrite (proj2 (N.leb_le 48 (48 + d))), (proj2 (N.leb_le (48 + d) 57)) by lia. cbn [andb]. f_equal. lia.
  - rewrite (proj2 (N.leb_gt (87 + d) 57)), andb_false_r by lia.
    rewrite (proj2 (N.leb_le 97 (87 + d))), (proj2 (N.leb_le (87 + d) 102)) by lia. cbn [andb]. f_equal. lia.
Qed.

Lemma hex4val_hex4 n : n < 65536 ->
  hex4val (hexdigit ((n / 4096) mod 16)) (hexdigit ((n / 256) mod 16)) (hexdigit ((n / 16) mod 16)) (hexdigit (n mod 16)) = Some n.
Proof.
  intro H. unfold hex4val.
  rewrite !hexval_hexdigit by (apply N.mod_lt; discriminate).
  (* the four hexadecimal digits of n come from three divisions by 16; the last quotient is below 16 *)
  change 4096 with (16 * 16 * 16). change 256 with (16 * 16). rewrite <- !N.div_div by discriminate.
  pose proof (N.div_mod' n 16). pose proof (N.div_mod' (n / 16) 16). pose proof (N.div_mod' (n / 16 / 16) 16).
  assert (n / 16 / 16 / 16 < 16) by (rewrite !N.div_div by discriminate; apply N.div_lt_upper_bound; [discriminate|exact H]).
  rewrite (N.mod_small (n / 16 / 16 / 16)) by assumption. f_equal. lia.
Qed.

Local Arguments N.div : simpl never.
Local Arguments N.modulo : simpl never.
Local Arguments N.add : simpl never.
Local Arguments N.sub : simpl never.
Local Arguments N.mul : simpl never.
Local Arguments hexdigit : simpl never.
Local Arguments hex4val : simpl never.
Local Arguments is_high : simpl never.
Local Arguments is_low : simpl never.

Lemma pstep_uesc u r : u < 65536 -> is_high u = false -> pstep (uesc u ++ r) = PChar u r.
Proof.
  intros H1 H2. unfold uesc, hex4. simpl.
  rewrite (hex4val_hex4 u H1), H2. reflexivity.
Qed.

Lemma pstep_pair hi lo r : hi < 65536 -> lo < 65536 -> is_high hi = true -> is_low lo = true ->
  pstep (uesc hi ++ uesc lo ++ r) = PChar (65536 + (hi - 55296) * 1024 + (lo - 56320)) r.
Proof.
  intros H1 H2 H3 H4. unfold uesc, hex4. simpl.
  rewrite (hex4val_hex4 hi H1), H3, (hex4val_hex4 lo H2), H4. reflexivity.
Qed.

Lemma pstep_esc c r : scalar_ok c = true -> pstep (esc_char c ++ r) = PChar c r.
Proof.
  intro H. unfold scalar_ok in H. apply andb_true_iff in H as [H1 H2]. apply N.ltb_lt in H1.
  apply negb_true_iff in H2.
  unfold esc_char.
  destruct (N.eqb_spec c 34) as [->|N34]; [reflexivity|]. destruct (N.eqb_spec c 92) as [->|N92]; [reflexivity|].
  destruct (N.eqb_spec c 10) as [->|_]; [reflexivity|]. destruct (N.eqb_spec c 13) as [->|_]; [reflexivity|].
  destruct (N.eqb_spec c 9) as [->|_]; [reflexivity|]. destruct (N.eqb_spec c 8) as [->|_]; [reflexivity|].
  destruct (N.eqb_spec c 12) as [->|_]; [reflexivity|].
  destruct ((c <? 32) || (126 <? c)) eqn:E8.
  - destruct (c <? 65536) eqn:E9.
    + apply N.ltb_lt in E9. apply pstep_uesc; [exact E9|].
      unfold is_high. apply andb_false_iff. apply andb_false_iff in H2. destruct H2 as [H2|H2].
      * left; exact H2.
      * right. apply N.leb_gt in H2. apply N.leb_gt. lia.
    + (* above the BMP: c - 65536 < 2^20 splits into a high and a low half of ten bits each *)
      apply N.ltb_ge in E9. set (x := c - 65536). assert (Ec : c = x + 65536) by (unfold x; lia). clearbody x.
      pose proof (N.div_mod' x 1024) as DM. pose proof (N.mod_lt x 1024 ltac:(discriminate)) as ML.
      assert (x / 1024 < 1024) by (apply N.div_lt_upper_bound; [discriminate|lia]).
      set (q := x / 1024) in *. set (m := x mod 1024) in *. clearbody q m.
      rewrite <- app_assoc, pstep_pair.
      * f_equal. lia.
      * lia.
      * lia.
      * unfold is_high. apply andb_true_iff; split; apply N.leb_le; lia.
      * unfold is_low. apply andb_true_iff; split; apply N.leb_le; lia.
  - apply orb_false_iff in E8 as [E8 E9].
    simpl. rewrite (proj2 (N.eqb_neq c 34) N34), (proj2 (N.eqb_neq c 92) N92), E8. reflexivity.
Qed.

Lemma esc_char_len c : (1 <= List.length (esc_char c))%nat.
Proof.
  unfold esc_char.
  repeat match goal with |- context [if ?b then _ else _] => destruct b end; simpl; try lia.
Qed.

Lemma esc_body_len s : (List.length s <= List.length (esc_body s))%nat.
Proof.
  induction s as [|c s IH]; simpl; [lia|].
  rewrite app_length. pose proof (esc_char_len c). lia.
Qed.

Lemma pstr_f_esc s : forall f rest, str_ok s = true -> (List.length s < f)%nat ->
  pstr_f f (esc_body s ++ 34 :: rest) = Some (s, rest).
Proof.
  induction s as [|c s IH]; intros f rest H Hf.
  - destruct f; [lia|]. reflexivity.
  - destruct f; [simpl in Hf; lia|].
    simpl in H. apply andb_true_iff in H as [Hc Hs].
    simpl esc_body. rewrite <- app_assoc.
    cbn [pstr_f]. rewrite (pstep_esc c _ Hc).
    rewrite IH; [reflexivity|exact Hs|simpl in Hf; lia].
Qed.

Lemma pstr_esc s rest : str_ok s = true -> pstr (esc_body s ++ 34 :: rest) = Some (s, rest).
Proof.
  intro H. unfold pstr. apply pstr_f_esc; [exact H|].
  rewrite app_length. pose proof (esc_body_len s). simpl. lia.
Qed.

(* characters that cannot continue a number literal *)
Definition nstop_char (h : N) : bool :=
  negb (is_digit h || (h =? 46) || (h =? 101) || (h =? 69) || (h =? 43) || (h =? 45)).
Definition nstop (rest : str) : bool := match rest with [] => true | h :: _ => nstop_char h end.

Lemma nstop_chars h r : nstop (h :: r) = true ->
  is_digit h = false /\ (h =? 46) = false /\ (h =? 101) = false /\ (h =? 69) = false /\ (h =? 43) = false /\ (h =? 45) = false.
Proof.
  simpl. unfold nstop_char. intro H.
  apply negb_true_iff in H. repeat (apply orb_false_iff in H; destruct H as [H ?]). repeat split; assumption.
Qed.

Lemma span_eq p s : s = fst (span p s) ++ snd (span p s).
Proof.
  induction s as [|c s IH]; simpl; [reflexivity|].
  destruct (p c); [|reflexivity]. destruct (span p s) as [a b]. simpl in *. congruence.
Qed.

Lemma span_all p l : forallb p l = true -> span p l = (l, []).
Proof.
  induction l as [|x l IH]; simpl; [reflexivity|].
  intro H. apply andb_true_iff in H as [H1 H2]. rewrite H1, (IH H2). reflexivity.
Qed.

Lemma span_app a rest : nstop rest = true ->
  span is_digit (a ++ rest) = (fst (span is_digit a), snd (span is_digit a) ++ rest).
Proof.
  intro H. induction a as [|x a IH]; simpl.
  - destruct rest as [|h r]; [reflexivity|]. apply nstop_chars in H as [H _]. simpl. rewrite H. reflexivity.
  - destruct (is_digit x); [|reflexivity]. rewrite IH. destruct (span is_digit a). reflexivity.
Qed.

(* a number starts with a digit, or a minus sign and a digit *)
Definition numhead (s : str) : Prop :=
  exists c r, s = c :: r /\ (is_digit c = true \/ (c = 45 /\ exists d r', r = d :: r' /\ is_digit d = true)).

(* the integer part after the optional sign sg: a zero, or a non-zero digit and the digits after it *)
Definition int_body (sg s1 : str) : option (str * str) :=
  match s1 with
  | c :: r => if c =? 48 then Some (sg ++ [48], r)
              else if is_digit c then let '(ds, r') := span is_digit r in Some (sg ++ c :: ds, r') else None
  | [] => None
  end.

Lemma scan_int_body s :
  scan_int s = match s with c :: r => if c =? 45 then int_body [45] r else int_body [] s | [] => None end.
Proof. reflexivity. Qed.

(* what is consumed and what is left make up the text; there is a leading digit; the scan is not disturbed by
   appending a text that cannot continue a number *)
Lemma int_body_spec sg s1 ip r1 : int_body sg s1 = Some (ip, r1) ->
  sg ++ s1 = ip ++ r1 /\ (exists d r', s1 = d :: r' /\ is_digit d = true) /\
  forall rest, nstop rest = true -> int_body sg (s1 ++ rest) = Some (ip, r1 ++ rest).
Proof.
  destruct s1 as [|c r]; [discriminate|]. simpl. destruct (c =? 48) eqn:E.
  - apply N.eqb_eq in E. subst c. intros [= <- <-]. rewrite <- app_assoc. eauto 6.
  - destruct (is_digit c) eqn:D; [|discriminate].
    pose proof (span_eq is_digit r) as Q. destruct (span is_digit r) as [ds r2] eqn:SP. simpl in Q.
    intros [= <- <-]. split; [rewrite <- app_assoc; simpl; congruence|]. split; [eauto|].
    intros rest Hs. rewrite (span_app r rest Hs), SP. reflexivity.
Qed.

Lemma scan_int_spec t ip r1 : scan_int t = Some (ip, r1) ->
  t = ip ++ r1 /\ numhead t /\ forall rest, nstop rest = true -> scan_int (t ++ rest) = Some (ip, r1 ++ rest).
Proof.
  rewrite scan_int_body. destruct t as [|c r]; [discriminate|].
  destruct (c =? 45) eqn:E; intro H; apply int_body_spec in H as (Q1 & (d & r' & Q2 & D) & Q3).
  - apply N.eqb_eq in E. subst c. split; [exact Q1|]. split; [exists 45, r; eauto 8|].
    intros rest Hs. exact (Q3 rest Hs).
  - injection Q2 as <- <-. split; [exact Q1|]. split; [exists c, r; auto|].
    intros rest Hs. rewrite scan_int_body. cbn [List.app]. rewrite E. exact (Q3 rest Hs).
Qed.

Lemma scan_frac_app t rest : nstop rest = true ->
  scan_frac (t ++ rest) = (fst (scan_frac t), snd (scan_frac t) ++ rest).
Proof.
  intros Hs. destruct t as [|c r]; simpl.
  - destruct rest as [|h r]; [reflexivity|]. apply nstop_chars in Hs. destruct Hs as (_ & H46 & _).
    simpl. rewrite H46. reflexivity.
  - destruct (c =? 46); [|reflexivity].
    rewrite (span_app r rest Hs). destruct (span is_digit r) as [ds r']. simpl.
    destruct ds; reflexivity.
Qed.

Lemma scan_exp_app t rest : nstop rest = true ->
  scan_exp (t ++ rest) = (fst (scan_exp t), snd (scan_exp t) ++ rest).
Proof.
  intros Hs. destruct t as [|e r]; simpl.
  - destruct rest as [|h r]; [reflexivity|]. apply nstop_chars in Hs. destruct Hs as (_ & _ & H1 & H2 & _).
    simpl. rewrite H1, H2. reflexivity.
  - destruct ((e =? 101) || (e =? 69)); [|reflexivity].
    destruct r as [|c r'].
    + simpl. destruct rest as [|h r2]; [reflexivity|].
      pose proof (nstop_chars _ _ Hs) as (Hdg & _ & _ & _ & H3 & H4).
      rewrite H3, H4. simpl. rewrite Hdg. reflexivity.
    + change ((c :: r') ++ rest) with (c :: (r' ++ rest)). cbv beta iota. destruct ((c =? 43) || (c =? 45)); cbv beta iota zeta.
      * rewrite (span_app r' rest Hs). destruct (span is_digit r') as [ds r2]. simpl.
        destruct ds; reflexivity.
      * change (c :: r' ++ rest) with ((c :: r') ++ rest).
        rewrite (span_app (c :: r') rest Hs). destruct (span is_digit (c :: r')) as [ds r2].
        cbn [fst snd]. destruct ds; reflexivity.
Qed.

Lemma scan_frac_eq s : s = fst (scan_frac s) ++ snd (scan_frac s).
Proof.
  destruct s as [|c r]; [reflexivity|]. simpl.
  destruct (c =? 46) eqn:E; [|reflexivity]. apply N.eqb_eq in E. subst.
  pose proof (span_eq is_digit r) as Q. destruct (span is_digit r) as [ds r2]. simpl in Q.
  destruct ds; simpl; [reflexivity|]. simpl in Q. congruence.
Qed.

Lemma scan_exp_eq s : s = fst (scan_exp s) ++ snd (scan_exp s).
Proof.
  destruct s as [|e r]; [reflexivity|]. simpl.
  destruct ((e =? 101) || (e =? 69)); [|reflexivity].
  destruct r as [|c r'].
  - reflexivity.
  - destruct ((c =? 43) || (c =? 45)) eqn:E.
    + pose proof (span_eq is_digit r') as Q. destruct (span is_digit r') as [ds r2]. simpl in Q.
      destruct ds; simpl; [reflexivity|]. simpl in Q. congruence.
    + pose proof (span_eq is_digit (c :: r')) as Q. destruct (span is_digit (c :: r')) as [ds r2]. simpl in Q.
      destruct ds; simpl; [reflexivity|]. simpl in Q. congruence.
Qed.

Lemma pnum_numhead t v r : pnum t = Some (v, r) -> numhead t.
Proof.
  unfold pnum. destruct (scan_int t) as [[ip r1]|] eqn:E1; [|discriminate].
  intros _. exact (proj1 (proj2 (scan_int_spec _ _ _ E1))).
Qed.

Lemma pnum_app t v rest : nstop rest = true -> pnum t = Some (v, []) -> pnum (t ++ rest) = Some (v, rest).
Proof.
  intros Hs. unfold pnum.
  destruct (scan_int t) as [[ip r1]|] eqn:E1; [|discriminate].
  rewrite (proj2 (proj2 (scan_int_spec t ip r1 E1)) rest Hs).
  rewrite (scan_frac_app r1 rest Hs). destruct (scan_frac r1) as [fp r2]. simpl.
  rewrite (scan_exp_app r2 rest Hs). destruct (scan_exp r2) as [ep r3]. simpl.
  destruct fp, ep; try (intros [= <- ->]; reflexivity).
  destruct (Z_of_str ip); [|discriminate]. intros [= <- ->]. reflexivity.
Qed.

Lemma pnum_float_token t tok r : pnum t = Some (JFloat tok, r) -> t = tok ++ r.
Proof.
  unfold pnum. destruct (scan_int t) as [[ip r1]|] eqn:E1; [|discriminate].
  apply scan_int_spec in E1 as [E1 _].
  pose proof (scan_frac_eq r1) as E2. destruct (scan_frac r1) as [fp r2]. simpl in E2.
  pose proof (scan_exp_eq r2) as E3. destruct (scan_exp r2) as [ep r3]. simpl in E3.
  destruct fp, ep; try (intros [= <- <-]; rewrite E1, E2, E3; simpl; rewrite ?List.app_nil_r; repeat (rewrite <- app_assoc; simpl); reflexivity).
  destruct (Z_of_str ip); discriminate.
Qed.

(* the decimal text of an integer: digits, no leading zero, optional minus *)
Fixpoint udigits (u : uint) : str :=
  match u with
  | Nil => []
  | D0 d => 48 :: udigits d | D1 d => 49 :: udigits d | D2 d => 50 :: udigits d | D3 d => 51 :: udigits d
  | D4 d => 52 :: udigits d | D5 d => 53 :: udigits d | D6 d => 54 :: udigits d | D7 d => 55 :: udigits d
  | D8 d => 56 :: udigits d | D9 d => 57 :: udigits d
  end.

Lemma of_string_uint u : of_string (NilEmpty.string_of_uint u) = udigits u.
Proof.
  unfold of_string. induction u; simpl; try rewrite IHu; reflexivity.
Qed.

Lemma of_string_pos p : of_string (NilZero.string_of_uint (Pos.to_uint p)) = udigits (Pos.to_uint p).
Proof.
  unfold NilZero.string_of_uint. pose proof (DecimalPos.Unsigned.to_uint_nonnil p) as NN.
  destruct (Pos.to_uint p) eqn:E; try congruence; rewrite <- E; apply of_string_uint.
Qed.

Lemma udigits_digits u : forallb is_digit (udigits u) = true.
Proof. induction u; simpl; try rewrite IHu; reflexivity. Qed.

Lemma to_uint_no_leading_zero p d : Pos.to_uint p <> D0 d.
Proof.
  intro H.
  assert (E : Pos.to_uint p = unorm (Pos.to_uint p)).
  { rewrite <- (DecimalPos.Unsigned.to_of (Pos.to_uint p)), DecimalPos.Unsigned.of_to. reflexivity. }
  unfold unorm in E. destruct (nzhead (Pos.to_uint p)) eqn:N0;
    try (rewrite E in H; rewrite <- N0 in H; exact (nzhead_nonzero _ _ H)).
  apply (DecimalPos.Unsigned.to_uint_nonzero p). exact E.
Qed.

Lemma int_body_pos sg p : int_body sg (udigits (Pos.to_uint p)) = Some (sg ++ udigits (Pos.to_uint p), []).
Proof.
  pose proof (to_uint_no_leading_zero p) as NZ. pose proof (DecimalPos.Unsigned.to_uint_nonnil p) as NN.
  pose proof (udigits_digits (Pos.to_uint p)) as DG.
  destruct (Pos.to_uint p) as [|d|d|d|d|d|d|d|d|d|d]; [congruence|destruct (NZ d eq_refl)|..];
    simpl in DG |- *; rewrite (span_all _ _ DG); reflexivity.
Qed.

Lemma scan_int_pos sg p : sg = [] \/ sg = [45] ->
  scan_int (sg ++ udigits (Pos.to_uint p)) = Some (sg ++ udigits (Pos.to_uint p), []).
Proof.
  intros [-> | ->]; rewrite scan_int_body; cbn [List.app]; [|exact (int_body_pos [45] p)].
  pose proof (int_body_pos [] p) as B. pose proof (udigits_digits (Pos.to_uint p)) as DG.
  destruct (udigits (Pos.to_uint p)) as [|c ds]; [discriminate B|]. simpl in DG. apply andb_true_iff in DG as [Hc _].
  replace (c =? 45) with false; [exact B|]. symmetry. apply N.eqb_neq. intros ->. discriminate Hc.
Qed.

Lemma pnum_int z : pnum (str_of_Z z) = Some (JInt z, []).
Proof.
  enough (Q : forall sg p, sg = [] \/ sg = [45] -> str_of_Z z = sg ++ udigits (Pos.to_uint p) ->
              pnum (str_of_Z z) = Some (JInt z, [])).
  { destruct z as [|p|p]; [reflexivity|apply (Q [] p); [auto|apply of_string_pos]|apply (Q [45] p); [auto|]].
    unfold str_of_Z, of_string. simpl. f_equal. apply of_string_pos. }
  intros sg p Hsg E. unfold pnum. rewrite E, (scan_int_pos sg p Hsg). simpl. rewrite <- E, Z_of_str_of_Z. reflexivity.
Qed.

Section JsonInd.
  Variable P : json -> Prop.
  Hypothesis Hn : P JNull.
  Hypothesis Hb : forall b, P (JBool b).
  Hypothesis Hi : forall z, P (JInt z).
  Hypothesis Hf : forall t, P (JFloat t).
  Hypothesis Hs : forall s, P (JStr s).
  Hypothesis Ha : forall l, Forall P l -> P (JArr l).
  Hypothesis Ho : forall m, Forall (fun kv => P (snd kv)) m -> P (JObj m).
  Fixpoint json_ind2 (v : json) : P v :=
    match v with
    | JNull => Hn | JBool b => Hb b | JInt z => Hi z | JFloat t => Hf t | JStr s => Hs s
    | JArr l => Ha l ((fix go (l : list json) : Forall P l :=
                         match l with [] => Forall_nil _ | x :: r => Forall_cons _ (json_ind2 x) (go r) end) l)
    | JObj m => Ho m ((fix go (m : list (str * json)) : Forall (fun kv => P (snd kv)) m :=
                         match m with [] => Forall_nil _ | kv :: r => Forall_cons _ (json_ind2 (snd kv)) (go r) end) m)
    end.
End JsonInd.

(* what may follow a value inside the texts the printer produces (and at the end of the text) *)
Definition delim (rest : str) : bool :=
  match rest with [] => true | c :: _ => (c =? 44) || (c =? 93) || (c =? 125) end.

Lemma delim_nstop rest : delim rest = true -> nstop rest = true.
Proof.
  destruct rest as [|c r]; [reflexivity|]. simpl. intro H.
  apply orb_true_iff in H as [H|H]; [apply orb_true_iff in H as [H|H]|]; apply N.eqb_eq in H; subst; reflexivity.
Qed.

Lemma numhead_app s rest : numhead s -> numhead (s ++ rest).
Proof.
  intros (c & r & -> & H). exists c, (r ++ rest). split; [reflexivity|].
  destruct H as [H|(-> & d & r' & -> & H)]; [left; exact H|].
  right. split; [reflexivity|]. exists d, (r' ++ rest). split; [reflexivity|exact H].
Qed.

Lemma digit_range c : is_digit c = true -> 48 <= c <= 57.
Proof. unfold is_digit. intro H. apply andb_true_iff in H as [H1 H2]. apply N.leb_le in H1, H2. lia. Qed.

Lemma pval_minus f r : pval (Datatypes.S f) (45 :: r) =
  match starts_with lit_ninf (45 :: r) with Some r' => Some (JFloat lit_ninf, r') | None => pnum (45 :: r) end.
Proof. reflexivity. Qed.

Lemma pval_numhead s f : numhead s -> pval (Datatypes.S f) s = pnum s.
Proof.
  intros (c & r & -> & H). destruct H as [H|(-> & d & r' & -> & H)]; apply digit_range in H.
  - assert (E : forall k, (k < 48 \/ 57 < k) -> (c =? k) = false) by (intros k Hk; apply N.eqb_neq; lia).
    cbn [pval]. rewrite !E by lia. reflexivity.
  - (* a digit after the minus sign is not the I of -Infinity *)
    rewrite pval_minus. unfold lit_ninf, lit_inf. cbn [starts_with]. change (45 =? 45) with true. cbv iota.
    replace (73 =? d) with false by (symmetry; apply N.eqb_neq; lia). reflexivity.
Qed.

(* a printed value starts with a character that is neither whitespace nor a closing bracket *)
Definition head_ok (s : str) : Prop :=
  exists c r, s = c :: r /\ is_ws c = false /\ (c =? 93) = false /\ (c =? 125) = false.

Lemma head_ok_app s rest : head_ok s -> head_ok (s ++ rest).
Proof. intros (c & r & -> & H). exists c, (r ++ rest). split; [reflexivity|exact H]. Qed.

Lemma skip_ws_head s : head_ok s -> skip_ws s = s.
Proof. intros (c & r & -> & H & _). simpl. rewrite H. reflexivity. Qed.

Lemma head_ok_len s : head_ok s -> (1 <= List.length s)%nat.
Proof. intros (c & r & -> & _). simpl. lia. Qed.

Lemma numhead_head_ok s : numhead s -> head_ok s.
Proof.
  intros (c & r & -> & H). exists c, r. split; [reflexivity|].
  destruct H as [H|(-> & _)].
  - apply digit_range in H. unfold is_ws.
    repeat split; repeat (apply orb_false_iff; split); apply N.eqb_neq; lia.
  - repeat split; reflexivity.
Qed.

Lemma pval_number t v f rest : pnum t = Some (v, []) -> delim rest = true ->
  pval (Datatypes.S f) (t ++ rest) = Some (v, rest).
Proof.
  intros E Hd. rewrite (pval_numhead _ f (numhead_app _ rest (pnum_numhead _ _ _ E))).
  apply pnum_app; [apply delim_nstop; exact Hd|exact E].
Qed.

Lemma float_tok_cases t : float_tok_ok t = true ->
  t = lit_nan \/ t = lit_inf \/ t = lit_ninf \/ pnum t = Some (JFloat t, []).
Proof.
  unfold float_tok_ok. intro H.
  apply orb_true_iff in H as [H|H]; [apply orb_true_iff in H as [H|H]; [apply orb_true_iff in H as [H|H]|]|].
  - left. apply str_eqb_eq. exact H.
  - right; left. apply str_eqb_eq. exact H.
  - right; right; left. apply str_eqb_eq. exact H.
  - right; right; right.
    destruct (pnum t) as [[v r]|] eqn:E; [|discriminate].
    destruct v; try discriminate. destruct r; [|discriminate].
    pose proof (pnum_float_token _ _ _ E) as Q. rewrite List.app_nil_r in Q. subst tok. reflexivity.
Qed.

Lemma jhead v : jwfb v = true -> head_ok (jprint v).
Proof.
  assert (L : forall c r, is_ws c = false -> (c =? 93) = false -> (c =? 125) = false -> head_ok (c :: r))
    by (intros c r; exists c, r; auto).
  destruct v as [|b|z|t|s|l|m]; simpl; intro H; try (apply L; reflexivity).
  - destruct b; apply L; reflexivity.
  - exact (numhead_head_ok _ (pnum_numhead _ _ _ (pnum_int z))).
  - destruct (float_tok_cases t H) as [-> | [-> | [-> | E]]]; try (apply L; reflexivity).
    exact (numhead_head_ok _ (pnum_numhead _ _ _ E)).
Qed.

Lemma jprint_nonempty v : jwfb v = true -> Nat.eqb (List.length (jprint v)) 0 = false.
Proof. intro W. destruct (jhead v W) as (c & r & -> & _). reflexivity. Qed.

Lemma join_cons sep a r : join sep (a :: r) = a ++ match r with [] => [] | _ => sep ++ join sep r end.
Proof. destruct r; simpl; [rewrite List.app_nil_r|]; reflexivity. Qed.

(* the fuel for a list of items, and its bound by the length of the printed list *)
Section ListSize.
  Context {A : Type} (text : A -> str) (size : A -> nat).

  Definition lsize (l : list A) : nat := fold_right (fun x n => Datatypes.S (size x) + n)%nat O l.

  Lemma lsize_le l : Forall (fun x => size x <= List.length (text x))%nat l ->
    (lsize l <= List.length (join sep_comma (map text l)) + 1)%nat.
  Proof.
    induction 1 as [|x l Hx HF IH]; [simpl; lia|].
    cbn [map]. rewrite join_cons, app_length. unfold lsize in *. cbn [fold_right].
    destruct l as [|y l']; [simpl; lia|].
    cbn [map] in *. rewrite app_length. simpl List.length at 2. lia.
  Qed.
End ListSize.

(* Lists of items separated by ", " and closed by a bracket: array elements and object members are parsed by the
   same loop (pelems, pmembers) around an item parser, so its correctness on printed lists is proved once. *)
Section SepList.
  Context {A : Type} (close : N) (text : A -> str) (size : A -> nat).
  Variables (pitem : nat -> str -> option (A * str)) (plist : nat -> str -> option (list A * str)).
  Hypothesis close_bracket : close = 93 \/ close = 125.
  Hypothesis plist_step : forall f s, plist (Datatypes.S f) s =
    match pitem f s with
    | None => None
    | Some (v, r) =>
      match skip_ws r with
      | [] => None
      | c :: r2 =>
        if c =? 44 then match plist f (skip_ws r2) with Some (l, r') => Some (v :: l, r') | None => None end
        else if c =? close then Some ([v], r2)
        else None
      end
    end.

  (* an item that is parsed back from its text in front of any delimiter, given fuel for its size *)
  Definition item_rt (x : A) : Prop :=
    head_ok (text x) /\ (size x <= List.length (text x))%nat /\
    forall f rest, (size x <= f)%nat -> delim rest = true -> pitem f (text x ++ rest) = Some (x, rest).

  Lemma items_head_ok x l rest : item_rt x -> head_ok (join sep_comma (map text (x :: l)) ++ rest).
  Proof. intros [HO _]. cbn [map]. rewrite join_cons. apply head_ok_app, head_ok_app, HO. Qed.

  Lemma plist_print l : l <> [] -> Forall item_rt l -> forall f rest, (lsize size l <= f)%nat ->
    plist f (join sep_comma (map text l) ++ close :: rest) = Some (l, rest).
  Proof.
    induction l as [|x l IH]; [congruence|]. intros _ HF f rest Hf.
    inversion HF as [|? ? (_ & _ & Hx) HF']; subst. simpl in Hf. destruct f as [|f]; [lia|].
    cbn [map]. rewrite join_cons, <- app_assoc, plist_step.
    destruct l as [|y l'].
    - rewrite Hx by (lia || destruct close_bracket as [-> | ->]; reflexivity).
      destruct close_bracket as [-> | ->]; reflexivity.
    - cbn [map]. set (T := join sep_comma (text y :: map text l') ++ close :: rest).
      change ((sep_comma ++ join sep_comma (text y :: map text l')) ++ close :: rest) with (44 :: 32 :: T).
      rewrite Hx by (lia || reflexivity).
      change (skip_ws (44 :: 32 :: T)) with (44 :: 32 :: T). cbv iota. change (44 =? 44) with true. cbv iota.
      change (skip_ws (32 :: T)) with (skip_ws T).
      rewrite (skip_ws_head T) by (inversion HF'; apply items_head_ok; assumption).
      subst T. change (text y :: map text l') with (map text (y :: l')).
      rewrite (IH ltac:(discriminate) HF' f rest); [reflexivity|]. simpl in *. lia.
  Qed.

  Lemma items_size_le l : Forall item_rt l -> (lsize size l <= List.length (join sep_comma (map text l)) + 1)%nat.
  Proof. intro HF. apply lsize_le. eapply Forall_impl; [|exact HF]. intros x H. exact (proj1 (proj2 H)). Qed.

  (* the text between the brackets, as pval reads it: nothing, or a list for plist *)
  Lemma bracketed_print {B} (wrap : list A -> B) l f rest : Forall item_rt l -> (lsize size l <= f)%nat ->
    match skip_ws (join sep_comma (map text l) ++ close :: rest) with
    | [] => None
    | c :: r => if c =? close then Some (wrap [], r)
                else match plist f (c :: r) with Some (l', r') => Some (wrap l', r') | None => None end
    end = Some (wrap l, rest).
  Proof.
    intros HF Hf. destruct l as [|x l']; [destruct close_bracket as [-> | ->]; reflexivity|].
    pose proof (items_head_ok x l' (close :: rest) (Forall_inv HF)) as HO. rewrite (skip_ws_head _ HO).
    destruct HO as (c & r & E & _ & N93 & N125). rewrite E.
    replace (c =? close) with false by (destruct close_bracket as [-> | ->]; auto).
    rewrite <- E, plist_print; [reflexivity|discriminate|exact HF|exact Hf].
  Qed.
End SepList.

(* the fuel jsize v is within the length of the text, and with that much fuel the text is parsed back *)
Definition pval_print_spec (v : json) : Prop :=
  jwfb v = true ->
  (jsize v <= List.length (jprint v))%nat /\
  forall f rest, (jsize v <= f)%nat -> delim rest = true -> pval f (jprint v ++ rest) = Some (v, rest).

Definition member_text (kv : str * json) : str := print_str (fst kv) ++ sep_colon ++ jprint (snd kv).

(* one member, as pmembers reads it before it looks for the comma or the closing brace *)
Definition pmember (f : nat) (s : str) : option ((str * json) * str) :=
  match s with
  | q :: r0 =>
    if q =? 34 then
      match pstr r0 with
      | Some (k, r1) =>
        match skip_ws r1 with
        | c1 :: r2 => if c1 =? 58 then match pval f (skip_ws r2) with Some (v, r3) => Some ((k, v), r3) | None => None end
                      else None
        | [] => None
        end
      | None => None
      end
    else None
  | [] => None
  end.

Lemma pmembers_step f s : pmembers (Datatypes.S f) s =
  match pmember f s with
  | None => None
  | Some (kv, r) =>
    match skip_ws r with
    | [] => None
    | c :: r2 =>
      if c =? 44 then match pmembers f (skip_ws r2) with Some (l, r') => Some (kv :: l, r') | None => None end
      else if c =? 125 then Some ([kv], r2)
      else None
    end
  end.
Proof.
  destruct s as [|q r0]; [reflexivity|]. cbn [pmembers pmember]. destruct (q =? 34); [|reflexivity].
  destruct (pstr r0) as [[k r1]|]; [|reflexivity]. destruct (skip_ws r1) as [|c1 r2]; [reflexivity|].
  destruct (c1 =? 58); [|reflexivity]. destruct (pval f (skip_ws r2)) as [[v r3]|]; reflexivity.
Qed.

Lemma member_rt k v : str_ok k = true -> jwfb v = true -> pval_print_spec v ->
  item_rt member_text (fun kv => jsize (snd kv)) pmember (k, v).
Proof.
  intros Wk Wv Hv. destruct (Hv Wv) as [Sv Pv]. unfold member_text, print_str, sep_colon. cbn [fst snd]. split; [|split].
  - eexists; eexists; split; [reflexivity|repeat split].
  - cbn [fst snd List.app List.length]. rewrite !app_length. cbn [List.length]. lia.
  - intros f rest Hf Hd.
    rewrite <- !app_assoc. cbn [List.app pmember]. change (34 =? 34) with true. cbv iota.
    rewrite <- app_assoc. cbn [List.app]. rewrite (pstr_esc k _ Wk).
    match goal with |- context [skip_ws (58 :: ?X)] => change (skip_ws (58 :: X)) with (58 :: X) end.
    cbv iota beta. change (58 =? 58) with true. cbv iota.
    match goal with |- context [skip_ws (32 :: ?X)] => change (skip_ws (32 :: X)) with (skip_ws X) end.
    rewrite (skip_ws_head _ (head_ok_app _ _ (jhead v Wv))), (Pv f rest Hf Hd). reflexivity.
Qed.

(* dict semantics of the decoder are the identity on pairwise distinct keys *)
Lemma nodup_keys_NoDup l : nodup_keys l = true -> NoDup l.
Proof.
  induction l as [|k l IH]; simpl; intro H; [constructor|].
  apply andb_true_iff in H as [H1 H2]. constructor; [|exact (IH H2)].
  intro Hin. apply negb_true_iff in H1.
  assert (existsb (str_eqb k) l = true); [|congruence].
  apply existsb_exists. exists k. split; [exact Hin|apply str_eqb_refl].
Qed.

Lemma NoDup_nodup_keys l : NoDup l -> nodup_keys l = true.
Proof.
  induction 1 as [|k l Hn Hd IH]; simpl; [reflexivity|].
  rewrite IH, andb_true_r. apply negb_true_iff.
  destruct (existsb (str_eqb k) l) eqn:E; [|reflexivity].
  apply existsb_exists in E as (x & Hx & Ex). apply str_eqb_eq in Ex. subst. contradiction.
Qed.

Lemma aset_fresh {V} k (v : V) m : ~ In k (map fst m) -> aset k v m = m ++ [(k, v)].
Proof.
  induction m as [|[k' v'] m IH]; simpl; intro H; [reflexivity|].
  destruct (str_eqb k k') eqn:E.
  - apply str_eqb_eq in E. subst. exfalso. apply H. left. reflexivity.
  - rewrite IH; [reflexivity|]. intro Hin. apply H. right. exact Hin.
Qed.

Lemma pairs_to_dict_acc {V} (m acc : list (str * V)) : NoDup (map fst acc ++ map fst m) ->
  fold_left (fun d kv => aset (fst kv) (snd kv) d) m acc = acc ++ m.
Proof.
  revert acc. induction m as [|[k v] m IH]; intros acc H; simpl.
  - rewrite List.app_nil_r. reflexivity.
  - simpl in H. rewrite aset_fresh.
    + rewrite IH; [rewrite <- app_assoc; reflexivity|].
      rewrite map_app. simpl. rewrite <- app_assoc. exact H.
    + apply NoDup_remove_2 in H. intro Hin. apply H. apply in_or_app. left. exact Hin.
Qed.

Lemma pairs_to_dict_nodup {V} (m : list (str * V)) : nodup_keys (map fst m) = true -> pairs_to_dict m = m.
Proof.
  intro H. unfold pairs_to_dict. rewrite pairs_to_dict_acc; [reflexivity|].
  simpl. apply nodup_keys_NoDup. exact H.
Qed.

Theorem pval_print : forall v, pval_print_spec v.
Proof.
  assert (SZ : forall v, jwfb v = true -> (1 <= List.length (jprint v))%nat)
    by (intros v W; exact (head_ok_len _ (jhead v W))).
  apply json_ind2; unfold pval_print_spec.
  - intro W. split; [exact (SZ _ W)|]. intros f rest Hf Hd. destruct f; [simpl in Hf; lia|]. reflexivity.
  - intros b W. split; [exact (SZ _ W)|]. intros f rest Hf Hd. destruct f; [simpl in Hf; lia|]. destruct b; reflexivity.
  - intros z W. split; [exact (SZ _ W)|]. intros f rest Hf Hd. destruct f; [simpl in Hf; lia|].
    exact (pval_number _ _ f rest (pnum_int z) Hd).
  - intros t W. split; [exact (SZ _ W)|]. intros f rest Hf Hd. destruct f; [simpl in Hf; lia|]. cbn [jprint]. simpl in W.
    destruct (float_tok_cases t W) as [-> | [-> | [-> | E]]]; try reflexivity.
    exact (pval_number _ _ f rest E Hd).
  - intros s W. split; [simpl; lia|]. intros f rest Hf Hd. destruct f; [simpl in Hf; lia|]. simpl in W.
    cbn [jprint]. unfold print_str. cbn [List.app]. rewrite <- app_assoc. cbn [List.app].
    cbn [pval]. change (34 =? 34) with true. cbv iota.
    rewrite (pstr_esc s rest W). reflexivity.
  - intros l HF W. simpl in W.
    assert (IR : Forall (item_rt jprint jsize pval) l).
    { rewrite Forall_forall in *. rewrite forallb_forall in W. intros y Hy.
      exact (conj (jhead y (W y Hy)) (HF y Hy (W y Hy))). }
    split.
    + pose proof (items_size_le jprint jsize pval l IR) as Q. cbn [jprint jsize]. fold (lsize jsize l).
      simpl List.length. rewrite app_length. simpl. lia.
    + intros f rest Hf Hd. destruct f; [simpl in Hf; lia|].
      cbn [jprint]. cbn [List.app]. rewrite <- app_assoc. cbn [List.app].
      cbn [pval]. change (91 =? 34) with false. change (91 =? 91) with true. cbv iota.
      exact (bracketed_print 93 jprint jsize pval pelems (or_introl eq_refl) (fun _ _ => eq_refl) JArr l f rest IR
               (le_S_n _ _ Hf)).
  - intros m HF W. simpl in W. apply andb_true_iff in W as [W ND].
    assert (IR : Forall (item_rt member_text (fun kv => jsize (snd kv)) pmember) m).
    { rewrite Forall_forall in *. rewrite forallb_forall in W. intros [k v] Hy.
      specialize (W _ Hy). apply andb_true_iff in W as [Wk Wv]. exact (member_rt k v Wk Wv (HF _ Hy)). }
    cbn [jprint jsize].
    change (map (fun kv : str * json => print_str (fst kv) ++ sep_colon ++ jprint (snd kv)) m) with (map member_text m).
    split.
    + pose proof (items_size_le member_text _ pmember m IR) as Q. fold (lsize (fun kv : str * json => jsize (snd kv)) m).
      simpl List.length. rewrite app_length. simpl. lia.
    + intros f rest Hf Hd. destruct f; [simpl in Hf; lia|].
      cbn [List.app]. rewrite <- app_assoc. cbn [List.app].
      cbn [pval]. change (123 =? 34) with false. change (123 =? 91) with false. change (123 =? 123) with true. cbv iota.
      rewrite <- (pairs_to_dict_nodup m ND) at 2.
      exact (bracketed_print 125 member_text (fun kv => jsize (snd kv)) pmember pmembers (or_intror eq_refl) pmembers_step
               (fun m => JObj (pairs_to_dict m)) m f rest IR (le_S_n _ _ Hf)).
Qed.

Theorem jparse_jprint v : jwfb v = true -> jparse (jprint v) = Some v.
Proof.
  intro W. unfold jparse.
  rewrite (skip_ws_head _ (jhead v W)).
  destruct (pval_print v W) as [Sz Q]. specialize (Q (Datatypes.S (List.length (jprint v))) []).
  rewrite List.app_nil_r in Q. rewrite Q; [reflexivity|lia|reflexivity].
Qed.

Lemma insert_kv_perm {V} k (v : V) l : Permutation (insert_kv k v l) ((k, v) :: l).
Proof.
  induction l as [|[k' v'] l IH]; simpl; [apply Permutation_refl|].
  destruct (str_ltb k k'); [apply Permutation_refl|].
  eapply Permutation_trans; [apply perm_skip; exact IH|apply perm_swap].
Qed.

Lemma sort_kv_perm {V} (l : list (str * V)) : Permutation (sort_kv l) l.
Proof.
  induction l as [|[k v] l IH]; simpl; [constructor|].
  eapply Permutation_trans; [apply insert_kv_perm|apply perm_skip; exact IH].
Qed.

Lemma forallb_perm {A} (p : A -> bool) l l' : Permutation l l' -> forallb p l' = true -> forallb p l = true.
Proof.
  intros HP H. apply forallb_forall. intros x Hin. rewrite forallb_forall in H. apply H.
  eapply Permutation_in; [exact HP|exact Hin].
Qed.

Lemma jwfb_jsort : forall v, jwfb v = true -> jwfb (jsort v) = true.
Proof.
  apply (json_ind2 (fun v => jwfb v = true -> jwfb (jsort v) = true)); try (intros; assumption).
  - intros l HF W. simpl in *. rewrite forallb_forall in *. intros y Hy.
    apply in_map_iff in Hy as (x & <- & Hx). rewrite Forall_forall in HF. apply (HF x Hx). apply (W x Hx).
  - intros m HF W. simpl in W. apply andb_true_iff in W as [W ND].
    cbn [jsort jwfb]. set (m2 := map (fun kv => (fst kv, jsort (snd kv))) m).
    assert (W2 : forallb (fun kv => str_ok (fst kv) && jwfb (snd kv)) m2 = true).
    { apply forallb_forall. intros y Hy. subst m2. apply in_map_iff in Hy as (x & <- & Hx). cbn [fst snd].
      rewrite forallb_forall in W. specialize (W x Hx). apply andb_true_iff in W as [W1 W3].
      rewrite W1. rewrite Forall_forall in HF. rewrite (HF x Hx W3). reflexivity. }
    assert (K2 : map fst m2 = map fst m).
    { subst m2. rewrite map_map. reflexivity. }
    apply andb_true_iff. split.
    + eapply forallb_perm; [apply sort_kv_perm|exact W2].
    + apply NoDup_nodup_keys. eapply Permutation_NoDup.
      * apply Permutation_sym. apply Permutation_map. apply sort_kv_perm.
      * rewrite K2. apply nodup_keys_NoDup. exact ND.
Qed.

Theorem jparse_jdumps b v : jwfb v = true -> jparse (jdumps b v) = Some (if b then jsort v else v).
Proof.
  intro W. unfold jdumps. destruct b; apply jparse_jprint; [apply jwfb_jsort|]; exact W.
Qed.

Lemma jsort_idem_scalar v : match v with JArr _ | JObj _ => True | _ => jsort v = v end.
Proof. destruct v; exact I || reflexivity. Qed.

Lemma json_eqb_eq : forall a b, json_eqb a b = true -> a = b.
Proof.
  apply (json_ind2 (fun a => forall b, json_eqb a b = true -> a = b)).
  - intros b H; destruct b; try discriminate; reflexivity.
  - intros x b H; destruct b; try discriminate. simpl in H. apply eqb_prop in H. congruence.
  - intros x b H; destruct b; try discriminate. simpl in H. apply Z.eqb_eq in H. congruence.
  - intros x b H; destruct b; try discriminate. simpl in H. apply str_eqb_eq in H. congruence.
  - intros x b H; destruct b; try discriminate. simpl in H. apply str_eqb_eq in H. congruence.
  - intros l HF b H. destruct b as [| | | | |l2|]; try discriminate. simpl in H. f_equal.
    revert l2 H. induction HF as [|u l Hu HF IH]; intros l2 H; destruct l2 as [|v l2]; try discriminate; [reflexivity|].
    apply andb_true_iff in H as [H1 H2]. f_equal; [apply Hu; exact H1|apply IH; exact H2].
  - intros m HF b H. destruct b as [| | | | | |m2]; try discriminate. simpl in H. f_equal.
    revert m2 H. induction HF as [|[k u] m Hu HF IH]; intros m2 H; destruct m2 as [|[k2 v] m2]; try discriminate; [reflexivity|].
    apply andb_true_iff in H as [H1 H3]. apply andb_true_iff in H1 as [H1 H2].
    apply str_eqb_eq in H1. subst. f_equal; [f_equal; apply Hu; exact H2|apply IH; exact H3].
Qed.

Lemma json_eqb_refl : forall a, json_eqb a a = true.
Proof.
  apply (json_ind2 (fun a => json_eqb a a = true)); simpl; intros.
  - reflexivity.
  - apply eqb_reflx.
  - apply Z.eqb_refl.
  - apply str_eqb_refl.
  - apply str_eqb_refl.
  - induction H as [|u l Hu HF IH]; [reflexivity|]. rewrite Hu, IH. reflexivity.
  - induction H as [|[k u] m Hu HF IH]; [reflexivity|]. simpl in Hu. rewrite str_eqb_refl, Hu, IH. reflexivity.
Qed.
