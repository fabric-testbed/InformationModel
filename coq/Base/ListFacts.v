(* Facts about lists that the 8.16 standard library lacks: NoDup under app, map and filter;
   filter, find, existsb and flat_map under pointwise hypotheses; Forall2 and membership. *)
From Coq Require Import List Bool.
Import ListNotations.

Lemma existsb_eqb_In {A} (eqb : A -> A -> bool) (eqb_eq : forall a b, eqb a b = true <-> a = b) x l :
  existsb (eqb x) l = true <-> In x l.
Proof.
  rewrite existsb_exists. split.
  - intros [y [Hy E]]. apply eqb_eq in E. subst. exact Hy.
  - intro H. exists x. split; [exact H | apply eqb_eq; reflexivity].
Qed.

Lemma existsb_eqb_notIn {A} (eqb : A -> A -> bool) (eqb_eq : forall a b, eqb a b = true <-> a = b) x l :
  existsb (eqb x) l = false <-> ~ In x l.
Proof. rewrite <- (existsb_eqb_In eqb eqb_eq). symmetry. apply not_true_iff_false. Qed.

Lemma existsb_false {A} (f : A -> bool) l : existsb f l = false <-> forall x, In x l -> f x = false.
Proof.
  rewrite <- not_true_iff_false, existsb_exists. split.
  - intros H x Hx. apply not_true_iff_false. intro E. apply H. exists x. auto.
  - intros H [x [Hx E]]. rewrite (H x Hx) in E. discriminate.
Qed.

Lemma existsb_ext {A} (f g : A -> bool) l : (forall x, f x = g x) -> existsb f l = existsb g l.
Proof. intro H. induction l as [|a l IH]; simpl; [reflexivity|]. rewrite H, IH. reflexivity. Qed.

Lemma forallb_ext_in {A} (f g : A -> bool) l :
  (forall x, In x l -> f x = g x) -> forallb f l = forallb g l.
Proof.
  induction l as [|a l IH]; simpl; intro H; [reflexivity|].
  rewrite (H a (or_introl eq_refl)), IH; auto.
Qed.

Lemma NoDup_app_iff {A} (a b : list A) :
  NoDup (a ++ b) <-> NoDup a /\ NoDup b /\ forall x, In x a -> ~ In x b.
Proof.
  induction a as [|y a IH]; simpl.
  - split; [intro H; repeat split; [constructor | exact H | tauto] | tauto].
  - rewrite !NoDup_cons_iff, IH, in_app_iff. split.
    + intros [Hy [Ha [Hb D]]]. repeat split; try tauto. intros x [<-|Hx]; [tauto | auto].
    + intros [[Hy Ha] [Hb D]]. repeat split; auto. intros [Hy'|Hy']; [tauto | exact (D y (or_introl eq_refl) Hy')].
Qed.

Lemma NoDup_app_intro {A} (a b : list A) :
  NoDup a -> NoDup b -> (forall x, In x a -> ~ In x b) -> NoDup (a ++ b).
Proof. intros. apply NoDup_app_iff. auto. Qed.

Lemma NoDup_app_l {A} (a b : list A) : NoDup (a ++ b) -> NoDup a.
Proof. intro H. apply NoDup_app_iff in H. tauto. Qed.

Lemma NoDup_app_r {A} (a b : list A) : NoDup (a ++ b) -> NoDup b.
Proof. intro H. apply NoDup_app_iff in H. tauto. Qed.

Lemma NoDup_app_disj {A} (a b : list A) x : NoDup (a ++ b) -> In x a -> In x b -> False.
Proof. intro H. apply NoDup_app_iff in H. destruct H as [_ [_ D]]. exact (D x). Qed.

Lemma NoDup_snoc {A} (l : list A) x : NoDup l -> ~ In x l -> NoDup (l ++ [x]).
Proof.
  intros Hl Hx. apply NoDup_app_intro; [exact Hl | repeat constructor; intros [] |].
  intros y Hy [<-|[]]. exact (Hx Hy).
Qed.

Lemma NoDup_singleton {A} (l : list A) a : NoDup l -> (forall y, In y l <-> y = a) -> l = [a].
Proof.
  intros Hnd H. destruct l as [|x [|y t]].
  - destruct (proj2 (H a) eq_refl).
  - f_equal. apply H. left. reflexivity.
  - exfalso. assert (x = a) by (apply H; simpl; auto). assert (y = a) by (apply H; simpl; auto).
    subst. inversion Hnd as [|? ? Hx _]. apply Hx. left. reflexivity.
Qed.

Lemma NoDup_map_filter {A B} (f : A -> B) p l : NoDup (map f l) -> NoDup (map f (filter p l)).
Proof.
  induction l as [|a l IH]; simpl; [auto|]. rewrite NoDup_cons_iff. intros [Ha Hl].
  destruct (p a); simpl; [|auto]. constructor; [|auto].
  rewrite in_map_iff in *. intros [x [E Hx]]. apply filter_In in Hx. apply Ha. exists x. tauto.
Qed.

Lemma NoDup_map_inj {A B} (f : A -> B) l x y :
  NoDup (map f l) -> In x l -> In y l -> f x = f y -> x = y.
Proof.
  induction l as [|a l IH]; simpl; [tauto|]. rewrite NoDup_cons_iff.
  intros [Ha Hl] [->|Hx] [->|Hy] E; auto; exfalso; apply Ha; [rewrite E | rewrite <- E]; apply in_map; assumption.
Qed.

Lemma filter_all {A} (p : A -> bool) l : (forall x, In x l -> p x = true) -> filter p l = l.
Proof.
  induction l as [|a l IH]; simpl; intro H; [reflexivity|].
  rewrite (H a (or_introl eq_refl)), IH; auto.
Qed.

Lemma filter_none {A} (p : A -> bool) l : (forall x, In x l -> p x = false) -> filter p l = [].
Proof.
  induction l as [|a l IH]; simpl; intro H; [reflexivity|].
  rewrite (H a (or_introl eq_refl)). auto.
Qed.

Lemma filter_true {A} (l : list A) : filter (fun _ => true) l = l.
Proof. apply filter_all. reflexivity. Qed.

Lemma filter_filter {A} (p q : A -> bool) l : filter p (filter q l) = filter (fun x => q x && p x) l.
Proof.
  induction l as [|a l IH]; simpl; [reflexivity|].
  destruct (q a); simpl; [destruct (p a)|]; rewrite IH; reflexivity.
Qed.

Lemma filter_filter_sub {A} (p q : A -> bool) l :
  (forall x, In x l -> p x = true -> q x = true) -> filter p (filter q l) = filter p l.
Proof.
  intro H. rewrite filter_filter. apply filter_ext_in. intros x Hx.
  destruct (p x) eqn:E; [rewrite (H x Hx E); reflexivity | apply andb_false_r].
Qed.

Lemma filter_map_comm {A B} (p : B -> bool) (f : A -> B) l :
  filter p (map f l) = map f (filter (fun x => p (f x)) l).
Proof.
  induction l as [|a l IH]; simpl; [reflexivity|].
  destruct (p (f a)); simpl; rewrite IH; reflexivity.
Qed.

Lemma filter_map_fix {A} (p : A -> bool) (f : A -> A) l :
  (forall x, In x l -> p (f x) = p x /\ (p x = true -> f x = x)) -> filter p (map f l) = filter p l.
Proof.
  intro H. rewrite filter_map_comm.
  rewrite (filter_ext_in _ p) by (intros x Hx; apply H, Hx).
  rewrite <- (map_id (filter p l)) at 2. apply map_ext_in.
  intros x Hx. apply filter_In in Hx. apply H; tauto.
Qed.

Lemma find_filter {A} (inc p q : A -> bool) l :
  (forall x, q x = inc x && p x) -> find p (filter inc l) = find q l.
Proof.
  intro H. induction l as [|a l IH]; simpl; [reflexivity|]. rewrite H.
  destruct (inc a); simpl; [destruct (p a)|]; auto.
Qed.

Lemma find_filter_pass {A} (f h : A -> bool) l :
  (forall x, f x = true -> h x = true) -> find f (filter h l) = find f l.
Proof.
  intro H. apply find_filter. intro x.
  destruct (f x) eqn:E; [rewrite (H x E); reflexivity | symmetry; apply andb_false_r].
Qed.

Lemma fold_left_inv {A B} (P : A -> Prop) (f : A -> B -> A) l :
  (forall a b, In b l -> P a -> P (f a b)) -> forall a, P a -> P (fold_left f l a).
Proof.
  induction l as [|b l IH]; simpl; intros H a Ha; [exact Ha|].
  apply IH; [intros; apply H; auto | apply H; auto].
Qed.

Lemma flat_map_ext_in {A B} (f g : A -> list B) l :
  (forall x, In x l -> f x = g x) -> flat_map f l = flat_map g l.
Proof.
  induction l as [|a l IH]; simpl; intro H; [reflexivity|].
  rewrite (H a (or_introl eq_refl)), IH; auto.
Qed.

Lemma flat_map_nil {A B} (f : A -> list B) l : (forall x, In x l -> f x = []) -> flat_map f l = [].
Proof.
  induction l as [|a l IH]; simpl; intro H; [reflexivity|].
  rewrite (H a (or_introl eq_refl)). auto.
Qed.

Lemma map_flat_map {A B C} (h : B -> C) (f : A -> list B) l :
  map h (flat_map f l) = flat_map (fun a => map h (f a)) l.
Proof. induction l as [|a l IH]; simpl; [reflexivity|]. rewrite map_app, IH. reflexivity. Qed.

Lemma Forall2_in_l {A B} (R : A -> B -> Prop) l l' x :
  Forall2 R l l' -> In x l -> exists y, In y l' /\ R x y.
Proof.
  induction 1 as [|a b l l' Hab _ IH]; simpl; [tauto|].
  intros [<-|Hx]; [exists b; auto|]. destruct (IH Hx) as [y [Hy Hr]]. exists y. auto.
Qed.

Lemma Forall2_in_r {A B} (R : A -> B -> Prop) l l' y :
  Forall2 R l l' -> In y l' -> exists x, In x l /\ R x y.
Proof.
  induction 1 as [|a b l l' Hab _ IH]; simpl; [tauto|].
  intros [<-|Hy]; [exists a; auto|]. destruct (IH Hy) as [x [Hx Hr]]. exists x. auto.
Qed.

Lemma forall_exists_Forall2 {A B} (R : A -> B -> Prop) l :
  (forall a, In a l -> exists b, R a b) -> exists l', Forall2 R l l'.
Proof.
  induction l as [|a l IH]; intro H; [exists []; constructor|].
  destruct (H a (or_introl eq_refl)) as [b Hb]. destruct IH as [l' Hl']; [intros; apply H; right; assumption|].
  exists (b :: l'). constructor; assumption.
Qed.
