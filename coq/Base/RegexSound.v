(* Correctness of the derivative matcher: rmatch r s = true <-> lang r s, the meaning of bounded
   repetition, and what each Python call idiom accepts in terms of `lang`. *)
From Coq Require Import List NArith Bool Arith Lia.
From FIM Require Import Base.Regex.
Import ListNotations.

Section Sound.
Variable catf : N -> N -> bool.
Notation lang := (lang catf).
Notation deriv := (deriv catf).
Notation rmatch := (rmatch catf).
Notation cls_in := (cls_in catf).
Notation py_match := (py_match catf).

Lemma lang_empty s : ~ lang Empty s.
Proof. intro H; inversion H. Qed.

Lemma lang_eps_inv s : lang Eps s -> s = [].
Proof. intro H; inversion H; reflexivity. Qed.

Lemma lang_cls_inv neg it s : lang (Cls neg it) s -> exists c, s = [c] /\ cls_in neg it c = true.
Proof. intro H; inversion H; subst; eauto. Qed.

Lemma lang_cat_inv a b s : lang (Cat a b) s -> exists s1 s2, s = s1 ++ s2 /\ lang a s1 /\ lang b s2.
Proof. intro H; inversion H; subst; eauto. Qed.

Lemma lang_alt_inv a b s : lang (Alt a b) s -> lang a s \/ lang b s.
Proof. intro H; inversion H; subst; auto. Qed.

Lemma lang_star_cons_inv a c u : lang (Star a) (c :: u) ->
  exists s t, u = s ++ t /\ lang a (c :: s) /\ lang (Star a) t.
Proof.
  intro H. remember (Star a) as r eqn:Er. remember (c :: u) as w eqn:Ew.
  revert u Ew. induction H; intros u Ew; try discriminate.
  inversion Er; subst a0. destruct s as [|c' s'].
  - simpl in Ew. apply IHlang2; auto.
  - simpl in Ew. inversion Ew; subst. exists s', t. auto.
Qed.

Lemma nullable_spec r : nullable r = true <-> lang r [].
Proof.
  induction r; simpl; split; intro H; try discriminate.
  - inversion H.
  - constructor.
  - reflexivity.
  - inversion H.
  - apply andb_true_iff in H as [H1 H2]. change (@nil N) with (@nil N ++ []). constructor; tauto.
  - apply lang_cat_inv in H as (s1 & s2 & E & H1 & H2). symmetry in E. apply app_eq_nil in E as [-> ->].
    apply andb_true_iff; tauto.
  - apply orb_true_iff in H as [H|H]; [apply L_altl | apply L_altr]; tauto.
  - apply lang_alt_inv in H. apply orb_true_iff; tauto.
  - constructor.
  - reflexivity.
Qed.

Lemma mkCat_spec a b s : lang (mkCat a b) s <-> lang (Cat a b) s.
Proof.
  unfold mkCat.
  destruct (is_empty a) eqn:Ea.
  { destruct a; try discriminate. split; intro H; [inversion H|].
    apply lang_cat_inv in H as (? & ? & _ & H & _). inversion H. }
  destruct (is_empty b) eqn:Eb.
  { destruct b; try discriminate. split; intro H; [inversion H|].
    apply lang_cat_inv in H as (? & ? & _ & _ & H). inversion H. }
  destruct (is_eps a) eqn:Pa.
  { destruct a; try discriminate. split; intro H.
    - change s with ([] ++ s). constructor; [constructor | exact H].
    - apply lang_cat_inv in H as (s1 & s2 & -> & H1 & H2). apply lang_eps_inv in H1; subst. exact H2. }
  destruct (is_eps b) eqn:Pb.
  { destruct b; try discriminate. split; intro H.
    - rewrite <- (app_nil_r s). constructor; [exact H | constructor].
    - apply lang_cat_inv in H as (s1 & s2 & -> & H1 & H2). apply lang_eps_inv in H2; subst.
      rewrite app_nil_r. exact H1. }
  tauto.
Qed.

Lemma mkAlt_spec a b s : lang (mkAlt a b) s <-> lang (Alt a b) s.
Proof.
  unfold mkAlt.
  destruct (is_empty a) eqn:Ea.
  { destruct a; try discriminate. split; intro H; [apply L_altr; exact H|].
    apply lang_alt_inv in H as [H|H]; [inversion H | exact H]. }
  destruct (is_empty b) eqn:Eb.
  { destruct b; try discriminate. split; intro H; [apply L_altl; exact H|].
    apply lang_alt_inv in H as [H|H]; [exact H | inversion H]. }
  tauto.
Qed.

Lemma deriv_spec c r : forall s, lang (deriv c r) s <-> lang r (c :: s).
Proof.
  induction r as [| | neg it | a IHa b IHb | a IHa b IHb | a IHa]; intro s; cbn [Regex.deriv].
  - split; intro H; inversion H.
  - split; intro H; inversion H.
  - destruct (cls_in neg it c) eqn:E; split; intro H.
    + apply lang_eps_inv in H; subst. constructor; exact E.
    + apply lang_cls_inv in H as (c' & Es & _). inversion Es; subst. constructor.
    + inversion H.
    + apply lang_cls_inv in H as (c' & Es & Hc). inversion Es; subst. congruence.
  - rewrite mkAlt_spec. split; intro H.
    + apply lang_alt_inv in H as [H|H].
      * apply mkCat_spec in H. apply lang_cat_inv in H as (s1 & s2 & -> & H1 & H2).
        apply IHa in H1. change (c :: s1 ++ s2) with ((c :: s1) ++ s2). constructor; assumption.
      * destruct (nullable a) eqn:Na; [| inversion H].
        apply IHb in H. apply nullable_spec in Na.
        change (c :: s) with ([] ++ c :: s). constructor; assumption.
    + apply lang_cat_inv in H as (s1 & s2 & E & H1 & H2). destruct s1 as [|c' s1'].
      * simpl in E; subst s2. apply L_altr. apply nullable_spec in H1. rewrite H1. apply IHb; exact H2.
      * simpl in E. inversion E; subst. apply L_altl. apply mkCat_spec. constructor; [apply IHa; exact H1 | exact H2].
  - rewrite mkAlt_spec. split; intro H.
    + apply lang_alt_inv in H as [H|H]; [apply L_altl; apply IHa | apply L_altr; apply IHb]; exact H.
    + apply lang_alt_inv in H as [H|H]; [apply L_altl; apply IHa | apply L_altr; apply IHb]; exact H.
  - rewrite mkCat_spec. split; intro H.
    + apply lang_cat_inv in H as (s1 & s2 & -> & H1 & H2). apply IHa in H1.
      change (c :: s1 ++ s2) with ((c :: s1) ++ s2). constructor; assumption.
    + apply lang_star_cons_inv in H as (s1 & t & -> & H1 & H2). constructor; [apply IHa; exact H1 | exact H2].
Qed.

Theorem rmatch_spec : forall s r, rmatch r s = true <-> lang r s.
Proof.
  induction s as [|c s IH]; intro r; cbn [Regex.rmatch].
  - apply nullable_spec.
  - destruct (is_empty (deriv c r)) eqn:E.
    + split; [discriminate|]. intro H. apply deriv_spec in H. destruct (deriv c r); try discriminate. inversion H.
    + rewrite IH. apply deriv_spec.
Qed.

Corollary rmatch_false_spec r s : rmatch r s = false <-> ~ lang r s.
Proof.
  rewrite <- rmatch_spec. destruct (rmatch r s); split; intro H; try reflexivity; try discriminate.
  - exfalso; apply H; reflexivity.
Qed.

Lemma lang_pow_cls neg it n s :
  lang (pow (Cls neg it) n) s <-> length s = n /\ forallb (cls_in neg it) s = true.
Proof.
  revert s; induction n as [|n IH]; intro s; cbn [pow].
  - split; intro H.
    + apply lang_eps_inv in H; subst; auto.
    + destruct H as [H _]. destruct s; [constructor | discriminate].
  - split; intro H.
    + apply lang_cat_inv in H as (s1 & s2 & -> & H1 & H2).
      apply lang_cls_inv in H1 as (c & -> & Hc). apply IH in H2 as [L F]. simpl. rewrite Hc, F, L. auto.
    + destruct H as [L F]. destruct s as [|c s]; [discriminate|]. simpl in L, F.
      apply andb_true_iff in F as [Fc F]. change (c :: s) with ([c] ++ s).
      constructor; [constructor; exact Fc | apply IH; split; [lia | exact F]].
Qed.

Lemma lang_star_cls neg it s : lang (Star (Cls neg it)) s <-> forallb (cls_in neg it) s = true.
Proof.
  split.
  - intro H. remember (Star (Cls neg it)) as r eqn:Er. induction H; try discriminate; [reflexivity|].
    inversion Er; subst. apply lang_cls_inv in H as (c & -> & Hc). simpl. rewrite Hc. apply IHlang2. reflexivity.
  - induction s as [|c s IH]; intro F; [constructor|]. simpl in F. apply andb_true_iff in F as [Fc F].
    change (c :: s) with ([c] ++ s). constructor; [constructor; exact Fc | apply IH; exact F].
Qed.

(* [class]{m,} *)
Theorem lang_rep_cls_unbounded neg it m s :
  lang (rep (Cls neg it) m None) s <-> m <= length s /\ forallb (cls_in neg it) s = true.
Proof.
  unfold rep. split; intro H.
  - apply lang_cat_inv in H as (s1 & s2 & -> & H1 & H2).
    apply lang_pow_cls in H1 as [L1 F1]. apply lang_star_cls in H2.
    rewrite app_length, forallb_app, F1, H2. split; [lia | reflexivity].
  - destruct H as [L F]. rewrite <- (firstn_skipn m s) in F |- *. rewrite forallb_app in F.
    apply andb_true_iff in F as [F1 F2]. constructor.
    + apply lang_pow_cls. split; [rewrite firstn_length; lia | exact F1].
    + apply lang_star_cls. exact F2.
Qed.

(* general r: r{m,n} is "k copies of r for some m <= k <= n" *)
Lemma lang_upto_pow r n s : lang (upto r n) s <-> exists k, k <= n /\ lang (pow r k) s.
Proof.
  revert s; induction n as [|n IH]; intro s; cbn [upto].
  - split; intro H.
    + exists 0. split; [lia | exact H].
    + destruct H as (k & Hk & H). assert (k = 0) by lia. subst. exact H.
  - split; intro H.
    + apply lang_alt_inv in H as [H|H].
      * exists 0. split; [lia | exact H].
      * apply lang_cat_inv in H as (s1 & s2 & -> & H1 & H2). apply IH in H2 as (k & Hk & H2).
        exists (S k). split; [lia|]. cbn [pow]. constructor; assumption.
    + destruct H as (k & Hk & H). destruct k as [|k]; [apply L_altl; exact H|].
      cbn [pow] in H. apply lang_cat_inv in H as (s1 & s2 & -> & H1 & H2). apply L_altr. constructor; [exact H1|].
      apply IH. exists k. split; [lia | exact H2].
Qed.

Lemma lang_pow_add r a b s : lang (Cat (pow r a) (pow r b)) s <-> lang (pow r (a + b)) s.
Proof.
  revert s; induction a as [|a IH]; intro s; cbn [pow plus].
  - split; intro H.
    + apply lang_cat_inv in H as (s1 & s2 & -> & H1 & H2). apply lang_eps_inv in H1; subst. exact H2.
    + change s with ([] ++ s). constructor; [constructor | exact H].
  - split; intro H.
    + apply lang_cat_inv in H as (s1 & s2 & -> & H1 & H2). apply lang_cat_inv in H1 as (u & v & -> & Hu & Hv).
      rewrite <- app_assoc. constructor; [exact Hu|]. apply IH. constructor; assumption.
    + apply lang_cat_inv in H as (u & w & -> & Hu & Hw). apply IH in Hw.
      apply lang_cat_inv in Hw as (v & s2 & -> & Hv & H2). rewrite app_assoc. constructor; [constructor; assumption | exact H2].
Qed.

Theorem lang_rep_bounded r m n s : m <= n ->
  (lang (rep r m (Some n)) s <-> exists k, m <= k <= n /\ lang (pow r k) s).
Proof.
  intro Hmn. unfold rep. split; intro H.
  - apply lang_cat_inv in H as (s1 & s2 & -> & H1 & H2). apply lang_upto_pow in H2 as (k & Hk & H2).
    exists (m + k). split; [lia|]. apply lang_pow_add. constructor; assumption.
  - destruct H as (k & Hk & H). replace k with (m + (k - m)) in H by lia. apply lang_pow_add in H.
    apply lang_cat_inv in H as (s1 & s2 & -> & H1 & H2). constructor; [exact H1|].
    apply lang_upto_pow. exists (k - m). split; [lia | exact H2].
Qed.

(* [class]{m,n} : between m and n code points, all in the class *)
Theorem lang_rep_cls neg it m n s : m <= n ->
  (lang (rep (Cls neg it) m (Some n)) s <->
   m <= length s <= n /\ forallb (cls_in neg it) s = true).
Proof.
  intro Hmn. rewrite lang_rep_bounded by exact Hmn. split.
  - intros (k & Hk & H). apply lang_pow_cls in H as [<- F]. auto.
  - intros [L F]. exists (length s). split; [exact L | apply lang_pow_cls; auto].
Qed.

Theorem py_fullmatch_spec r s : py_match Full r s = true <-> lang r s.
Proof. apply rmatch_spec. Qed.

Lemma ends_nl_spec s : ends_nl s = true <-> exists t, s = t ++ [10%N].
Proof.
  unfold ends_nl. split.
  - intro H. destruct (rev s) as [|c l] eqn:E; [discriminate|]. apply N.eqb_eq in H; subst c.
    exists (rev l). rewrite <- (rev_involutive s), E. reflexivity.
  - intros (t & ->). rewrite rev_app_distr. reflexivity.
Qed.

(* re.match('^' + r + '$', s): s is in the language, or s is a member followed by one newline *)
Theorem py_dollar_spec r s :
  py_match Dollar r s = true <-> lang r s \/ exists t, s = t ++ [10%N] /\ lang r t.
Proof.
  cbn [Regex.py_match]. rewrite orb_true_iff, andb_true_iff, !rmatch_spec, ends_nl_spec. split.
  - intros [H|[(t & ->) H]]; [left; exact H|]. right. exists t. rewrite removelast_last in H. auto.
  - intros [H|(t & -> & H)]; [left; exact H|]. right. split; [eauto|]. rewrite removelast_last. exact H.
Qed.

Lemma lang_star_any s : lang (Star any_char) s.
Proof. apply lang_star_cls. induction s; simpl; auto. Qed.

(* re.match(r, s) without an end anchor: some prefix of s is a member *)
Theorem py_prefix_spec r s :
  py_match Prefix r s = true <-> exists p q, s = p ++ q /\ lang r p.
Proof.
  cbn [Regex.py_match]. rewrite rmatch_spec. split.
  - intro H. apply lang_cat_inv in H as (p & q & -> & Hp & _). eauto.
  - intros (p & q & -> & Hp). constructor; [exact Hp | apply lang_star_any].
Qed.

(* the `$` idiom is strictly weaker than whole-string membership: whenever t is a member whose
   extension by a newline is not, '^r$' accepts a string outside the language *)
Theorem py_dollar_accepts_trailing_newline r t :
  lang r t -> ~ lang r (t ++ [10%N]) ->
  py_match Dollar r (t ++ [10%N]) = true /\ py_match Full r (t ++ [10%N]) = false.
Proof.
  intros H1 H2. split.
  - apply py_dollar_spec. right. eauto.
  - apply rmatch_false_spec. exact H2.
Qed.

End Sound.
