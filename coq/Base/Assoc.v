(* Association lists keyed by N, kept in increasing key order by [aset] (the canonical form of a
   Python dict whose key order is never behaviourally relevant: property dictionaries of nodes
   and links).  [aget] returns the first binding, [aset] replaces the first binding or inserts in
   key order, [aremove] drops the first binding, [aupdate] is dict.update.  The basic get/set
   laws hold for arbitrary (also unsorted) lists, so no well-formedness side condition is needed by
   the users.  Used by the store model of C04/C05. *)
From Coq Require Import List NArith Bool.
Import ListNotations.

Section Assoc.
Context {V : Type}.

Definition assoc := list (N * V).

Fixpoint aget (k : N) (l : assoc) : option V :=
  match l with
  | [] => None
  | (k', v) :: r => if N.eqb k k' then Some v else aget k r
  end.

Definition ahas (k : N) (l : assoc) : bool :=
  match aget k l with Some _ => true | None => false end.

Fixpoint aset (k : N) (v : V) (l : assoc) : assoc :=
  match l with
  | [] => [(k, v)]
  | (k', v') :: r =>
      if N.eqb k k' then (k, v) :: r
      else if N.ltb k k' then (k, v) :: (k', v') :: r
      else (k', v') :: aset k v r
  end.

Fixpoint aremove (k : N) (l : assoc) : assoc :=
  match l with
  | [] => []
  | (k', v') :: r => if N.eqb k k' then r else (k', v') :: aremove k r
  end.

(* dict.update(upd): bindings of upd applied left to right *)
Fixpoint aupdate (upd : assoc) (l : assoc) : assoc :=
  match upd with
  | [] => l
  | (k, v) :: r => aupdate r (aset k v l)
  end.

Definition akeys (l : assoc) : list N := map fst l.

(* ---------- laws (any list) ---------- *)
Lemma aget_aset_same k v l : aget k (aset k v l) = Some v.
Proof.
  induction l as [|[k' v'] r IH]; simpl.
  - now rewrite N.eqb_refl.
  - destruct (N.eqb k k') eqn:E; simpl.
    + now rewrite N.eqb_refl.
    + destruct (N.ltb k k'); simpl.
      * now rewrite N.eqb_refl.
      * now rewrite E.
Qed.

Lemma aget_aset_other k k' v l : k' <> k -> aget k' (aset k v l) = aget k' l.
Proof.
  intro Hne. induction l as [|[k2 v2] r IH]; simpl.
  - destruct (N.eqb k' k) eqn:E; [apply N.eqb_eq in E; congruence | reflexivity].
  - destruct (N.eqb k k2) eqn:E; simpl.
    + apply N.eqb_eq in E; subst k2.
      destruct (N.eqb k' k) eqn:E2; [apply N.eqb_eq in E2; congruence | reflexivity].
    + destruct (N.ltb k k2); simpl.
      * destruct (N.eqb k' k) eqn:E2; [apply N.eqb_eq in E2; congruence | reflexivity].
      * destruct (N.eqb k' k2); [reflexivity | exact IH].
Qed.

Lemma aget_aset k k' v l : aget k' (aset k v l) = if N.eqb k' k then Some v else aget k' l.
Proof.
  destruct (N.eqb k' k) eqn:E.
  - apply N.eqb_eq in E; subst; apply aget_aset_same.
  - apply N.eqb_neq in E; now apply aget_aset_other.
Qed.

Lemma aget_aremove_other k k' l : k' <> k -> aget k' (aremove k l) = aget k' l.
Proof.
  intro Hne. induction l as [|[k2 v2] r IH]; simpl; [reflexivity|].
  destruct (N.eqb k k2) eqn:E; simpl.
  - apply N.eqb_eq in E; subst k2.
    destruct (N.eqb k' k) eqn:E2; [apply N.eqb_eq in E2; congruence | reflexivity].
  - destruct (N.eqb k' k2); [reflexivity | exact IH].
Qed.

Lemma aget_aupdate_notin k upd l : aget k upd = None -> aget k (aupdate upd l) = aget k l.
Proof.
  revert l; induction upd as [|[k2 v2] r IH]; simpl; intros l H; [reflexivity|].
  destruct (N.eqb k k2) eqn:E; [discriminate|].
  rewrite IH by exact H. apply aget_aset_other. now apply N.eqb_neq.
Qed.

Lemma ahas_aset k k' v l : ahas k' (aset k v l) = N.eqb k' k || ahas k' l.
Proof. unfold ahas. rewrite aget_aset. destruct (N.eqb k' k); reflexivity. Qed.

Lemma ahas_aupdate k upd l : ahas k l = true -> ahas k (aupdate upd l) = true.
Proof.
  revert l; induction upd as [|[k2 v2] r IH]; simpl; intros l H; [exact H|].
  apply IH. rewrite ahas_aset, H. apply orb_true_r.
Qed.

End Assoc.

Arguments assoc V : clear implicits.

(* ---------- look-ups, membership of keys, and what filter / map / append do to them ---------- *)
Lemma aget_In {V} (k : N) (v : V) l : aget k l = Some v -> In (k, v) l.
Proof.
  induction l as [|[k' v'] r IH]; simpl; [discriminate|].
  destruct (N.eqb k k') eqn:E.
  - intro H. inversion H; subst. apply N.eqb_eq in E; subst. now left.
  - intro H. right. now apply IH.
Qed.

Lemma aget_None_notin {V} (k : N) (l : list (N * V)) : aget k l = None <-> ~ In k (map fst l).
Proof.
  induction l as [|[k' v'] r IH]; simpl.
  - split; [intros _ [] | reflexivity].
  - destruct (N.eqb k k') eqn:E.
    + apply N.eqb_eq in E; subst. split; [discriminate | intro H; exfalso; apply H; now left].
    + apply N.eqb_neq in E. rewrite IH. split; intro H.
      * intros [H1|H1]; [congruence | now apply H].
      * intro H1. apply H. now right.
Qed.

Lemma ahas_In {V} k (l : list (N * V)) : ahas k l = true <-> In k (map fst l).
Proof.
  unfold ahas. destruct (aget k l) eqn:E.
  - split; [intros _|reflexivity]. apply aget_In in E. change k with (fst (k, v)). now apply in_map.
  - split; [discriminate|]. intro H. apply aget_None_notin in E. contradiction.
Qed.

Lemma NoDup_In_aget {V} (k : N) (v : V) l : NoDup (map fst l) -> In (k, v) l -> aget k l = Some v.
Proof.
  induction l as [|[k' v'] r IH]; simpl; [intros _ []|].
  intros Hnd [H|H].
  - inversion H; subst. now rewrite N.eqb_refl.
  - inversion Hnd; subst. destruct (N.eqb k k') eqn:E.
    + apply N.eqb_eq in E; subst. exfalso. apply H2. change k' with (fst (k', v)). now apply in_map.
    + now apply IH.
Qed.

Lemma aget_app_new {V} (k : N) (v : V) l : aget k l = None -> aget k (l ++ [(k, v)]) = Some v.
Proof.
  induction l as [|[i q] r IH]; simpl; [now rewrite N.eqb_refl|].
  destruct (N.eqb k i); [discriminate | exact IH].
Qed.

Lemma aget_filter_fst {V} (p : N -> bool) (l : list (N * V)) id :
  aget id (filter (fun n => p (fst n)) l) = if p id then aget id l else None.
Proof.
  induction l as [|[i q] r IH]; cbn [filter fst aget]; [now destruct (p id)|].
  destruct (N.eqb id i) eqn:E.
  - apply N.eqb_eq in E; subst i. destruct (p id) eqn:Ep; cbn [aget]; [now rewrite N.eqb_refl | exact IH].
  - destruct (p i); cbn [aget]; [rewrite E|]; exact IH.
Qed.

Lemma aget_app {V} (l r : list (N * V)) id :
  aget id (l ++ r) = match aget id l with Some v => Some v | None => aget id r end.
Proof. induction l as [|[i q] l IH]; cbn [app aget]; [reflexivity|]. now destruct (N.eqb id i). Qed.

Lemma aget_app_in {V} (l r : list (N * V)) a : In a (map fst l) -> aget a (l ++ r) = aget a l.
Proof.
  intro H. rewrite aget_app. destruct (aget a l) eqn:E; [reflexivity|]. apply aget_None_notin in E. contradiction.
Qed.

Lemma aget_map_snd {V} (U : V -> V) (l : list (N * V)) i :
  aget i (map (fun n => (fst n, U (snd n))) l) = option_map U (aget i l).
Proof. induction l as [|[k q] r IH]; cbn; [reflexivity|]. destruct (N.eqb i k); [reflexivity | exact IH]. Qed.

Lemma ahas_false {V} k (l : list (N * V)) : ahas k l = false -> aget k l = None.
Proof. unfold ahas. now destruct (aget k l). Qed.

(* insertion sort on N (canonical order of id lists) and a generic membership / permutation test *)
Fixpoint insertN (x : N) (l : list N) : list N :=
  match l with
  | [] => [x]
  | y :: r => if N.leb x y then x :: l else y :: insertN x r
  end.
Definition sortN (l : list N) : list N := fold_right insertN [] l.

Fixpoint remove1 {A} (eqb : A -> A -> bool) (x : A) (l : list A) : option (list A) :=
  match l with
  | [] => None
  | y :: r => if eqb x y then Some r
              else match remove1 eqb x r with Some r' => Some (y :: r') | None => None end
  end.

(* multiset equality under a boolean equality *)
Fixpoint perm_eqb {A} (eqb : A -> A -> bool) (a b : list A) : bool :=
  match a with
  | [] => match b with [] => true | _ => false end
  | x :: a' => match remove1 eqb x b with Some b' => perm_eqb eqb a' b' | None => false end
  end.
